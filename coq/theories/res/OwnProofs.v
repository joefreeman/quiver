(* C14 — proofs about the ownership automaton res/Own.v: what one step does, from any state whose
   map has no shadowed binding (`inv`); then the invariants carried along `run h`. *)
From Coq Require Import List NArith Bool.
From Quiver Require Import res.Own.
Import ListNotations.
Open Scope N_scope.

(* what the statements of props/C14.v use beside res/Own.v *)

Definition keys (m : omap) : list rid := map fst m.

(* r occurs in v at some depth, below tuples and closures *)
Inductive carries (r : rid) : val -> Prop :=
| carries_res : carries r (VRes r)
| carries_tuple : forall fs f, In f fs -> carries r f -> carries r (VTuple fs)
| carries_fun : forall cs c, In c cs -> carries r c -> carries r (VFun cs).

(* the processes whose termination e reports to the environment *)
Definition reported (e : event) : list pid :=
  match e with
  | EResults done => done
  | EWatchReport p => [p]
  | _ => []
  end.

Definition initiates (e : event) (q : pid) (r : rid) : Prop :=
  initiator e = Some q /\ In r (transferred e).

Lemma run_app : forall h1 h2, run (h1 ++ h2) = fold_left step h2 (run h1).
Proof. intros h1 h2. unfold run. apply fold_left_app. Qed.

Lemma run_snoc : forall h e, run (h ++ [e]) = step (run h) e.
Proof. intros h e. apply run_app. Qed.

Lemma anyb_snoc : forall bad h s e,
  anyb bad s (h ++ [e]) = anyb bad s h || bad (fold_left step h s) e.
Proof.
  intros bad h. induction h as [|x t IH]; intros s e; cbn [app anyb fold_left].
  - apply orb_false_r.
  - rewrite IH. apply orb_assoc.
Qed.

Lemma issued_snoc : forall h e, issued (h ++ [e]) = issued h ++ issued_by e.
Proof. intros h e. unfold issued. rewrite flat_map_app. cbn [flat_map]. rewrite app_nil_r. reflexivity. Qed.

Lemma eqb_refl' : forall r, N.eqb r r = true.
Proof. intro r. apply N.eqb_refl. Qed.

Lemma memb_in : forall r l, memb r l = true <-> In r l.
Proof.
  intros r l. unfold memb. rewrite existsb_exists. setoid_rewrite N.eqb_eq.
  split; [intros [x [Hin ->]]; exact Hin|eauto].
Qed.

Lemma memb_notin : forall r l, memb r l = false <-> ~ In r l.
Proof. intros r l. rewrite <- memb_in. symmetry. apply not_true_iff_false. Qed.

Lemma nodup_app_iff : forall (A : Type) (a b : list A),
  NoDup (a ++ b) <-> NoDup a /\ NoDup b /\ forall x, In x a -> ~ In x b.
Proof.
  intros A a b. induction a as [|y t IH]; cbn [app In].
  - intuition constructor.
  - rewrite !NoDup_cons_iff, IH, in_app_iff. firstorder subst; auto.
Qed.

Lemma skipn_app_exact : forall (A : Type) (a l : list A), skipn (length a) (a ++ l) = l.
Proof. intros A a l. induction a as [|x t IH]; [reflexivity|exact IH]. Qed.

Lemma lookup_insert : forall r r' p m,
  lookup r (insert r' p m) = if N.eqb r r' then Some p else lookup r m.
Proof.
  intros r r' p m. induction m as [|[k q] t IH]; cbn [insert lookup]; [reflexivity|].
  destruct (N.eqb_spec r' k) as [<-|E1]; cbn [lookup].
  - destruct (N.eqb r r'); reflexivity.
  - destruct (N.eqb_spec r k) as [->|E2]; [|exact IH].
    apply not_eq_sym, N.eqb_neq in E1. rewrite E1. reflexivity.
Qed.

Lemma lookup_reassign : forall r r' p m,
  lookup r (reassign r' p m) =
  if N.eqb r r' then match lookup r m with Some _ => Some p | None => None end else lookup r m.
Proof.
  intros r r' p m. induction m as [|[k q] t IH]; cbn [reassign lookup].
  - destruct (N.eqb r r'); reflexivity.
  - destruct (N.eqb_spec r' k) as [<-|E1]; cbn [lookup].
    + destruct (N.eqb r r'); reflexivity.
    + destruct (N.eqb_spec r k) as [->|E2]; [|exact IH].
      apply not_eq_sym, N.eqb_neq in E1. rewrite E1. reflexivity.
Qed.

Lemma lookup_remove : forall r r' m,
  lookup r (remove r' m) = if N.eqb r r' then None else lookup r m.
Proof.
  intros r r' m. induction m as [|[k q] t IH]; cbn [remove lookup].
  - destruct (N.eqb r r'); reflexivity.
  - destruct (N.eqb_spec r' k) as [<-|E1]; cbn [lookup].
    + rewrite IH. destruct (N.eqb r r'); reflexivity.
    + destruct (N.eqb_spec r k) as [->|E2]; [|exact IH].
      apply not_eq_sym, N.eqb_neq in E1. rewrite E1. reflexivity.
Qed.

Lemma lookup_in_keys : forall r m, lookup r m <> None <-> In r (keys m).
Proof.
  intros r m. induction m as [|[k q] t IH]; cbn [lookup keys map fst In].
  - tauto.
  - destruct (N.eqb_spec r k) as [->|E]; [|rewrite IH]; intuition congruence.
Qed.

Lemma lookup_none_keys : forall r m, lookup r m = None <-> ~ In r (keys m).
Proof. intros r m. rewrite <- lookup_in_keys. destruct (lookup r m); intuition congruence. Qed.

Lemma in_lookup : forall r p m, NoDup (keys m) -> (In (r, p) m <-> lookup r m = Some p).
Proof.
  intros r p m. induction m as [|[k q] t IH]; cbn [keys map fst lookup In]; intro Hnd.
  - intuition discriminate.
  - apply NoDup_cons_iff in Hnd. destruct Hnd as [Hk Hnd]. rewrite (IH Hnd).
    destruct (N.eqb_spec r k) as [->|E].
    + split; [intros [H|H]|intro H; left]; try congruence.
      exfalso. apply Hk. apply lookup_in_keys. congruence.
    + intuition congruence.
Qed.

Lemma keys_insert : forall r p m x, In x (keys (insert r p m)) <-> x = r \/ In x (keys m).
Proof.
  intros r p m x. induction m as [|[k q] t IH]; cbn [insert keys map fst In].
  - intuition.
  - destruct (N.eqb_spec r k) as [->|E]; cbn [keys map fst In]; [|fold (keys (insert r p t)); rewrite IH];
      intuition.
Qed.

Lemma nodup_insert : forall r p m, NoDup (keys m) -> NoDup (keys (insert r p m)).
Proof.
  intros r p m. induction m as [|[k q] t IH]; cbn [insert keys map fst]; intro Hnd.
  - constructor; [intros []|constructor].
  - destruct (N.eqb_spec r k) as [->|E]; cbn [keys map fst]; [exact Hnd|].
    apply NoDup_cons_iff in Hnd. destruct Hnd as [Hk Hnd]. constructor; [|exact (IH Hnd)].
    fold (keys (insert r p t)). rewrite keys_insert. intros [H|H]; [exact (E (eq_sym H))|exact (Hk H)].
Qed.

Lemma keys_reassign : forall r p m, keys (reassign r p m) = keys m.
Proof.
  intros r p m. induction m as [|[k q] t IH]; cbn [reassign keys map fst]; [reflexivity|].
  destruct (N.eqb r k); cbn [keys map fst]; [reflexivity|]. f_equal. exact IH.
Qed.

Lemma keys_remove : forall r m, keys (remove r m) = filter (fun k => negb (N.eqb r k)) (keys m).
Proof.
  intros r m. induction m as [|[k q] t IH]; cbn [remove keys map fst filter]; [reflexivity|].
  destruct (N.eqb r k); cbn [negb keys map fst]; [exact IH|]. f_equal. exact IH.
Qed.

Definition remove_all (rs : list rid) (m : omap) : omap := fold_left (fun m r => remove r m) rs m.

Lemma lookup_remove_all : forall rs m r,
  lookup r (remove_all rs m) = if memb r rs then None else lookup r m.
Proof.
  intros rs. induction rs as [|a t IH]; intros m r; cbn [remove_all fold_left memb existsb]; [reflexivity|].
  fold (remove_all t (remove a m)). fold (memb r t). rewrite IH, lookup_remove.
  destruct (N.eqb r a), (memb r t); reflexivity.
Qed.

Lemma nodup_remove_all : forall rs m, NoDup (keys m) -> NoDup (keys (remove_all rs m)).
Proof.
  intros rs. induction rs as [|a t IH]; intros m H; cbn [remove_all fold_left]; [exact H|].
  apply IH. rewrite keys_remove. apply NoDup_filter. exact H.
Qed.

Lemma owned_by_lookup : forall p m r, NoDup (keys m) -> (In r (owned_by p m) <-> lookup r m = Some p).
Proof.
  intros p m r Hnd. rewrite <- (in_lookup _ _ _ Hnd). unfold owned_by. rewrite in_map_iff. split.
  - intros [[r' q] [<- Hin]]. apply filter_In in Hin. destruct Hin as [Hin Heq].
    apply N.eqb_eq in Heq. cbn [fst snd] in *. subst q. exact Hin.
  - intro Hin. exists (r, p). split; [reflexivity|]. apply filter_In. split; [exact Hin|apply N.eqb_refl].
Qed.

Lemma nodup_owned_by : forall p m, NoDup (keys m) -> NoDup (owned_by p m).
Proof.
  intros p m. unfold owned_by, keys. induction m as [|[k q] t IH]; cbn [map fst filter snd];
    intro Hnd; [constructor|].
  apply NoDup_cons_iff in Hnd. destruct Hnd as [Hk Hnd]. destruct (N.eqb q p); cbn [map fst];
    [|exact (IH Hnd)].
  constructor; [|exact (IH Hnd)]. intro H. apply Hk. apply in_map_iff in H.
  destruct H as [x [Hx Hin]]. apply filter_In in Hin. apply in_map_iff. exists x. tauto.
Qed.

Lemma owner_is_true : forall g o, owner_is g o = true <-> o = Some g.
Proof.
  intros g o. destruct o as [q|]; cbn [owner_is]; [rewrite N.eqb_eq|]; intuition congruence.
Qed.

Definition owned_among (ps : list pid) (o : option pid) : bool := existsb (fun p => owner_is p o) ps.

Lemma owned_among_true : forall ps o, owned_among ps o = true <-> exists p, In p ps /\ o = Some p.
Proof.
  intros ps o. unfold owned_among. rewrite existsb_exists. setoid_rewrite owner_is_true. reflexivity.
Qed.

Section ValInd.
  Variable P : val -> Prop.
  Hypothesis Hres : forall r, P (VRes r).
  Hypothesis Htup : forall fs, Forall P fs -> P (VTuple fs).
  Hypothesis Hfun : forall cs, Forall P cs -> P (VFun cs).
  Hypothesis Hoth : P VOther.
  Fixpoint val_ind' (v : val) : P v :=
    let all := fix all (l : list val) : Forall P l :=
      match l with [] => Forall_nil P | x :: t => Forall_cons x (val_ind' x) (all t) end in
    match v with
    | VRes r => Hres r
    | VTuple fs => Htup fs (all fs)
    | VFun cs => Hfun cs (all cs)
    | VOther => Hoth
    end.
End ValInd.

Lemma carries_in_list : forall r vs, Forall (fun v => carries r v <-> In r (rids_of v)) vs ->
  ((exists v, In v vs /\ carries r v) <-> In r (flat_map rids_of vs)).
Proof.
  intros r vs IH. rewrite Forall_forall in IH. rewrite in_flat_map.
  split; intros [v [Hin H]]; exists v; (split; [exact Hin|]); apply (IH v Hin); exact H.
Qed.

Lemma carries_iff : forall r v, carries r v <-> In r (rids_of v).
Proof.
  intros r v. induction v as [r'|fs IH|cs IH|] using val_ind'; cbn [rids_of];
    try rewrite <- (carries_in_list _ _ IH).
  - split; [intro H; inversion H; left; reflexivity|intros [H|[]]; subst; constructor].
  - split; [intro H; inversion H; eauto|intros [f [Hin H]]; exact (carries_tuple _ _ _ Hin H)].
  - split; [intro H; inversion H; eauto|intros [c [Hin H]]; exact (carries_fun _ _ _ Hin H)].
  - split; [intro H; inversion H|intros []].
Qed.

Lemma carries_flat : forall r vs, (exists v, In v vs /\ carries r v) <-> In r (flat_map rids_of vs).
Proof. intros r vs. apply carries_in_list. apply Forall_forall. intros v _. apply carries_iff. Qed.

(* give looks at a value only through rids_of: the nested traversal is a fold over a flat list *)
Definition give_list (g : pid) (rs : list rid) (new : pid) (m : omap) : omap :=
  fold_left (fun m r => give g (VRes r) new m) rs m.

Lemma give_all_rids_if : forall g new vs,
  Forall (fun v => forall m, give g v new m = give_list g (rids_of v) new m) vs ->
  forall m, give_all g vs new m = give_list g (flat_map rids_of vs) new m.
Proof.
  intros g new vs IH. induction IH as [|v t Hv _ IHt]; intro m; cbn [give_all fold_left flat_map];
    [reflexivity|].
  unfold give_list. rewrite fold_left_app. fold (give_list g (rids_of v) new m). rewrite <- Hv. apply IHt.
Qed.

Lemma give_rids : forall g v new m, give g v new m = give_list g (rids_of v) new m.
Proof.
  intros g v new. induction v as [r|fs IH|cs IH|] using val_ind'; try reflexivity;
    exact (give_all_rids_if _ _ _ IH).
Qed.

Lemma give_all_rids : forall g vs new m, give_all g vs new m = give_list g (flat_map rids_of vs) new m.
Proof. intros g vs new. apply give_all_rids_if. apply Forall_forall. intros v _. apply give_rids. Qed.

Lemma keys_give_list : forall g rs new m, keys (give_list g rs new m) = keys m.
Proof.
  intros g rs new. induction rs as [|a t IH]; intro m; cbn [give_list fold_left]; [reflexivity|].
  fold (give_list g t new (give g (VRes a) new m)). rewrite IH. cbn [give].
  destruct (owner_is g (lookup a m)); [apply keys_reassign|reflexivity].
Qed.

Lemma lookup_give_list : forall g rs new m r,
  lookup r (give_list g rs new m) =
  if owner_is g (lookup r m) && memb r rs then Some new else lookup r m.
Proof.
  intros g rs new. induction rs as [|a t IH]; intros m r; cbn [give_list fold_left memb existsb].
  - rewrite andb_false_r. reflexivity.
  - fold (give_list g t new (give g (VRes a) new m)). fold (memb r t). rewrite IH. cbn [give].
    destruct (owner_is g (lookup a m)) eqn:Ea; [rewrite lookup_reassign|];
      destruct (N.eqb_spec r a) as [->|E]; cbn [orb]; try reflexivity.
    + (* r = a changes hands now; a later occurrence in t can only hand it to new again *)
      rewrite Ea. apply owner_is_true in Ea. rewrite Ea. cbn [owner_is andb].
      destruct (N.eqb new g && memb a t); reflexivity.
    + rewrite Ea. reflexivity.
Qed.

Definition inv (s : state) : Prop := NoDup (keys (owner s)).

Theorem owner_function : forall s r p q, inv s -> In (r, p) (owner s) -> In (r, q) (owner s) -> p = q.
Proof. intros s r p q Hinv Hp Hq. apply (in_lookup _ _ _ Hinv) in Hp, Hq. congruence. Qed.

Lemma lookup_cleanup : forall s p r, inv s ->
  lookup r (owner (cleanup s p)) =
  if owner_is p (lookup r (owner s)) then None else lookup r (owner s).
Proof.
  intros s p r Hinv. change (owner (cleanup s p)) with (remove_all (owned_by p (owner s)) (owner s)).
  rewrite lookup_remove_all.
  destruct (memb r (owned_by p (owner s))) eqn:E, (owner_is p (lookup r (owner s))) eqn:Eo; try reflexivity.
  - apply memb_in, (owned_by_lookup _ _ _ Hinv), owner_is_true in E. congruence.
  - apply owner_is_true, (owned_by_lookup _ _ _ Hinv), memb_in in Eo. congruence.
Qed.

Lemma cleanup_inv : forall s p, inv s -> inv (cleanup s p).
Proof. intros s p H. apply nodup_remove_all. exact H. Qed.

Lemma results_inv : forall done s, inv s -> inv (handle_process_results s done).
Proof.
  intros done. induction done as [|p t IH]; intros s H; [exact H|]. apply IH, cleanup_inv, H.
Qed.

Lemma results_frame : forall (A : Type) (f : state -> A), (forall s p, f (cleanup s p) = f s) ->
  forall done s, f (handle_process_results s done) = f s.
Proof.
  intros A f Hf done. induction done as [|p t IH]; intro s; [reflexivity|].
  cbn [handle_process_results fold_left]. etransitivity; [apply IH|apply Hf].
Qed.

Lemma results_next_pid : forall done s, next_pid (handle_process_results s done) = next_pid s.
Proof. apply results_frame. reflexivity. Qed.

Lemma lookup_results : forall done s r, inv s ->
  lookup r (owner (handle_process_results s done)) =
  if owned_among done (lookup r (owner s)) then None else lookup r (owner s).
Proof.
  unfold owned_among. intros done.
  induction done as [|p t IH]; intros s r Hinv; cbn [handle_process_results fold_left existsb].
  - reflexivity.
  - unfold handle_process_results in IH.
    rewrite (IH _ r (cleanup_inv _ p Hinv)), (lookup_cleanup s p r Hinv).
    destruct (owner_is p (lookup r (owner s))); cbn [orb]; [|reflexivity].
    destruct (existsb _ t); reflexivity.
Qed.

(* rs lists, each once, the ids owned by some p of ps: a close batch as a set *)
Definition owned_set (s : state) (ps : list pid) (rs : list rid) : Prop :=
  NoDup rs /\ forall r, In r rs <-> owned_among ps (lookup r (owner s)) = true.

Lemma owned_set_nil : forall s, owned_set s [] [].
Proof. intro s. split; [constructor|]. intro r. split; [intros []|discriminate]. Qed.

Lemma results_log : forall done s, inv s ->
  exists rs, owned_set s done rs /\ log (handle_process_results s done) = log s ++ map CClose rs.
Proof.
  intros done. induction done as [|p t IH]; intros s Hinv; cbn [handle_process_results fold_left].
  - exists []. split; [apply owned_set_nil|symmetry; apply app_nil_r].
  - destruct (IH _ (cleanup_inv s p Hinv)) as [rs [[Hnd Hrs] Hlog]].
    exists (owned_by p (owner s) ++ rs). split; [split|].
    + apply nodup_app_iff. repeat split; [apply nodup_owned_by, Hinv|exact Hnd|]. intros r H1 H2.
      apply (owned_by_lookup _ _ _ Hinv), owner_is_true in H1. apply Hrs in H2.
      rewrite (lookup_cleanup _ _ _ Hinv), H1 in H2. apply owned_among_true in H2.
      destruct H2 as [q [_ H2]]. discriminate.
    + intro r. unfold owned_among at 1. cbn [existsb].
      rewrite in_app_iff, Hrs, (owned_by_lookup _ _ _ Hinv), <- owner_is_true,
        (lookup_cleanup _ _ _ Hinv), orb_true_iff.
      destruct (owner_is p (lookup r (owner s))); [intuition|reflexivity].
    + unfold handle_process_results in Hlog. rewrite Hlog. cbn [cleanup log]. rewrite map_app.
      apply app_assoc_reverse.
Qed.

(* environment.rs handle_effect_request: the request is refused without touching the backend
   (the `let denied` that the model inlines) *)
Definition deniedb (s : state) (p : pid) (e : effect) : bool :=
  match resource_id e with
  | Some r => match lookup r (owner s) with
              | Some o => negb (N.eqb o p)
              | None => false
              end
  | None => false
  end.

Lemma effect_request_unfold : forall s p e a,
  handle_effect_request s p e a =
  if deniedb s p e then s
  else
    let s1 := mkState (owner s) (dead s) (pending s) (next_pid s) (log s ++ [CExec p e]) (watched s) in
    match a with
    | ANow res => handle_effect_completion s1 p res
    | AAsync => mkState (owner s1) (dead s1) (p :: pending s1) (next_pid s1) (log s1) (watched s1)
    | AFail => s1
    end.
Proof. reflexivity. Qed.

Lemma completion_owner : forall s p res r,
  lookup r (owner (handle_effect_completion s p res)) =
  if memb r (result_rid res) then Some p else lookup r (owner s).
Proof.
  intros s p [[r'| | |]|] r; try reflexivity.
  cbn [handle_effect_completion watch owner result_rid memb existsb].
  rewrite lookup_insert, orb_false_r. reflexivity.
Qed.

Lemma completion_inv : forall s p res, inv s -> inv (handle_effect_completion s p res).
Proof. intros s p [[r'| | |]|] H; try exact H. apply nodup_insert. exact H. Qed.

Lemma completion_log : forall s p res, log (handle_effect_completion s p res) = log s.
Proof. intros s p [[r'| | |]|]; reflexivity. Qed.

Lemma completion_dead : forall s p res, dead (handle_effect_completion s p res) = dead s.
Proof. intros s p [[r'| | |]|]; reflexivity. Qed.

Lemma watch_if : forall (b : bool) p s,
  (if b then watch p s else s) =
  mkState (owner s) (dead s) (pending s) (next_pid s) (log s) (if b then p :: watched s else watched s).
Proof. intros [] p []; reflexivity. Qed.

Definition granted (s : state) (e : event) : list rid :=
  match e with
  | EEffect p eff _ => if deniedb s p eff then [] else issued_by e
  | _ => issued_by e
  end.

Definition requester (e : event) : pid :=
  match e with
  | EEffect p _ _ | EComplete p _ => p
  | _ => 0              (* never looked at: nothing is granted by the other events *)
  end.

Definition recipient (s : state) (e : event) : pid :=
  match e with
  | ESend _ t _ => t
  | _ => next_pid s     (* the spawn case; never looked at otherwise *)
  end.

Definition given_by (e : event) (o : option pid) : bool :=
  match initiator e with
  | Some q => owner_is q o
  | None => false
  end.

(* every kind of event at once: a granted id goes to the requester; an id carried by a send/spawn
   goes to the recipient if the initiator owns it; an id whose owner is reported leaves the map *)
Definition owner_after (s : state) (e : event) (r : rid) : option pid :=
  let o := lookup r (owner s) in
  if memb r (granted s e) then Some (requester e)
  else if given_by e o && memb r (transferred e) then Some (recipient s e)
  else if owned_among (reported e) o then None
  else o.

Theorem step_owner : forall s e r, inv s -> lookup r (owner (step s e)) = owner_after s e r.
Proof.
  intros s e r Hinv. unfold owner_after.
  destruct e as [p eff a|p res|c vals|sd t v|done|p|p|];
    cbn [step granted given_by initiator transferred reported issued_by requester recipient memb
         owned_among existsb andb];
    try reflexivity.
  - rewrite effect_request_unfold. destruct (deniedb s p eff); [reflexivity|].
    destruct a as [res| |]; try reflexivity. rewrite completion_owner. reflexivity.
  - apply completion_owner.
  - unfold handle_spawn. rewrite watch_if. cbn [owner]. rewrite give_all_rids. apply lookup_give_list.
  - unfold handle_deliver. rewrite watch_if. cbn [owner]. rewrite give_rids. apply lookup_give_list.
  - apply lookup_results. exact Hinv.
  - (* ProcessTerminated p cleans up as ProcessResults [p] does *)
    exact (lookup_results [p] s r Hinv).
Qed.

Lemma step_inv : forall s e, inv s -> inv (step s e).
Proof.
  intros s e H. destruct e as [p eff a|p res|c vals|sd t v|done|p|p|]; cbn [step]; try exact H.
  - rewrite effect_request_unfold. destruct (deniedb s p eff); [exact H|].
    destruct a as [res| |]; try exact H. apply completion_inv. exact H.
  - apply (completion_inv s p res H).
  - unfold inv, handle_spawn. rewrite watch_if. cbn [owner]. rewrite give_all_rids, keys_give_list. exact H.
  - unfold inv, handle_deliver. rewrite watch_if. cbn [owner]. rewrite give_rids, keys_give_list. exact H.
  - apply results_inv. exact H.
  - apply (cleanup_inv s p H).
Qed.

Theorem run_inv : forall h, inv (run h).
Proof.
  intro h. induction h as [|e h IH] using rev_ind; [constructor|]. rewrite run_snoc. apply step_inv.
  exact IH.
Qed.

(* owner_after read backwards: which of its four branches produced the owner *)
Inductive owner_after_spec (s : state) (e : event) (r : rid) : option pid -> Prop :=
| oa_granted : In r (granted s e) -> owner_after_spec s e r (Some (requester e))
| oa_transferred : forall q, initiator e = Some q -> lookup r (owner s) = Some q ->
    In r (transferred e) -> owner_after_spec s e r (Some (recipient s e))
| oa_reported : forall p, In p (reported e) -> lookup r (owner s) = Some p ->
    owner_after_spec s e r None
| oa_unchanged : owner_after_spec s e r (lookup r (owner s)).

Lemma owner_after_cases : forall s e r, owner_after_spec s e r (owner_after s e r).
Proof.
  intros s e r. unfold owner_after.
  destruct (memb r (granted s e)) eqn:G.
  { apply oa_granted, memb_in, G. }
  destruct (given_by e _ && memb r (transferred e)) eqn:T.
  { apply andb_true_iff in T. destruct T as [Q T]. unfold given_by in Q.
    destruct (initiator e) as [q|] eqn:Hq; [|discriminate].
    apply (oa_transferred _ _ _ q Hq); [apply owner_is_true, Q|apply memb_in, T]. }
  destruct (owned_among (reported e) _) eqn:R; [|apply oa_unchanged].
  apply owned_among_true in R. destruct R as [p [Hp Ho]]. exact (oa_reported _ _ _ p Hp Ho).
Qed.

(* C14_ownership_changes_only_by_transfer_creation_cleanup spells this match out and relies on
   conversion *)
Definition makes_owner (s : state) (e : event) (p : pid) (r : rid) : Prop :=
  match e with
  | ESend q t v => t = p /\ carries r v /\ lookup r (owner s) = Some q
  | ESpawn q vals => next_pid s = p /\ (exists v, In v vals /\ carries r v) /\ lookup r (owner s) = Some q
  | EEffect q _ _ | EComplete q _ => q = p /\ In r (issued_by e)
  | _ => False
  end.

Lemma granted_issued : forall s e r, In r (granted s e) -> In r (issued_by e).
Proof.
  intros s [p eff a| | | | | | |] r; cbn [granted]; try tauto.
  destruct (deniedb s p eff); [intros []|tauto].
Qed.

Theorem owner_change : forall s e r, inv s ->
  lookup r (owner (step s e)) <> lookup r (owner s) ->
  match lookup r (owner (step s e)) with
  | Some p => makes_owner s e p r
  | None => exists o, lookup r (owner s) = Some o /\ In o (reported e)
  end.
Proof.
  intros s e r Hinv. rewrite (step_owner _ _ _ Hinv).
  destruct (owner_after_cases s e r) as [Hg|q Hq Ho Hin|p Hp Ho|]; intro Hne.
  - (* nothing is granted but by an effect or a completion *)
    apply granted_issued in Hg. destruct e; try contradiction; (split; [reflexivity|exact Hg]).
  - destruct e; try discriminate; injection Hq as ->; repeat split; try exact Ho.
    + apply carries_flat. exact Hin.
    + apply carries_iff. exact Hin.
  - eauto.
  - contradiction.
Qed.

(* F49: only its owner can give a resource away *)
Theorem owner_loses : forall s e r o, inv s ->
  lookup r (owner s) = Some o -> lookup r (owner (step s e)) <> Some o ->
  initiates e o r \/ In o (reported e) \/ In r (issued_by e).
Proof.
  intros s e r o Hinv Hold. rewrite (step_owner _ _ _ Hinv).
  destruct (owner_after_cases s e r) as [Hg|q Hq Ho Hin|p Hp Ho|]; intro Hne.
  - right. right. exact (granted_issued _ _ _ Hg).
  - left. split; congruence.
  - right. left. congruence.
  - contradiction.
Qed.

Lemma transfer_after : forall s e q r, initiator e = Some q ->
  owner_after s e r = if owner_is q (lookup r (owner s)) && memb r (transferred e)
                      then Some (recipient s e) else lookup r (owner s).
Proof. intros s e q r Hq. destruct e; try discriminate; injection Hq as ->; reflexivity. Qed.

Theorem transfer_owner : forall s e q r, inv s -> initiator e = Some q ->
  (In r (transferred e) -> lookup r (owner s) = Some q ->
     lookup r (owner (step s e)) = Some (recipient s e)) /\
  (lookup r (owner s) <> Some q -> lookup r (owner (step s e)) = lookup r (owner s)) /\
  (~ In r (transferred e) -> lookup r (owner (step s e)) = lookup r (owner s)).
Proof.
  intros s e q r Hinv Hq. rewrite (step_owner _ _ _ Hinv), (transfer_after _ _ _ _ Hq). repeat split.
  - intros Hin Ho. apply memb_in in Hin. apply owner_is_true in Ho. rewrite Hin, Ho. reflexivity.
  - intro Hn. rewrite <- owner_is_true in Hn. apply not_true_is_false in Hn. rewrite Hn. reflexivity.
  - intro Hn. apply memb_notin in Hn. rewrite Hn, andb_false_r. reflexivity.
Qed.

Theorem grant_owner : forall s e r, inv s ->
  In r (granted s e) -> lookup r (owner (step s e)) = Some (requester e).
Proof.
  intros s e r Hinv Hg. rewrite (step_owner _ _ _ Hinv). unfold owner_after.
  apply memb_in in Hg. rewrite Hg. reflexivity.
Qed.

Lemma report_after : forall s e p r, In p (reported e) ->
  owner_after s e r = if owned_among (reported e) (lookup r (owner s))
                      then None else lookup r (owner s).
Proof. intros s e p r Hp. destruct e; try contradiction; reflexivity. Qed.

Lemma reported_loses : forall s e p r, inv s ->
  In p (reported e) -> lookup r (owner s) = Some p -> lookup r (owner (step s e)) = None.
Proof.
  intros s e p r Hinv Hp Ho. rewrite (step_owner _ _ _ Hinv), (report_after _ _ _ _ Hp).
  replace (owned_among _ _) with true; [reflexivity|]. symmetry. apply owned_among_true. eauto.
Qed.

Theorem reported_owns_nothing : forall s e p r, inv s ->
  In p (reported e) -> lookup r (owner (step s e)) <> Some p.
Proof.
  intros s e p r Hinv Hp. rewrite (step_owner _ _ _ Hinv), (report_after _ _ _ _ Hp).
  destruct (owned_among _ _) eqn:R; [discriminate|]. intro Ho. apply not_true_iff_false in R.
  apply R, owned_among_true. eauto.
Qed.

Definition execs (s : state) (e : event) : list call :=
  match e with
  | EEffect p eff _ => if deniedb s p eff then [] else [CExec p eff]
  | _ => []
  end.

Lemma step_calls : forall s e, inv s -> exists rs,
  owned_set s (reported e) rs /\ new_calls s e = execs s e ++ map CClose rs /\
  log (step s e) = log s ++ new_calls s e.
Proof.
  intros s e Hinv.
  enough (exists rs, owned_set s (reported e) rs /\ log (step s e) = log s ++ execs s e ++ map CClose rs)
    as [rs [Hrs Hl]].
  { exists rs. unfold new_calls. rewrite Hl, skipn_app_exact. auto. }
  assert (Hquiet : reported e = [] -> log (step s e) = log s ++ execs s e ->
            exists rs, owned_set s (reported e) rs /\ log (step s e) = log s ++ execs s e ++ map CClose rs).
  { intros -> Hl. exists []. split; [apply owned_set_nil|]. rewrite app_nil_r. exact Hl. }
  destruct e as [p eff a|p res|c vals|sd t v|done|p|p|]; cbn [reported execs app].
  - apply Hquiet; [reflexivity|]. cbn [step execs]. rewrite effect_request_unfold.
    destruct (deniedb s p eff); [symmetry; apply app_nil_r|].
    destruct a as [res| |]; try reflexivity. apply completion_log.
  - apply Hquiet; [reflexivity|]. cbn [step log execs]. rewrite app_nil_r. apply completion_log.
  - apply Hquiet; [reflexivity|]. cbn [step execs]. unfold handle_spawn.
    rewrite watch_if, app_nil_r. reflexivity.
  - apply Hquiet; [reflexivity|]. cbn [step execs]. unfold handle_deliver.
    rewrite watch_if, app_nil_r. reflexivity.
  - exact (results_log done s Hinv).
  - (* ProcessTerminated p cleans up as ProcessResults [p] does *)
    exact (results_log [p] s Hinv).
  - apply Hquiet; [reflexivity|]. symmetry. apply app_nil_r.
  - apply Hquiet; [reflexivity|]. symmetry. apply app_nil_r.
Qed.

Theorem log_extends : forall s e, inv s -> log (step s e) = log s ++ new_calls s e.
Proof. intros s e H. destruct (step_calls s e H) as [rs [_ [_ Hl]]]. exact Hl. Qed.

Lemma closes_app : forall a b, closes (a ++ b) = closes a ++ closes b.
Proof. intros a b. apply flat_map_app. Qed.

Lemma closes_map_close : forall rs, closes (map CClose rs) = rs.
Proof. intro rs. induction rs as [|r t IH]; cbn; [reflexivity|]. f_equal. exact IH. Qed.

Lemma in_closes : forall r l, In r (closes l) <-> In (CClose r) l.
Proof.
  intros r l. unfold closes. rewrite in_flat_map. split.
  - intros [[p e|r'] [Hin H]]; [destruct H|destruct H as [<-|[]]; exact Hin].
  - intro Hin. exists (CClose r). split; [exact Hin|left; reflexivity].
Qed.

Lemma step_closes : forall s e, inv s -> owned_set s (reported e) (closes (new_calls s e)).
Proof.
  intros s e Hinv. destruct (step_calls s e Hinv) as [rs [Hrs [-> _]]].
  rewrite closes_app, closes_map_close.
  replace (closes (execs s e)) with (@nil rid); [exact Hrs|].
  destruct e as [p eff a| | | | | | |]; try reflexivity. cbn [execs]. destruct (deniedb s p eff);
    reflexivity.
Qed.

Theorem close_in_calls : forall s e r, inv s ->
  (In (CClose r) (new_calls s e) <-> exists p, In p (reported e) /\ lookup r (owner s) = Some p).
Proof. intros s e r Hinv. rewrite <- in_closes, <- owned_among_true. apply (step_closes s e Hinv). Qed.

Lemma exec_in_calls : forall s e p eff, inv s -> In (CExec p eff) (new_calls s e) ->
  exists a, e = EEffect p eff a /\ deniedb s p eff = false.
Proof.
  intros s e p eff Hinv Hin. destruct (step_calls s e Hinv) as [rs [_ [Hc _]]]. rewrite Hc in Hin.
  apply in_app_or in Hin. destruct Hin as [Hin|Hin].
  - destruct e as [q eff' a| | | | | | |]; try destruct Hin. cbn [execs] in Hin.
    destruct (deniedb s q eff') eqn:E; [destruct Hin|]. destruct Hin as [[= -> ->]|[]]. eauto.
  - apply in_map_iff in Hin. destruct Hin as [x [Hx _]]. discriminate.
Qed.

(* the None branch is F47 *)
Theorem exec_owner : forall s e p eff r, inv s ->
  In (CExec p eff) (new_calls s e) -> resource_id eff = Some r ->
  match lookup r (owner s) with
  | Some o => o = p
  | None => stale_useb s e = true
  end.
Proof.
  intros s e p eff r Hinv Hin Hr. destruct (exec_in_calls _ _ _ _ Hinv Hin) as [a [-> Hd]].
  unfold deniedb in Hd. rewrite Hr in Hd. destruct eff as [n|r' n]; [discriminate|]. injection Hr as ->.
  cbn [stale_useb]. unfold absentb. destruct (lookup r (owner s)) as [o|]; [|reflexivity].
  apply negb_false_iff, N.eqb_eq in Hd. exact Hd.
Qed.

Theorem non_owner_never_reaches_backend : forall h e p eff r o,
  In (CExec p eff) (new_calls (run h) e) -> resource_id eff = Some r ->
  lookup r (owner (run h)) = Some o -> o = p.
Proof.
  intros h e p eff r o Hin Hr Ho. pose proof (exec_owner _ _ _ _ _ (run_inv h) Hin Hr) as H.
  rewrite Ho in H. exact H.
Qed.

Theorem denied_inert : forall s p eff a, deniedb s p eff = true ->
  step s (EEffect p eff a) = s /\ new_calls s (EEffect p eff a) = [].
Proof.
  intros s p eff a Hd.
  assert (H : step s (EEffect p eff a) = s) by (cbn [step]; rewrite effect_request_unfold, Hd; reflexivity).
  split; [exact H|]. unfold new_calls. rewrite H. apply skipn_all.
Qed.

Theorem closed_owner_dead : forall s e r, inv s ->
  early_reportb s e = false -> In (CClose r) (new_calls s e) ->
  exists p, lookup r (owner s) = Some p /\ In p (dead s).
Proof.
  intros s e r Hinv Hok Hin. apply (close_in_calls _ _ _ Hinv) in Hin. destruct Hin as [p [Hp Hl]].
  exists p. split; [exact Hl|]. apply memb_in.
  (* Hp : In p (reported e) leaves the two reporting events *)
  destruct e; try contradiction; apply negb_false_iff in Hok.
  - rewrite forallb_forall in Hok. exact (Hok p Hp).
  - destruct Hp as [<-|[]]. exact Hok.
Qed.

Theorem not_closed_while_owner_alive : forall h e r,
  reports_only_terminated (h ++ [e]) -> In (CClose r) (new_calls (run h) e) ->
  exists p, lookup r (owner (run h)) = Some p /\ In p (dead (run h)).
Proof.
  intros h e r Hwf. apply closed_owner_dead; [apply run_inv|].
  unfold reports_only_terminated in Hwf. rewrite anyb_snoc in Hwf. exact (proj2 (orb_false_elim _ _ Hwf)).
Qed.

(* I: the ids issued so far. Owned and closed ids are among them, none is both, none is closed twice *)
Record cinv (I : list rid) (s : state) : Prop := mk_cinv {
  ci_owned : forall r, lookup r (owner s) <> None -> In r I;
  ci_closed : forall r, In r (closes (log s)) -> In r I;
  ci_disj : forall r, lookup r (owner s) <> None -> ~ In r (closes (log s));
  ci_nodup : NoDup (closes (log s))
}.

Lemma step_owner_dom : forall s e r, inv s ->
  lookup r (owner (step s e)) <> None -> lookup r (owner s) <> None \/ In r (issued_by e).
Proof.
  intros s e r Hinv. rewrite (step_owner _ _ _ Hinv).
  destruct (owner_after_cases s e r) as [Hg|q _ Ho _|p _ _|]; intro H.
  - right. exact (granted_issued _ _ _ Hg).
  - left. congruence.
  - contradiction.
  - left. exact H.
Qed.

(* an id just issued is fresh: neither owned nor closed before; an id closed now was owned, hence
   not closed before, and is not owned afterwards *)
Lemma cinv_step : forall I s e, inv s -> cinv I s -> (forall r, In r I -> ~ In r (issued_by e)) ->
  cinv (I ++ issued_by e) (step s e).
Proof.
  intros I s e Hinv [Hown Hcl Hdisj Hnd] Hfresh.
  destruct (step_closes s e Hinv) as [Hrsnd Hrs]. set (rs := closes (new_calls s e)) in *.
  assert (Hcs : closes (log (step s e)) = closes (log s) ++ rs) by (rewrite log_extends, closes_app; auto).
  assert (Hrs' : forall r, In r rs -> lookup r (owner s) <> None /\ lookup r (owner (step s e)) = None).
  { intros r Hr. apply Hrs, owned_among_true in Hr. destruct Hr as [p [Hp Hl]]. split; [congruence|].
    exact (reported_loses _ _ _ _ Hinv Hp Hl). }
  constructor; rewrite ?Hcs.
  - intros r Hr. apply in_or_app. destruct (step_owner_dom s e r Hinv Hr); auto.
  - intros r Hr. apply in_or_app. left. apply in_app_or in Hr. destruct Hr as [Hr|Hr];
      [auto|apply Hown, Hrs', Hr].
  - intros r Hr Hc. apply in_app_or in Hc. destruct Hc as [Hc|Hc]; [|apply Hrs' in Hc; tauto].
    destruct (step_owner_dom s e r Hinv Hr) as [H|H]; [exact (Hdisj r H Hc)|].
    exact (Hfresh r (Hcl r Hc) H).
  - apply nodup_app_iff. split; [exact Hnd|]. split; [exact Hrsnd|]. intros r Hc Hr.
    exact (Hdisj r (proj1 (Hrs' r Hr)) Hc).
Qed.

Lemma reachable_cinv : forall h, backend_fresh h -> cinv (issued h) (run h).
Proof.
  intro h. induction h as [|e h IH] using rev_ind; intros Hf.
  - constructor; cbn; tauto || constructor.
  - unfold backend_fresh in Hf. rewrite issued_snoc in *. rewrite run_snoc.
    apply nodup_app_iff in Hf. destruct Hf as [HI [_ Hfresh]].
    apply cinv_step; [apply run_inv|exact (IH HI)|exact Hfresh].
Qed.

Theorem closed_at_most_once : forall h, backend_fresh h -> NoDup (closes (log (run h))).
Proof. intros h Hf. exact (ci_nodup _ _ (reachable_cinv h Hf)). Qed.

(* F10: whoever owns a resource is watched, so the environment hears of its termination *)
Definition owners_watched (s : state) : Prop :=
  forall r p, lookup r (owner s) = Some p -> In p (watched s).

Lemma in_remove_pid_neq : forall p q l, q <> p -> In q l -> In q (remove_pid p l).
Proof.
  intros p q l Hne. induction l as [|x t IH]; cbn [remove_pid In]; [tauto|].
  intros [->|H].
  - destruct (N.eqb_spec p q) as [E|E]; [congruence|left; reflexivity].
  - destruct (N.eqb p x); [exact H|right; exact (IH H)].
Qed.

Lemma completion_watched : forall s p res,
  owners_watched s -> owners_watched (handle_effect_completion s p res).
Proof.
  intros s p [[r'| | |]|] Hw; try exact Hw. intros r q.
  cbn [handle_effect_completion watch owner watched In]. rewrite lookup_insert.
  destruct (N.eqb r r'); [intros [= <-]; left; reflexivity|intro H; right; exact (Hw r q H)].
Qed.

Lemma give_list_watched : forall g rs new m W, (forall r p, lookup r m = Some p -> In p W) ->
  forall r p, lookup r (give_list g rs new m) = Some p ->
  In p (if existsb (fun r => owner_is g (lookup r m)) rs then new :: W else W).
Proof.
  intros g rs new m W Hw r p. rewrite lookup_give_list.
  destruct (owner_is g (lookup r m) && memb r rs) eqn:E.
  - apply andb_true_iff in E. destruct E as [E1 E2]. apply memb_in in E2. intros [= <-].
    replace (existsb _ rs) with true; [left; reflexivity|]. symmetry. apply existsb_exists. eauto.
  - intro H. destruct (existsb _ rs); [right|]; exact (Hw r p H).
Qed.

Lemma step_owners_watched : forall s e, inv s -> owners_watched s -> owners_watched (step s e).
Proof.
  intros s e Hinv Hw. destruct e as [p eff a|p res|c vals|sd t v|done|p|p|]; cbn [step]; try exact Hw.
  - rewrite effect_request_unfold. destruct (deniedb s p eff); [exact Hw|].
    destruct a as [res| |]; try exact Hw. apply completion_watched. exact Hw.
  - exact (completion_watched s p res Hw).
  - intros r q. unfold handle_spawn, gives_any. rewrite watch_if. cbn [owner watched].
    rewrite give_all_rids. apply give_list_watched. exact Hw.
  - intros r q. unfold handle_deliver, gives_any. rewrite watch_if. cbn [owner watched flat_map].
    rewrite app_nil_r, give_rids. apply give_list_watched. exact Hw.
  - intros r q Hl. rewrite (results_frame _ watched) by reflexivity.
    rewrite (lookup_results _ _ _ Hinv) in Hl.
    destruct (owned_among done _); [discriminate|]. exact (Hw r q Hl).
  - intros r q Hl. cbn [owner watched] in *. rewrite (lookup_cleanup _ _ _ Hinv) in Hl.
    destruct (owner_is p (lookup r (owner s))) eqn:E; [discriminate|].
    apply in_remove_pid_neq; [|exact (Hw r q Hl)]. intros ->. apply not_true_iff_false in E.
    apply E, owner_is_true, Hl.
Qed.

Theorem run_owners_watched : forall h, owners_watched (run h).
Proof.
  intro h. induction h as [|e h IH] using rev_ind; [intros r p H; discriminate H|].
  rewrite run_snoc. apply step_owners_watched; [apply run_inv|exact IH].
Qed.

Theorem closed_after_termination : forall h p r,
  quiescent (run h) -> In p (dead (run h)) -> lookup r (owner (run h)) <> Some p.
Proof. intros h p r [_ Hq] Hd Hl. exact (Hq p (run_owners_watched h r p Hl) Hd). Qed.

Lemma step_dead : forall s e,
  dead (step s e) = match e with ETerminate p => p :: dead s | _ => dead s end.
Proof.
  intros s e. destruct e as [p eff a|p res|c vals|sd t v|done|p|p|]; cbn [step dead]; try reflexivity.
  - rewrite effect_request_unfold. destruct (deniedb s p eff); [reflexivity|].
    destruct a as [res| |]; try reflexivity. rewrite completion_dead. reflexivity.
  - apply completion_dead.
  - unfold handle_spawn. rewrite watch_if. reflexivity.
  - unfold handle_deliver. rewrite watch_if. reflexivity.
  - apply results_frame. reflexivity.
Qed.

Lemma dead_iff_terminated : forall h p, In p (dead (run h)) <-> In (ETerminate p) h.
Proof.
  intros h p. induction h as [|e h IH] using rev_ind; [reflexivity|].
  rewrite run_snoc, step_dead, in_app_iff. cbn [In].
  destruct e; cbn [In]; rewrite IH; intuition congruence.
Qed.

(* A history with a Quiver program quoted above it is the event sequence of a run of the REAL
   environment (harness qv_own) on that program. *)

(* `b = @{ !#'m { =H[_] => Ok } }, r = 0 __res_open__, H[r] b, !b, [r, 0] __res_use__` :
   the run up to the `__res_use__`; that use, `EEffect 0 (Op 1 0) _`, then takes the stale id 1 to
   backend.execute (F47, known) *)
Definition witness_F47 : list event :=
  [ESpawn 0 [VTuple []]; EEffect 0 (Open 0) (ANow (Some (VRes 1))); ESend 0 1 (VTuple [VRes 1]);
   ETerminate 1; EOther; EResults [1]].

(* F10: `p = @{ 0 __res_open__ =r, [r, 0] __res_use__ }, 5` : p is never awaited; it is
   watched from the moment it owns r, and its termination report closes r *)
Definition probe_F10 : list event :=
  [ESpawn 0 [VTuple []]; EEffect 1 (Open 0) (ANow (Some (VRes 1)));
   EEffect 1 (Op 1 0) (ANow (Some VOther)); ETerminate 1; EOther; EWatchReport 1].

Example unawaited_owner_is_cleaned_up :
  reports_only_terminated probe_F10 /\ backend_fresh probe_F10 /\ quiescent (run probe_F10) /\
  In 1 (dead (run probe_F10)) /\ owner (run probe_F10) = [] /\ closes (log (run probe_F10)) = [1] /\
  ~ quiescent (run (firstn 5 probe_F10)).
Proof.
  repeat split; try reflexivity.
  - repeat constructor. intros [].
  - intros p [].
  - left. reflexivity.
  - intros [_ H]. apply (H 1); left; reflexivity.
Qed.

(* F48: `b = @{..}, c = @{..}, r = 0 __res_open__, H[r] b, !b, H[r] c, !c` :
   the stale handle sent to c is not registered again; closed once *)
Definition probe_F48 : list event :=
  [ESpawn 0 [VTuple []]; ESpawn 0 [VTuple []]; EEffect 0 (Open 0) (ANow (Some (VRes 1)));
   ESend 0 1 (VTuple [VRes 1]); ETerminate 1; EOther; EResults [1];
   ESend 0 2 (VTuple [VRes 1]); EOther; ETerminate 2; EResults []; EResults [2]; EWatchReport 1].

Example stale_handle_resent_closed_once :
  reports_only_terminated probe_F48 /\ backend_fresh probe_F48 /\
  anyb stale_transferb init probe_F48 = true /\ closes (log (run probe_F48)) = [1].
Proof.
  repeat split; try reflexivity. repeat constructor. intros [].
Qed.

(* F49: process 0 gave resource 1 to process 1 and then sends its stale copy to 2:
   ownership stays with 1 *)
Definition probe_F49 : list event :=
  [ESpawn 0 [VTuple []]; ESpawn 0 [VTuple []]; EEffect 0 (Open 0) (ANow (Some (VRes 1)));
   ESend 0 1 (VTuple [VRes 1]); EEffect 1 (Op 1 0) (ANow (Some VOther)); ESend 0 2 (VTuple [VRes 1])].

Example non_owner_send_moves_nothing :
  lookup 1 (owner (run (firstn 5 probe_F49))) = Some 1 /\ lookup 1 (owner (run probe_F49)) = Some 1 /\
  new_calls (run probe_F49) (EEffect 2 (Op 1 0) AFail) = [] /\
  new_calls (run probe_F49) (EEffect 1 (Op 1 4) (ANow (Some VOther))) = [CExec 1 (Op 1 4)].
Proof. repeat split; reflexivity. Qed.

(* three processes, a handle nested in a closure inside a tuple, transferred twice, its last owner
   reported by a watch and by an await: all hypotheses hold, and the resource is closed once *)
Definition good_history : list event :=
  [ESpawn 0 [VTuple []]; EEffect 0 (Open 1) AAsync; EComplete 0 (Some (VRes 1));
   ESend 0 1 (VTuple [VTuple [VFun [VRes 1]; VOther]]);
   EEffect 1 (Op 1 0) (ANow (Some VOther)); EEffect 0 (Op 1 4) AFail;
   ESpawn 1 [VFun [VRes 1]; VTuple []]; ETerminate 1; EWatchReport 1;
   EEffect 2 (Op 1 0) (ANow (Some VOther));
   ETerminate 2; EResults [2]; EResults [1]; EWatchReport 2].

Example good_history_meets_all_hypotheses :
  reports_only_terminated good_history /\ backend_fresh good_history /\
  ~ KnownF47 good_history /\ quiescent (run good_history) /\ In 2 (dead (run good_history)) /\
  closes (log (run good_history)) = [1] /\
  log (run good_history) = [CExec 0 (Open 1); CExec 1 (Op 1 0); CExec 2 (Op 1 0); CClose 1].
Proof.
  repeat split; try reflexivity.
  - unfold backend_fresh. vm_compute. constructor; [intros []|constructor].
  - vm_compute. discriminate.
  - vm_compute. intros p [H|[]]. subst p. intros [H|[H|[]]]; discriminate.
  - vm_compute. left. reflexivity.
Qed.

Example good_history_has_denied_use :
  exists h1 h2, good_history = h1 ++ EEffect 0 (Op 1 4) AFail :: h2 /\
                lookup 1 (owner (run h1)) = Some 1 /\ new_calls (run h1) (EEffect 0 (Op 1 4) AFail) = [].
Proof.
  exists (firstn 5 good_history), (skipn 6 good_history). repeat split; reflexivity.
Qed.
