(* NarrowProofs.v — intersect_types / compute_complement never drop a value that can occur, on the
   first-order cycle-free fragment (ints, bins, refs, resources, tuples, unions).
   Ingredients: every narrowing function only EXTENDS the registry (so memberships carry over,
   TypesProofs.inhab_extends); union_type_ids keeps every value of every piece; the `never`
   answers of the default arms are justified by overlap_complete_on_FO (OverlapProofs) and the
   `is_compatible` shortcut of subtract_one by check_sound (RelProofs). *)
From Quiver Require Import Base Types Rel Sem SemProofs RelProofs OverlapProofs TypesProofs Narrow.
From Coq Require Import Arith Lia.
Close Scope Z_scope.
Open Scope nat_scope.

Ltac inv H := inversion H; subst; clear H.

Lemma FO_CF P b t : FO P t -> CF P b t.
Proof.
  induction 1; [eapply CF_int|eapply CF_bin|eapply CF_ref|eapply CF_res|eapply CF_union|eapply CF_tuple]; eassumption.
Qed.

Lemma FO_extends P P' t : extends P P' -> FO P t -> FO P' t.
Proof.
  intros [HT HU]. induction 1; [eapply FO_int|eapply FO_bin|eapply FO_ref|eapply FO_res|eapply FO_union|eapply FO_tuple]; eauto.
Qed.

Lemma lk_type P t a b : lookup_type P t = Some a -> lookup_type P t = Some b -> a = b.
Proof. congruence. Qed.

Lemma fov_fields_all (R : value -> nat -> Prop) name fs vs :
  Forall2 (field_ok R) fs vs -> (forall f x, In f fs -> R x (snd f) -> fov x = true) -> fov (VTup name vs) = true.
Proof.
  cbn. induction 1 as [|f fv fs' vs' [Hlab Hr] HF IHF]; intros Hall; [reflexivity|].
  destruct fv as [l x]. cbn in *. rewrite (Hall f x (or_introl eq_refl) Hr). cbn.
  apply IHF. intros f0 x0 Hf0. apply Hall. right; exact Hf0.
Qed.

(* an inhabitant of a first-order type contains no function / process value *)
Lemma fov_of_FO P : forall n t, FO P t -> forall E v, inhab P n E v t -> fov v = true.
Proof.
  induction n as [|m IHm]; intros t Hfo E v H; [destruct H|].
  revert E v H. induction Hfo as [t Hl|t Hl|t Hl|t r Hl|t vs Hl Hvs IH|t tid info Hl Ht Hfs IH]; intros E v H;
    cbn [inhab] in H; inv H;
    try (match goal with H1 : lookup_type P ?t = Some _, H2 : lookup_type P ?t = Some _ |- _ =>
           rewrite H1 in H2; inv H2 end); try reflexivity.
  - eapply IH; eassumption.
  - match goal with H1 : lookup_tuple P ?t = Some _, H2 : lookup_tuple P ?t = Some _ |- _ => rewrite H1 in H2; inv H2 end.
    eapply fov_fields_all; [eassumption|]. intros f x Hf Hx. eapply IHm; [apply Hfs; exact Hf|exact Hx].
Qed.

Lemma never_uninhabited P t n E v : lookup_type P t = Some (TUnion []) -> inhab P n E v t -> False.
Proof.
  intros Hl H. destruct n; [exact H|]. destruct (inhab_inv _ _ _ _ _ _ H Hl) as (u & [] & _).
Qed.

Lemma tuple_value_inv P x tid info n E name fs :
  lookup_type P x = Some (TTuple tid) -> lookup_tuple P tid = Some info ->
  inhab P (S n) E (VTup name fs) x ->
  name = tname info /\ Forall2 (field_ok (inhab P n E)) (tfields info) fs.
Proof.
  intros Hl Ht H. destruct (inhab_inv _ _ _ _ _ _ H Hl) as (info' & fs' & Ht' & Hv & HF).
  rewrite Ht in Ht'. injection Ht' as <-. injection Hv as -> ->. auto.
Qed.

Lemma never_spec P P0 nid : never P = (P0, nid) -> extends P P0 /\ lookup_type P0 nid = Some (TUnion []).
Proof. unfold never. apply register_type_spec. Qed.

Lemma FO_never P t : lookup_type P t = Some (TUnion []) -> FO P t.
Proof. intros Hl. eapply FO_union; [exact Hl|intros u []]. Qed.

(* membership in a first-order type, at the empty environment, carried along an extension *)
Lemma mem_extends P P' n v t : extends P P' -> FO P t -> inhab P n [] v t -> inhab P' n [] v t.
Proof. intros He Hfo H. eapply inhab_extends; [exact He|eapply fov_of_FO; eassumption|exact H]. Qed.

Lemma fields_extend P P' n fs vs : extends P P' -> (forall f, In f fs -> FO P (snd f)) ->
  Forall2 (field_ok (inhab P n [])) fs vs -> Forall2 (field_ok (inhab P' n [])) fs vs.
Proof. intros He Hfo. apply Forall2_field_ok_impl. intros f fv Hf. apply mem_extends; [exact He|exact (Hfo f Hf)]. Qed.

Lemma FO_env P n t E1 E2 v : FO P t -> inhab P n E1 v t -> inhab P n E2 v t.
Proof. intros Hfo. apply (env_indep P true n t (FO_CF P true t Hfo)). Qed.

(* the variants of a type: a value of the type is a value of one of them *)
Lemma FO_variants P a : FO P a ->
  get_type_variants P a = [a] \/
  exists vs, lookup_type P a = Some (TUnion vs) /\ get_type_variants P a = vs /\ forall u, In u vs -> FO P u.
Proof.
  unfold get_type_variants. intros []; match goal with H : lookup_type _ _ = _ |- _ => rewrite H end; eauto 6.
Qed.

Lemma variants_FO P a : FO P a -> forall x, In x (get_type_variants P a) -> FO P x.
Proof.
  intros Hfo x Hin. destruct (FO_variants P a Hfo) as [E|(vs & _ & E & Hvs)]; rewrite E in Hin;
    [destruct Hin as [<-|[]]; exact Hfo|exact (Hvs x Hin)].
Qed.

Lemma variants_cover P a n v : FO P a -> inhab P n [] v a ->
  exists x, In x (get_type_variants P a) /\ inhab P n [] v x.
Proof.
  intros Hfo H. destruct (FO_variants P a Hfo) as [E|(vs & Hl & E & Hvs)]; rewrite E;
    [exists a; split; [left; reflexivity|exact H]|].
  destruct n; [destruct H|]. destruct (inhab_inv _ _ _ _ _ _ H Hl) as (u & Hu & Hv).
  exists u. split; [exact Hu|exact (FO_env P (S n) u _ _ v (Hvs u Hu) Hv)].
Qed.

Lemma variant_member P a n v x : FO P a -> In x (get_type_variants P a) -> inhab P n [] v x -> inhab P n [] v a.
Proof.
  intros Hfo Hin H. destruct (FO_variants P a Hfo) as [E|(vs & Hl & E & Hvs)]; rewrite E in Hin;
    [destruct Hin as [<-|[]]; exact H|].
  destruct n; [destruct H|]. cbn [inhab]. eapply Inh_union; [exact Hl|exact Hin|].
  apply (FO_env P (S n) x [] [a] v (Hvs x Hin) H).
Qed.

Lemma In_dedup l : forall seen x, In x (dedup seen l) <-> In x l /\ ~ In x seen.
Proof.
  induction l as [|a l IH]; intros seen x; cbn; [tauto|].
  destruct (existsb (Nat.eqb a) seen) eqn:E.
  - rewrite IH. apply existsb_exists in E. destruct E as [y [Hy Hay]]. apply Nat.eqb_eq in Hay. subst y.
    split; [tauto|]. intros [[->|H] Hn]; [contradiction|tauto].
  - assert (Hna : ~ In a seen).
    { intros Hin. assert (existsb (Nat.eqb a) seen = true); [|congruence].
      apply existsb_exists. exists a. split; [exact Hin|apply Nat.eqb_refl]. }
    cbn. rewrite IH. cbn. split.
    + intros [->|[H Hn]]; [tauto|]. split; [tauto|]. intros Hs. apply Hn. right; exact Hs.
    + intros [[->|H] Hn]; [left; reflexivity|]. destruct (Nat.eq_dec a x) as [->|Hne]; [left; reflexivity|].
      right. split; [exact H|]. intros [Heq|Hs]; [contradiction|contradiction].
Qed.

Lemma union_flat P pieces : (forall x, In x pieces -> FO P x) -> forall y,
  In y (flat_map (fun id => match lookup_type P id with Some (TUnion variants) => variants | _ => [id] end) pieces) <->
  exists x, In x pieces /\ In y (get_type_variants P x).
Proof.
  intros Hfo y. rewrite in_flat_map.
  enough (forall x, In x pieces ->
            match lookup_type P x with Some (TUnion variants) => variants | _ => [x] end = get_type_variants P x) as E
    by (split; intros (x & Hx & Hy); exists x; (split; [exact Hx|]); [rewrite <- (E x Hx)|rewrite (E x Hx)]; exact Hy).
  intros x Hx. unfold get_type_variants. destruct (Hfo x Hx); match goal with H : lookup_type _ _ = _ |- _ => rewrite H end; reflexivity.
Qed.

Lemma union_type_ids_keeps P pieces P' r :
  (forall x, In x pieces -> FO P x) ->
  union_type_ids P pieces = (P', r) ->
  extends P P' /\ FO P' r /\
  (forall n v x, In x pieces -> inhab P n [] v x -> inhab P' n [] v r).
Proof.
  intros Hfo H. unfold union_type_ids in H. pose proof (union_flat P pieces Hfo) as Hflat.
  set (flat := flat_map (fun id => match lookup_type P id with Some (TUnion variants) => variants | _ => [id] end) pieces) in *.
  assert (Hflat_fo : forall y, In y flat -> FO P y).
  { intros y Hy. apply Hflat in Hy. destruct Hy as (x & Hx & Hy). exact (variants_FO P x (Hfo x Hx) y Hy). }
  assert (Hflat_cov : forall n v x, In x pieces -> inhab P n [] v x -> exists y, In y flat /\ inhab P n [] v y).
  { intros n v x Hx Hv. destruct (variants_cover P x n v (Hfo x Hx) Hv) as [y [Hy Hvy]].
    exists y. split; [apply Hflat; eauto|exact Hvy]. }
  assert (Huniq : forall y, In y (dedup [] flat) <-> In y flat).
  { intros y. rewrite In_dedup. cbn. tauto. }
  destruct (dedup [] flat) as [|u1 [|u2 us]] eqn:Hd.
  - (* no piece at all: never *)
    destruct (never_spec _ _ _ H) as [He Hl]. split; [exact He|]. split; [apply FO_never; exact Hl|].
    intros n v x Hx Hv. destruct (Hflat_cov n v x Hx Hv) as [y [Hy _]]. apply Huniq in Hy. destruct Hy.
  - (* a single piece: returned as it is *)
    inversion H; subst. split; [apply extends_refl|]. split; [apply Hflat_fo; apply Huniq; left; reflexivity|].
    intros n v x Hx Hv. destruct (Hflat_cov n v x Hx Hv) as [y [Hy Hvy]]. apply Huniq in Hy.
    destruct Hy as [<-|[]]. exact Hvy.
  - destruct (register_type_spec _ _ _ _ H) as [He Hl]. split; [exact He|].
    assert (Hfo' : forall y, In y (u1 :: u2 :: us) -> FO P' y).
    { intros y Hy. eapply FO_extends; [exact He|]. apply Hflat_fo. apply Huniq. exact Hy. }
    split; [eapply FO_union; [exact Hl|exact Hfo']|].
    intros n v x Hx Hv. destruct (Hflat_cov n v x Hx Hv) as [y [Hy Hvy]]. apply Huniq in Hy.
    destruct n; [destruct Hv|]. cbn [inhab]. eapply Inh_union; [exact Hl|exact Hy|].
    apply (FO_env P' (S n) y [] [r] v (Hfo' y Hy)).
    eapply mem_extends; [exact He|apply Hflat_fo; apply Huniq; exact Hy|exact Hvy].
Qed.

(* intersect_types / intersect_pair and compute_complement / subtract_one are mutual fixpoints that hand
   each other on unapplied (`isect_fields (intersect_types f)`): `cbn` unfolds one step but cannot fold the
   partner back, and the hypotheses become unreadable.  The equations below state one unfolding of each
   instead (all by reflexivity); for the same reason the three tests they call stay folded. *)
Arguments types_overlap : simpl never.
Arguments is_compatible : simpl never.
Arguments cyclic : simpl never.

Section Unfold.
  Variable cfg : rel_cfg.
  Variable rel_fuel : nat.

  Lemma intersect_types_S f P a b :
    intersect_types cfg rel_fuel (S f) P a b =
    let '(P0, never_id) := never P in
    match isect_outer (intersect_pair cfg rel_fuel f) never_id (get_type_variants P b) P0 [] (get_type_variants P a) with
    | None => None
    | Some (P1, pieces) => Some (union_type_ids P1 pieces)
    end.
  Proof. reflexivity. Qed.

  Lemma intersect_pair_S f P a b :
    intersect_pair cfg rel_fuel (S f) P a b =
    if Nat.eqb a b then Some (P, a) else
    let '(P0, never_id) := never P in
    match lookup_type P0 a, lookup_type P0 b with
    | Some ta, Some tb =>
      match ta, tb with
      | TVariable _, _ => Some (P0, a)
      | _, TVariable _ => Some (P0, a)
      | TCycle _, _ => Some (P0, a)
      | _, TCycle _ => Some (P0, a)
      | TInteger, TInteger => Some (P0, a)
      | TBinary, TBinary => Some (P0, a)
      | TReference, TReference => Some (P0, a)
      | TTuple id1, TTuple id2 =>
        match lookup_tuple P0 id1, lookup_tuple P0 id2 with
        | Some i1, Some i2 =>
          if negb (opt_eqb (tname i1) (tname i2)) || negb (Nat.eqb (length (tfields i1)) (length (tfields i2)))
          then Some (P0, never_id)
          else
            match isect_fields (intersect_types cfg rel_fuel f) P0 [] (tfields i1) (tfields i2) with
            | None => None
            | Some (P1, None) => Some (P1, never_id)
            | Some (P1, Some fields) =>
              let '(P2, tuple_id) := register_tuple P1 (tname i1) fields in
              Some (register_type P2 (TTuple tuple_id))
            end
        | _, _ => Some (P0, never_id)
        end
        (* fix_F25b: `if !contains_cycle(a) && !contains_cycle(b)` guards both arms *)
        | TCallable p1 r1 c1, TCallable p2 r2 c2 =>
          let default :=
            match types_overlap cfg rel_fuel P0 a b with
            | None => None
            | Some true => Some (P0, a)
            | Some false => Some (P0, never_id)
            end in
          if negb current_meet_callable then default else
          match cyclic cfg rel_fuel P0 a with
          | None => None
          | Some ca =>
          match (if ca then Some true else cyclic cfg rel_fuel P0 b) with
          | None => None
          | Some true => default
          | Some false =>
            match is_compatible cfg rel_fuel P0 a b with
            | None => None
            | Some true => Some (P0, a)
            | Some false =>
            match is_compatible cfg rel_fuel P0 b a with
            | None => None
            | Some true => Some (P0, b)
            | Some false =>
              let '(P1, parameter) := union_type_ids P0 [p1; p2] in
              match intersect_types cfg rel_fuel f P1 r1 r2 with
              | None => None
              | Some (P2, result) =>
                let '(P3, receive) := union_type_ids P2 [c1; c2] in
                Some (register_type P3 (TCallable parameter result receive))
              end
            end end
          end end
        | TProcess s1 r1, TProcess s2 r2 =>
          let default :=
            match types_overlap cfg rel_fuel P0 a b with
            | None => None
            | Some true => Some (P0, a)
            | Some false => Some (P0, never_id)
            end in
          if negb current_meet_callable then default else
          match cyclic cfg rel_fuel P0 a with
          | None => None
          | Some ca =>
          match (if ca then Some true else cyclic cfg rel_fuel P0 b) with
          | None => None
          | Some true => default
          | Some false =>
            match is_compatible cfg rel_fuel P0 a b with
            | None => None
            | Some true => Some (P0, a)
            | Some false =>
            match is_compatible cfg rel_fuel P0 b a with
            | None => None
            | Some true => Some (P0, b)
            | Some false =>
              (* meet(x, y): both known => intersect; one unknown => the other; none => unknown *)
              let meet (P : registry) (x y : option nat) : option (registry * option nat) :=
                match x, y with
                | Some x, Some y => match intersect_types cfg rel_fuel f P x y with
                                    | None => None
                                    | Some (P', m) => Some (P', Some m)
                                    end
                | Some x, None => Some (P, Some x)
                | None, Some y => Some (P, Some y)
                | None, None => Some (P, None)
                end in
              match meet P0 s1 s2 with
              | None => None
              | Some (P1, send) =>
                match meet P1 r1 r2 with
                | None => None
                | Some (P2, receive) => Some (register_type P2 (TProcess send receive))
                end
              end
            end end
          end end
      | _, _ =>
        match types_overlap cfg rel_fuel P0 a b with
        | None => None
        | Some true => Some (P0, a)
        | Some false => Some (P0, never_id)
        end
      end
    | _, _ => Some (P0, never_id)
    end.
  Proof. reflexivity. Qed.

  Lemma compute_complement_S f P o nr :
    compute_complement cfg rel_fuel (S f) P o nr =
    match compl_per_nv (subtract_one cfg rel_fuel f) P (get_type_variants P o) (get_type_variants P nr) with
    | None => None
    | Some (P1, pieces) => Some (union_type_ids P1 pieces)
    end.
  Proof. reflexivity. Qed.

  Definition is_cycle_ty (t : ty) : bool := match t with TCycle _ => true | _ => false end.

  Lemma subtract_one_S f P a b :
    subtract_one cfg rel_fuel (S f) P a b =
    if Nat.eqb a b then Some (P, []) else
    match lookup_type P a, lookup_type P b with
    | Some ta, Some tb =>
      if is_cycle_ty ta || is_cycle_ty tb then Some (P, [a]) else
      match cyclic cfg rel_fuel P a with
      | None => None
      | Some ca =>
      match (if ca then Some true else cyclic cfg rel_fuel P b) with
      | None => None
      | Some cyc =>
        match (if cyc then Some None else
               match is_compatible cfg rel_fuel P a b with
               | None => None
               | Some true => Some (Some [])
               | Some false =>
                 match types_overlap cfg rel_fuel P a b with
                 | None => None
                 | Some false => Some (Some [a])
                 | Some true => Some None
                 end
               end) with
        | None => None
        | Some (Some early) => Some (P, early)
        | Some None =>
          let '(P0, never_id) := never P in
          match ta, tb with
          | TTuple id1, TTuple id2 =>
            match lookup_tuple P0 id1, lookup_tuple P0 id2 with
            | Some i1, Some i2 =>
              if negb (opt_eqb (tname i1) (tname i2))
                 || negb (Nat.eqb (length (tfields i1)) (length (tfields i2)))
                 || existsb (fun ab => negb (opt_eqb (fst (fst ab)) (fst (snd ab)))) (combine (tfields i1) (tfields i2))
              then Some (P0, [a])
              else compl_fields (compute_complement cfg rel_fuel f) never_id (tname i1) (tfields i1) P0 [] 0
                                (tfields i1) (tfields i2)
            | _, _ => Some (P0, [a])
            end
          | _, _ => Some (P0, [a])
          end
        end
      end end
    | _, _ => Some (P, [a])
    end.
  Proof. reflexivity. Qed.

End Unfold.

(* The first operand is first-order; the second (the pattern) ranges over a domain `Dom` of its own —
   the first-order types here, the partial types with first-order fields in NarrowPartial —, the
   values over `W`. *)
Section IntersectLoops.
  Variable Dom : registry -> nat -> Prop.
  Variable W : value -> Prop.
  Hypothesis Dom_extends : forall P P' b, extends P P' -> Dom P b -> Dom P' b.

  Definition ISpecOn (f : registry -> nat -> nat -> option (registry * nat)) : Prop :=
    forall P a b P' r, f P a b = Some (P', r) -> FO P a -> Dom P b ->
      extends P P' /\ FO P' r /\
      (forall n v, W v -> inhab P n [] v a -> inhab P n [] v b -> inhab P' n [] v r).

  Variable ipair : registry -> nat -> nat -> option (registry * nat).
  Hypothesis Hpair : ISpecOn ipair.

  Lemma isect_inner_spec nid av : forall bvs P pieces P1 pieces1,
    isect_inner ipair nid P pieces av bvs = Some (P1, pieces1) ->
    lookup_type P nid = Some (TUnion []) -> FO P av ->
    (forall bv, In bv bvs -> Dom P bv) -> (forall x, In x pieces -> FO P x) ->
    extends P P1 /\ (forall x, In x pieces1 -> FO P1 x) /\ (forall x, In x pieces -> In x pieces1) /\
    (forall n v bv, W v -> In bv bvs -> inhab P n [] v av -> inhab P n [] v bv ->
                    exists x, In x pieces1 /\ inhab P1 n [] v x).
  Proof.
    induction bvs as [|bv bvs IH]; intros P pieces P1 pieces1 H Hnid Hav Hbvs Hpieces; cbn in H.
    - inv H. split; [apply extends_refl|]. split; [exact Hpieces|]. split; [auto|]. intros n v bv _ [].
    - destruct (ipair P av bv) as [[P' piece]|] eqn:Hp; [|discriminate].
      destruct (Hpair P av bv P' piece Hp Hav (Hbvs bv (or_introl eq_refl))) as (He & Hfo & Hkeep).
      set (pieces' := if Nat.eqb piece nid then pieces else pieces ++ [piece]) in *.
      assert (Hpieces' : forall x, In x pieces' -> FO P' x).
      { intros x Hx. unfold pieces' in Hx. destruct (Nat.eqb piece nid).
        - eapply FO_extends; [exact He|apply Hpieces; exact Hx].
        - apply in_app_or in Hx. destruct Hx as [Hx|[<-|[]]]; [eapply FO_extends; [exact He|apply Hpieces; exact Hx]|exact Hfo]. }
      destruct (IH P' pieces' P1 pieces1 H (proj1 He nid _ Hnid) (FO_extends _ _ _ He Hav)
                   (fun x Hx => Dom_extends _ _ _ He (Hbvs x (or_intror Hx))) Hpieces') as (He2 & Hfo2 & Hinc & Hcov).
      split; [eapply extends_trans; eassumption|]. split; [exact Hfo2|]. split.
      + intros x Hx. apply Hinc. unfold pieces'. destruct (Nat.eqb piece nid); [exact Hx|apply in_or_app; left; exact Hx].
      + intros n v bv0 Hw [<-|Hin] Hva Hvb.
        * pose proof (Hkeep n v Hw Hva Hvb) as Hvp.
          destruct (Nat.eqb piece nid) eqn:En.
          { apply Nat.eqb_eq in En. subst piece. exfalso. eapply never_uninhabited; [apply (proj1 He nid _ Hnid)|exact Hvp]. }
          exists piece. split; [apply Hinc; unfold pieces'; rewrite ?En; cbv iota; apply in_or_app; right; left; reflexivity|].
          eapply mem_extends; [exact He2|exact Hfo|exact Hvp].
        * apply (Hcov n v bv0 Hw Hin); [eapply mem_extends; [exact He|exact Hav|exact Hva]|].
          (* the pattern need not be first-order, but the value is: it belongs to av *)
          eapply inhab_extends; [exact He|eapply fov_of_FO; [exact Hav|exact Hva]|exact Hvb].
  Qed.

  Lemma isect_outer_spec nid bvs : forall avs P pieces P1 pieces1,
    isect_outer ipair nid bvs P pieces avs = Some (P1, pieces1) ->
    lookup_type P nid = Some (TUnion []) ->
    (forall av, In av avs -> FO P av) -> (forall bv, In bv bvs -> Dom P bv) -> (forall x, In x pieces -> FO P x) ->
    extends P P1 /\ (forall x, In x pieces1 -> FO P1 x) /\ (forall x, In x pieces -> In x pieces1) /\
    (forall n v av bv, W v -> In av avs -> In bv bvs -> inhab P n [] v av -> inhab P n [] v bv ->
                       exists x, In x pieces1 /\ inhab P1 n [] v x).
  Proof.
    induction avs as [|av avs IH]; intros P pieces P1 pieces1 H Hnid Havs Hbvs Hpieces; cbn in H.
    - inv H. split; [apply extends_refl|]. split; [exact Hpieces|]. split; [auto|]. intros n v av bv _ [].
    - destruct (isect_inner ipair nid P pieces av bvs) as [[P' pieces']|] eqn:Hin; [|discriminate].
      destruct (isect_inner_spec nid av bvs P pieces P' pieces' Hin Hnid (Havs av (or_introl eq_refl)) Hbvs Hpieces)
        as (He & Hfo & Hinc & Hcov).
      destruct (IH P' pieces' P1 pieces1 H (proj1 He nid _ Hnid)
                   (fun x Hx => FO_extends _ _ _ He (Havs x (or_intror Hx)))
                   (fun x Hx => Dom_extends _ _ _ He (Hbvs x Hx)) Hfo) as (He2 & Hfo2 & Hinc2 & Hcov2).
      split; [eapply extends_trans; eassumption|]. split; [exact Hfo2|]. split; [intros x Hx; apply Hinc2; apply Hinc; exact Hx|].
      intros n v av0 bv Hw [<-|Ha] Hb Hva Hvb.
      + destruct (Hcov n v bv Hw Hb Hva Hvb) as [x [Hx Hvx]]. exists x. split; [apply Hinc2; exact Hx|].
        eapply mem_extends; [exact He2|apply Hfo; exact Hx|exact Hvx].
      + pose proof (Havs av0 (or_intror Ha)) as Hav0.
        apply (Hcov2 n v av0 bv Hw Ha Hb); [eapply mem_extends; [exact He|exact Hav0|exact Hva]|].
        eapply inhab_extends; [exact He|eapply fov_of_FO; [exact Hav0|exact Hva]|exact Hvb].
  Qed.
End IntersectLoops.

Lemma intersect_types_on (Dom : registry -> nat -> Prop) W cfg rel_fuel f :
  (forall P P' b, extends P P' -> Dom P b -> Dom P' b) ->
  (forall P b x, Dom P b -> In x (get_type_variants P b) -> Dom P x) ->
  (forall P b n v, Dom P b -> inhab P n [] v b -> exists x, In x (get_type_variants P b) /\ inhab P n [] v x) ->
  ISpecOn Dom W (intersect_pair cfg rel_fuel f) -> ISpecOn Dom W (intersect_types cfg rel_fuel (S f)).
Proof.
  intros Dom_extends Dom_variants Dom_cover IHp P a b P' r H Ha Hb. rewrite intersect_types_S in H.
  destruct (never P) as [P0 nid] eqn:Hn. destruct (never_spec _ _ _ Hn) as [He0 Hlnid].
  destruct (isect_outer (intersect_pair cfg rel_fuel f) nid (get_type_variants P b) P0 [] (get_type_variants P a))
    as [[P1 pieces]|] eqn:Ho; [|discriminate H]. injection H as H.
  destruct (isect_outer_spec Dom W Dom_extends _ IHp nid (get_type_variants P b) (get_type_variants P a) P0 [] P1 pieces Ho Hlnid
              (fun x Hx => FO_extends _ _ _ He0 (variants_FO P a Ha x Hx))
              (fun x Hx => Dom_extends _ _ _ He0 (Dom_variants P b x Hb Hx))
              (fun x (Hx : In x []) => match Hx with end)) as (He1 & Hfo1 & _ & Hcov).
  destruct (union_type_ids_keeps P1 pieces P' r Hfo1 H) as (He2 & Hfor & Hkeep).
  split; [eapply extends_trans; [exact He0|eapply extends_trans; eassumption]|]. split; [exact Hfor|].
  intros n v Hw Hva Hvb.
  destruct (variants_cover P a n v Ha Hva) as [av [Hav Hvav]].
  destruct (Dom_cover P b n v Hb Hvb) as [bv [Hbv Hvbv]].
  destruct (Hcov n v av bv Hw Hav Hbv
              (mem_extends _ _ _ _ _ He0 (variants_FO P a Ha av Hav) Hvav)
              (inhab_extends _ _ He0 n [] v bv (fov_of_FO P n a Ha [] v Hva) Hvbv)) as [x [Hx Hvx]].
  eapply Hkeep; eassumption.
Qed.

Definition ISpec := ISpecOn FO (fun _ => True).

Section IntersectFields.
  Variable itypes : registry -> nat -> nat -> option (registry * nat).
  Hypothesis Htypes : ISpec itypes.

  Lemma isect_fields_spec : forall fs1 fs2 P acc P1 res,
    isect_fields itypes P acc fs1 fs2 = Some (P1, res) ->
    (forall f, In f fs1 -> FO P (snd f)) -> (forall f, In f fs2 -> FO P (snd f)) ->
    length fs1 = length fs2 ->
    extends P P1 /\
    match res with
    | Some fields =>
      exists new, fields = acc ++ new /\ (forall f, In f new -> FO P1 (snd f)) /\
        (forall n vs, Forall2 (field_ok (inhab P n [])) fs1 vs -> Forall2 (field_ok (inhab P n [])) fs2 vs ->
                      Forall2 (field_ok (inhab P1 n [])) new vs)
    | None =>
      forall n vs, Forall2 (field_ok (inhab P n [])) fs1 vs -> Forall2 (field_ok (inhab P n [])) fs2 vs -> False
    end.
  Proof.
    induction fs1 as [|[name f1] fs1 IH]; intros [|[n2 f2] fs2] P acc P1 res H Hfo1 Hfo2 Hlen; cbn in H, Hlen; try discriminate.
    - inv H. split; [apply extends_refl|]. exists []. split; [rewrite app_nil_r; reflexivity|]. split; [intros f []|].
      intros n vs H1 _. inv H1. constructor.
    - destruct (itypes P f1 f2) as [[P' fi]|] eqn:Hi; [|discriminate].
      destruct (Htypes P f1 f2 P' fi Hi (Hfo1 (name, f1) (or_introl eq_refl)) (Hfo2 (n2, f2) (or_introl eq_refl))) as (He & Hfi & Hkeep).
      destruct (never P') as [P'' nv] eqn:Hnv. destruct (never_spec _ _ _ Hnv) as [He' Hlnv].
      assert (He2 : extends P P'') by (eapply extends_trans; eassumption).
      destruct (Nat.eqb fi nv) eqn:En.
      + inv H. split; [exact He2|]. intros n vs H1 H2. inv H1. inv H2.
        repeat match goal with Hok : field_ok _ _ _ |- _ => destruct Hok as [? ?] end. cbn in *.
        apply Nat.eqb_eq in En. subst fi.
        eapply never_uninhabited; [exact Hlnv|]. eapply mem_extends; [exact He'|exact Hfi|]. eapply (Hkeep _ _ I); eassumption.
      + destruct (IH fs2 P'' (acc ++ [(name, fi)]) P1 res H
                     (fun f Hf => FO_extends _ _ _ He2 (Hfo1 f (or_intror Hf)))
                     (fun f Hf => FO_extends _ _ _ He2 (Hfo2 f (or_intror Hf))) ltac:(lia)) as (He3 & Hres).
        split; [eapply extends_trans; eassumption|].
        destruct res as [fields|].
        * destruct Hres as (new & Hfields & Hnew_fo & Hnew).
          exists ((name, fi) :: new). split; [rewrite Hfields, <- app_assoc; reflexivity|]. split.
          { intros f [<-|Hf]; [cbn; eapply FO_extends; [exact He3|]; eapply FO_extends; [exact He'|exact Hfi]|apply Hnew_fo; exact Hf]. }
          intros n vs H1 H2. inv H1. inv H2.
          match goal with Ha : field_ok _ (name, f1) ?y, Hb : field_ok _ (n2, f2) ?y |- _ =>
            destruct Ha as [Hl1 Hr1]; destruct Hb as [Hl2 Hr2] end. cbn in *.
          constructor.
          { split; [exact Hl1|]. cbn. eapply mem_extends; [exact He3|eapply FO_extends; [exact He'|exact Hfi]|].
            eapply mem_extends; [exact He'|exact Hfi|]. eapply (Hkeep _ _ I); eassumption. }
          apply Hnew.
          { eapply fields_extend; [exact He2|intros f Hf; apply Hfo1; right; exact Hf|eassumption]. }
          { eapply fields_extend; [exact He2|intros f Hf; apply Hfo2; right; exact Hf|eassumption]. }
        * intros n vs H1 H2. inv H1. inv H2. eapply Hres.
          { eapply fields_extend; [exact He2|intros f Hf; apply Hfo1; right; exact Hf|eassumption]. }
          { eapply fields_extend; [exact He2|intros f Hf; apply Hfo2; right; exact Hf|eassumption]. }
  Qed.
End IntersectFields.

Section IntersectMain.
  Variable cfg : rel_cfg.
  Variable rel_fuel : nat.

  Lemma overlap_false_no_common P a b n v :
    types_overlap cfg rel_fuel P a b = Some false -> FO P a -> FO P b ->
    inhab P n [] v a -> inhab P n [] v b -> False.
  Proof.
    intros H Ha Hb Hva Hvb. enough (false = true) by discriminate.
    apply (overlap_complete_on_FO cfg P rel_fuel a b false Ha Hb H). exists n, v. auto.
  Qed.

  Lemma tuples_share_shape P a b id1 id2 i1 i2 n v :
    lookup_type P a = Some (TTuple id1) -> lookup_type P b = Some (TTuple id2) ->
    lookup_tuple P id1 = Some i1 -> lookup_tuple P id2 = Some i2 ->
    inhab P n [] v a -> inhab P n [] v b ->
    exists m vs, n = S m /\ v = VTup (tname i1) vs /\ tname i1 = tname i2 /\
                 Forall2 (field_ok (inhab P m [])) (tfields i1) vs /\
                 Forall2 (field_ok (inhab P m [])) (tfields i2) vs.
  Proof.
    intros Hla Hlb Ht1 Ht2 Hva Hvb. destruct n; [destruct Hva|].
    destruct (inhab_inv _ _ _ _ _ _ Hva Hla) as (i1' & vs & Ht1' & -> & HF1).
    destruct (inhab_inv _ _ _ _ _ _ Hvb Hlb) as (i2' & vs' & Ht2' & Hv & HF2).
    rewrite Ht1 in Ht1'. rewrite Ht2 in Ht2'. injection Ht1' as <-. injection Ht2' as <-. injection Hv as Hn <-.
    exists n, vs. auto.
  Qed.

  Theorem intersect_spec : forall fuel,
    ISpec (intersect_types cfg rel_fuel fuel) /\ ISpec (intersect_pair cfg rel_fuel fuel).
  Proof.
    induction fuel as [|f [IHt IHp]]; [split; intros P a b P' r H; cbn in H; discriminate H|].
    split.
    - apply intersect_types_on; [exact FO_extends|intros P b x Hb; exact (variants_FO P b Hb x)|intros P b n v; exact (variants_cover P b n v)|exact IHp].
    - (* intersect_pair *)
      intros P a b P' r H Ha Hb.
      enough (extends P P' /\ FO P' r /\ (forall n v, inhab P n [] v a -> inhab P n [] v b -> inhab P' n [] v r)) as (He & Hf & Hk)
        by (split; [exact He|split; [exact Hf|intros n v _; apply Hk]]).
      rewrite intersect_pair_S in H.
      destruct (Nat.eqb a b) eqn:Eab.
      { injection H as HP Hr; subst P' r. split; [apply extends_refl|]. split; [exact Ha|]. intros n v Hva _. exact Hva. }
      destruct (never P) as [P0 nid] eqn:Hn. destruct (never_spec _ _ _ Hn) as [He0 Hlnid].
      pose proof (FO_extends _ _ _ He0 Ha) as Ha0. pose proof (FO_extends _ _ _ He0 Hb) as Hb0.
      assert (Hkeep_a : extends P P0 /\ FO P0 a /\ (forall n v, inhab P n [] v a -> inhab P n [] v b -> inhab P0 n [] v a)).
      { split; [exact He0|]. split; [exact Ha0|]. intros n v Hva _. eapply mem_extends; eassumption. }
      assert (Hnever : (forall n v, inhab P0 n [] v a -> inhab P0 n [] v b -> False) ->
                       extends P P0 /\ FO P0 nid /\ (forall n v, inhab P n [] v a -> inhab P n [] v b -> inhab P0 n [] v nid)).
      { intros Hno. split; [exact He0|]. split; [apply FO_never; exact Hlnid|]. intros n v Hva Hvb. exfalso.
        eapply Hno; eapply mem_extends; eassumption. }
      assert (Hdefault :
                 match types_overlap cfg rel_fuel P0 a b with
                 | Some true => Some (P0, a) | Some false => Some (P0, nid) | None => None end = Some (P', r) ->
                 extends P P' /\ FO P' r /\ (forall n v, inhab P n [] v a -> inhab P n [] v b -> inhab P' n [] v r)).
      { intros Hd. destruct (types_overlap cfg rel_fuel P0 a b) as [[|]|] eqn:Hov; [injection Hd as HP Hr; subst P' r|injection Hd as HP Hr; subst P' r|discriminate Hd].
        - exact Hkeep_a.
        - apply Hnever. intros n v Hva Hvb. eapply overlap_false_no_common; eassumption. }
      destruct (lookup_type P0 a) as [ta|] eqn:Hla; [|destruct Ha0; congruence].
      destruct (lookup_type P0 b) as [tb|] eqn:Hlb; [|destruct Hb0; congruence].
      pose proof (FO_inv _ _ _ Ha0 Hla) as Ia. pose proof (FO_inv _ _ _ Hb0 Hlb) as Ib.
      destruct ta as [| | |tid1| | | | | | |]; try contradiction; destruct tb as [| | |tid2| | | | | | |]; try contradiction;
        try (apply Hdefault; exact H);
        try (injection H as HP Hr; subst P' r; exact Hkeep_a).
      (* tuple / tuple *)
      destruct Ia as (info1 & Ht1 & Hfs1). destruct Ib as (info2 & Ht2 & Hfs2). rewrite Ht1, Ht2 in H.
      destruct (negb (opt_eqb (tname info1) (tname info2)) || negb (length (tfields info1) =? length (tfields info2))) eqn:Eshape.
      { injection H as HP Hr; subst P' r. apply Hnever. intros n v Hva Hvb.
        destruct (tuples_share_shape P0 a b tid1 tid2 info1 info2 n v Hla Hlb Ht1 Ht2 Hva Hvb) as (m & vs & _ & _ & Hnm & HF1 & HF2).
        apply orb_true_iff in Eshape. destruct Eshape as [E|E]; apply negb_true_iff in E.
        - rewrite Hnm, opt_eqb_refl in E. discriminate.
        - apply Nat.eqb_neq in E. apply E. rewrite (Forall2_len _ _ _ HF1), (Forall2_len _ _ _ HF2). reflexivity. }
      apply orb_false_iff in Eshape. destruct Eshape as [En El]. apply negb_false_iff in En. apply negb_false_iff in El.
      apply opt_eqb_eq in En. apply Nat.eqb_eq in El.
      destruct (isect_fields (intersect_types cfg rel_fuel f) P0 [] (tfields info1) (tfields info2)) as [[P1 res]|] eqn:Hf; [|cbn in H; discriminate H].
      destruct (isect_fields_spec _ IHt (tfields info1) (tfields info2) P0 [] P1 res Hf Hfs1 Hfs2 El) as (He1 & Hres).
      destruct res as [fields|].
      + destruct Hres as (new & Hfields & Hnew_fo & Hnew). cbn in Hfields. subst fields.
        destruct (register_tuple P1 (tname info1) new) as [P2 tuple_id] eqn:Hrt.
        destruct (register_tuple_spec _ _ _ _ _ Hrt) as [He2 Hlt].
        injection H as H. destruct (register_type_spec _ _ _ _ H) as [He3 Hlr].
        split; [eapply extends_trans; [exact He0|eapply extends_trans; [exact He1|eapply extends_trans; eassumption]]|].
        assert (He23 : extends P1 P') by (eapply extends_trans; eassumption).
        split.
        * eapply FO_tuple; [exact Hlr|apply (proj2 He3); exact Hlt|]. cbn. intros fl Hfl. eapply FO_extends; [exact He23|apply Hnew_fo; exact Hfl].
        * intros n v Hva Hvb.
          destruct (tuples_share_shape P0 a b tid1 tid2 info1 info2 n v Hla Hlb Ht1 Ht2
                      (mem_extends _ _ _ _ _ He0 Ha Hva) (mem_extends _ _ _ _ _ He0 Hb Hvb)) as (m & vs & -> & -> & _ & HF1 & HF2).
          cbn [inhab]. change (tname info1) with (tname (mk_tuple (tname info1) new)).
          eapply Inh_tuple; [exact Hlr|apply (proj2 He3); exact Hlt|]. cbn.
          eapply Forall2_field_ok_impl; [|apply (Hnew m vs HF1 HF2)].
          intros fl fv Hfl Hr. eapply mem_extends; [exact He23|apply Hnew_fo; exact Hfl|exact Hr].
      + injection H as HP Hr; subst P' r. split; [eapply extends_trans; eassumption|]. split; [apply FO_never; apply (proj1 He1); exact Hlnid|].
        intros n v Hva Hvb. exfalso.
        destruct (tuples_share_shape P0 a b tid1 tid2 info1 info2 n v Hla Hlb Ht1 Ht2
                    (mem_extends _ _ _ _ _ He0 Ha Hva) (mem_extends _ _ _ _ _ He0 Hb Hvb)) as (m & vs & _ & _ & _ & HF1 & HF2).
        eapply Hres; eassumption.
  Qed.
End IntersectMain.

Theorem intersect_keeps_fo : forall cfg rel_fuel fuel P a b P' r,
  intersect_types cfg rel_fuel fuel P a b = Some (P', r) ->
  fo_domain P a = true -> fo_domain P b = true ->
  extends P P' /\ forall n v, inhab P n [] v a -> inhab P n [] v b -> inhab P' n [] v r.
Proof.
  intros cfg rel_fuel fuel P a b P' r H Da Db.
  destruct (proj1 (intersect_spec cfg rel_fuel fuel) P a b P' r H (fob_FO _ _ _ Da) (fob_FO _ _ _ Db)) as (He & _ & Hk).
  split; [exact He|intros n v; exact (Hk n v I)].
Qed.

(* membership in a first-order type of P is the same in every extension of P *)
Lemma mem_reflects P P' : extends P P' -> forall n t, FO P t -> forall E v, inhab P' n E v t -> inhab P n E v t.
Proof.
  intros [HT HU]. induction n as [|m IHm]; intros t Hfo E v H; [exact H|].
  revert E v H. induction Hfo as [t Hl|t Hl|t Hl|t r Hl|t vs Hl Hvs IH|t tid info Hl Ht Hfs IH]; intros E v H;
    cbn [inhab] in *; pose proof (HT _ _ Hl) as Hl'; inv H;
    try (match goal with H1 : lookup_type P' ?t = Some _ |- _ => rewrite Hl' in H1; inv H1 end).
  - apply Inh_int; exact Hl.
  - apply Inh_bin; exact Hl.
  - apply Inh_ref; exact Hl.
  - apply Inh_res; exact Hl.
  - eapply Inh_union; [exact Hl|eassumption|]. apply IH; assumption.
  - pose proof (HU _ _ Ht) as Ht'.
    match goal with H1 : lookup_tuple P' _ = Some ?i, H2 : Forall2 _ (tfields ?i) _ |- _ => rewrite Ht' in H1; inv H1 end.
    eapply Inh_tuple; [exact Hl|exact Ht|].
    eapply Forall2_field_ok_impl; [|eassumption]. intros f fv Hf Hr. eapply IHm; [apply Hfs; exact Hf|exact Hr].
Qed.

Lemma Forall2_field_ok_dec (R : value -> nat -> Prop) fs :
  (forall f, In f fs -> forall x, R x (snd f) \/ ~ R x (snd f)) ->
  forall vs, Forall2 (field_ok R) fs vs \/ ~ Forall2 (field_ok R) fs vs.
Proof.
  induction fs as [|[l t] fs IH]; intros Hdec [|[l' x] vs].
  - left; constructor.
  - right; intros H; inversion H.
  - right; intros H; inversion H.
  - destruct (IH (fun f Hf => Hdec f (or_intror Hf)) vs) as [Hy|Hn].
    + destruct (Hdec (l, t) (or_introl eq_refl) x) as [Hx|Hx].
      * destruct (opt_eqb l l') eqn:El.
        { apply opt_eqb_eq in El. subst. left. constructor; [split; [reflexivity|exact Hx]|exact Hy]. }
        { right. intros H. inversion H; subst. match goal with Hok : field_ok _ _ _ |- _ => destruct Hok as [Hq _] end.
          cbn in Hq. subst. rewrite opt_eqb_refl in El. discriminate. }
      * right. intros H. inversion H; subst. match goal with Hok : field_ok _ _ _ |- _ => destruct Hok as [_ Hq] end. exact (Hx Hq).
    + right. intros H. inversion H; subst. exact (Hn ltac:(assumption)).
Qed.

(* compl_fields_spec goes along a tuple's fields by cases on whether the field value is in the narrowed field type *)
Lemma mem_dec P : forall n t, FO P t -> forall E v, inhab P n E v t \/ ~ inhab P n E v t.
Proof.
  induction n as [|m IHm]; intros t Hfo E v; [right; intros H; exact H|].
  revert E v. induction Hfo as [t Hl|t Hl|t Hl|t r Hl|t vs Hl Hvs IH|t tid info Hl Ht Hfs IH]; intros E v.
  (* a value with the wrong head is excluded by inhab_shape *)
  - destruct v; try (right; intros H; discriminate (inhab_shape P _ _ _ _ _ H Hl)). left. apply Inh_int; exact Hl.
  - destruct v; try (right; intros H; discriminate (inhab_shape P _ _ _ _ _ H Hl)). left. apply Inh_bin; exact Hl.
  - destruct v; try (right; intros H; discriminate (inhab_shape P _ _ _ _ _ H Hl)). left. apply Inh_ref; exact Hl.
  - destruct v as [| | | | | |r']; try (right; intros H; discriminate (inhab_shape P _ _ _ _ _ H Hl)).
    destruct (Nat.eq_dec r r') as [->|Hne]; [left; apply Inh_res; exact Hl|].
    right. intros H. apply Hne, Nat.eqb_eq. exact (inhab_shape P _ _ _ _ _ H Hl).
  - (* union: one of finitely many variants *)
    assert (Hany : (exists u, In u vs /\ inhab P (S m) (t :: E) v u) \/ ~ (exists u, In u vs /\ inhab P (S m) (t :: E) v u)).
    { clear Hl. induction vs as [|u vs IHvs]; [right; intros [u [[] _]]|].
      destruct (IH u (or_introl eq_refl) (t :: E) v) as [Hy|Hn]; [left; exists u; split; [left; reflexivity|exact Hy]|].
      destruct (IHvs (fun x Hx => Hvs x (or_intror Hx)) (fun x Hx => IH x (or_intror Hx))) as [[w [Hw Hyw]]|Hn2].
      - left. exists w. split; [right; exact Hw|exact Hyw].
      - right. intros [w [[<-|Hw] Hyw]]; [exact (Hn Hyw)|apply Hn2; exists w; split; assumption]. }
    destruct Hany as [[u [Hu Hy]]|Hn]; [left; eapply Inh_union; eassumption|].
    right. intros H. exact (Hn (inhab_inv _ _ _ _ _ _ H Hl)).
  - destruct v as [| | |name fs| | |]; try (right; intros H; discriminate (inhab_shape P _ _ _ _ _ H Hl)).
    destruct (opt_eqb name (tname info)) eqn:En;
      [|right; intros H; destruct (tuple_value_inv _ _ _ _ _ _ _ _ Hl Ht H) as [-> _]; rewrite opt_eqb_refl in En; discriminate].
    apply opt_eqb_eq in En. subst name.
    destruct (Forall2_field_ok_dec (inhab P m E) (tfields info) (fun f Hf x => IHm (snd f) (Hfs f Hf) E x) fs) as [Hy|Hn];
      [left; eapply Inh_tuple; eassumption|right; intros H; exact (Hn (proj2 (tuple_value_inv _ _ _ _ _ _ _ _ Hl Ht H)))].
Qed.

(* what Program::register_* maintain when types are built bottom-up: ids topologically ordered,
   every Tuple type names an existing tuple entry, every tuple field names an existing type.
   The complement proofs carry it along only to have `topo` after every registration: the soundness of
   the `is_compatible` shortcut of subtract_one (check_sound) needs it. *)
Definition wfreg (P : registry) : Prop :=
  topo P /\
  (forall id tid, lookup_type P id = Some (TTuple tid) -> tid < length (tuples P)) /\
  (forall tid info f, lookup_tuple P tid = Some info -> In f (tfields info) -> snd f < length (types P)).

Definition wfregb (P : registry) : bool :=
  topob P
  && forallb (fun t => match t with TTuple tid => tid <? length (tuples P) | _ => true end) (types P)
  && forallb (fun info => forallb (fun f => snd f <? length (types P)) (tfields info)) (tuples P).

Lemma wfregb_wfreg P : wfregb P = true -> wfreg P.
Proof.
  unfold wfregb. intros H. apply andb_true_iff in H. destruct H as [H H3]. apply andb_true_iff in H. destruct H as [H1 H2].
  split; [apply topob_topo; exact H1|]. split.
  - intros id tid Hl. rewrite forallb_forall in H2. specialize (H2 (TTuple tid) (nth_error_In _ _ Hl)). apply Nat.ltb_lt. exact H2.
  - intros tid info f Hl Hf. rewrite forallb_forall in H3. specialize (H3 info (nth_error_In _ _ Hl)).
    rewrite forallb_forall in H3. apply Nat.ltb_lt. apply H3. exact Hf.
Qed.

Lemma lookup_lt P x t : lookup_type P x = Some t -> x < length (types P).
Proof. intros H. apply nth_error_Some. unfold lookup_type in H. congruence. Qed.

Lemma FO_lt P x : FO P x -> x < length (types P).
Proof. intros H. inversion H; eapply lookup_lt; eassumption. Qed.

Lemma position_lt {A} (pred : A -> bool) l i : position pred l = Some i -> i < length l.
Proof. intros H. destruct (position_spec _ _ _ H) as [x [Hx _]]. apply nth_error_Some. congruence. Qed.

Lemma nth_error_snoc {A} (l : list A) x i y :
  nth_error (l ++ [x]) i = Some y -> nth_error l i = Some y \/ (i = length l /\ y = x).
Proof.
  intros H. destruct (Nat.lt_ge_cases i (length l)) as [Hlt|Hge].
  - rewrite nth_error_app1 in H by exact Hlt. left; exact H.
  - rewrite nth_error_app2 in H by exact Hge. destruct (i - length l) eqn:E; cbn in H; [|destruct n; discriminate].
    injection H as <-. right. split; [lia|reflexivity].
Qed.

Lemma wf_register_type P t P' id :
  wfreg P -> register_type P t = (P', id) ->
  (forall c, In c (children P t) -> c < length (types P)) ->
  (forall tid, t = TTuple tid -> tid < length (tuples P)) ->
  wfreg P'.
Proof.
  intros (Htopo & Hw2 & Hw3) H Hch Htid. unfold register_type in H.
  destruct (position (ty_eqb t) (types P)) as [i|]; inv H; [repeat split; assumption|].
  assert (Hlk : forall x ty, lookup_type (mk_reg (tuples P) (types P ++ [t])) x = Some ty ->
                (lookup_type P x = Some ty) \/ (x = length (types P) /\ ty = t))
    by (intros x ty; apply nth_error_snoc).
  split; [|split].
  - intros x ty Hl c Hc. destruct (Hlk x ty Hl) as [Hold|[-> ->]].
    + apply (Htopo x ty Hold c). exact Hc.
    + apply Hch. exact Hc.
  - intros x tid Hl. cbn. destruct (Hlk x _ Hl) as [Hold|[-> Heq]]; [eapply Hw2; exact Hold|apply Htid; symmetry; exact Heq].
  - intros tid info f Hl Hf. cbn. rewrite app_length. cbn. pose proof (Hw3 tid info f Hl Hf). lia.
Qed.

Lemma wf_register_tuple P name fields P' tid :
  wfreg P -> register_tuple P name fields = (P', tid) ->
  (forall f, In f fields -> snd f < length (types P)) ->
  wfreg P' /\ tid < length (tuples P').
Proof.
  intros (Htopo & Hw2 & Hw3) H Hf. unfold register_tuple in H.
  destruct (position (tuple_eqb name fields) (tuples P)) as [i|] eqn:Hp; inv H.
  - split; [repeat split; assumption|]. eapply position_lt; exact Hp.
  - split; [|cbn; rewrite app_length; cbn; lia].
    assert (Hlt : forall t info, lookup_tuple (mk_reg (tuples P ++ [mk_tuple name fields]) (types P)) t = Some info ->
                  lookup_tuple P t = Some info \/ (t = length (tuples P) /\ info = mk_tuple name fields))
      by (intros t info; apply nth_error_snoc).
    split; [|split].
    + intros x ty Hl c Hc. change (lookup_type P x = Some ty) in Hl. apply (Htopo x ty Hl c).
      destruct ty; cbn in Hc |- *; try exact Hc.
      pose proof (Hw2 x _ Hl) as Hlt2. unfold lookup_tuple in *. cbn in Hc. rewrite nth_error_app1 in Hc by exact Hlt2. exact Hc.
    + intros x t Hl. cbn. rewrite app_length. cbn. change (lookup_type P x = Some (TTuple t)) in Hl. pose proof (Hw2 x t Hl). lia.
    + intros t info f Hl Hin. cbn. destruct (Hlt t info Hl) as [Hold|[_ ->]]; [eapply Hw3; eassumption|apply Hf; exact Hin].
Qed.

Lemma wf_never P P0 nid : wfreg P -> never P = (P0, nid) -> wfreg P0.
Proof. intros Hw H. eapply wf_register_type; [exact Hw|exact H|intros c []|intros tid Ht; discriminate]. Qed.

Lemma wf_union_type_ids P pieces P' r :
  wfreg P -> (forall x, In x pieces -> FO P x) -> union_type_ids P pieces = (P', r) -> wfreg P'.
Proof.
  intros Hw Hfo H. unfold union_type_ids in H.
  set (flat := flat_map (fun id => match lookup_type P id with Some (TUnion variants) => variants | _ => [id] end) pieces) in *.
  assert (Hflat : forall y, In y flat -> y < length (types P)).
  { intros y Hy. apply (union_flat P pieces Hfo) in Hy. destruct Hy as (x & Hx & Hy).
    apply FO_lt. exact (variants_FO P x (Hfo x Hx) y Hy). }
  destruct (dedup [] flat) as [|u1 [|u2 us]] eqn:Hd.
  - eapply wf_never; eassumption.
  - inv H. exact Hw.
  - eapply wf_register_type; [exact Hw|exact H| |intros tid Ht; discriminate].
    cbn. intros c Hc. apply Hflat. apply (In_dedup flat [] c). rewrite Hd. exact Hc.
Qed.

(* As for intersect_types, the narrowed operand ranges over a domain of its own, whose memberships
   later registrations do not change. *)
Section ComplementLoops.
  Variable Dom : registry -> nat -> Prop.
  Hypothesis Dom_extends : forall P P' b, extends P P' -> Dom P b -> Dom P' b.
  Hypothesis Dom_reflects : forall P P' b, extends P P' -> Dom P b ->
    forall n v, inhab P' n [] v b -> inhab P n [] v b.

  Definition CSpecOn (f : registry -> nat -> nat -> option (registry * nat)) : Prop :=
    forall P o nr P' r, f P o nr = Some (P', r) -> wfreg P -> FO P o -> Dom P nr ->
      extends P P' /\ wfreg P' /\ FO P' r /\
      (forall n v, inhab P n [] v o -> ~ inhab P n [] v nr -> inhab P' n [] v r).

  Definition SSpecOn (f : registry -> nat -> nat -> option (registry * list nat)) : Prop :=
    forall P a b P' out, f P a b = Some (P', out) -> wfreg P -> FO P a -> Dom P b ->
      extends P P' /\ wfreg P' /\ (forall x, In x out -> FO P' x) /\
      (forall n v, inhab P n [] v a -> ~ inhab P n [] v b -> exists x, In x out /\ inhab P' n [] v x).

  Section Loops.
    Variable sub1 : registry -> nat -> nat -> option (registry * list nat).
    Hypothesis Hsub : SSpecOn sub1.

    Lemma compl_per_piece_spec nv : forall pieces P next P1 next1,
      compl_per_piece sub1 P next pieces nv = Some (P1, next1) ->
      wfreg P -> Dom P nv -> (forall x, In x pieces -> FO P x) -> (forall x, In x next -> FO P x) ->
      extends P P1 /\ wfreg P1 /\ (forall x, In x next1 -> FO P1 x) /\ (forall x, In x next -> In x next1) /\
      (forall n v piece, In piece pieces -> inhab P n [] v piece -> ~ inhab P n [] v nv ->
                         exists x, In x next1 /\ inhab P1 n [] v x).
    Proof.
      induction pieces as [|piece pieces IH]; intros P next P1 next1 H Hw Hnv Hpieces Hnext; cbn in H.
      - inv H. split; [apply extends_refl|]. split; [exact Hw|]. split; [exact Hnext|]. split; [auto|]. intros n v p [].
      - destruct (sub1 P piece nv) as [[P' out]|] eqn:Hs; [|discriminate].
        destruct (Hsub P piece nv P' out Hs Hw (Hpieces piece (or_introl eq_refl)) Hnv) as (He & Hw' & Hout & Hcov).
        assert (Hnext' : forall x, In x (next ++ out) -> FO P' x).
        { intros x Hx. apply in_app_or in Hx. destruct Hx as [Hx|Hx]; [eapply FO_extends; [exact He|apply Hnext; exact Hx]|apply Hout; exact Hx]. }
        destruct (IH P' (next ++ out) P1 next1 H Hw' (Dom_extends _ _ _ He Hnv)
                     (fun x Hx => FO_extends _ _ _ He (Hpieces x (or_intror Hx))) Hnext') as (He2 & Hw2 & Hfo2 & Hinc & Hcov2).
        split; [eapply extends_trans; eassumption|]. split; [exact Hw2|]. split; [exact Hfo2|]. split.
        + intros x Hx. apply Hinc. apply in_or_app. left; exact Hx.
        + intros n v p [<-|Hp] Hvp Hnvn.
          * destruct (Hcov n v Hvp Hnvn) as [x [Hx Hvx]]. exists x. split; [apply Hinc; apply in_or_app; right; exact Hx|].
            eapply mem_extends; [exact He2|apply Hout; exact Hx|exact Hvx].
          * apply (Hcov2 n v p Hp).
            { eapply mem_extends; [exact He|apply Hpieces; right; exact Hp|exact Hvp]. }
            { intros Hc. apply Hnvn. eapply Dom_reflects; [exact He|exact Hnv|exact Hc]. }
    Qed.

    Lemma compl_per_nv_spec : forall nvs P pieces P1 pieces1,
      compl_per_nv sub1 P pieces nvs = Some (P1, pieces1) ->
      wfreg P -> (forall x, In x pieces -> FO P x) -> (forall nv, In nv nvs -> Dom P nv) ->
      extends P P1 /\ wfreg P1 /\ (forall x, In x pieces1 -> FO P1 x) /\
      (forall n v piece, In piece pieces -> inhab P n [] v piece -> (forall nv, In nv nvs -> ~ inhab P n [] v nv) ->
                         exists x, In x pieces1 /\ inhab P1 n [] v x).
    Proof.
      induction nvs as [|nv nvs IH]; intros P pieces P1 pieces1 H Hw Hpieces Hnvs; cbn in H.
      - inv H. split; [apply extends_refl|]. split; [exact Hw|]. split; [exact Hpieces|].
        intros n v piece Hp Hv _. exists piece. split; assumption.
      - destruct (compl_per_piece sub1 P [] pieces nv) as [[P' next]|] eqn:Hpp; [|discriminate].
        destruct (compl_per_piece_spec nv pieces P [] P' next Hpp Hw (Hnvs nv (or_introl eq_refl)) Hpieces
                    (fun x (Hx : In x []) => match Hx with end)) as (He & Hw' & Hfo & _ & Hcov).
        destruct (IH P' next P1 pieces1 H Hw' Hfo (fun x Hx => Dom_extends _ _ _ He (Hnvs x (or_intror Hx)))) as (He2 & Hw2 & Hfo2 & Hcov2).
        split; [eapply extends_trans; eassumption|]. split; [exact Hw2|]. split; [exact Hfo2|].
        intros n v piece Hp Hv Hnone.
        destruct (Hcov n v piece Hp Hv (Hnone nv (or_introl eq_refl))) as [x [Hx Hvx]].
        apply (Hcov2 n v x Hx Hvx). intros nv' Hnv' Hc. apply (Hnone nv' (or_intror Hnv')).
        eapply Dom_reflects; [exact He|apply Hnvs; right; exact Hnv'|exact Hc].
    Qed.

  End Loops.

  Lemma compute_complement_on cfg rel_fuel f :
    (forall P b x, Dom P b -> In x (get_type_variants P b) -> Dom P x) ->
    (forall P b n v x, Dom P b -> In x (get_type_variants P b) -> inhab P n [] v x -> inhab P n [] v b) ->
    SSpecOn (subtract_one cfg rel_fuel f) -> CSpecOn (compute_complement cfg rel_fuel (S f)).
  Proof.
    intros Dom_variants Dom_member IHs P o nr P' r H Hw Ho Hnr. rewrite compute_complement_S in H.
    destruct (compl_per_nv (subtract_one cfg rel_fuel f) P (get_type_variants P o) (get_type_variants P nr))
      as [[P1 pieces]|] eqn:Hl; [|discriminate H]. injection H as H.
    destruct (compl_per_nv_spec _ IHs (get_type_variants P nr) P (get_type_variants P o) P1 pieces Hl Hw
                (variants_FO P o Ho) (fun x Hx => Dom_variants P nr x Hnr Hx)) as (He1 & Hw1 & Hfo1 & Hcov).
    destruct (union_type_ids_keeps P1 pieces P' r Hfo1 H) as (He2 & Hfor & Hkeep).
    split; [eapply extends_trans; eassumption|]. split; [eapply wf_union_type_ids; eassumption|]. split; [exact Hfor|].
    intros n v Hvo Hnvn.
    destruct (variants_cover P o n v Ho Hvo) as [ov [Hov Hvov]].
    destruct (Hcov n v ov Hov Hvov) as [x [Hx Hvx]].
    { intros nv Hnv Hc. apply Hnvn. eapply Dom_member; eassumption. }
    eapply Hkeep; eassumption.
  Qed.
End ComplementLoops.

Definition CSpec := CSpecOn FO.
Definition SSpec := SSpecOn FO.

Lemma FO_reflects P P' b : extends P P' -> FO P b -> forall n v, inhab P' n [] v b -> inhab P n [] v b.
Proof. intros He Hb n v. exact (mem_reflects P P' He n b Hb [] v). Qed.

Lemma set_field_type_app pre l f rest fc :
  set_field_type (pre ++ (l, f) :: rest) (length pre) fc = pre ++ (l, fc) :: rest.
Proof. induction pre as [|[l0 f0] pre IH]; cbn; [reflexivity|]. rewrite IH. reflexivity. Qed.

Section ComplementFields.
  Variable compl : registry -> nat -> nat -> option (registry * nat).
  Hypothesis Hcompl : CSpec compl.

  (* all = pre ++ fs1 and i = |pre|: the loop is at field i.  A tuple value that is in the original and not
     in the narrowed tuple type has a first field whose value is not in the narrowed field type (mem_dec
     finds it); the piece registered at that field holds the value. *)
  Lemma compl_fields_spec nid name all : forall fs1 fs2 P out i P1 out1 pre,
    compl_fields compl nid name all P out i fs1 fs2 = Some (P1, out1) ->
    all = pre ++ fs1 -> length pre = i -> map fst fs1 = map fst fs2 ->
    wfreg P -> lookup_type P nid = Some (TUnion []) ->
    (forall f, In f all -> FO P (snd f)) -> (forall f, In f fs2 -> FO P (snd f)) -> (forall x, In x out -> FO P x) ->
    extends P P1 /\ wfreg P1 /\ (forall x, In x out1 -> FO P1 x) /\ (forall x, In x out -> In x out1) /\
    (forall n pvs ws, Forall2 (field_ok (inhab P n [])) pre pvs -> Forall2 (field_ok (inhab P n [])) fs1 ws ->
                      ~ Forall2 (field_ok (inhab P n [])) fs2 ws ->
                      exists x, In x out1 /\ inhab P1 (S n) [] (VTup name (pvs ++ ws)) x).
  Proof.
    induction fs1 as [|[l1 f1] fs1 IH]; intros [|[l2 f2] fs2] P out i P1 out1 pre H Hall Hlen Hlab Hw Hnid Hfo_all Hfo2 Hout; cbn in H, Hlab; try discriminate.
    - inv H. split; [apply extends_refl|]. split; [exact Hw|]. split; [exact Hout|]. split; [auto|].
      intros n pvs ws _ H1 Hn. inv H1. exfalso. apply Hn. constructor.
    - injection Hlab as Hl12 Hlab'. subst l2.
      assert (Hf1 : FO P f1) by (apply (Hfo_all (l1, f1)); rewrite Hall; apply in_or_app; right; left; reflexivity).
      assert (Hf2 : FO P f2) by (apply (Hfo2 (l1, f2)); left; reflexivity).
      destruct (compl P f1 f2) as [[P' fc]|] eqn:Hc; [|discriminate].
      destruct (Hcompl P f1 f2 P' fc Hc Hw Hf1 Hf2) as (He & Hw' & Hfc & Hkeep).
      assert (Hall' : all = (pre ++ [(l1, f1)]) ++ fs1) by (rewrite <- app_assoc; exact Hall).
      assert (Hlen' : length (pre ++ [(l1, f1)]) = S i) by (rewrite app_length; cbn; lia).
      (* the continuation, from whatever registry Q the step ends in *)
      assert (Hcont : forall Q outQ, extends P' Q -> wfreg Q -> (forall x, In x outQ -> FO Q x) -> (forall x, In x out -> In x outQ) ->
                compl_fields compl nid name all Q outQ (S i) fs1 fs2 = Some (P1, out1) ->
                extends P P1 /\ wfreg P1 /\ (forall x, In x out1 -> FO P1 x) /\ (forall x, In x out -> In x out1) /\
                (forall x, In x outQ -> In x out1) /\ extends Q P1 /\
                (forall n pvs w ws, Forall2 (field_ok (inhab P n [])) pre pvs -> field_ok (inhab P n []) (l1, f1) w ->
                   Forall2 (field_ok (inhab P n [])) fs1 ws -> inhab P n [] (snd w) f2 ->
                   ~ Forall2 (field_ok (inhab P n [])) fs2 ws ->
                   exists x, In x out1 /\ inhab P1 (S n) [] (VTup name ((pvs ++ [w]) ++ ws)) x)).
      { intros Q outQ HeQ HwQ HoutQ Hincl HQ.
        assert (HePQ : extends P Q) by (eapply extends_trans; eassumption).
        destruct (IH fs2 Q outQ (S i) P1 out1 (pre ++ [(l1, f1)]) HQ Hall' Hlen' Hlab' HwQ (proj1 HePQ nid _ Hnid)
                     (fun f Hf => FO_extends _ _ _ HePQ (Hfo_all f Hf))
                     (fun f Hf => FO_extends _ _ _ HePQ (Hfo2 f (or_intror Hf))) HoutQ) as (He2 & Hw2 & Hfo_out & Hinc2 & Hcov).
        split; [eapply extends_trans; eassumption|]. split; [exact Hw2|]. split; [exact Hfo_out|].
        split; [intros x Hx; apply Hinc2; apply Hincl; exact Hx|]. split; [exact Hinc2|]. split; [exact He2|].
        intros n pvs w ws Hpre Hw1 Hws Hwin Hnot.
        apply (Hcov n (pvs ++ [w]) ws).
        - apply Forall2_app.
          + eapply fields_extend; [exact HePQ| |exact Hpre]. intros f Hf. apply Hfo_all. rewrite Hall. apply in_or_app. left; exact Hf.
          + constructor; [|constructor]. destruct Hw1 as [Hq1 Hq2]. split; [exact Hq1|]. eapply mem_extends; [exact HePQ|exact Hf1|exact Hq2].
        - eapply fields_extend; [exact HePQ| |exact Hws]. intros f Hf. apply Hfo_all. rewrite Hall. apply in_or_app. right. right. exact Hf.
        - intros Hcc. apply Hnot. eapply Forall2_field_ok_impl; [|exact Hcc]. intros f fv Hf Hr.
          eapply mem_reflects; [exact HePQ|apply Hfo2; right; exact Hf|exact Hr]. }
      destruct (Nat.eqb fc nid) eqn:En.
      + (* the field difference is empty: continue *)
        destruct (Hcont P' out (extends_refl _) Hw' (fun x Hx => FO_extends _ _ _ He (Hout x Hx)) (fun x Hx => Hx) H)
          as (HeA & HwA & HfoA & HincA & _ & _ & HcovA).
        split; [exact HeA|]. split; [exact HwA|]. split; [exact HfoA|]. split; [exact HincA|].
        intros n pvs ws Hpre H1 Hnot. inversion H1 as [|x0 w l0 ws' Hok HF Hx0 Hws]. subst ws. clear H1 Hx0.
        pose proof Hok as Hw1. destruct Hok as [Hq1 Hq2]. cbn in Hq1, Hq2.
        destruct (mem_dec P n f2 Hf2 [] (snd w)) as [Hin2|Hnin2].
        * replace (pvs ++ w :: ws') with ((pvs ++ [w]) ++ ws') by (rewrite <- app_assoc; reflexivity).
          apply (HcovA n pvs w ws' Hpre Hw1 HF Hin2).
          intros Hcc. apply Hnot. constructor; [split; [exact Hq1|exact Hin2]|exact Hcc].
        * exfalso. apply Nat.eqb_eq in En. subst fc.
          eapply never_uninhabited; [apply (proj1 He nid _ Hnid)|]. apply (Hkeep n (snd w) Hq2 Hnin2).
      + (* a piece [A0 .. Ai \ bi .. An] is registered *)
        destruct (register_tuple P' name (set_field_type all i fc)) as [P2 tuple_id] eqn:Hrt.
        destruct (register_type P2 (TTuple tuple_id)) as [P3 ty_id] eqn:Hrty.
        assert (Hfields : set_field_type all i fc = pre ++ (l1, fc) :: fs1).
        { rewrite Hall, <- Hlen. apply set_field_type_app. }
        assert (Hfields_fo : forall f, In f (set_field_type all i fc) -> FO P' (snd f)).
        { rewrite Hfields. intros f Hf. apply in_app_or in Hf. destruct Hf as [Hf|[<-|Hf]].
          - eapply FO_extends; [exact He|]. apply Hfo_all. rewrite Hall. apply in_or_app. left; exact Hf.
          - exact Hfc.
          - eapply FO_extends; [exact He|]. apply Hfo_all. rewrite Hall. apply in_or_app. right. right. exact Hf. }
        destruct (wf_register_tuple P' name _ P2 tuple_id Hw' Hrt (fun f Hf => FO_lt _ _ (Hfields_fo f Hf))) as [Hw2 Htid].
        destruct (register_tuple_spec _ _ _ _ _ Hrt) as [He2 Hlt].
        assert (Hw3 : wfreg P3).
        { eapply wf_register_type; [exact Hw2|exact Hrty| |intros t Ht; inv Ht; exact Htid].
          cbn. rewrite Hlt. cbn. intros c Hcx. apply in_map_iff in Hcx. destruct Hcx as [f [<- Hf]].
          eapply Nat.lt_le_trans; [apply FO_lt; apply Hfields_fo; exact Hf|]. destruct He2 as [HT _].
          clear - HT. destruct (Nat.le_gt_cases (length (types P')) (length (types P2))) as [Hle|Hgt]; [exact Hle|].
          exfalso. destruct (nth_error (types P') (length (types P2))) as [t|] eqn:E.
          - pose proof (HT _ _ E) as E2. apply lookup_lt in E2. lia.
          - apply nth_error_None in E. lia. }
        destruct (register_type_spec _ _ _ _ Hrty) as [He3 Hlty].
        assert (He13 : extends P' P3) by (eapply extends_trans; eassumption).
        assert (Hty_fo : FO P3 ty_id).
        { eapply FO_tuple; [exact Hlty|apply (proj2 He3); exact Hlt|]. cbn. intros f Hf. eapply FO_extends; [exact He13|apply Hfields_fo; exact Hf]. }
        assert (Hout3 : forall x, In x (out ++ [ty_id]) -> FO P3 x).
        { intros x Hx. apply in_app_or in Hx. destruct Hx as [Hx|[<-|[]]]; [|exact Hty_fo].
          eapply FO_extends; [eapply extends_trans; [exact He|exact He13]|apply Hout; exact Hx]. }
        destruct (Hcont P3 (out ++ [ty_id]) He13 Hw3 Hout3 (fun x Hx => in_or_app _ _ _ (or_introl Hx)) H)
          as (HeA & HwA & HfoA & HincA & HincQ & HeQ1 & HcovA).
        split; [exact HeA|]. split; [exact HwA|]. split; [exact HfoA|]. split; [exact HincA|].
        intros n pvs ws Hpre H1 Hnot. inversion H1 as [|x0 w l0 ws' Hok HF Hx0 Hws]. subst ws. clear H1 Hx0.
        pose proof Hok as Hw1. destruct Hok as [Hq1 Hq2]. cbn in Hq1, Hq2.
        destruct (mem_dec P n f2 Hf2 [] (snd w)) as [Hin2|Hnin2].
        * replace (pvs ++ w :: ws') with ((pvs ++ [w]) ++ ws') by (rewrite <- app_assoc; reflexivity).
          apply (HcovA n pvs w ws' Hpre Hw1 HF Hin2).
          intros Hcc. apply Hnot. constructor; [split; [exact Hq1|exact Hin2]|exact Hcc].
        * exists ty_id. split; [apply HincQ; apply in_or_app; right; left; reflexivity|].
          eapply mem_extends; [exact HeQ1|exact Hty_fo|].
          cbn [inhab]. match type of Hlt with _ = Some ?ti => change name with (tname ti) end.
          eapply Inh_tuple; [exact Hlty|apply (proj2 He3); exact Hlt|]. cbn. rewrite Hfields.
          assert (HeP3 : extends P P3) by (eapply extends_trans; [exact He|exact He13]).
          apply Forall2_app.
          { eapply fields_extend; [exact HeP3| |exact Hpre]. intros f Hf. apply Hfo_all. rewrite Hall. apply in_or_app. left; exact Hf. }
          constructor.
          { split; [exact Hq1|]. cbn. eapply mem_extends; [exact He13|exact Hfc|]. apply (Hkeep n (snd w) Hq2 Hnin2). }
          eapply fields_extend; [exact HeP3| |exact HF]. intros f Hf. apply Hfo_all. rewrite Hall. apply in_or_app. right. right. exact Hf.
  Qed.
End ComplementFields.

Section ComplementMain.
  Variable cfg : rel_cfg.
  Variable rel_fuel : nat.
  Hypothesis Hretract : cfg_retract cfg = true.

  (* the `is_compatible` shortcut of subtract_one is sound on topologically ordered registries *)
  Lemma compatible_contains named_ok P a b n v :
    cfg_partial_name cfg = true \/ named_ok = false ->
    topo P -> CF P named_ok a -> CF P named_ok b -> is_compatible cfg rel_fuel P a b = Some true ->
    inhab P n [] v a -> inhab P n [] v b.
  Proof.
    intros Hnamed Htopo Ha Hb H Hv. unfold is_compatible, is_compatible_with in H.
    destruct (check_rel cfg P All rel_fuel [] [] [] a b) as [[r A1]|] eqn:Hc; [|discriminate]. cbn in H. inv H.
    destruct (check_sound cfg P named_ok Hretract Hnamed Htopo rel_fuel [] [] [] a b true A1 Ha Hb
                (fun k (Hin : In k []) => match Hin with end) Hc) as [_ Hsub].
    eapply (Hsub eq_refl). exact Hv.
  Qed.

  Lemma labels_equal_of_combine (fs1 fs2 : list (option nat * nat)) :
    length fs1 = length fs2 ->
    existsb (fun ab => negb (opt_eqb (fst (fst ab)) (fst (snd ab)))) (combine fs1 fs2) = false ->
    map fst fs1 = map fst fs2.
  Proof.
    revert fs2. induction fs1 as [|[l1 t1] fs1 IH]; intros [|[l2 t2] fs2] Hlen H; cbn in *; try discriminate; [reflexivity|].
    apply orb_false_iff in H. destruct H as [H1 H2]. apply negb_false_iff in H1. apply opt_eqb_eq in H1. subst.
    f_equal. apply IH; [lia|exact H2].
  Qed.

  Theorem complement_spec : forall fuel,
    CSpec (compute_complement cfg rel_fuel fuel) /\ SSpec (subtract_one cfg rel_fuel fuel).
  Proof.
    induction fuel as [|f [IHc IHs]]; [split; intros P a b P' r H; cbn in H; discriminate H|].
    split.
    - apply (compute_complement_on FO FO_extends FO_reflects); [intros P b x Hb; exact (variants_FO P b Hb x)| |exact IHs].
      intros P b n v x Hb. exact (variant_member P b n v x Hb).
    - (* subtract_one *)
      intros P a b P' out H Hw Ha Hb. rewrite subtract_one_S in H.
      destruct (Nat.eqb a b) eqn:Eab.
      { injection H as HP Ho; subst P' out. apply Nat.eqb_eq in Eab. subst b.
        split; [apply extends_refl|]. split; [exact Hw|]. split; [intros x []|]. intros n v Hv Hn. contradiction. }
      assert (Hkeep_at : forall Q, extends P Q -> wfreg Q ->
                extends P Q /\ wfreg Q /\ (forall x, In x [a] -> FO Q x) /\
                (forall n v, inhab P n [] v a -> ~ inhab P n [] v b -> exists x, In x [a] /\ inhab Q n [] v x)).
      { intros Q He HwQ. split; [exact He|]. split; [exact HwQ|]. split.
        - intros x [<-|[]]. eapply FO_extends; eassumption.
        - intros n v Hv _. exists a. split; [left; reflexivity|eapply mem_extends; eassumption]. }
      destruct (lookup_type P a) as [ta|] eqn:Hla; [|destruct Ha; congruence].
      destruct (lookup_type P b) as [tb|] eqn:Hlb; [|destruct Hb; congruence].
      pose proof (FO_inv _ _ _ Ha Hla) as Ia. pose proof (FO_inv _ _ _ Hb Hlb) as Ib.
      assert (Hca : is_cycle_ty ta = false) by (destruct ta; try reflexivity; contradiction).
      assert (Hcb : is_cycle_ty tb = false) by (destruct tb; try reflexivity; contradiction).
      rewrite Hca, Hcb in H. cbn [orb] in H.
      destruct (cyclic cfg rel_fuel P a) as [ca|]; [|discriminate H].
      destruct (if ca then Some true else cyclic cfg rel_fuel P b) as [cyc|]; [|discriminate H].
      (* the structural part, entered when no shortcut applies (written out: it occurs in two branches of H) *)
      assert (Hstruct :
        (let '(P0, never_id) := never P in
          match ta, tb with
          | TTuple id1, TTuple id2 =>
            match lookup_tuple P0 id1, lookup_tuple P0 id2 with
            | Some i1, Some i2 =>
              if negb (opt_eqb (tname i1) (tname i2))
                 || negb (Nat.eqb (length (tfields i1)) (length (tfields i2)))
                 || existsb (fun ab => negb (opt_eqb (fst (fst ab)) (fst (snd ab)))) (combine (tfields i1) (tfields i2))
              then Some (P0, [a])
              else compl_fields (compute_complement cfg rel_fuel f) never_id (tname i1) (tfields i1) P0 [] 0
                                (tfields i1) (tfields i2)
            | _, _ => Some (P0, [a])
            end
          | _, _ => Some (P0, [a])
          end) = Some (P', out) ->
        extends P P' /\ wfreg P' /\ (forall x, In x out -> FO P' x) /\
        (forall n v, inhab P n [] v a -> ~ inhab P n [] v b -> exists x, In x out /\ inhab P' n [] v x)).
      { intros Hs. destruct (never P) as [P0 nid] eqn:Hn. destruct (never_spec _ _ _ Hn) as [He0 Hlnid].
        pose proof (wf_never _ _ _ Hw Hn) as Hw0.
        pose proof (Hkeep_at P0 He0 Hw0) as Hk0.
        destruct ta as [| | |id1| | | | | | |]; try (injection Hs as HP Ho; subst P' out; exact Hk0).
        destruct tb as [| | |id2| | | | | | |]; try (injection Hs as HP Ho; subst P' out; exact Hk0).
        destruct Ia as (i1 & Ht1 & Hfs1). destruct Ib as (i2 & Ht2 & Hfs2).
        rewrite (proj2 He0 _ _ Ht1), (proj2 He0 _ _ Ht2) in Hs.
        match type of Hs with (if ?c then _ else _) = _ => destruct c eqn:Eshape end.
        { injection Hs as HP Ho; subst P' out. exact Hk0. }
        apply orb_false_iff in Eshape. destruct Eshape as [Eshape Elab]. apply orb_false_iff in Eshape. destruct Eshape as [En El].
        apply negb_false_iff in En. apply negb_false_iff in El. apply opt_eqb_eq in En. apply Nat.eqb_eq in El.
        pose proof (labels_equal_of_combine _ _ El Elab) as Hlabs.
        destruct (compl_fields_spec _ IHc nid (tname i1) (tfields i1) (tfields i1) (tfields i2) P0 [] 0 P' out [] Hs eq_refl eq_refl Hlabs
                    Hw0 Hlnid (fun fl Hfl => FO_extends _ _ _ He0 (Hfs1 fl Hfl)) (fun fl Hfl => FO_extends _ _ _ He0 (Hfs2 fl Hfl))
                    (fun x (Hx : In x []) => match Hx with end)) as (He1 & Hw1 & Hfo1 & _ & Hcov).
        split; [eapply extends_trans; eassumption|]. split; [exact Hw1|]. split; [exact Hfo1|].
        intros n v Hva Hnvb.
        destruct n; [destruct Hva|]. destruct (inhab_inv _ _ _ _ _ _ Hva Hla) as (i1' & vs1 & Ht1' & -> & HF1).
        rewrite Ht1 in Ht1'. injection Ht1' as <-.
        apply (Hcov n [] vs1 (Forall2_nil _)).
        - exact (fields_extend _ _ _ _ _ He0 Hfs1 HF1).
        - intros Hc. apply Hnvb. cbn [inhab]. rewrite En. eapply Inh_tuple; [exact Hlb|exact Ht2|].
          eapply Forall2_field_ok_impl; [|exact Hc]. intros fl fv Hfl Hr. eapply mem_reflects; [exact He0|apply Hfs2; exact Hfl|exact Hr]. }
      destruct cyc.
      + apply Hstruct. exact H.
      + destruct (is_compatible cfg rel_fuel P a b) as [[|]|] eqn:Hcmp; [| |discriminate H].
        * injection H as HP Ho; subst P' out. split; [apply extends_refl|]. split; [exact Hw|]. split; [intros x []|].
          intros n v Hva Hnvb. exfalso. apply Hnvb.
          exact (compatible_contains false P a b n v (or_intror eq_refl) (proj1 Hw) (FO_CF P false a Ha) (FO_CF P false b Hb) Hcmp Hva).
        * destruct (types_overlap cfg rel_fuel P a b) as [[|]|] eqn:Hov; [| |discriminate H].
          { apply Hstruct. exact H. }
          { injection H as HP Ho; subst P' out. apply Hkeep_at; [apply extends_refl|exact Hw]. }
  Qed.
End ComplementMain.

Theorem complement_keeps_fo : forall cfg rel_fuel fuel P o nr P' r,
  cfg_retract cfg = true -> wfregb P = true ->
  compute_complement cfg rel_fuel fuel P o nr = Some (P', r) ->
  fo_domain P o = true -> fo_domain P nr = true ->
  extends P P' /\ forall n v, inhab P n [] v o -> ~ inhab P n [] v nr -> inhab P' n [] v r.
Proof.
  intros cfg rel_fuel fuel P o nr P' r Hret Hw H Do Dn.
  destruct (proj1 (complement_spec cfg rel_fuel Hret fuel) P o nr P' r H (wfregb_wfreg _ Hw) (fob_FO _ _ _ Do) (fob_FO _ _ _ Dn))
    as (He & _ & _ & Hk).
  split; assumption.
Qed.

Lemma nth_field_member (R : value -> nat -> Prop) fs vs idx fl f :
  Forall2 (field_ok R) fs vs -> nth_error fs idx = Some fl -> nth_error vs idx = Some f -> R (snd f) (snd fl).
Proof.
  intros HF. revert idx. induction HF as [|a b l1 l2 [_ Hr] HF IH]; intros [|idx] Hn Hnth; cbn in *; try discriminate.
  - inversion Hn; inversion Hnth; subst. exact Hr.
  - eapply IH; eassumption.
Qed.

Section Filter.
  Variable cfg : rel_cfg.
  Variable rel_fuel : nat.

  Definition non_union (P : registry) (x : nat) : Prop := forall vs, lookup_type P x <> Some (TUnion vs).

  Lemma non_union_extends P Q y : extends P Q -> FO P y -> non_union P y -> non_union Q y.
  Proof.
    intros He Hy Hn vs Hl. destruct (lookup_type P y) as [t|] eqn:E; [|destruct Hy; congruence].
    rewrite (proj1 He _ _ E) in Hl. injection Hl as ->. exact (Hn vs E).
  Qed.

  (* the field type collected for a non-union variant covers the field of every tuple value of it *)
  Lemma get_field_type_spec P x idx :
    FO P x -> non_union P x ->
    match get_field_type P x idx with
    | Some (P1, ft) =>
      extends P P1 /\ FO P1 ft /\
      (forall n name fs f, inhab P (S n) [] (VTup name fs) x -> nth_error fs idx = Some f -> inhab P1 n [] (snd f) ft)
    | None => forall n name fs f, inhab P (S n) [] (VTup name fs) x -> nth_error fs idx = Some f -> False
    end.
  Proof.
    intros Hfo Hnu. unfold get_field_type, get_type_variants.
    inversion Hfo as [? Hl|? Hl|? Hl|? ? Hl|? vs Hl Hvs|? tid info Hl Ht Hfs]; subst; rewrite Hl; cbn; rewrite ?Hl; cbn;
      try (intros n name fs f H; cbn [inhab] in H; inversion H; congruence).
    - exfalso. eapply Hnu; exact Hl.
    - rewrite Ht. destruct (nth_error (tfields info) idx) as [fl|] eqn:Hn; cbn.
      + destruct (union_type_ids P [snd fl]) as [P1 ft] eqn:Hu.
        assert (Hfl : FO P (snd fl)) by (apply Hfs; eapply nth_error_In; exact Hn).
        destruct (union_type_ids_keeps P [snd fl] P1 ft (fun y Hy => match Hy with or_introl e => eq_ind _ (FO P) Hfl _ e | or_intror e => match e with end end) Hu)
          as (He & Hft & Hkeep).
        split; [exact He|]. split; [exact Hft|].
        intros n name fs f H Hnth. destruct (tuple_value_inv P x tid info n [] name fs Hl Ht H) as [_ HF0].
        apply (Hkeep n (snd f) (snd fl) (or_introl eq_refl)). eapply nth_field_member; eassumption.
      + intros n name fs f H Hnth. destruct (tuple_value_inv P x tid info n [] name fs Hl Ht H) as [_ HF0].
        apply Forall2_len in HF0. apply nth_error_None in Hn. assert (idx < length fs) by (apply nth_error_Some; congruence). lia.
  Qed.

  Lemma filter_loop_spec idx must : forall vs P filtered P1 filtered1,
    filter_loop cfg rel_fuel true idx must P filtered vs = Some (P1, filtered1) ->
    (forall x, In x vs -> FO P x /\ non_union P x) -> FO P must -> (forall x, In x filtered -> FO P x) ->
    extends P P1 /\ (forall x, In x filtered1 -> FO P1 x) /\ (forall x, In x filtered -> In x filtered1) /\
    (forall x n name fs f, In x vs -> inhab P (S n) [] (VTup name fs) x -> nth_error fs idx = Some f ->
                           inhab P n [] (snd f) must -> In x filtered1).
  Proof.
    induction vs as [|x vs IH]; intros P filtered P1 filtered1 H Hvs Hmust Hfil; cbn in H.
    - inv H. split; [apply extends_refl|]. split; [exact Hfil|]. split; [auto|]. intros x n name fs f [].
    - destruct (Hvs x (or_introl eq_refl)) as [Hx Hnu]. pose proof (get_field_type_spec P x idx Hx Hnu) as Hg.
      destruct (get_field_type P x idx) as [[Pg ft]|].
      + destruct Hg as (He & Hft & Hcov).
        assert (Hrest : forall Q flt, extends Pg Q -> (forall y, In y flt -> FO Q y) -> (forall y, In y filtered -> In y flt) ->
                  filter_loop cfg rel_fuel true idx must Q flt vs = Some (P1, filtered1) ->
                  extends P P1 /\ (forall y, In y filtered1 -> FO P1 y) /\ (forall y, In y filtered -> In y filtered1) /\
                  (forall y, In y flt -> In y filtered1) /\
                  (forall y n name fs f, In y vs -> inhab P (S n) [] (VTup name fs) y -> nth_error fs idx = Some f ->
                                         inhab P n [] (snd f) must -> In y filtered1)).
        { intros Q flt HeQ Hflt Hinc HQ. assert (HePQ : extends P Q) by (eapply extends_trans; eassumption).
          destruct (IH Q flt P1 filtered1 HQ
                       (fun y Hy => conj (FO_extends _ _ _ HePQ (proj1 (Hvs y (or_intror Hy))))
                                         (non_union_extends P Q y HePQ (proj1 (Hvs y (or_intror Hy))) (proj2 (Hvs y (or_intror Hy)))))
                       (FO_extends _ _ _ HePQ Hmust) Hflt) as (He2 & Hfo2 & Hinc2 & Hcov2).
          split; [eapply extends_trans; eassumption|]. split; [exact Hfo2|]. split; [intros y Hy; apply Hinc2; apply Hinc; exact Hy|].
          split; [exact Hinc2|]. intros y n name fs f Hy Hv Hnth Hm. apply (Hcov2 y n name fs f Hy).
          - eapply mem_extends; [exact HePQ|apply Hvs; right; exact Hy|exact Hv].
          - exact Hnth.
          - eapply mem_extends; [exact HePQ|exact Hmust|exact Hm]. }
        destruct (types_overlap cfg rel_fuel Pg ft must) as [[|]|] eqn:Hov; [| |discriminate H].
        * destruct (Hrest Pg (filtered ++ [x]) (extends_refl _)
                      (fun y Hy => match in_app_or _ _ _ Hy with
                                   | or_introl Hy' => FO_extends _ _ _ He (Hfil y Hy')
                                   | or_intror Hy' => match Hy' with or_introl e => eq_ind _ (FO Pg) (FO_extends _ _ _ He Hx) _ e | or_intror e => match e with end end
                                   end)
                      (fun y Hy => in_or_app _ _ _ (or_introl Hy)) H) as (HeA & HfoA & HincA & HincB & HcovA).
          split; [exact HeA|]. split; [exact HfoA|]. split; [exact HincA|].
          intros y n name fs f [<-|Hy] Hv Hnth Hm; [apply HincB; apply in_or_app; right; left; reflexivity|eapply HcovA; eassumption].
        * destruct (Hrest Pg filtered (extends_refl _) (fun y Hy => FO_extends _ _ _ He (Hfil y Hy)) (fun y Hy => Hy) H)
            as (HeA & HfoA & HincA & _ & HcovA).
          split; [exact HeA|]. split; [exact HfoA|]. split; [exact HincA|].
          intros y n name fs f [<-|Hy] Hv Hnth Hm; [|eapply HcovA; eassumption].
          exfalso. eapply (overlap_false_no_common cfg rel_fuel Pg ft must n (snd f) Hov Hft (FO_extends _ _ _ He Hmust)).
          -- eapply Hcov; eassumption.
          -- eapply mem_extends; [exact He|exact Hmust|exact Hm].
      + destruct (IH P filtered P1 filtered1 H (fun y Hy => Hvs y (or_intror Hy)) Hmust Hfil) as (He2 & Hfo2 & Hinc2 & Hcov2).
        split; [exact He2|]. split; [exact Hfo2|]. split; [exact Hinc2|].
        intros y n name fs f [<-|Hy] Hv Hnth Hm; [exfalso; eapply Hg; eassumption|eapply Hcov2; eassumption].
  Qed.

  (* with the overlap test, filtering after a successful runtime test of field
     idx against `must` keeps every tuple value of the parent whose field idx is a value of `must` *)
  Theorem filter_keeps_fo : forall P parent idx must P' r,
    filter_variants_by_field cfg rel_fuel true P parent idx must = Some (P', r) ->
    FO P parent -> FO P must ->
    (forall x, In x (get_type_variants P parent) -> non_union P x) ->
    extends P P' /\
    forall n name fs f, inhab P (S n) [] (VTup name fs) parent -> nth_error fs idx = Some f ->
                        inhab P n [] (snd f) must -> inhab P' (S n) [] (VTup name fs) r.
  Proof.
    intros P parent idx must P' r H Hp Hm Hflat. unfold filter_variants_by_field in H.
    destruct (filter_loop cfg rel_fuel true idx must P [] (get_type_variants P parent)) as [[P1 filtered]|] eqn:Hl; [|discriminate H].
    injection H as H.
    destruct (filter_loop_spec idx must _ P [] P1 filtered Hl
                (fun x Hx => conj (variants_FO P parent Hp x Hx) (Hflat x Hx)) Hm (fun x (Hx : In x []) => match Hx with end))
      as (He1 & Hfo1 & _ & Hcov).
    destruct (union_type_ids_keeps P1 filtered P' r Hfo1 H) as (He2 & _ & Hkeep).
    split; [eapply extends_trans; eassumption|].
    intros n name fs f Hv Hnth Hmem.
    destruct (variants_cover P parent (S n) _ Hp Hv) as [x [Hx Hvx]].
    eapply (Hkeep (S n) _ x); [eapply Hcov; eassumption|].
    eapply mem_extends; [exact He1|apply (variants_FO P parent Hp x Hx)|exact Hvx].
  Qed.
End Filter.
