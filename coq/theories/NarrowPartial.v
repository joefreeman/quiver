(* NarrowPartial.v — intersect_types of a first-order cycle-free type with a PARTIAL pattern type
   (the narrowing a `=A[x: _]` / `(x: 'int, ..)` pattern performs) never drops a value of both, over
   values whose tuples carry each label at most once (OverlapPartial.wfv).
   intersect_pair answers such a pair by its default arm: the variant itself when types_overlap holds,
   `never` otherwise; the `never` is justified by OverlapPartial.overlap_complete_wfv (which needs the
   F25p repair 7ba69a0).  The loops over the variants are those of NarrowProofs, with the partial types
   with first-order fields (`PartialFO`) as the domain of the pattern operand. *)
From Quiver Require Import Base Types Rel Sem SemProofs RelProofs OverlapProofs OverlapPartial TypesProofs Narrow NarrowProofs.
From Coq Require Import Arith.
Close Scope Z_scope.
Open Scope nat_scope.

(* a partial type whose field types are first-order cycle-free *)
Definition PartialFO (P : registry) (b : nat) : Prop :=
  exists pn pfs, lookup_type P b = Some (TPartial pn pfs) /\ forall f, In f pfs -> FO P (snd f).

Lemma PartialFO_extends P P' b : extends P P' -> PartialFO P b -> PartialFO P' b.
Proof.
  intros He (pn & pfs & Hl & Hf). exists pn, pfs. split; [apply (proj1 He); exact Hl|].
  intros f Hin. eapply FO_extends; [exact He|apply Hf; exact Hin].
Qed.

Lemma PartialFO_CF P b : PartialFO P b -> CF P true b.
Proof.
  intros (pn & pfs & Hl & Hf). eapply CF_partial; [exact Hl|left; reflexivity|].
  intros f Hin. apply FO_CF. apply Hf. exact Hin.
Qed.

(* membership in the partial type does not depend on later registrations *)
Lemma partial_reflects P P' b : extends P P' -> PartialFO P b ->
  forall n v, inhab P' n [] v b -> inhab P n [] v b.
Proof.
  intros He (pn & pfs & Hl & Hf) n v H. destruct n; [destruct H|].
  destruct (inhab_inv _ _ _ _ _ _ H (proj1 He _ _ Hl)) as (name & fs & -> & Hname & Hfields).
  cbn [inhab]. eapply Inh_partial; [exact Hl|exact Hname|].
  intros l ft Hin. destruct (Hfields l ft Hin) as [fv [Hfv Hm]]. exists fv. split; [exact Hfv|].
  eapply mem_reflects; [exact He|apply (Hf (l, ft)); exact Hin|exact Hm].
Qed.

Lemma PartialFO_variants P b : PartialFO P b -> get_type_variants P b = [b].
Proof. intros (pn & pfs & Hl & _). unfold get_type_variants. rewrite Hl. reflexivity. Qed.

Lemma PartialFO_variant P b x : PartialFO P b -> In x (get_type_variants P b) -> PartialFO P x.
Proof. intros Hb Hx. rewrite (PartialFO_variants P b Hb) in Hx. destruct Hx as [<-|[]]. exact Hb. Qed.

Lemma PartialFO_cover P b n v : PartialFO P b -> inhab P n [] v b ->
  exists x, In x (get_type_variants P b) /\ inhab P n [] v x.
Proof. intros Hb Hv. exists b. rewrite (PartialFO_variants P b Hb). split; [left; reflexivity|exact Hv]. Qed.

Lemma PartialFO_member P b n v x : PartialFO P b -> In x (get_type_variants P b) -> inhab P n [] v x -> inhab P n [] v b.
Proof. intros Hb Hx. rewrite (PartialFO_variants P b Hb) in Hx. destruct Hx as [<-|[]]. exact (fun H => H). Qed.

Section PartialPattern.
  Variable cfg : rel_cfg.
  Variable rel_fuel : nat.
  Hypothesis Hpa : cfg_partial_any cfg = true.

  Lemma overlap_false_no_common_p P a b n v :
    types_overlap cfg rel_fuel P a b = Some false -> FO P a -> PartialFO P b -> wfv v ->
    inhab P n [] v a -> inhab P n [] v b -> False.
  Proof.
    intros H Ha (pn & pfs & Hlb & Hfb) Hw Hva Hvb. enough (false = true) by discriminate.
    apply (overlap_complete_wfv cfg P false rel_fuel a b false); [discriminate|exact Hpa|apply FO_frag; exact Ha| |exact H|exists n, v; auto].
    eapply frag_partial; [reflexivity|exact Hlb|]. intros f Hf. apply FO_frag, Hfb, Hf.
  Qed.

  Lemma intersect_pair_partial f : ISpecOn PartialFO wfv (intersect_pair cfg rel_fuel f).
  Proof.
    destruct f as [|f]; [intros P a b P' r H; discriminate H|].
    intros P a b P' r H Ha Hb. pose proof Hb as (pn & pfs & Hlb & _). rewrite intersect_pair_S in H.
    destruct (Nat.eqb a b) eqn:Eab.
    { injection H as HP Hr; subst P' r. split; [apply extends_refl|]. split; [exact Ha|]. intros n v _ Hva _. exact Hva. }
    destruct (never P) as [P0 nid] eqn:Hn. destruct (never_spec _ _ _ Hn) as [He0 Hlnid].
    pose proof (FO_extends _ _ _ He0 Ha) as Ha0. pose proof (PartialFO_extends _ _ _ He0 Hb) as Hb0.
    pose proof (proj1 He0 _ _ Hlb) as Hlb0.
    assert (Hdefault : match types_overlap cfg rel_fuel P0 a b with
                       | Some true => Some (P0, a) | Some false => Some (P0, nid) | None => None end = Some (P', r) ->
              extends P P' /\ FO P' r /\ (forall n v, wfv v -> inhab P n [] v a -> inhab P n [] v b -> inhab P' n [] v r)).
    { intros Hd. destruct (types_overlap cfg rel_fuel P0 a b) as [[|]|] eqn:Hov;
        [injection Hd as HP Hr; subst P' r|injection Hd as HP Hr; subst P' r|discriminate Hd].
      - split; [exact He0|]. split; [exact Ha0|]. intros n v _ Hva _. eapply mem_extends; eassumption.
      - split; [exact He0|]. split; [apply FO_never; exact Hlnid|]. intros n v Hw Hva Hvb. exfalso.
        eapply (overlap_false_no_common_p P0 a b n v Hov Ha0 Hb0 Hw).
        + exact (mem_extends _ _ _ _ _ He0 Ha Hva).
        + eapply inhab_extends; [exact He0|exact (fov_of_FO P n a Ha [] v Hva)|exact Hvb]. }
    destruct (lookup_type P0 a) as [ta|] eqn:Hla; [|destruct Ha0; congruence]. rewrite Hlb0 in H.
    pose proof (FO_inv _ _ _ Ha0 Hla) as Ia. destruct ta; try contradiction; exact (Hdefault H).
  Qed.
End PartialPattern.

Lemma intersect_partial_pattern_keeps cfg rel_fuel fuel P a b P' r pn pfs :
  cfg_partial_any cfg = true ->
  fo_domain P a = true ->
  lookup_type P b = Some (TPartial pn pfs) -> (forall f, In f pfs -> fo_domain P (snd f) = true) ->
  intersect_types cfg rel_fuel fuel P a b = Some (P', r) ->
  extends P P' /\ forall n v, wfv v -> inhab P n [] v a -> inhab P n [] v b -> inhab P' n [] v r.
Proof.
  intros Hpa Da Hlb Dfs H.
  assert (Hb : PartialFO P b).
  { exists pn, pfs. split; [exact Hlb|]. intros f Hf. eapply fob_FO. apply Dfs. exact Hf. }
  destruct fuel as [|f]; [discriminate H|].
  destruct (intersect_types_on PartialFO wfv cfg rel_fuel f PartialFO_extends PartialFO_variant PartialFO_cover
              (intersect_pair_partial cfg rel_fuel Hpa f) P a b P' r H (fob_FO _ _ _ Da) Hb) as (He & _ & Hk).
  split; assumption.
Qed.

Theorem intersect_keeps_partial_pattern : forall cfg rel_fuel fuel P a b P' r pn pfs,
  cfg_any_callable cfg = true -> cfg_partial_any cfg = true ->
  fo_domain P a = true ->
  lookup_type P b = Some (TPartial pn pfs) -> (forall f, In f pfs -> fo_domain P (snd f) = true) ->
  intersect_types cfg rel_fuel fuel P a b = Some (P', r) ->
  extends P P' /\ forall n v, wfv v -> inhab P n [] v a -> inhab P n [] v b -> inhab P' n [] v r.
Proof. intros cfg rel_fuel fuel P a b P' r pn pfs _. apply intersect_partial_pattern_keeps. Qed.

Section PartialComplement.
  Variable cfg : rel_cfg.
  Variable rel_fuel : nat.
  Hypothesis Hretract : cfg_retract cfg = true.
  Hypothesis Hpn : cfg_partial_name cfg = true.

  Lemma subtract_one_partial f : SSpecOn PartialFO (subtract_one cfg rel_fuel f).
  Proof.
    destruct f as [|f]; [intros P a b P' out H; discriminate H|].
    intros P a b P' out H Hw Ha Hb. pose proof Hb as (pn & pfs & Hlb & Hfb).
    rewrite (subtract_one_S cfg rel_fuel) in H.
    assert (Hkeep_P : extends P P /\ wfreg P /\ (forall x, In x [a] -> FO P x) /\
                      (forall n v, inhab P n [] v a -> ~ inhab P n [] v b -> exists x, In x [a] /\ inhab P n [] v x)).
    { split; [apply extends_refl|]. split; [exact Hw|]. split; [intros x [<-|[]]; exact Ha|].
      intros n v Hva _. exists a. split; [left; reflexivity|exact Hva]. }
    destruct (Nat.eqb a b) eqn:Eab.
    { apply Nat.eqb_eq in Eab. subst b. exfalso. inversion Ha; congruence. }
    destruct (never P) as [P0 nid] eqn:Hn. destruct (never_spec _ _ _ Hn) as [He0 Hlnid].
    assert (Hkeep_P0 : extends P P0 /\ wfreg P0 /\ (forall x, In x [a] -> FO P0 x) /\
                       (forall n v, inhab P n [] v a -> ~ inhab P n [] v b -> exists x, In x [a] /\ inhab P0 n [] v x)).
    { split; [exact He0|]. split; [eapply wf_never; eassumption|]. split; [intros x [<-|[]]; eapply FO_extends; eassumption|].
      intros n v Hva _. exists a. split; [left; reflexivity|eapply mem_extends; eassumption]. }
    destruct (lookup_type P a) as [ta|] eqn:Hla; [|destruct Ha; congruence]. rewrite Hlb in H.
    pose proof (FO_inv _ _ _ Ha Hla) as Ia.
    assert (Hca : is_cycle_ty ta = false) by (destruct ta; try reflexivity; contradiction).
    rewrite Hca in H. cbn [is_cycle_ty orb] in H.
    destruct (cyclic cfg rel_fuel P a) as [ca|]; [|discriminate H].
    destruct (if ca then Some true else cyclic cfg rel_fuel P b) as [[|]|]; [| |discriminate H]; cbv beta iota in H.
    { (* against a partial type the structural part keeps a *)
      destruct ta; injection H as <- <-; exact Hkeep_P0. }
    destruct (is_compatible cfg rel_fuel P a b) as [[|]|] eqn:Hab; [| |discriminate H]; cbv beta iota in H.
    { injection H as <- <-. split; [apply extends_refl|]. split; [exact Hw|]. split; [intros x []|].
      intros n v Hva Hnvb. exfalso. apply Hnvb.
      (* sound against a named partial type because of the F29 repair *)
      exact (compatible_contains cfg rel_fuel Hretract true P a b n v (or_introl Hpn) (proj1 Hw) (FO_CF P true a Ha) (PartialFO_CF P b Hb) Hab Hva). }
    destruct (types_overlap cfg rel_fuel P a b) as [[|]|]; [| |discriminate H]; cbv beta iota in H.
    - destruct ta; injection H as <- <-; exact Hkeep_P0.
    - injection H as <- <-. exact Hkeep_P.
  Qed.
End PartialComplement.

Theorem complement_keeps_partial_pattern : forall cfg rel_fuel fuel P o b P' r pn pfs,
  cfg_retract cfg = true -> cfg_partial_name cfg = true -> wfregb P = true ->
  fo_domain P o = true ->
  lookup_type P b = Some (TPartial pn pfs) -> (forall f, In f pfs -> fo_domain P (snd f) = true) ->
  compute_complement cfg rel_fuel fuel P o b = Some (P', r) ->
  extends P P' /\ forall n v, inhab P n [] v o -> ~ inhab P n [] v b -> inhab P' n [] v r.
Proof.
  intros cfg rel_fuel fuel P o b P' r pn pfs Hret Hpn Hwb Do Hlb Dfs H.
  assert (Hb : PartialFO P b).
  { exists pn, pfs. split; [exact Hlb|]. intros f Hf. eapply fob_FO. apply Dfs. exact Hf. }
  destruct fuel as [|f]; [discriminate H|].
  destruct (compute_complement_on PartialFO PartialFO_extends partial_reflects cfg rel_fuel f PartialFO_variant PartialFO_member
              (subtract_one_partial cfg rel_fuel Hret Hpn f) P o b P' r H (wfregb_wfreg _ Hwb) (fob_FO _ _ _ Do) Hb) as (He & _ & _ & Hk).
  split; assumption.
Qed.
