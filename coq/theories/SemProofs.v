(* SemProofs.v — facts about the specification Sem.v that the C09 proofs use: the cycle-free
   fragment (inductive characterisation CF), environment independence on it, and the semantic
   containment rules (one per type constructor). *)
From Quiver Require Import Base Types Sem.
From Coq Require Import Arith Lia.
Close Scope Z_scope.
Open Scope nat_scope.

Section SemFacts.
  Variable P : registry.

  (* named_ok = false: partial types must be unnamed (needed for soundness of the code as it is:
     an unnamed partial is accepted where a named one is expected) *)
  Variable named_ok : bool.

  (* cycle-free, variable-free, processes with both directions known *)
  Inductive CF : nat -> Prop :=
  | CF_int : forall t, lookup_type P t = Some TInteger -> CF t
  | CF_bin : forall t, lookup_type P t = Some TBinary -> CF t
  | CF_ref : forall t, lookup_type P t = Some TReference -> CF t
  | CF_res : forall t r, lookup_type P t = Some (TResource r) -> CF t
  | CF_union : forall t vs, lookup_type P t = Some (TUnion vs) -> (forall u, In u vs -> CF u) -> CF t
  | CF_tuple : forall t tid info, lookup_type P t = Some (TTuple tid) -> lookup_tuple P tid = Some info ->
      (forall f, In f (tfields info) -> CF (snd f)) -> CF t
  | CF_partial : forall t pname pfields, lookup_type P t = Some (TPartial pname pfields) ->
      (named_ok = true \/ pname = None) ->
      (forall f, In f pfields -> CF (snd f)) -> CF t
  | CF_callable : forall t p r rc, lookup_type P t = Some (TCallable p r rc) -> CF p -> CF r -> CF rc -> CF t
  | CF_process : forall t s r, lookup_type P t = Some (TProcess (Some s) (Some r)) -> CF s -> CF r -> CF t.

  (* what a cycle-free id of known type has below it *)
  Lemma CF_inv t st : CF t -> lookup_type P t = Some st ->
    match st with
    | TInteger | TBinary | TReference | TResource _ => True
    | TUnion vs => forall u, In u vs -> CF u
    | TTuple tid => exists info, lookup_tuple P tid = Some info /\ forall f, In f (tfields info) -> CF (snd f)
    | TPartial pname pfields => (named_ok = true \/ pname = None) /\ forall f, In f pfields -> CF (snd f)
    | TCallable p r rc => CF p /\ CF r /\ CF rc
    | TProcess (Some s) (Some r) => CF s /\ CF r
    | _ => False
    end.
  Proof.
    intros [] Hl; match goal with H : lookup_type P _ = _ |- _ => rewrite Hl in H; injection H as -> end; eauto.
  Qed.

  (* what membership in a type of known shape says about the value *)
  Lemma inhab_inv n E v t st : inhab P (S n) E v t -> lookup_type P t = Some st ->
    match st with
    | TInteger => exists z, v = VInt z
    | TBinary => exists b, v = VBin b
    | TReference => exists r, v = VRef r
    | TResource r => v = VRes r
    | TUnion vs => exists u, In u vs /\ inhab P (S n) (t :: E) v u
    | TTuple tid => exists info fs, lookup_tuple P tid = Some info /\ v = VTup (tname info) fs /\
        Forall2 (field_ok (inhab P n E)) (tfields info) fs
    | TPartial pn pfs => exists name fs, v = VTup name fs /\ (pn = None \/ pn = name) /\
        forall l ft, In (l, ft) pfs -> exists fv, In (Some l, fv) fs /\ inhab P n E fv ft
    | TCallable p r rc => exists c p' r' rc', v = VFun c /\ lookup_type P c = Some (TCallable p' r' rc') /\
        (forall w, inhab P n (t :: E) w p -> inhab P n [c] w p') /\
        (forall w, inhab P n [c] w r' -> inhab P n (t :: E) w r) /\
        (forall w, inhab P n (t :: E) w rc -> inhab P n [c] w rc')
    | TProcess s r => exists c s' r', v = VProc c /\ lookup_type P c = Some (TProcess (Some s') (Some r')) /\
        (forall s0, s = Some s0 -> forall w, inhab P n [] w s' -> inhab P n E w s0) /\
        (forall r0, r = Some r0 -> forall w, inhab P n [] w r' -> inhab P n E w r0)
    | TCycle _ => True
    | TVariable _ => False
    end.
  Proof.
    cbn [inhab]. intros [] Hl; match goal with H : lookup_type P _ = _ |- _ => rewrite Hl in H; injection H as -> end;
      eauto 10.
  Qed.

  (* does the head of the value fit the type?  No information for unions, back-references and variables *)
  Definition shape (st : ty) (v : value) : bool :=
    match st, v with
    | (TUnion _ | TCycle _ | TVariable _), _ => true
    | TInteger, VInt _ | TBinary, VBin _ | TReference, VRef _ => true
    | TResource r, VRes r' => Nat.eqb r r'
    | (TTuple _ | TPartial _ _), VTup _ _ => true
    | TCallable _ _ _, VFun _ | TProcess _ _, VProc _ => true
    | _, _ => false
    end.

  Lemma inhab_shape n E v t st : inhab P n E v t -> lookup_type P t = Some st -> shape st v = true.
  Proof.
    destruct n; [contradiction|]. cbn [inhab].
    intros [] Hl; match goal with H : lookup_type P _ = _ |- _ => rewrite Hl in H; injection H as -> end;
      cbn; auto using Nat.eqb_refl.
  Qed.

  Definition sub (s p : nat) : Prop := forall n E1 E2 v, inhab P n E1 v s -> inhab P n E2 v p.

  Ltac inv H := inversion H; subst; clear H.
  Ltac lk := match goal with
             | H1 : lookup_type P ?t = Some _, H2 : lookup_type P ?t = Some _ |- _ =>
               rewrite H1 in H2; inv H2
             | H1 : lookup_tuple P ?t = Some _, H2 : lookup_tuple P ?t = Some _ |- _ =>
               rewrite H1 in H2; inv H2
             end.

  Lemma Forall2_field_ok_impl (R1 R2 : value -> nat -> Prop) fs vs :
    (forall f fv, In f fs -> R1 fv (snd f) -> R2 fv (snd f)) ->
    Forall2 (field_ok R1) fs vs -> Forall2 (field_ok R2) fs vs.
  Proof.
    intros Himp HF. induction HF as [|f fv fs' vs' [Hl Hr] HF IH]; constructor.
    - split; [exact Hl|]. apply Himp; [left; reflexivity|exact Hr].
    - apply IH. intros f0 fv0 Hin. apply Himp. right; exact Hin.
  Qed.

  (* membership in a cycle-free type does not depend on the cycle environment *)
  Lemma env_indep : forall n t, CF t -> forall E1 E2 v, inhab P n E1 v t -> inhab P n E2 v t.
  Proof.
    induction n as [|m IHm]; [intros t _ E1 E2 v H; exact H|].
    intros t Hcf. induction Hcf as
      [t Hl|t Hl|t Hl|t r Hl|t vs Hl Hvs IHvs|t tid info Hl Hlt Hfs IHfs|t pname pfields Hl Hn Hfs IHfs
       |t p r rc Hl Hp IHp Hr IHr Hrc IHrc|t s r Hl Hs IHs Hr IHr];
      intros E1 E2 v H; cbn [inhab] in *; inv H; repeat lk; try (rewrite Hl in *; discriminate).
    - apply Inh_int; assumption.
    - apply Inh_bin; assumption.
    - apply Inh_ref; assumption.
    - apply Inh_res; assumption.
    - eapply Inh_union; [eassumption|eassumption|]. eapply IHvs; eassumption.
    - eapply Inh_tuple; [eassumption|eassumption|].
      eapply Forall2_field_ok_impl; [|eassumption].
      intros f fv Hin Hr. eapply IHm; [apply Hfs; exact Hin|exact Hr].
    - eapply Inh_partial; [eassumption|assumption|].
      intros l ft Hin. destruct (H2 l ft Hin) as [fv [Hinv Hr]].
      exists fv. split; [exact Hinv|]. eapply IHm; [apply (Hfs (l, ft)); exact Hin|exact Hr].
    - eapply Inh_fun; [eassumption|eassumption| | |].
      + intros w Hw. apply H2. eapply IHm; [exact Hp|exact Hw].
      + intros w Hw. eapply IHm; [exact Hr|]. apply H3. exact Hw.
      + intros w Hw. apply H4. eapply IHm; [exact Hrc|exact Hw].
    - eapply Inh_proc; [eassumption|eassumption| |].
      + intros s0 Hs0 w Hw. inv Hs0. eapply IHm; [exact Hs|]. eapply H2; [reflexivity|exact Hw].
      + intros r0 Hr0 w Hw. inv Hr0. eapply IHm; [exact Hr|]. eapply H3; [reflexivity|exact Hw].
  Qed.

  Lemma sub_refl : forall t, CF t -> sub t t.
  Proof. intros t Hcf n E1 E2 v H. eapply env_indep; eassumption. Qed.

  Lemma sub_trans : forall a b c, sub a b -> sub b c -> sub a c.
  Proof. intros a b c H1 H2 n E1 E2 v H. eapply H2 with (E1 := E1). eapply H1. exact H. Qed.

  Ltac inv_inh H := inversion H; subst; clear H; repeat lk.

  Lemma sub_empty_union s p : lookup_type P s = Some (TUnion []) -> sub s p.
  Proof.
    intros Hs n E1 E2 v H. destruct n; [contradiction|]. cbn [inhab] in H. inv_inh H.
    match goal with Hin : In _ [] |- _ => destruct Hin end.
  Qed.

  Lemma sub_union_left s vs p :
    lookup_type P s = Some (TUnion vs) -> (forall v, In v vs -> sub v p) -> sub s p.
  Proof.
    intros Hs Hall n E1 E2 v H. destruct n; [contradiction|]. cbn [inhab] in H. inv_inh H.
    eapply (Hall u) with (n := S n); [assumption|]. cbn [inhab]. eassumption.
  Qed.

  Lemma sub_union_right s vs p u :
    lookup_type P p = Some (TUnion vs) -> In u vs -> sub s u -> sub s p.
  Proof.
    intros Hp Hin Hsub n E1 E2 v H. destruct n; [contradiction|].
    cbn [inhab]. eapply Inh_union; [exact Hp|exact Hin|]. apply (Hsub (S n) E1 (p :: E2) v H).
  Qed.

  Lemma sub_int s p : lookup_type P s = Some TInteger -> lookup_type P p = Some TInteger -> sub s p.
  Proof.
    intros Hs Hp n E1 E2 v H. destruct n; [contradiction|]. cbn [inhab] in *. inv_inh H.
    apply Inh_int; exact Hp.
  Qed.
  Lemma sub_bin s p : lookup_type P s = Some TBinary -> lookup_type P p = Some TBinary -> sub s p.
  Proof.
    intros Hs Hp n E1 E2 v H. destruct n; [contradiction|]. cbn [inhab] in *. inv_inh H.
    apply Inh_bin; exact Hp.
  Qed.
  Lemma sub_ref s p : lookup_type P s = Some TReference -> lookup_type P p = Some TReference -> sub s p.
  Proof.
    intros Hs Hp n E1 E2 v H. destruct n; [contradiction|]. cbn [inhab] in *. inv_inh H.
    apply Inh_ref; exact Hp.
  Qed.
  Lemma sub_res s p r : lookup_type P s = Some (TResource r) -> lookup_type P p = Some (TResource r) -> sub s p.
  Proof.
    intros Hs Hp n E1 E2 v H. destruct n; [contradiction|]. cbn [inhab] in *. inv_inh H.
    apply Inh_res; exact Hp.
  Qed.

  Definition fields_sub (f1 f2 : option nat * nat) : Prop := fst f1 = fst f2 /\ sub (snd f1) (snd f2).

  Lemma fields_sub_transfer m E1 E2 fs1 fs2 vs :
    Forall2 fields_sub fs1 fs2 ->
    Forall2 (field_ok (inhab P m E1)) fs1 vs -> Forall2 (field_ok (inhab P m E2)) fs2 vs.
  Proof.
    intros H12. revert vs. induction H12 as [|f1 f2 fs1' fs2' [Hl Hs] H12 IH]; intros vs HF; inv HF.
    - constructor.
    - constructor; [|apply IH; assumption].
      match goal with Hok : field_ok _ _ _ |- _ => destruct Hok as [Hl' Hr'] end.
      split; [congruence|]. eapply Hs; exact Hr'.
  Qed.

  Lemma sub_tuple s p id1 id2 i1 i2 :
    lookup_type P s = Some (TTuple id1) -> lookup_type P p = Some (TTuple id2) ->
    lookup_tuple P id1 = Some i1 -> lookup_tuple P id2 = Some i2 ->
    tname i1 = tname i2 -> Forall2 fields_sub (tfields i1) (tfields i2) -> sub s p.
  Proof.
    intros Hs Hp H1 H2 Hn HF n E1 E2 v H. destruct n; [contradiction|]. cbn [inhab] in *. inv_inh H.
    rewrite Hn. eapply Inh_tuple; [exact Hp|exact H2|].
    eapply fields_sub_transfer; eassumption.
  Qed.

  Lemma Forall2_In_l {A B} (R : A -> B -> Prop) l1 l2 a :
    Forall2 R l1 l2 -> In a l1 -> exists b, In b l2 /\ R a b.
  Proof.
    induction 1 as [|x y l1' l2' Hxy HF IH]; intros Hin; [destruct Hin|].
    destruct Hin as [->|Hin]; [exists y; split; [left; reflexivity|assumption]|].
    destruct (IH Hin) as [b [Hb Hr]]. exists b. split; [right; assumption|assumption].
  Qed.

  Lemma Forall2_In_r {A B} (R : A -> B -> Prop) l1 l2 b :
    Forall2 R l1 l2 -> In b l2 -> exists a, In a l1 /\ R a b.
  Proof.
    induction 1 as [|x y l1' l2' Hxy HF IH]; intros Hin; [destruct Hin|].
    destruct Hin as [->|Hin]; [exists x; split; [left; reflexivity|assumption]|].
    destruct (IH Hin) as [a [Ha Hr]]. exists a. split; [right; assumption|assumption].
  Qed.

  Lemma sub_tuple_partial s p cid cinfo pname pfields :
    lookup_type P s = Some (TTuple cid) -> lookup_tuple P cid = Some cinfo ->
    lookup_type P p = Some (TPartial pname pfields) ->
    (pname = None \/ pname = tname cinfo) ->
    (forall l pt, In (l, pt) pfields -> exists ct, In (Some l, ct) (tfields cinfo) /\ sub ct pt) ->
    sub s p.
  Proof.
    intros Hs Hc Hp Hn Hf n E1 E2 v H. destruct n; [contradiction|]. cbn [inhab] in *. inv_inh H.
    eapply Inh_partial; [exact Hp|exact Hn|].
    intros l pt Hin. destruct (Hf l pt Hin) as [ct [Hct Hsub]].
    match goal with HF : Forall2 _ (tfields _) _ |- _ =>
      destruct (Forall2_In_l _ _ _ _ HF Hct) as [[l' fv] [Hfv [Hl Hr]]] end.
    cbn in Hl, Hr. subst l'. exists fv. split; [exact Hfv|]. eapply Hsub; exact Hr.
  Qed.

  Lemma sub_partial_partial s p n1 f1 n2 f2 :
    lookup_type P s = Some (TPartial n1 f1) -> lookup_type P p = Some (TPartial n2 f2) ->
    (n2 = None \/ n1 = n2) ->
    (forall l t2, In (l, t2) f2 -> exists t1, In (l, t1) f1 /\ sub t1 t2) ->
    sub s p.
  Proof.
    intros Hs Hp Hn Hf n E1 E2 v H. destruct n; [contradiction|]. cbn [inhab] in *. inv_inh H.
    eapply Inh_partial; [exact Hp| |].
    - destruct Hn as [->|<-]; [left; reflexivity|].
      match goal with Hor : _ \/ _ |- _ => destruct Hor as [->|Heq] end;
        [left; reflexivity|right; exact Heq].
    - intros l t2 Hin. destruct (Hf l t2 Hin) as [t1 [Hin1 Hsub]].
      match goal with Hall : forall l ft, In (l, ft) _ -> exists _, _ |- _ =>
        destruct (Hall l t1 Hin1) as [fv [Hfv Hr]] end.
      exists fv. split; [exact Hfv|]. eapply Hsub; exact Hr.
  Qed.

  Lemma sub_process s p s1 r1 s2 r2 :
    lookup_type P s = Some (TProcess (Some s1) (Some r1)) ->
    lookup_type P p = Some (TProcess (Some s2) (Some r2)) ->
    sub s1 s2 -> sub r1 r2 -> sub s p.
  Proof.
    intros Hs Hp Hss Hrr n E1 E2 v H. destruct n; [contradiction|]. cbn [inhab] in *. inv_inh H.
    eapply Inh_proc; [exact Hp|eassumption| |].
    - intros s0 Hs0 w Hw. inv Hs0. eapply Hss.
      match goal with Hx : forall s0, Some s1 = Some s0 -> _ |- _ => eapply (Hx s1 eq_refl) end. exact Hw.
    - intros r0 Hr0 w Hw. inv Hr0. eapply Hrr.
      match goal with Hx : forall r0, Some r1 = Some r0 -> _ |- _ => eapply (Hx r1 eq_refl) end. exact Hw.
  Qed.

  Lemma sub_callable s p p1 r1 c1 p2 r2 c2 :
    lookup_type P s = Some (TCallable p1 r1 c1) -> lookup_type P p = Some (TCallable p2 r2 c2) ->
    sub p2 p1 -> sub r1 r2 -> sub c2 c1 -> sub s p.
  Proof.
    intros Hs Hp Hpp Hrr Hcc n E1 E2 v H. destruct n; [contradiction|]. cbn [inhab] in *. inv_inh H.
    eapply Inh_fun; [exact Hp|eassumption| | |].
    - intros w Hw. match goal with Hx : forall w, _ -> inhab P n [c] w _ |- _ => apply Hx end.
      eapply Hpp; exact Hw.
    - intros w Hw. eapply Hrr. match goal with Hx : forall w, inhab P n [c] w _ -> _ |- _ => apply Hx end. exact Hw.
    - intros w Hw. match goal with Hx : forall w, _ -> inhab P n [c] w rc' |- _ => apply Hx end.
      eapply Hcc; exact Hw.
  Qed.
End SemFacts.
