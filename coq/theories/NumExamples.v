(* NumExamples.v — non-vacuity: concrete operands (huge, beyond 2^64; negative; surds) meet the
   hypotheses of the C20 theorems, and the model computes the expected canonical results. *)
From Coq Require Import QArith Lia ZArith.
From Quiver Require Import Base Num NumProofs NumSurd.
Open Scope Z_scope.

Definition big1 : Z := 2 ^ 64 + 1.
Definition big2 : Z := 2 ^ 130 + 7.

Example wfc_huge : wfc (CRat big1 3) /\ wfc (CRat (- big2) big1) /\ wfc (CInt big2).
Proof. repeat split; vm_compute; reflexivity. Qed.

(* (2^64+1)/3 + 5/6 = (2^65+7)/6 = 12297829382473034413/2 in lowest terms; integers beyond 64 bits
   stay integers *)
Example add_huge :
  add (Some (NRat big1 3)) (Some (NRat 5 6)) = Val (Some (NRat 12297829382473034413 2)) /\
  mul (Some (NInt big2)) (Some (NInt (- big1))) = Val (Some (NInt (- (big1 * big2)))) /\
  sub (Some (NInt big1)) (Some (NRat 1 2)) = Val (Some (NRat (2 ^ 65 + 1) 2)).
Proof. repeat split; vm_compute; reflexivity. Qed.

Example reduce_huge_negative_denominator :
  reduce (Rat (6 * big1) (-4 * big1)) = Val (Rat (-3) 2).
Proof. vm_compute. reflexivity. Qed.

Example div_huge_and_by_zero :
  div (Some (NInt big2)) (Some (NInt big2)) = Val (Some (NRat 1 1)) /\
  div (Some (NInt big2)) (Some (NRat 0 1)) = Val None /\
  div (Some (NInt 6)) (Some (NInt (-4))) = Val (Some (NRat (-3) 2)) /\
  div None (Some (NInt 1)) = Val None.
Proof. repeat split; vm_compute; reflexivity. Qed.

Example compare_huge :
  compare (Some (NRat big1 3)) (Some (NRat (big1 + 1) 3)) = Val (Some (-1)) /\
  ltp (Some (NInt (- big2))) (Some (NRat 1 big2)) = Val true.
Proof. repeat split; vm_compute; reflexivity. Qed.

Example rounding :
  floor (Some (NRat (-7) 2)) = Val (Some (-4)) /\ ceil (Some (NRat (-7) 2)) = Val (Some (-3)) /\
  round (Some (NRat (-7) 2)) = Val (Some (-4)) /\ round (Some (NRat 5 2)) = Val (Some 3) /\
  to_int (Some (NRat (-7) 2)) = Val (Some (-3)) /\ floor (Some (NRat (2 * big2 + 1) 2)) = Val (Some big2).
Proof. repeat split; vm_compute; reflexivity. Qed.

(* surds: (1+sqrt2)(1-sqrt2) = -1 collapses to an integer; sqrt2*sqrt2 = 2; huge coefficients *)
Definition one_plus_sqrt2 := NSurd (CInt 1) (CInt 1) 2.
Definition one_minus_sqrt2 := NSurd (CInt 1) (CInt (-1)) 2.
Example surd_products :
  mul (Some one_plus_sqrt2) (Some one_minus_sqrt2) = Val (Some (NInt (-1))) /\
  mul (Some sqrt2) (Some sqrt2) = Val (Some (NInt 2)) /\
  add (Some (NSurd (CInt big2) (CRat 1 big1) 2)) (Some (NRat 1 2)) =
    Val (Some (NSurd (CRat (2 * big2 + 1) 2) (CRat 1 big1) 2)) /\
  div (Some (NInt 1)) (Some one_plus_sqrt2) = Val (Some (NSurd (CInt (-1)) (CInt 1) 2)) /\
  add (Some sqrt2) (Some sqrt3) = Val None.
Proof. repeat split; vm_compute; reflexivity. Qed.

Example wf_surd_huge : wf_num (NSurd (CInt big2) (CRat 1 big1) 2) /\ wf_num one_plus_sqrt2.
Proof.
  split; (split; [vm_compute; auto |]); (split; [vm_compute; auto |]);
    (split; [discriminate |]); (split; [lia | apply (nonsquare_between 1); lia]).
Qed.

(* golden ratio: phi^2 = phi + 1, and 8/5 < phi < 13/8 *)
Definition phi := NSurd (CRat 1 2) (CRat 1 2) 5.
Example golden_ratio :
  mul (Some phi) (Some phi) = add (Some phi) (Some (NInt 1)) /\
  gtp (Some phi) (Some (NRat 8 5)) = Val true /\ ltp (Some phi) (Some (NRat 13 8)) = Val true.
Proof. repeat split; vm_compute; reflexivity. Qed.

Example surd_rounding :
  to_int (Some (NSurd (CInt 0) (CInt 5) 2)) = Val (Some 7) /\
  to_int (Some (NSurd (CInt (-3)) (CInt 1) 2)) = Val (Some (-1)) /\
  floor (Some (NSurd (CInt (-3)) (CInt 1) 2)) = Val (Some (-2)) /\
  round (Some (NSurd (CInt big2) (CInt 1) 2)) = Val (Some (big2 + 1)).
Proof. repeat split; vm_compute; reflexivity. Qed.

(* sqrt 8 = 2 sqrt 2; 2^80 is a perfect square; sqrt (2^65) = 2^32 sqrt 2; sqrt (1/2) = (1/2) sqrt 2;
   negatives nil *)
Example sqrt_examples :
  sqrt (Some (NInt 8)) = Val (Some (NSurd (CInt 0) (CInt 2) 2)) /\
  sqrt (Some (NInt (2 ^ 80))) = Val (Some (NInt (2 ^ 40))) /\
  sqrt (Some (NInt (2 ^ 65))) = Val (Some (NSurd (CInt 0) (CInt (2 ^ 32)) 2)) /\
  sqrt (Some (NRat 1 2)) = Val (Some (NSurd (CInt 0) (CRat 1 2) 2)) /\
  sqrt (Some (NInt (-4))) = Val None /\ sqrt (Some (NRat 9 4)) = Val (Some (NRat 3 2)).
Proof. repeat split; vm_compute; reflexivity. Qed.

Example literal_examples :
  lit_reduce 150 100 = Rat 3 2 /\ lit_reduce 6 4 = Rat 3 2 /\ lit_reduce (-3) 9 = Rat (-1) 3 /\
  lit_reduce 4 2 = Rat 2 1 /\ lit_reduce 0 10 = Rat 0 1.
Proof. repeat split; vm_compute; reflexivity. Qed.
