(* NarrowCallable.v — intersect_types on two CALLABLE (two PROCESS) types never drops a value that belongs
   to both, since intersect_pair builds the exact meet fn(p1 | p2) -> (r1 /\ r2), receive c1 | c2, when
   neither operand is assignable to the other (79f9965).
   The components (parameter, result, receive type) are first-order cycle-free, so the cycle test in
   front of the meet answers no.  Membership is read in the registry AFTER the call (the one the
   program continues with): a function value is judged by its declared signature, and the meet's
   parameter type does not exist before the call.
   Ingredients: the converse of union_type_ids_keeps (a value of the union is a value of a piece, at
   the same step index — unions do not consume the index), mem_reflects / mem_extends to move
   first-order memberships between the registries of the call, intersect_spec for the results. *)
From Quiver Require Import Base Types Rel Sem SemProofs RelProofs OverlapProofs TypesProofs Narrow NarrowProofs.
From Coq Require Import Arith.
Close Scope Z_scope.
Open Scope nat_scope.

Lemma variants_extends P P' x : extends P P' -> FO P x -> get_type_variants P' x = get_type_variants P x.
Proof.
  intros [HT _] Hfo. unfold get_type_variants.
  destruct (lookup_type P x) as [t|] eqn:E; [|destruct Hfo; congruence]. rewrite (HT _ _ E). reflexivity.
Qed.

(* a value of union_type_ids pieces is a value of one of the pieces (same step index) *)
Lemma union_type_ids_converse P pieces P' r :
  (forall x, In x pieces -> FO P x) ->
  union_type_ids P pieces = (P', r) ->
  forall n v, inhab P' n [] v r -> exists x, In x pieces /\ inhab P' n [] v x.
Proof.
  intros Hfo H.
  destruct (union_type_ids_keeps P pieces P' r Hfo H) as (He & _ & _).
  unfold union_type_ids in H. pose proof (union_flat P pieces Hfo) as Hflat.
  set (flat := flat_map (fun id => match lookup_type P id with Some (TUnion variants) => variants | _ => [id] end) pieces) in *.
  assert (Hback : forall n v y, In y flat -> inhab P' n [] v y -> exists x, In x pieces /\ inhab P' n [] v x).
  { intros n v y Hy Hv. apply Hflat in Hy. destruct Hy as (x & Hx & Hy).
    exists x. split; [exact Hx|].
    eapply (variant_member P' x n v y); [eapply FO_extends; [exact He|apply Hfo; exact Hx]| |exact Hv].
    rewrite (variants_extends P P' x He (Hfo x Hx)). exact Hy. }
  assert (Hflat_fo : forall y, In y flat -> FO P y).
  { intros y Hy. apply Hflat in Hy. destruct Hy as (x & Hx & Hy). exact (variants_FO P x (Hfo x Hx) y Hy). }
  assert (Huniq : forall y, In y (dedup [] flat) <-> In y flat).
  { intros y. rewrite In_dedup. cbn. tauto. }
  destruct (dedup [] flat) as [|u1 [|u2 us]] eqn:Hd.
  - destruct (never_spec _ _ _ H) as [_ Hl]. intros n v Hv. exfalso. eapply never_uninhabited; eassumption.
  - inversion H; subst. intros n v Hv. eapply Hback; [apply Huniq; left; reflexivity|exact Hv].
  - destruct (register_type_spec _ _ _ _ H) as [_ Hl].
    intros n v Hv. destruct n; [destruct Hv|]. destruct (inhab_inv _ _ _ _ _ _ Hv Hl) as (u & Hin & Hu).
    eapply (Hback (S n) v u); [apply Huniq; exact Hin|].
    eapply (FO_env P' (S n) u [r] [] v); [eapply FO_extends; [exact He|apply Hflat_fo; apply Huniq; exact Hin]|exact Hu].
Qed.

(* memberships are read in any later registry P', under any environment *)
Lemma union_pair_member Q x1 x2 Q1 u P' n E w :
  FO Q x1 -> FO Q x2 -> union_type_ids Q [x1; x2] = (Q1, u) -> extends Q1 P' -> inhab P' n E w u ->
  (forall E', inhab P' n E' w x1) \/ (forall E', inhab P' n E' w x2).
Proof.
  intros F1 F2 Hu He Hw.
  assert (Hpieces : forall x, In x [x1; x2] -> FO Q x) by (intros x [<-|[<-|[]]]; assumption).
  destruct (union_type_ids_keeps Q _ Q1 u Hpieces Hu) as (He1 & Fu & _).
  pose proof (mem_reflects Q1 P' He n u Fu [] w (FO_env P' n u E [] w (FO_extends _ _ _ He Fu) Hw)) as Hw1.
  destruct (union_type_ids_converse Q _ Q1 u Hpieces Hu n w Hw1) as [x [Hx Hwx]].
  pose proof (FO_extends _ _ _ He (FO_extends _ _ _ He1 (Hpieces x Hx))) as Fx.
  pose proof (mem_extends Q1 P' n w x He (FO_extends _ _ _ He1 (Hpieces x Hx)) Hwx) as Hwx'.
  destruct Hx as [<-|[<-|[]]]; [left|right]; intros E'; exact (FO_env P' n _ [] E' w Fx Hwx').
Qed.

(* meet(x, y) of narrowing.rs: both known => intersect; one unknown => the other.  The model keeps it
   local to the process arm of intersect_pair, as the source does; it has a name here so that
   meet_of_spec can be stated (memberships read in any later registry Pf). *)
Definition meet_of (it : registry -> nat -> nat -> option (registry * nat)) (P : registry) (x y : option nat)
  : option (registry * option nat) :=
  match x, y with
  | Some x, Some y => match it P x y with
                      | None => None
                      | Some (P', m) => Some (P', Some m)
                      end
  | Some x, None => Some (P, Some x)
  | None, Some y => Some (P, Some y)
  | None, None => Some (P, None)
  end.

Lemma meet_of_spec it P x y P1 m :
  ISpec it -> meet_of it P x y = Some (P1, m) ->
  (forall x0, x = Some x0 -> FO P x0) -> (forall y0, y = Some y0 -> FO P y0) ->
  extends P P1 /\ (forall m0, m = Some m0 -> FO P1 m0) /\
  forall Pf, extends P1 Pf -> forall m0, m = Some m0 -> forall n w,
    (forall x0, x = Some x0 -> inhab Pf n [] w x0) -> (forall y0, y = Some y0 -> inhab Pf n [] w y0) ->
    inhab Pf n [] w m0.
Proof.
  intros Hit H Fx Fy. unfold meet_of in H. destruct x as [x|]; destruct y as [y|].
  - destruct (it P x y) as [[P2 m1]|] eqn:Hi; [|discriminate H]. injection H as HP Hm; subst P2 m.
    destruct (Hit P x y P1 m1 Hi (Fx x eq_refl) (Fy y eq_refl)) as (He & Fm & Hkeep).
    split; [exact He|]. split; [intros m0 Hm0; inversion Hm0; subst; exact Fm|].
    intros Pf Hef m0 Hm0 n w Hx Hy. inversion Hm0; subst m0.
    assert (Hpf : extends P Pf) by (eapply extends_trans; eassumption).
    eapply mem_extends; [exact Hef|exact Fm|].
    apply (Hkeep n w I); (eapply mem_reflects; [exact Hpf| |]); [apply Fx; reflexivity|apply Hx; reflexivity|apply Fy; reflexivity|apply Hy; reflexivity].
  - injection H as HP Hm; subst P1 m. split; [apply extends_refl|]. split; [intros m0 Hm0; inversion Hm0; subst; apply Fx; reflexivity|].
    intros Pf _ m0 Hm0 n w Hx _. inversion Hm0; subst. apply Hx. reflexivity.
  - injection H as HP Hm; subst P1 m. split; [apply extends_refl|]. split; [intros m0 Hm0; inversion Hm0; subst; apply Fy; reflexivity|].
    intros Pf _ m0 Hm0 n w _ Hy. inversion Hm0; subst. apply Hy. reflexivity.
  - injection H as HP Hm; subst P1 m. split; [apply extends_refl|]. split; [intros m0 Hm0; discriminate Hm0|].
    intros Pf _ m0 Hm0. discriminate Hm0.
Qed.

Definition fn_kind (st : ty) : Prop := match st with TCallable _ _ _ | TProcess _ _ => True | _ => False end.

(* a first-order id, or a callable / process type over first-order ids *)
Definition fo_or_fn (P : registry) (t : nat) : Prop :=
  FO P t \/ exists st, lookup_type P t = Some st /\ fn_kind st /\ forall c, In c (children P st) -> FO P c.

(* contains_cycle finds no back-reference below such an id *)
Lemma contains_cycle_false cfg P : forall fuel seen t b seen',
  fo_or_fn P t -> contains_cycle cfg fuel P seen t = Some (b, seen') -> b = false.
Proof.
  induction fuel as [|f IH]; intros seen t b seen' Hd H; [discriminate|]. cbn in H.
  destruct (existsb (Nat.eqb t) seen); [injection H as <- _; reflexivity|].
  (* the loop over the children, which contains_cycle defines locally *)
  assert (Hloop : forall cs s, (forall c, In c cs -> FO P c) ->
            (fix any_child (seen : list nat) (children : list nat) : option (bool * list nat) :=
               match children with
               | [] => Some (false, seen)
               | c :: children' =>
                 match contains_cycle cfg f P seen c with
                 | None => None
                 | Some (true, seen') => Some (true, seen')
                 | Some (false, seen') => any_child seen' children'
                 end
               end) s cs = Some (b, seen') -> b = false).
  { induction cs as [|c cs IHcs]; intros s Hcs Hc; cbn in Hc; [injection Hc as <- _; reflexivity|].
    destruct (contains_cycle cfg f P s c) as [[[] s1]|] eqn:E; [|exact (IHcs s1 (fun u Hu => Hcs u (or_intror Hu)) Hc)|discriminate].
    discriminate (IH _ _ _ _ (or_introl (Hcs c (or_introl eq_refl))) E). }
  destruct Hd as [Hfo|(st & Hl & Hk & Hch)].
  - destruct Hfo as [t Hl|t Hl|t Hl|t r Hl|t vs Hl Hvs|t tid info Hl Ht Hfs]; rewrite Hl in H;
      try (injection H as <- _; reflexivity).
    + exact (Hloop vs _ Hvs H).
    + rewrite Ht in H. apply (Hloop _ _) in H; [exact H|].
      intros c Hc. apply in_map_iff in Hc. destruct Hc as (fl & <- & Hfl). exact (Hfs fl Hfl).
  - rewrite Hl in H. destruct st; try contradiction; destruct (cfg_cc_callable cfg);
      try (injection H as <- _; reflexivity); exact (Hloop _ _ Hch H).
Qed.

Lemma cyclic_false cfg fuel P t ca : fo_or_fn P t -> cyclic cfg fuel P t = Some ca -> ca = false.
Proof.
  unfold cyclic. intros Hd H. destruct (contains_cycle cfg fuel P [] t) as [[b s]|] eqn:E; [|discriminate].
  injection H as <-. exact (contains_cycle_false cfg P _ _ _ _ _ Hd E).
Qed.

Section Meet.
  Variable cfg : rel_cfg.
  Variable rel_fuel : nat.

  (* the arms of intersect_pair for two callable and for two process types try the same shortcuts
     before they build the meet: with a cycle around, the overlap test (never the case over first-order
     components); else a if it is assignable to b, b if it is assignable to a *)
  Lemma meet_or_shortcut P0 nid a b (meet : option (registry * nat)) P' r :
    fo_or_fn P0 a -> fo_or_fn P0 b ->
    match cyclic cfg rel_fuel P0 a with
    | None => None
    | Some ca =>
      match (if ca then Some true else cyclic cfg rel_fuel P0 b) with
      | None => None
      | Some true =>
        match types_overlap cfg rel_fuel P0 a b with
        | None => None
        | Some true => Some (P0, a)
        | Some false => Some (P0, nid)
        end
      | Some false =>
        match is_compatible cfg rel_fuel P0 a b with
        | None => None
        | Some true => Some (P0, a)
        | Some false =>
          match is_compatible cfg rel_fuel P0 b a with
          | None => None
          | Some true => Some (P0, b)
          | Some false => meet
          end
        end
      end
    end = Some (P', r) ->
    (P', r) = (P0, a) \/ (P', r) = (P0, b) \/ meet = Some (P', r).
  Proof.
    intros Ha Hb H.
    destruct (cyclic cfg rel_fuel P0 a) as [ca|] eqn:Ea; [|discriminate H]. rewrite (cyclic_false _ _ _ _ _ Ha Ea) in H.
    destruct (cyclic cfg rel_fuel P0 b) as [cb|] eqn:Eb; [|discriminate H]. rewrite (cyclic_false _ _ _ _ _ Hb Eb) in H.
    destruct (is_compatible cfg rel_fuel P0 a b) as [[|]|]; [injection H as <- <-; auto| |discriminate H].
    destruct (is_compatible cfg rel_fuel P0 b a) as [[|]|]; [injection H as <- <-; auto|auto|discriminate H].
  Qed.

  (* what intersect_pair promises on two such types; memberships are read in the registry after the
     call.  That the result is no union lets intersect_types return it as it is (intersect_types_single). *)
  Definition keeps_both (P : registry) (a b : nat) (P' : registry) (r : nat) : Prop :=
    extends P P' /\ non_union P' r /\ forall n v, inhab P' n [] v a -> inhab P' n [] v b -> inhab P' n [] v r.

  Lemma keeps_operand P P0 a b x :
    extends P P0 -> non_union P0 a -> non_union P0 b -> x = a \/ x = b -> keeps_both P a b P0 x.
  Proof.
    intros He Ha Hb Hx. split; [exact He|]. split; [destruct Hx as [->| ->]; assumption|].
    intros n v Hva Hvb. destruct Hx as [->| ->]; assumption.
  Qed.

  Lemma intersect_pair_callable f P a b p1 r1 c1 p2 r2 c2 P' r :
    ISpec (intersect_types cfg rel_fuel (pred f)) ->
    intersect_pair cfg rel_fuel f P a b = Some (P', r) ->
    lookup_type P a = Some (TCallable p1 r1 c1) -> lookup_type P b = Some (TCallable p2 r2 c2) ->
    FO P p1 -> FO P r1 -> FO P c1 -> FO P p2 -> FO P r2 -> FO P c2 ->
    keeps_both P a b P' r.
  Proof.
    destruct f as [|f]; [discriminate|]. cbn [pred].
    intros IHt H Hla Hlb Fp1 Fr1 Fc1 Fp2 Fr2 Fc2. rewrite intersect_pair_S in H.
    destruct (Nat.eqb a b) eqn:Eab.
    { injection H as <- <-. apply keeps_operand; [apply extends_refl| | |left; reflexivity]; intros vs Hl; congruence. }
    destruct (never P) as [P0 nid] eqn:Hn. destruct (never_spec _ _ _ Hn) as [He0 Hlnid].
    pose proof (proj1 He0 _ _ Hla) as Hla0. pose proof (proj1 He0 _ _ Hlb) as Hlb0.
    rewrite Hla0, Hlb0 in H. cbv beta iota in H.
    unfold current_meet_callable in H. cbn [negb] in H. cbv beta iota in H.
    pose proof (FO_extends _ _ _ He0 Fp1) as Fp1_0. pose proof (FO_extends _ _ _ He0 Fp2) as Fp2_0.
    assert (Hna : non_union P0 a) by (intros vs Hl; congruence).
    assert (Hnb : non_union P0 b) by (intros vs Hl; congruence).
    assert (Hfa : fo_or_fn P0 a)
      by (right; eexists; split; [exact Hla0|split; [exact I|]]; intros c [<-|[<-|[<-|[]]]]; eapply FO_extends; eassumption).
    assert (Hfb : fo_or_fn P0 b)
      by (right; eexists; split; [exact Hlb0|split; [exact I|]]; intros c [<-|[<-|[<-|[]]]]; eapply FO_extends; eassumption).
    destruct (meet_or_shortcut P0 nid a b _ P' r Hfa Hfb H) as [E|[E|Hm]];
      [injection E as -> ->; apply keeps_operand; auto|injection E as -> ->; apply keeps_operand; auto|].
    clear H. rename Hm into H.
    (* the exact meet *)
    destruct (union_type_ids P0 [p1; p2]) as [P1 pu] eqn:Hu1.
    assert (He1 : extends P0 P1).
    { eapply union_type_ids_keeps; [|exact Hu1]. intros x [<-|[<-|[]]]; assumption. }
    assert (He01 : extends P P1) by (eapply extends_trans; eassumption).
    destruct (intersect_types cfg rel_fuel f P1 r1 r2) as [[P2 ri]|] eqn:Hi; [|discriminate H].
    destruct (IHt P1 r1 r2 P2 ri Hi (FO_extends _ _ _ He01 Fr1) (FO_extends _ _ _ He01 Fr2)) as (He2 & Fri & Hkeep).
    assert (He02 : extends P P2) by (eapply extends_trans; eassumption).
    pose proof (FO_extends _ _ _ He02 Fc1) as Fc1_2. pose proof (FO_extends _ _ _ He02 Fc2) as Fc2_2.
    destruct (union_type_ids P2 [c1; c2]) as [P3 cu] eqn:Hu2.
    assert (He3 : extends P2 P3).
    { eapply union_type_ids_keeps; [|exact Hu2]. intros x [<-|[<-|[]]]; assumption. }
    injection H as H. destruct (register_type_spec _ _ _ _ H) as [He4 Hlr].
    assert (He1' : extends P1 P') by (eapply extends_trans; [exact He2|eapply extends_trans; eassumption]).
    assert (He2' : extends P2 P') by (eapply extends_trans; eassumption).
    assert (He' : extends P P') by (eapply extends_trans; [exact He01|exact He1']).
    split; [exact He'|]. split; [intros vs Hl; rewrite Hlr in Hl; discriminate Hl|].
    intros n v Hva Hvb. destruct n; [destruct Hva|].
    destruct (inhab_inv _ _ _ _ _ _ Hva (proj1 He' _ _ Hla)) as (c & p' & r' & rc' & -> & Hlc & Hpa & Hra & Hca').
    destruct (inhab_inv _ _ _ _ _ _ Hvb (proj1 He' _ _ Hlb)) as (c0 & p'0 & r'0 & rc'0 & Hc0 & Hlc0 & Hpb & Hrb & Hcb').
    injection Hc0 as <-. rewrite Hlc in Hlc0. injection Hlc0 as <- <- <-.
    cbn [inhab]. eapply Inh_fun; [exact Hlr|exact Hlc| | |].
    - (* a parameter of the meet is a parameter of a or of b *)
      intros w Hw. destruct (union_pair_member P0 p1 p2 P1 pu P' n _ w Fp1_0 Fp2_0 Hu1 He1' Hw) as [Hx|Hx];
        [apply Hpa|apply Hpb]; apply Hx.
    - (* a result of the function is a result of a and of b, hence of their intersection *)
      intros w Hw.
      pose proof (FO_env P' n r1 [a] [] w (FO_extends _ _ _ He' Fr1) (Hra w Hw)) as H1.
      pose proof (FO_env P' n r2 [b] [] w (FO_extends _ _ _ He' Fr2) (Hrb w Hw)) as H2.
      pose proof (mem_reflects P1 P' He1' n r1 (FO_extends _ _ _ He01 Fr1) [] w H1) as H1'.
      pose proof (mem_reflects P1 P' He1' n r2 (FO_extends _ _ _ He01 Fr2) [] w H2) as H2'.
      eapply FO_env; [eapply FO_extends; [exact He2'|exact Fri]|].
      eapply mem_extends; [exact He2'|exact Fri|exact (Hkeep n w I H1' H2')].
    - (* a message the meet receives is received by a or by b *)
      intros w Hw. destruct (union_pair_member P2 c1 c2 P3 cu P' n _ w Fc1_2 Fc2_2 Hu2 He4 Hw) as [Hx|Hx];
        [apply Hca'|apply Hcb']; apply Hx.
  Qed.

  Lemma intersect_pair_process f P a b s1 r1 s2 r2 P' r :
    ISpec (intersect_types cfg rel_fuel (pred f)) ->
    intersect_pair cfg rel_fuel f P a b = Some (P', r) ->
    lookup_type P a = Some (TProcess s1 r1) -> lookup_type P b = Some (TProcess s2 r2) ->
    (forall x, s1 = Some x -> FO P x) -> (forall x, r1 = Some x -> FO P x) ->
    (forall x, s2 = Some x -> FO P x) -> (forall x, r2 = Some x -> FO P x) ->
    keeps_both P a b P' r.
  Proof.
    destruct f as [|f]; [discriminate|]. cbn [pred].
    intros IHt H Hla Hlb Fs1 Fr1 Fs2 Fr2. rewrite intersect_pair_S in H.
    destruct (Nat.eqb a b) eqn:Eab.
    { injection H as <- <-. apply keeps_operand; [apply extends_refl| | |left; reflexivity]; intros vs Hl; congruence. }
    destruct (never P) as [P0 nid] eqn:Hn. destruct (never_spec _ _ _ Hn) as [He0 Hlnid].
    pose proof (proj1 He0 _ _ Hla) as Hla0. pose proof (proj1 He0 _ _ Hlb) as Hlb0.
    rewrite Hla0, Hlb0 in H. cbv beta iota in H.
    unfold current_meet_callable in H. cbn [negb] in H. cbv beta iota in H.
    assert (Hna : non_union P0 a) by (intros vs Hl; congruence).
    assert (Hnb : non_union P0 b) by (intros vs Hl; congruence).
    assert (Hopt : forall (so ro : option nat) c, (forall x, so = Some x -> FO P x) -> (forall x, ro = Some x -> FO P x) ->
              In c (children P0 (TProcess so ro)) -> FO P0 c).
    { intros so ro c Fs Fr Hc. apply in_app_or in Hc. eapply FO_extends; [exact He0|].
      destruct Hc as [Hc|Hc]; [destruct so as [x|]|destruct ro as [x|]]; try contradiction; destruct Hc as [<-|[]]; auto. }
    assert (Hfa : fo_or_fn P0 a)
      by (right; eexists; split; [exact Hla0|split; [exact I|]]; intros c; apply Hopt; assumption).
    assert (Hfb : fo_or_fn P0 b)
      by (right; eexists; split; [exact Hlb0|split; [exact I|]]; intros c; apply Hopt; assumption).
    destruct (meet_or_shortcut P0 nid a b _ P' r Hfa Hfb H) as [E|[E|Hm]];
      [injection E as -> ->; apply keeps_operand; auto|injection E as -> ->; apply keeps_operand; auto|].
    clear H.
    (* the exact meet: component-wise intersection *)
    change (match meet_of (intersect_types cfg rel_fuel f) P0 s1 s2 with
            | None => None
            | Some (P1, send) =>
              match meet_of (intersect_types cfg rel_fuel f) P1 r1 r2 with
              | None => None
              | Some (P2, receive) => Some (register_type P2 (TProcess send receive))
              end
            end = Some (P', r)) in Hm. rename Hm into H.
    destruct (meet_of (intersect_types cfg rel_fuel f) P0 s1 s2) as [[P1 send]|] eqn:Hm1; [|discriminate H].
    destruct (meet_of_spec _ P0 s1 s2 P1 send IHt Hm1
                (fun x Hx => FO_extends _ _ _ He0 (Fs1 x Hx)) (fun x Hx => FO_extends _ _ _ He0 (Fs2 x Hx)))
      as (He1 & Fsend & Hks).
    assert (He01 : extends P P1) by (eapply extends_trans; eassumption).
    destruct (meet_of (intersect_types cfg rel_fuel f) P1 r1 r2) as [[P2 receive]|] eqn:Hm2; [|discriminate H].
    destruct (meet_of_spec _ P1 r1 r2 P2 receive IHt Hm2
                (fun x Hx => FO_extends _ _ _ He01 (Fr1 x Hx)) (fun x Hx => FO_extends _ _ _ He01 (Fr2 x Hx)))
      as (He2 & Freceive & Hkr).
    injection H as H. destruct (register_type_spec _ _ _ _ H) as [He3 Hlr].
    assert (He1' : extends P1 P') by (eapply extends_trans; eassumption).
    assert (He' : extends P P') by (eapply extends_trans; [exact He01|exact He1']).
    split; [exact He'|]. split; [intros vs Hl; rewrite Hlr in Hl; discriminate Hl|].
    intros n v Hva Hvb. destruct n; [destruct Hva|].
    destruct (inhab_inv _ _ _ _ _ _ Hva (proj1 He' _ _ Hla)) as (c & s' & r' & -> & Hlc & Hsa & Hra).
    destruct (inhab_inv _ _ _ _ _ _ Hvb (proj1 He' _ _ Hlb)) as (c0 & s'0 & r'0 & Hc0 & Hlc0 & Hsb & Hrb).
    injection Hc0 as <-. rewrite Hlc in Hlc0. injection Hlc0 as <- <-.
    cbn [inhab]. eapply Inh_proc; [exact Hlr|exact Hlc| |].
    - intros s0 Hs0 w Hw. eapply (Hks P' He1' s0 Hs0 n w).
      + intros x0 Hx0. eapply Hsa; [exact Hx0|exact Hw].
      + intros y0 Hy0. eapply Hsb; [exact Hy0|exact Hw].
    - intros r0 Hr0 w Hw. eapply (Hkr P' He3 r0 Hr0 n w).
      + intros x0 Hx0. eapply Hra; [exact Hx0|exact Hw].
      + intros y0 Hy0. eapply Hrb; [exact Hy0|exact Hw].
  Qed.

  Lemma intersect_types_single f P a b P' r :
    get_type_variants P a = [a] -> get_type_variants P b = [b] ->
    (forall P0 P1 piece, extends P P0 -> intersect_pair cfg rel_fuel f P0 a b = Some (P1, piece) -> keeps_both P0 a b P1 piece) ->
    intersect_types cfg rel_fuel (S f) P a b = Some (P', r) ->
    extends P P' /\ forall n v, inhab P' n [] v a -> inhab P' n [] v b -> inhab P' n [] v r.
  Proof.
    intros Eva Evb Hpair H. rewrite intersect_types_S, Eva, Evb in H.
    destruct (never P) as [P0 nid] eqn:Hn. destruct (never_spec _ _ _ Hn) as [He0 Hlnid]. cbn [isect_outer isect_inner] in H.
    destruct (intersect_pair cfg rel_fuel f P0 a b) as [[P1 piece]|] eqn:Hp; [|discriminate H].
    destruct (Hpair P0 P1 piece He0 Hp) as (He1 & Hnu & Hkeep).
    assert (Hne : Nat.eqb piece nid = false).
    { apply Nat.eqb_neq. intros ->. exact (Hnu [] (proj1 He1 _ _ Hlnid)). }
    rewrite Hne in H. cbn [app] in H. unfold union_type_ids in H. cbn [flat_map] in H.
    assert (E : match lookup_type P1 piece with Some (TUnion variants) => variants | _ => [piece] end = [piece]).
    { destruct (lookup_type P1 piece) as [[]|] eqn:Hl; try reflexivity. destruct (Hnu _ Hl). }
    rewrite E in H. cbn in H. injection H as <- <-. split; [eapply extends_trans; eassumption|exact Hkeep].
  Qed.
End Meet.

(* two callable operands with first-order components: the cycle test of intersect_pair answers no, so
   the shortcuts never consult types_overlap and no repair of check_type_relation is involved *)
Lemma intersect_callable_keeps cfg rel_fuel fuel P a b P' r p1 r1 c1 p2 r2 c2 :
  lookup_type P a = Some (TCallable p1 r1 c1) -> lookup_type P b = Some (TCallable p2 r2 c2) ->
  fo_domain P p1 = true -> fo_domain P r1 = true -> fo_domain P c1 = true ->
  fo_domain P p2 = true -> fo_domain P r2 = true -> fo_domain P c2 = true ->
  intersect_types cfg rel_fuel fuel P a b = Some (P', r) ->
  extends P P' /\ forall n v, inhab P' n [] v a -> inhab P' n [] v b -> inhab P' n [] v r.
Proof.
  intros Hla Hlb Dp1 Dr1 Dc1 Dp2 Dr2 Dc2 H.
  destruct fuel as [|f]; [discriminate H|].
  apply (intersect_types_single cfg rel_fuel f P a b P' r); [unfold get_type_variants; rewrite Hla; reflexivity
                                                             |unfold get_type_variants; rewrite Hlb; reflexivity| |exact H].
  intros P0 P1 piece He0 Hp.
  eapply (intersect_pair_callable cfg rel_fuel f P0 a b p1 r1 c1 p2 r2 c2);
    [exact (proj1 (intersect_spec cfg rel_fuel (pred f)))|exact Hp|exact (proj1 He0 _ _ Hla)|exact (proj1 He0 _ _ Hlb)| | | | | |];
    eapply FO_extends; try exact He0; eapply fob_FO; eassumption.
Qed.

Theorem intersect_keeps_callable : forall cfg rel_fuel fuel P a b P' r p1 r1 c1 p2 r2 c2,
  cfg_any_callable cfg = true ->
  lookup_type P a = Some (TCallable p1 r1 c1) -> lookup_type P b = Some (TCallable p2 r2 c2) ->
  fo_domain P p1 = true -> fo_domain P r1 = true -> fo_domain P c1 = true ->
  fo_domain P p2 = true -> fo_domain P r2 = true -> fo_domain P c2 = true ->
  intersect_types cfg rel_fuel fuel P a b = Some (P', r) ->
  extends P P' /\ forall n v, inhab P' n [] v a -> inhab P' n [] v b -> inhab P' n [] v r.
Proof. intros cfg rel_fuel fuel P a b P' r p1 r1 c1 p2 r2 c2 _. apply intersect_callable_keeps. Qed.

Lemma intersect_process_keeps cfg rel_fuel fuel P a b P' r s1 r1 s2 r2 :
  lookup_type P a = Some (TProcess s1 r1) -> lookup_type P b = Some (TProcess s2 r2) ->
  (forall x, s1 = Some x -> fo_domain P x = true) -> (forall x, r1 = Some x -> fo_domain P x = true) ->
  (forall x, s2 = Some x -> fo_domain P x = true) -> (forall x, r2 = Some x -> fo_domain P x = true) ->
  intersect_types cfg rel_fuel fuel P a b = Some (P', r) ->
  extends P P' /\ forall n v, inhab P' n [] v a -> inhab P' n [] v b -> inhab P' n [] v r.
Proof.
  intros Hla Hlb Ds1 Dr1 Ds2 Dr2 H.
  destruct fuel as [|f]; [discriminate H|].
  apply (intersect_types_single cfg rel_fuel f P a b P' r); [unfold get_type_variants; rewrite Hla; reflexivity
                                                             |unfold get_type_variants; rewrite Hlb; reflexivity| |exact H].
  intros P0 P1 piece He0 Hp.
  eapply (intersect_pair_process cfg rel_fuel f P0 a b s1 r1 s2 r2);
    [exact (proj1 (intersect_spec cfg rel_fuel (pred f)))|exact Hp|exact (proj1 He0 _ _ Hla)|exact (proj1 He0 _ _ Hlb)| | | |];
    intros x Hx; eapply FO_extends; try exact He0; eapply fob_FO; eauto.
Qed.

Theorem intersect_keeps_process : forall cfg rel_fuel fuel P a b P' r s1 r1 s2 r2,
  cfg_any_callable cfg = true ->
  lookup_type P a = Some (TProcess s1 r1) -> lookup_type P b = Some (TProcess s2 r2) ->
  (forall x, s1 = Some x -> fo_domain P x = true) -> (forall x, r1 = Some x -> fo_domain P x = true) ->
  (forall x, s2 = Some x -> fo_domain P x = true) -> (forall x, r2 = Some x -> fo_domain P x = true) ->
  intersect_types cfg rel_fuel fuel P a b = Some (P', r) ->
  extends P P' /\ forall n v, inhab P' n [] v a -> inhab P' n [] v b -> inhab P' n [] v r.
Proof. intros cfg rel_fuel fuel P a b P' r s1 r1 s2 r2 _. apply intersect_process_keeps. Qed.
