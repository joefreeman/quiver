(* AwaitProofs.v — with merge = true (what /repo does: a worker's later answer extends its earlier
   one) the await protocol of SelectSpec.v delivers, for every target, the latest answer any worker
   gave (F8).

   Proof outline.
   Phase 1 (the pending record exists): invariant `stored_inv cur rs` — the stored responses `rs` have
   distinct worker keys, every stored answer has distinct target keys that all belong to that
   worker, and for every target p the stored answer of `owner p` maps p to `cur p`, the latest
   answer the processed prefix gave for p.  When the expected set becomes empty the single
   UpdateAwaitResults carries `flat_map snd rs`, whose reading at p is again `cur p` (ownership makes
   the per-worker key sets disjoint).
   Phase 2 (pending = None): each event is forwarded, and `delivered` folds them exactly as `latest`
   does. *)
From Quiver Require Import Base.
From Quiver Require Import sel.Select sel.SelectSpec sel.SelectProofs sel.Assoc.

Lemma ans_get_insert p q v a : ans_get p (ans_insert q v a) = if Nat.eqb p q then Some v else ans_get p a.
Proof. exact (aget_aset p q v a). Qed.

Lemma resp_get_set w' w s rs : resp_get w' (resp_set w s rs) = if Nat.eqb w' w then Some s else resp_get w' rs.
Proof. exact (aget_aset w' w s rs). Qed.

Lemma ans_get_extend_notin : forall p new old,
  (forall v, ~ In (p, v) new) -> ans_get p (ans_extend old new) = ans_get p old.
Proof.
  unfold ans_extend. induction new as [|[q u] r IH]; simpl; intros old H; [reflexivity|].
  rewrite IH by (intros v Hv; exact (H v (or_intror Hv))).
  rewrite ans_get_insert. destruct (Nat.eqb_spec p q) as [->|_]; [|reflexivity].
  destruct (H u (or_introl eq_refl)).
Qed.

Lemma ans_get_extend_in : forall p v new old,
  In (p, v) new -> (forall v', In (p, v') new -> v' = v) ->
  ans_get p (ans_extend old new) = Some v.
Proof.
  induction new as [|[q u] r IH]; intros old Hin Hfun; [contradiction|].
  change (ans_extend old ((q, u) :: r)) with (ans_extend (ans_insert q u old) r).
  destruct (ans_get p r) as [v'|] eqn:E.
  - apply aget_In in E. assert (v' = v) by (apply Hfun; right; exact E). subst v'.
    apply IH; [exact E|]. intros v'' H; apply Hfun; right; exact H.
  - rewrite ans_get_extend_notin by (apply aget_None_notin; exact E).
    destruct Hin as [[= -> ->]|Hin]; [rewrite ans_get_insert, Nat.eqb_refl; reflexivity|].
    destruct (aget_None_notin _ _ E _ Hin).
Qed.

(* HashMap::extend read at one key, when the new map has distinct keys *)
Lemma ans_get_extend : forall p old new, NoDup (map fst new) ->
  ans_get p (ans_extend old new) =
  match ans_get p new with Some v => Some v | None => ans_get p old end.
Proof.
  intros p old new Hnd. destruct (ans_get p new) as [v|] eqn:E.
  - apply ans_get_extend_in; [apply aget_In; exact E|].
    intros v' H. assert (H' : ans_get p new = Some v') by exact (aget_NoDup_In _ _ _ Hnd H). congruence.
  - apply ans_get_extend_notin. apply aget_None_notin; exact E.
Qed.

Lemma NoDup_ans_extend : forall new old,
  NoDup (map fst old) -> NoDup (map fst (ans_extend old new)).
Proof.
  unfold ans_extend; induction new as [|[q u] r IH]; simpl; intros old H; [exact H|].
  apply IH. apply (NoDup_aset q u old H).
Qed.

Lemma In_ans_extend : forall p v new old,
  In (p, v) (ans_extend old new) -> In (p, v) old \/ In (p, v) new.
Proof.
  unfold ans_extend; induction new as [|[q u] r IH]; simpl; intros old H; [left; exact H|].
  apply IH in H. destruct H as [H|H]; [|right; right; exact H].
  apply (In_aset p v q u old) in H.
  destruct H as [H|H]; [right; left; symmetry; exact H | left; exact H].
Qed.

Lemma env_run_cons_snd : forall m w a rest pa,
  snd (env_run m ((w, a) :: rest) pa) =
  snd (handle_process_results m w a pa) ++
  snd (env_run m rest (fst (handle_process_results m w a pa))).
Proof.
  intros. cbn [env_run]. destruct (handle_process_results m w a pa) as [pa1 o1].
  cbn [fst snd]. destruct (env_run m rest pa1); reflexivity.
Qed.

Definition fwd (e : wid * answer) : env_out := UpdateAwaitResults (snd e).

(* phase 2: every event is forwarded as is *)
Lemma env_run_None : forall m evs, env_run m evs None = (None, map fwd evs).
Proof.
  induction evs as [|[w a] rest IH]; [reflexivity|].
  cbn [env_run]. cbn [handle_process_results]. rewrite IH. reflexivity.
Qed.

Definition dfold (acc : answer) (outs : list env_out) : answer :=
  fold_left (fun acc o => match o with UpdateAwaitResults r => ans_extend acc r end) outs acc.

Lemma delivered_dfold : forall outs, delivered outs = dfold [] outs.
Proof. reflexivity. Qed.

Lemma dfold_fwd : forall p evs acc,
  (forall w a, In (w, a) evs -> NoDup (map fst a)) ->
  ans_get p (dfold acc (map fwd evs)) = latest p evs (ans_get p acc).
Proof.
  induction evs as [|[w a] rest IH]; intros acc H; [reflexivity|].
  change (dfold acc (map fwd ((w, a) :: rest))) with (dfold (ans_extend acc a) (map fwd rest)).
  rewrite IH by (intros w' a' Hin; exact (H w' a' (or_intror Hin))).
  rewrite ans_get_extend by (exact (H w a (or_introl eq_refl))).
  reflexivity.
Qed.

Section Await.
Variable owner : pid -> wid.

(* an answer with distinct keys, all owned by worker w *)
Definition owned (w : wid) (a : answer) : Prop :=
  NoDup (map fst a) /\ forall p v, In (p, v) a -> owner p = w.

(* phase-1 invariant; `cur p` is the latest answer the processed prefix gave for p *)
Definition stored_inv (cur : pid -> option (option nat)) (rs : list (wid * answer)) : Prop :=
  NoDup (map fst rs) /\
  (forall w a, In (w, a) rs -> owned w a) /\
  (forall p, cur p = match resp_get (owner p) rs with Some a => ans_get p a | None => None end).

Definition upd (cur : pid -> option (option nat)) (a : answer) (p : pid) : option (option nat) :=
  match ans_get p a with Some v => Some v | None => cur p end.

Definition stored_of (w : wid) (a : answer) (rs : list (wid * answer)) : answer :=
  match resp_get w rs with Some old => ans_extend old a | None => a end.

Lemma stored_inv_step : forall cur rs w a,
  stored_inv cur rs -> owned w a -> stored_inv (upd cur a) (resp_set w (stored_of w a rs) rs).
Proof.
  intros cur rs w a (Hnd & Hown & Hcur) [Hnda Howna].
  assert (Hs : owned w (stored_of w a rs)).
  { unfold stored_of. destruct (resp_get w rs) as [old|] eqn:E; [|split; assumption].
    apply aget_In in E. destruct (Hown _ _ E) as [Hndo Howno].
    split; [apply NoDup_ans_extend; exact Hndo|].
    intros p v H. apply In_ans_extend in H. destruct H; eauto. }
  split; [apply (NoDup_aset w _ rs Hnd)|]. split.
  - intros w' a' H. apply (In_aset _ _ w _ rs) in H. destruct H as [H|H]; [|eauto].
    injection H as Hw Ha. subst w' a'. exact Hs.
  - intros p. rewrite resp_get_set. unfold upd. destruct (Nat.eqb (owner p) w) eqn:E.
    + apply Nat.eqb_eq in E. unfold stored_of. rewrite Hcur, E.
      destruct (resp_get w rs) as [old|].
      * rewrite ans_get_extend by exact Hnda. reflexivity.
      * destruct (ans_get p a); reflexivity.
    + destruct (ans_get p a) as [v|] eqn:E2; [|apply Hcur].
      apply aget_In in E2. apply Howna in E2. rewrite E2, Nat.eqb_refl in E. discriminate.
Qed.

(* what the single UpdateAwaitResults of phase 1 carries *)
Lemma stored_inv_flat : forall cur rs p,
  stored_inv cur rs -> ans_get p (ans_extend [] (flat_map snd rs)) = cur p.
Proof.
  intros cur rs p (Hnd & Hown & Hcur).
  assert (Hchar : forall v, In (p, v) (flat_map snd rs) ->
            exists a0, resp_get (owner p) rs = Some a0 /\ ans_get p a0 = Some v).
  { intros v H. apply in_flat_map in H. destruct H as [[w a0] [Hin Hpa]]. simpl in Hpa.
    destruct (Hown _ _ Hin) as [Hnda Howna]. pose proof (Howna _ _ Hpa) as Ho. subst w.
    exists a0. split; [apply aget_NoDup_In; assumption | apply aget_NoDup_In; assumption]. }
  rewrite Hcur. destruct (resp_get (owner p) rs) as [a0|] eqn:E.
  - destruct (ans_get p a0) as [v|] eqn:E2.
    + apply ans_get_extend_in.
      * apply in_flat_map. exists (owner p, a0). split; [apply aget_In; exact E|].
        simpl. apply aget_In; exact E2.
      * intros v' H. destruct (Hchar _ H) as [a1 [H1 H2]]. congruence.
    + rewrite ans_get_extend_notin; [reflexivity|].
      intros v H. destruct (Hchar _ H) as [a1 [H1 H2]]. congruence.
  - rewrite ans_get_extend_notin; [reflexivity|].
    intros v H. destruct (Hchar _ H) as [a1 [H1 H2]]. congruence.
Qed.

Lemma handle_true_some : forall w a ex rs,
  handle_process_results true w a (Some {| pa_expected := ex; pa_responses := rs |}) =
  match filter (fun x => negb (Nat.eqb x w)) ex with
  | [] => (None, [UpdateAwaitResults (flat_map snd (resp_set w (stored_of w a rs) rs))])
  | y :: l => (Some {| pa_expected := y :: l;
                       pa_responses := resp_set w (stored_of w a rs) rs |}, [])
  end.
Proof.
  intros. unfold handle_process_results, stored_of. cbn [pa_expected pa_responses].
  destruct (filter (fun x => negb (Nat.eqb x w)) ex); reflexivity.
Qed.

(* the run from any pending record that satisfies the invariant *)
Lemma phase1 : forall evs cur ex rs,
  stored_inv cur rs -> ex <> [] ->
  (forall w a, In (w, a) evs -> owned w a) ->
  (forall w, In w ex -> exists a, In (w, a) evs) ->
  forall p,
    ans_get p (delivered (snd (env_run true evs
                 (Some {| pa_expected := ex; pa_responses := rs |})))) =
    latest p evs (cur p).
Proof.
  induction evs as [|[w a] rest IH]; intros cur ex rs HI Hne Hev Hex p.
  - destruct ex as [|x ex']; [congruence|].
    destruct (Hex x (or_introl eq_refl)) as [a0 []].
  - assert (HI' : stored_inv (upd cur a) (resp_set w (stored_of w a rs) rs)).
    { apply stored_inv_step; [exact HI|]. apply Hev. left; reflexivity. }
    rewrite env_run_cons_snd, handle_true_some.
    change (latest p ((w, a) :: rest) (cur p)) with (latest p rest (upd cur a p)).
    destruct (filter (fun x => negb (Nat.eqb x w)) ex) as [|y l] eqn:EF; cbn [fst snd].
    + rewrite env_run_None. cbn [snd].
      change (delivered ([UpdateAwaitResults (flat_map snd (resp_set w (stored_of w a rs) rs))]
                           ++ map fwd rest))
        with (dfold (ans_extend [] (flat_map snd (resp_set w (stored_of w a rs) rs)))
                    (map fwd rest)).
      rewrite dfold_fwd.
      * rewrite (stored_inv_flat _ _ p HI'). reflexivity.
      * intros w' a' Hin. exact (proj1 (Hev w' a' (or_intror Hin))).
    + cbn [app]. apply IH.
      * exact HI'.
      * discriminate.
      * intros w' a' Hin. exact (Hev w' a' (or_intror Hin)).
      * intros w' Hin. rewrite <- EF in Hin. apply filter_In in Hin. destruct Hin as [Hin Hneq].
        destruct (Hex w' Hin) as [a' [Heq|Ha']]; [|exists a'; exact Ha'].
        injection Heq as Hw _. subst w'. rewrite Nat.eqb_refl in Hneq. discriminate.
Qed.

End Await.

Theorem await_protocol_delivers_latest owner expected evs :
  (forall w a, In (w, a) evs -> In w expected /\ NoDup (map fst a) /\ forall p v, In (p, v) a -> owner p = w) ->
  (forall w, In w expected -> exists a, In (w, a) evs) ->
  forall p, ans_get p (delivered (snd (env_run true evs (Some {| pa_expected := expected; pa_responses := [] |})))) =
            latest p evs None.
Proof.
  intros Hev Hall p. destruct evs as [|[w a] rest]; [reflexivity|].
  apply (phase1 owner ((w, a) :: rest) (fun _ => None) expected []).
  - split; [constructor|]. split; [intros ? ? []|]. intros q. reflexivity.
  - intros ->. destruct (Hev w a (or_introl eq_refl)) as [[] _].
  - intros w' a' Hin. destruct (Hev w' a' Hin) as (_ & H1 & H2). split; assumption.
  - exact Hall.
Qed.

(* well-formedness of a history of ProcessResults events for one initial await:
   every target is owned by exactly one worker (`owner`), an event of worker w only talks about
   targets w owns, the keys inside one event are distinct (it is a HashMap), only expected workers
   ever answer, and every expected worker answers at least once (the expected set is listed without
   repetition; the theorem does not need that) *)
Definition wf_history (owner : pid -> wid) (expected : list wid) (evs : list (wid * answer)) : Prop :=
  NoDup expected /\
  (forall w a, In (w, a) evs -> In w expected /\ NoDup (map fst a) /\ forall p v, In (p, v) a -> owner p = w) /\
  (forall w, In w expected -> exists a, In (w, a) evs).

Theorem await_protocol_delivers_all :
  forall owner expected evs targets,
    wf_history owner expected evs ->
    delivers_all true expected evs targets.
Proof.
  intros owner expected evs targets (_ & Hev & Hall) p _.
  rewrite (await_protocol_delivers_latest owner expected evs Hev Hall p).
  destruct (latest p evs None); [reflexivity|exact I].
Qed.

(* non-vacuity: 2 workers, 3 targets; worker 1 (owning targets 1 and 3) answers twice before
   worker 0 (owning target 2) answers once *)
Definition ex_owner (p : pid) : wid := if Nat.eqb p 2 then 0%nat else 1%nat.
(* the history SelectProofs.f8_events; SelectRefine has an `ex_events` of its own (a list of machine
   events): qualify the name where both files are imported *)
Definition ex_events : list (wid * answer) :=
  [ (1%nat, [(1%nat, Some 11%nat); (3%nat, None)]);
    (1%nat, [(3%nat, Some 33%nat)]);
    (0%nat, [(2%nat, None)]) ].

Example wf_history_inhabited : wf_history ex_owner [0%nat; 1%nat] ex_events.
Proof.
  split; [|split].
  - repeat constructor; simpl; intuition discriminate.
  - intros w a [H|[H|[H|[]]]]; injection H as <- <-; simpl;
      (split; [auto|split; [repeat constructor; simpl; intuition discriminate|]]);
      intros p v H; repeat (destruct H as [[= <- _]|H]; [reflexivity|]); destruct H.
  - intros w [<-|[<-|[]]]; eexists; simpl; eauto.
Qed.

(* the theorem applied to it; target 3's final answer Some 33 does reach the awaiter *)
Example await_example_delivered :
  delivers_all true [0%nat; 1%nat] ex_events [1%nat; 3%nat; 2%nat] /\
  latest 3%nat ex_events None = Some (Some 33%nat).
Proof.
  split; [exact (await_protocol_delivers_all _ _ _ _ wf_history_inhabited) | reflexivity].
Qed.

Print Assumptions await_protocol_delivers_all.
