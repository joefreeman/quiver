(* SelectRefine.v — the select machine (Select.v) refines its specification (SelectSpec.v).

   Invariant of a select in progress (Inv): for every receive source, every mailbox message
   before its cursor is type-incompatible or was rejected by the (pure) filter; the `receiving`
   slot, when set, names a filter source and the message its cursor points at.  Messages are only
   appended between entries, so the invariant survives every arrival; each entry re-establishes
   it.  From it: an entry that completes does so with select_spec on that entry's state; an entry
   that parks does so only when select_spec says Wait; an entry that calls a failing filter or
   meets an invalid source does so only when select_spec says Fail; no entry panics. *)
From Quiver Require Import Base.
From Quiver Require Import sel.Select sel.SelectSpec sel.Assoc.
Local Open Scope nat_scope.

Lemma cur_get_set_eq : forall r v cs, r < length cs -> cur_get r (set_nth r v cs) = v.
Proof.
  unfold cur_get. induction r as [|r IH]; intros v [|x cs] Hlt; cbn in *; try lia; auto. apply IH. lia.
Qed.

Lemma cur_get_set_neq : forall r r' v cs, r <> r' -> cur_get r' (set_nth r v cs) = cur_get r' cs.
Proof.
  unfold cur_get. induction r as [|r IH]; intros [|r'] v [|x cs] Hne; cbn; try reflexivity; try congruence.
  apply IH. congruence.
Qed.

Lemma length_set_nth {A} : forall n (v : A) l, length (set_nth n v l) = length l.
Proof. induction n as [|n IH]; intros v [|x l]; cbn; auto. Qed.

Lemma nth_error_skipn {A} : forall c (l : list A) k, nth_error (skipn c l) k = nth_error l (c + k).
Proof.
  induction c as [|c IH]; intros [|x l] k; cbn; auto. destruct k; reflexivity.
Qed.

(* NotFound: the loop resets `cursor := msg_idx + 1` at every incompatible message, so the cursor
   it returns is the end of the list unless the list is empty *)
Lemma scan_spec classes : forall l i c,
  match scan classes l i c with
  | Found idx m =>
      exists k, idx = i + k /\ nth_error l k = Some m /\ compat classes m = true /\
                forall j x, j < k -> nth_error l j = Some x -> compat classes x = false
  | NotFound c' =>
      (forall x, In x l -> compat classes x = false) /\ c' = match l with [] => c | _ => i + length l end
  end.
Proof.
  induction l as [|a l IH]; intros i c; cbn.
  - split; [intros x []|reflexivity].
  - destruct (compat classes a) eqn:Ea.
    + exists 0. repeat split; auto. intros j x Hj. lia.
    + specialize (IH (S i) (S i)). destruct (scan classes l (S i) (S i)) as [idx m|c'].
      * destruct IH as (k & -> & Hn & Hc & Hb). exists (S k). repeat split; auto; try lia.
        intros [|j] x Hj Hx; cbn in Hx; [injection Hx as <-; exact Ea|]. apply (Hb j); auto. lia.
      * destruct IH as (Hall & ->). split; [intros x [<-|Hin]; auto|]. destruct l; cbn; lia.
Qed.

(* P: a property of every incompatible message (that the source rejects it) *)
Lemma scan_from classes mb cur (P : msg -> Prop) :
  cur <= length mb ->
  (forall j x, j < cur -> nth_error mb j = Some x -> P x) ->
  (forall x, compat classes x = false -> P x) ->
  match scan classes (skipn cur mb) cur cur with
  | Found idx m => nth_error mb idx = Some m /\ compat classes m = true /\
                   forall j x, j < idx -> nth_error mb j = Some x -> P x
  | NotFound c' => c' = length mb /\ forall j x, nth_error mb j = Some x -> P x
  end.
Proof.
  intros Hle Hbefore Hinc. pose proof (scan_spec classes (skipn cur mb) cur cur) as H.
  assert (Hpos : forall j x, cur <= j -> nth_error mb j = Some x -> nth_error (skipn cur mb) (j - cur) = Some x).
  { intros j x Hj Hx. rewrite nth_error_skipn. replace (cur + (j - cur)) with j by lia. exact Hx. }
  destruct (scan classes (skipn cur mb) cur cur) as [idx m|c'].
  - destruct H as (k & -> & Hn & Hc & Hb). rewrite nth_error_skipn in Hn. repeat split; auto.
    intros j x Hj Hx. destruct (Nat.lt_ge_cases j cur) as [Hl|Hg]; [exact (Hbefore j x Hl Hx)|].
    apply Hinc, (Hb (j - cur)); [lia|]. apply Hpos; assumption.
  - destruct H as (Hall & ->). split.
    + pose proof (skipn_length cur mb) as Hl. revert Hl. destruct (skipn cur mb); cbn; lia.
    + intros j x Hx. destruct (Nat.lt_ge_cases j cur) as [Hl|Hg]; [exact (Hbefore j x Hl Hx)|].
      apply Hinc, Hall. eapply nth_error_In. apply Hpos; eauto.
Qed.

Lemma scan_mailbox_frame r classes ty s0 s mb :
  match scan_mailbox r classes ty s0 s mb with
  | RCalled s' | RContinue s' | RErr _ s' => ss_sources s' = ss_sources s /\ ss_start s' = ss_start s
  | _ => True
  end.
Proof.
  unfold scan_mailbox.
  case (scan classes _ _ _); [intros idx m; case ty|intros c; case (Nat.ltb _ c)]; try case (Nat.ltb r _); cbn; auto.
Qed.

Lemma handle_select_receive_frame r classes ty rr s0 s mb :
  match handle_select_receive r classes ty rr s0 s mb with
  | RCalled s' | RContinue s' | RErr _ s' => ss_sources s' = ss_sources s /\ ss_start s' = ss_start s
  | _ => True
  end.
Proof.
  unfold handle_select_receive.
  case (ss_receiving s0); [intros [idx m]; case (Nat.eqb idx r)|]; try apply scan_mailbox_frame.
  case rr; [intros [n|]|]; [exact I| |split; reflexivity]. case (Nat.ltb _ _); [|exact I].
  exact (scan_mailbox_frame r classes ty s0 _ mb).
Qed.

Lemma process_sources_frame s0 rr start now aw : forall srcs r s mb,
  match process_sources s0 rr start now aw srcs r s mb with
  | SCalled s' | SPark s' | SError _ s' => ss_sources s' = ss_sources s /\ ss_start s' = ss_start s
  | _ => True
  end.
Proof.
  induction srcs as [|[p|c t|d|e] rest IH]; intros r s mb; cbn [process_sources]; auto.
  - destruct (aw_get p aw) as [[x|]|]; auto; apply IH.
  - pose proof (handle_select_receive_frame r c t rr s0 s mb) as H.
    destruct (handle_select_receive r c t rr s0 s mb) as [v mb'|s1|s1|e s1|n]; auto.
    specialize (IH (S r) s1 mb). destruct H as (H1 & H2).
    destruct (process_sources s0 rr start now aw rest (S r) s1 mb); auto; destruct IH; split; congruence.
  - destruct (timeout_ready d start now); auto. apply IH.
Qed.

Section Refine.
Variable fix45 : bool.
Variable verdict_of : nat -> msg -> verdict.
Variable written : list source.

Notation accepts := (accepts verdict_of).
Notation pick_msg := (pick_msg verdict_of).
Notation select_spec_from := (select_spec_from verdict_of).

Lemma pick_at r classes ty : forall mb idx m,
  nth_error mb idx = Some m ->
  (forall j x, j < idx -> nth_error mb j = Some x -> accepts r classes ty x = VdNil) ->
  match accepts r classes ty m with
  | Truthy _ => pick_msg r classes ty mb = Picked m (remove_nth idx mb)
  | VdErr e => pick_msg r classes ty mb = PickErr e
  | VdNil => True
  end.
Proof.
  induction mb as [|a mb IH]; intros idx m Hn Hb; [destruct idx; discriminate|].
  destruct idx as [|idx]; cbn in Hn |- *.
  - injection Hn as ->. destruct (accepts r classes ty m); reflexivity.
  - rewrite (Hb 0 a) by (auto; lia).
    specialize (IH idx m Hn (fun j x Hj => Hb (S j) x (proj1 (Nat.succ_lt_mono j idx) Hj))).
    destruct (accepts r classes ty m); auto; rewrite IH; reflexivity.
Qed.

Lemma pick_none r classes ty : forall mb,
  (forall j x, nth_error mb j = Some x -> accepts r classes ty x = VdNil) ->
  pick_msg r classes ty mb = NoPick.
Proof.
  induction mb as [|a mb IH]; intros Hb; cbn; auto.
  rewrite (Hb 0 a) by auto. rewrite IH; auto. intros j x Hx. apply (Hb (S j)); auto.
Qed.

Lemma accepts_incompat r classes ty m : compat classes m = false -> accepts r classes ty m = VdNil.
Proof. unfold SelectSpec.accepts. intros ->. reflexivity. Qed.

(* source r rejects m *)
Lemma accepts_nil r classes ty m :
  accepts r classes ty m = VdNil -> compat classes m = false \/ (ty = false /\ verdict_of r m = VdNil).
Proof. unfold SelectSpec.accepts. destruct (compat classes m); auto. destruct ty; [discriminate|auto]. Qed.

Lemma accepts_compat r classes ty m :
  compat classes m = true -> accepts r classes ty m = if ty then Truthy 0 else verdict_of r m.
Proof. unfold SelectSpec.accepts. intros ->. reflexivity. Qed.

(* the receive source with index r: r is the code's `receive_idx` *)
Fixpoint nth_recv (srcs : list source) (r : nat) : option (list nat * bool) :=
  match srcs with
  | [] => None
  | SrcRecv c t :: rest => match r with O => Some (c, t) | S r' => nth_recv rest r' end
  | _ :: rest => nth_recv rest r
  end.

(* cursor_skips_only_rejected: everything before a cursor is incompatible or rejected *)
Definition skipped_before (cs : list nat) (mb : list msg) : Prop :=
  forall r c t, nth_recv written r = Some (c, t) ->
  forall j m, j < cur_get r cs -> nth_error mb j = Some m -> accepts r c t m = VdNil.

(* cursors never run past the end of the mailbox *)
Definition cursors_le (cs : list nat) (mb : list msg) : Prop := forall r, cur_get r cs <= length mb.

Definition receiving_inv (cs : list nat) (mb : list msg) (rcv : option (nat * msg)) : Prop :=
  match rcv with
  | None => True
  | Some (r0, m0) => exists c, nth_recv written r0 = Some (c, false) /\ compat c m0 = true /\
                               nth_error mb (cur_get r0 cs) = Some m0
  end.

Definition sel_inv (s : sel_state) (mb : list msg) : Prop :=
  ss_sources s = written /\
  length (ss_cursors s) = count_recv written /\
  skipped_before (ss_cursors s) mb /\
  receiving_inv (ss_cursors s) mb (ss_receiving s) /\
  cursors_le (ss_cursors s) mb.

(* (a dead process never enters its select again: nothing is claimed about its select state) *)
Definition Inv (st : proc) : Prop :=
  p_error st = None -> forall s, p_sel st = Some s -> sel_inv s (p_mailbox st).

Lemma nth_recv_lt : forall srcs r x, nth_recv srcs r = Some x -> r < count_recv srcs.
Proof.
  unfold count_recv. induction srcs as [|[p|c t|d|e] rest IH]; intros r x H; cbn in *; try discriminate;
    try (apply IH in H; exact H).
  destruct r; [lia|]. apply IH in H. lia.
Qed.

(* verdict as handle_select_continuation hands it over *)
Definition rr_of (v : verdict) : option (option nat) :=
  match v with Truthy n => Some (Some n) | VdNil => Some None | VdErr _ => None end.

(* rr is what handle_select_continuation hands to a pass that starts from s0: the verdict on the
   held message, which is not a filter error (that one kills the process before the pass) *)
Definition handed_over (s0 : sel_state) (rr : option (option nat)) : Prop :=
  match ss_receiving s0 with
  | Some (r0, m0) => (forall e, verdict_of r0 m0 <> VdErr e) /\ rr = rr_of (verdict_of r0 m0)
  | None => rr = None
  end.

Section OneEntry.
Variable s0 : sel_state.                      (* the clone taken at the top of the pass *)
Variable rr : option (option nat).
Variable mb : list msg.

Hypothesis Hrr : handed_over s0 rr.

(* sel_inv without the source list *)
Definition cursors_ok (cs : list nat) (rcv : option (nat * msg)) : Prop :=
  length cs = count_recv written /\ skipped_before cs mb /\ receiving_inv cs mb rcv /\ cursors_le cs mb.
Definition state_ok (s : sel_state) : Prop := cursors_ok (ss_cursors s) (ss_receiving s).

Lemma set_cursor_ok r c t cs rcv rcv' v :
  nth_recv written r = Some (c, t) -> cursors_ok cs rcv -> v <= length mb ->
  (forall j x, j < v -> nth_error mb j = Some x -> accepts r c t x = VdNil) ->
  receiving_inv (set_nth r v cs) mb rcv' ->
  cursors_ok (set_nth r v cs) rcv'.
Proof.
  intros Hsrc (Hlen & Hsk & _ & Hle) Hv Hrej Hrcv.
  pose proof (nth_recv_lt _ _ _ Hsrc) as Hr. rewrite <- Hlen in Hr.
  split; [rewrite length_set_nth; exact Hlen|]. split; [|split; [exact Hrcv|]].
  - intros r1 c1 t1 Hsrc1 j x. destruct (Nat.eq_dec r r1) as [<-|Hne].
    + rewrite cur_get_set_eq by exact Hr. rewrite Hsrc in Hsrc1. injection Hsrc1 as <- <-. apply Hrej.
    + rewrite cur_get_set_neq by exact Hne. apply Hsk. exact Hsrc1.
  - intros r1. destruct (Nat.eq_dec r r1) as [<-|Hne].
    + rewrite cur_get_set_eq by exact Hr. exact Hv.
    + rewrite cur_get_set_neq by exact Hne. apply Hle.
Qed.

(* the `receiving` slot as the pass sees it on reaching receive index r: the held message is
   consumed when the pass leaves its source *)
Definition slot_at (r : nat) : option (nat * msg) :=
  match ss_receiving s0 with
  | Some (r0, m0) => if r0 <? r then None else Some (r0, m0)
  | None => None
  end.

Lemma slot_next r : (forall m, ss_receiving s0 <> Some (r, m)) -> slot_at (S r) = slot_at r.
Proof.
  unfold slot_at. destruct (ss_receiving s0) as [[r0 m0]|]; [|reflexivity]. intros H.
  destruct (Nat.ltb_spec r0 r), (Nat.ltb_spec r0 (S r)); try reflexivity; try lia.
  assert (r0 = r) by lia. subst r0. case (H m0 eq_refl).
Qed.

(* what we know about the live state `s` when the pass reaches receive index r *)
Record live_ok (r : nat) (s : sel_state) : Prop := {
  lo_ok : state_ok s;
  lo_agree : forall r', r <= r' -> cur_get r' (ss_cursors s) = cur_get r' (ss_cursors s0);
  lo_done : forall r', r' < r -> cur_get r' (ss_cursors s) = length mb;
  lo_slot : ss_receiving s = slot_at r;
}.

(* RContinue: source r has nothing acceptable, and the state is live for the next source *)
Definition recv_post (r : nat) (c : list nat) (t : bool) (res : rres) : Prop :=
  match res with
  | RComplete v mb' => exists m, v = VMsg m /\ pick_msg r c t mb = Picked m mb'
  | RCalled s' => state_ok s' /\
                  exists m, ss_receiving s' = Some (r, m) /\
                            forall e, verdict_of r m = VdErr e -> pick_msg r c t mb = PickErr e
  | RContinue s' => pick_msg r c t mb = NoPick /\ live_ok (S r) s'
  | RErr _ _ | RPanic _ => False
  end.

(* s2 is the live state s, or s after a rejected held message of r was dropped (cursor of r moved
   on, slot cleared) *)
Lemma scan_mailbox_ok r c t s s2 :
  nth_recv written r = Some (c, t) -> live_ok r s ->
  state_ok s2 -> ss_receiving s2 = slot_at (S r) ->
  cur_get r (ss_cursors s) <= cur_get r (ss_cursors s2) ->
  (forall r', r' <> r -> cur_get r' (ss_cursors s2) = cur_get r' (ss_cursors s)) ->
  recv_post r c t (scan_mailbox r c t s0 s2 mb).
Proof.
  clear Hrr. intros Hsrc [_ Hagree Hdone _] Hok2 Hslot Hmono Hother.
  pose proof Hok2 as (Hlen & Hsk & Hrinv & Hcle).
  pose proof (nth_recv_lt _ _ _ Hsrc) as Hrlt. rewrite <- Hlen in Hrlt.
  assert (Hnot : forall m, ss_receiving s2 <> Some (r, m)).
  { intros m. rewrite Hslot. unfold slot_at. destruct (ss_receiving s0) as [[r0 m0]|]; [|discriminate].
    destruct (Nat.ltb_spec r0 (S r)); [discriminate|]. intros [= -> _]. lia. }
  assert (Hnext : forall s', state_ok s' -> ss_receiving s' = ss_receiving s2 ->
            cur_get r (ss_cursors s') = length mb ->
            (forall r', r' <> r -> cur_get r' (ss_cursors s') = cur_get r' (ss_cursors s2)) ->
            live_ok (S r) s').
  { intros s' Hok Hr Hat Hoth. constructor; auto.
    - intros r' Hr'. rewrite Hoth, Hother by lia. apply Hagree. lia.
    - intros r' Hr'. destruct (Nat.eq_dec r' r) as [->|Hne]; [exact Hat|].
      rewrite Hoth, Hother by exact Hne. apply Hdone. lia.
    - congruence. }
  unfold scan_mailbox.
  pose proof (scan_from c mb _ (fun x => accepts r c t x = VdNil) (Hcle r) (Hsk r c t Hsrc) (accepts_incompat r c t))
    as Hscan.
  revert Hscan. case (scan c _ _ _); [intros idx m (Hn & Hc & Hrej)|intros c' (-> & Hrej)].
  - assert (Hlt : idx < length mb) by (apply nth_error_Some; congruence).
    pose proof (pick_at r c t mb idx m Hn Hrej) as Hpick. rewrite (accepts_compat r c t m Hc) in Hpick.
    destruct t.
    + (* body-less receiver: take the message *)
      exists m. split; [reflexivity|]. unfold take_msg. rewrite (proj2 (Nat.ltb_lt _ _) Hlt). exact Hpick.
    + (* filter: call it *)
      rewrite (proj2 (Nat.ltb_lt _ _) Hrlt). split.
      * apply (set_cursor_ok r c false _ (ss_receiving s2)); auto; [lia|].
        exists c. rewrite cur_get_set_eq by exact Hrlt. auto.
      * exists m. split; [reflexivity|]. intros e He. rewrite He in Hpick. exact Hpick.
  - pose proof (pick_none r c t mb Hrej) as Hnone.
    (* the code compares with the CLONE's cursor; it is not ahead of the live one, so whichever
       way the comparison goes the cursor of r ends at the end of the mailbox *)
    destruct (Nat.ltb_spec (cur_get r (ss_cursors s0)) (length mb)) as [Hl|Hg]; (split; [exact Hnone|]).
    + rewrite (proj2 (Nat.ltb_lt _ _) Hrlt). apply Hnext; cbn [with_cursors ss_cursors ss_receiving]; auto.
      * apply (set_cursor_ok r c t _ (ss_receiving s2)); eauto.
        cbn [with_cursors ss_receiving]. destruct (ss_receiving s2) as [[r1 m1]|]; [|exact I].
        destruct Hrinv as (c1 & A & B & C).
        exists c1. rewrite cur_get_set_neq; auto. intros <-. exact (Hnot m1 eq_refl).
      * apply cur_get_set_eq. exact Hrlt.
      * intros r' Hne. apply cur_get_set_neq. auto.
    + apply Hnext; auto. pose proof (Hagree r (le_n r)). pose proof (Hcle r). lia.
Qed.

Lemma handle_select_receive_other r c t s :
  (forall m, ss_receiving s0 <> Some (r, m)) ->
  handle_select_receive r c t rr s0 s mb = scan_mailbox r c t s0 s mb.
Proof.
  unfold handle_select_receive. case (ss_receiving s0); [intros [r0 m0] H|reflexivity].
  case_eq (Nat.eqb r0 r); [intros E|reflexivity]. apply Nat.eqb_eq in E. subst r0. case (H m0 eq_refl).
Qed.

Lemma handle_select_receive_held r c t s m0 :
  ss_receiving s0 = Some (r, m0) ->
  handle_select_receive r c t rr s0 s mb =
  match rr with
  | None => RErr InvalidArgument s
  | Some (Some _) => RComplete (VMsg m0) (take_msg (cur_get r (ss_cursors s)) mb)
  | Some None =>
      if Nat.ltb r (length (ss_cursors s))
      then scan_mailbox r c t s0
             (with_receiving (with_cursors s (set_nth r (S (cur_get r (ss_cursors s))) (ss_cursors s))) None) mb
      else RPanic 2451
  end.
Proof. unfold handle_select_receive. intros ->. rewrite Nat.eqb_refl. reflexivity. Qed.

Lemma handle_select_receive_ok r c t s :
  nth_recv written r = Some (c, t) -> live_ok r s ->
  recv_post r c t (handle_select_receive r c t rr s0 s mb).
Proof.
  intros Hsrc Hlive. pose proof Hlive as [Hok _ _ Hslot].
  pose proof (nth_recv_lt _ _ _ Hsrc) as Hrlt.
  assert (Hheld : (exists m0, ss_receiving s0 = Some (r, m0)) \/ forall m, ss_receiving s0 <> Some (r, m)).
  { destruct (ss_receiving s0) as [[r0 m0]|]; [destruct (Nat.eq_dec r0 r) as [->|]|];
      [left; eauto|right; congruence..]. }
  destruct Hheld as [(m0 & Ercv0)|Hno].
  2:{ rewrite handle_select_receive_other by exact Hno.
      apply (scan_mailbox_ok r c t s s); auto. rewrite slot_next; auto. }
  (* the slot holds a message of this source: the live cursor points at it *)
  pose proof Hrr as Hv. unfold handed_over in Hv. rewrite Ercv0 in Hv. destruct Hv as (Hnoerr & Hv).
  assert (Hs : ss_receiving s = Some (r, m0)).
  { rewrite Hslot. unfold slot_at. rewrite Ercv0, Nat.ltb_irrefl. reflexivity. }
  pose proof Hok as (Hlen & Hsk & Hrinv & Hcle). rewrite Hs in Hrinv.
  destruct Hrinv as (c0 & Hs0 & Hcompat & Hnth). rewrite Hsrc in Hs0. injection Hs0 as <- ->.
  assert (Hlt : cur_get r (ss_cursors s) < length mb) by (apply nth_error_Some; congruence).
  pose proof (pick_at r c false mb _ m0 Hnth (Hsk r c false Hsrc)) as Hpick.
  pose proof (accepts_compat r c false m0 Hcompat) as Hacc. rewrite Hacc in Hpick.
  destruct (verdict_of r m0) as [n| |e]; [| |destruct (Hnoerr e eq_refl)];
    rewrite (handle_select_receive_held r c false s m0 Ercv0), Hv; cbn [rr_of].
  - (* accepted *)
    exists m0. split; [reflexivity|]. unfold take_msg. rewrite (proj2 (Nat.ltb_lt _ _) Hlt). exact Hpick.
  - (* rejected: cursor + 1, slot cleared, scan on *)
    rewrite Hlen, (proj2 (Nat.ltb_lt _ _) Hrlt).
    apply (scan_mailbox_ok r c false s); auto; cbn [with_receiving with_cursors ss_cursors ss_receiving].
    + apply (set_cursor_ok r c false _ (ss_receiving s) None); auto.
      intros j x Hj Hx. destruct (Nat.eq_dec j (cur_get r (ss_cursors s))) as [->|Hne]; [|eapply Hsk; eauto; lia].
      rewrite Hnth in Hx. injection Hx as <-. exact Hacc.
    + unfold slot_at. rewrite Ercv0, (proj2 (Nat.ltb_lt r (S r))) by lia. reflexivity.
    + rewrite cur_get_set_eq by (rewrite Hlen; exact Hrlt). lia.
    + intros r' Hne. apply cur_get_set_neq. auto.
Qed.

(* the SPark case is the sys premise park_honest, first clause *)
Lemma process_sources_ok start now aw : forall suf r s,
  (forall k, nth_recv written (r + k) = nth_recv suf k) ->
  live_ok r s ->
  match process_sources s0 rr start now aw suf r s mb with
  | SComplete v mb' => select_spec_from suf r mb aw start now = Complete v mb'
  | SCalled s' => state_ok s' /\
                  exists r1 m, ss_receiving s' = Some (r1, m) /\
                               forall e, verdict_of r1 m = VdErr e ->
                                         select_spec_from suf r mb aw start now = Fail e
  | SPark s' => select_spec_from suf r mb aw start now = Wait /\ state_ok s' /\
                forall r', r' < r + count_recv suf -> cur_get r' (ss_cursors s') = length mb
  | SError e s' => select_spec_from suf r mb aw start now = Fail e
  | SPanic _ => False
  end.
Proof.
  induction suf as [|src rest IH]; intros r s Hsuf Hlive.
  - cbn. split; [reflexivity|]. split; [apply Hlive|].
    intros r' Hr'. apply Hlive. unfold count_recv in Hr'. cbn in Hr'. lia.
  - destruct src as [p|c t|d|e]; cbn [process_sources select_spec_from SelectSpec.select_spec_from].
    + (* awaited process *)
      destruct (aw_get p aw) as [[v|]|]; auto; apply IH; auto.
    + (* receive *)
      assert (Hsrc : nth_recv written r = Some (c, t)).
      { specialize (Hsuf 0). rewrite Nat.add_0_r in Hsuf. exact Hsuf. }
      pose proof (handle_select_receive_ok r c t s Hsrc Hlive) as H.
      destruct (handle_select_receive r c t rr s0 s mb) as [v mb'|s'|s'|e s'|n]; try contradiction.
      * destruct H as (m & -> & ->). reflexivity.
      * destruct H as (Hg & m & Hr & He). split; auto. exists r, m. split; auto.
        intros e Hv. rewrite (He e Hv). reflexivity.
      * destruct H as (-> & Hlive').
        assert (Hsuf' : forall k, nth_recv written (S r + k) = nth_recv rest k).
        { intros k. specialize (Hsuf (S k)). rewrite Nat.add_succ_r in Hsuf. exact Hsuf. }
        specialize (IH (S r) s' Hsuf' Hlive').
        destruct (process_sources s0 rr start now aw rest (S r) s' mb); auto.
        destruct IH as (Hw & Hok' & Hend). split; [exact Hw|]. split; [exact Hok'|].
        intros r' Hr'. apply Hend. unfold count_recv in Hr' |- *. cbn in Hr'. lia.
    + (* timeout *)
      destruct (timeout_ready d start now); auto. apply IH; auto.
    + (* not a source *)
      reflexivity.
Qed.

End OneEntry.

(* What an outcome of the specification says about the sources and the mailbox.  The Wait clause
   is the sys premise time_honest for the slice that parks. *)
Definition spec_means (srcs : list source) (mb : list msg) (aw : list (pid * option value))
           (start now : Z) (out : spec_out) : Prop :=
  match out with
  | Complete v mb' =>
      (mb' = mb /\ ((exists p, In (SrcProc p) srcs /\ aw_get p aw = Some (Some v)) \/
                    (v = VNil /\ exists d, In (SrcTimeout d) srcs /\ timeout_ready d start now = true))) \/
      (exists m l1 l2, v = VMsg m /\ mb = l1 ++ m :: l2 /\ mb' = l1 ++ l2)
  | Wait => (forall d, In (SrcTimeout d) srcs -> timeout_ready d start now = false) /\
            (forall p v, In (SrcProc p) srcs -> aw_get p aw <> Some (Some v))
  | Fail _ => True
  end.

Lemma spec_means_cons src rest mb aw start now out :
  spec_means rest mb aw start now out ->
  (forall d, src = SrcTimeout d -> timeout_ready d start now = false) ->
  (forall p v, src = SrcProc p -> aw_get p aw <> Some (Some v)) ->
  spec_means (src :: rest) mb aw start now out.
Proof.
  destruct out as [v mb'|e|]; cbn; auto.
  - intros [(E & [(p & Hin & Hp)|(Ev & d & Hin & Hd)])|H] _ _; [left; split; [exact E|]..|right; exact H].
    + left. exists p. auto.
    + right. split; [exact Ev|]. exists d. auto.
  - intros (A & B) Ht Hp. split.
    + intros d [E|Hin]; [exact (Ht d E)|exact (A d Hin)].
    + intros p v [E|Hin]; [exact (Hp p v E)|exact (B p v Hin)].
Qed.

Lemma pick_shape r c t : forall mb m rest,
  pick_msg r c t mb = Picked m rest -> exists l1 l2, mb = l1 ++ m :: l2 /\ rest = l1 ++ l2.
Proof.
  induction mb as [|a mb IH]; intros m rest H; cbn in H; [discriminate|].
  destruct (accepts r c t a).
  - inversion H; subst. exists []. eexists. split; reflexivity.
  - destruct (pick_msg r c t mb) as [x rest'| |] eqn:E; try discriminate.
    inversion H; subst. destruct (IH _ _ eq_refl) as (l1 & l2 & -> & ->).
    exists (a :: l1), l2. auto.
  - discriminate.
Qed.

Lemma spec_meaning : forall srcs r mb aw start now,
  spec_means srcs mb aw start now (select_spec_from srcs r mb aw start now).
Proof.
  induction srcs as [|src rest IH]; intros r mb aw start now; [split; [intros d []|intros p v []]|].
  destruct src as [p|c t|d|e]; cbn [select_spec_from SelectSpec.select_spec_from].
  - destruct (aw_get p aw) as [[x|]|] eqn:E;
      [|apply spec_means_cons; [apply IH|discriminate|intros q v [= <-]; rewrite E; discriminate]..].
    left. split; [reflexivity|]. left. exists p. split; [left; reflexivity|exact E].
  - destruct (pick_msg r c t mb) as [m rest'| |] eqn:E; [|exact I|apply spec_means_cons; [apply IH|discriminate..]].
    right. destruct (pick_shape _ _ _ _ _ _ E) as (l1 & l2 & -> & ->). exists m, l1, l2. auto.
  - destruct (timeout_ready d start now) eqn:E;
      [|apply spec_means_cons; [apply IH|intros d' [= <-]; exact E|discriminate]].
    left. split; [reflexivity|]. right. split; [reflexivity|]. exists d. split; [left; reflexivity|exact E].
  - exact I.
Qed.

Lemma select_spec_means mb aw start now out :
  SelectSpec.select_spec verdict_of written mb aw start now = out -> spec_means written mb aw start now out.
Proof. intros <-. apply spec_meaning. Qed.

Notation step := (step fix45 verdict_of written).
Notation apply_event := (apply_event fix45 verdict_of written).
Notation run := (run fix45 verdict_of written).
Notation select_spec := (select_spec verdict_of).

(* the start time the entry works with (ensure_select_start_time) *)
Definition start_of (s : sel_state) (now : Z) : Z :=
  match ss_start s with Some t => t | None => now end.

(* the verdict handle_select_continuation pops *)
Definition popped (s : sel_state) : option verdict :=
  match ss_receiving s with Some (r, m) => Some (verdict_of r m) | None => None end.

Definition verdict_ok (s : sel_state) : Prop :=
  forall r m e, ss_receiving s = Some (r, m) -> verdict_of r m <> VdErr e.

(* the inner block of Select.step: start time fixed, verdict handed over, one process_sources *)
Definition pass (now : Z) (s : sel_state) (aw : list (pid * option value)) (mb : list msg) : sres :=
  let s1 := with_start s (Some (start_of s now)) in
  process_sources s1 (match popped s with Some v => rr_of v | None => None end)
    (start_of s now) now aw (ss_sources s) 0 s1 mb.

Lemma pass_ok s mb aw now :
  sel_inv s mb -> verdict_ok s ->
  let spec := select_spec written mb aw (start_of s now) now in
  match pass now s aw mb with
  | SComplete v mb' => spec = Complete v mb'
  | SCalled s' => sel_inv s' mb /\
                  exists r1 m, ss_receiving s' = Some (r1, m) /\
                               forall e, verdict_of r1 m = VdErr e -> spec = Fail e
  | SPark s' => spec = Wait /\ sel_inv s' mb /\ ss_start s' = Some (start_of s now) /\
                Forall (fun c => c = length mb) (ss_cursors s')
  | SError e s' => spec = Fail e
  | SPanic _ => False
  end.
Proof.
  intros (Hsrc & Hok) Hne spec. unfold pass. rewrite Hsrc.
  set (s1 := with_start s (Some (start_of s now))).
  set (rr := match popped s with Some v => rr_of v | None => None end).
  assert (Hrr : handed_over s1 rr).
  { unfold handed_over, s1, rr, popped; cbn [with_start ss_receiving].
    destruct (ss_receiving s) as [[r0 m0]|] eqn:E; [|reflexivity].
    split; [intros e; exact (Hne r0 m0 e E)|reflexivity]. }
  assert (Hlive : live_ok s1 mb 0 s1).
  { constructor; auto; [intros; lia|]. unfold slot_at. destruct (ss_receiving s1) as [[r0 m0]|]; reflexivity. }
  pose proof (process_sources_ok s1 rr mb Hrr (start_of s now) now aw written 0 s1 (fun k => eq_refl) Hlive) as H.
  pose proof (process_sources_frame s1 rr (start_of s now) now aw written 0 s1 mb) as F.
  unfold spec, SelectSpec.select_spec.
  destruct (process_sources s1 rr (start_of s now) now aw written 0 s1 mb) as [v mb'|s'|s'|e s'|n]; auto.
  - destruct H as (Hok' & Hrest), F as (F1 & _). split; [split; [exact (eq_trans F1 Hsrc)|exact Hok']|exact Hrest].
  - destruct H as (Hw & Hok' & Hend), F as (F1 & F2). split; [exact Hw|].
    split; [split; [exact (eq_trans F1 Hsrc)|exact Hok']|].
    split; [exact F2|]. apply Forall_nth. intros i d Hi. rewrite (nth_indep _ d 0 Hi). apply Hend.
    rewrite <- (proj1 Hok'). exact Hi.
Qed.

(* an active entry: the process is runnable, alive, still inside its select *)
Definition active (now : Z) (st : proc) (s : sel_state) : Prop :=
  p_queued (check_expired now st) = true /\ p_error st = None /\ p_value st = None /\ p_sel st = Some s.

Lemma check_expired_fields now st :
  p_mailbox (check_expired now st) = p_mailbox st /\ p_awaiting (check_expired now st) = p_awaiting st /\
  p_sel (check_expired now st) = p_sel st /\ p_value (check_expired now st) = p_value st /\
  p_error (check_expired now st) = p_error st /\ p_unreported (check_expired now st) = p_unreported st.
Proof. unfold check_expired. destruct (_ && _); cbn; auto 6. Qed.

(* the bookkeeping of Executor::step after the pass of the slice *)
Definition after_pass (st1 : proc) (s : sel_state) (res : sres) : outcome proc :=
  match res with
  | SComplete v mb => Val (complete_select fix45 st1 (ss_sources s) v mb)
  | SCalled s' => Val (set_sel st1 (Some s'))
  | SPark s' => Val (set_flags (set_sel st1 (Some s')) false true)
  | SError e s' => Val (set_flags (set_error (set_sel st1 (Some s')) (PErr e)) false (p_selecting st1))
  | SPanic n => Panic n
  end.

Lemma step_active now st s :
  active now st s ->
  step now st =
  match popped s with
  | Some (VdErr e) =>
      Val (set_flags (set_error (check_expired now st) (PErr e)) false (p_selecting (check_expired now st)))
  | _ =>
      match p_unreported st with
      | _ :: _ => Val (set_flags (check_expired now st) false true)
      | [] => after_pass (check_expired now st) s (pass now s (p_awaiting st) (p_mailbox st))
      end
  end.
Proof.
  intros (Hq & Herr & Hval & Hsel).
  destruct (check_expired_fields now st) as (Fmb & Faw & Fsel & Fval & Ferr & Fun).
  unfold Select.step. rewrite Hq, Ferr, Herr, Fval, Hval, Fsel, Hsel, Fun, Fmb, Faw. reflexivity.
Qed.

(* an entry of an active select (A_repark is Phase 3 of handle_select) *)
Inductive active_entry (now : Z) (st : proc) (s : sel_state) : outcome proc -> Prop :=
| A_err r m e : ss_receiving s = Some (r, m) -> verdict_of r m = VdErr e ->
    active_entry now st s (Val (set_flags (set_error (check_expired now st) (PErr e)) false
                                          (p_selecting (check_expired now st))))
| A_repark : verdict_ok s -> p_unreported st <> [] ->
    active_entry now st s (Val (set_flags (check_expired now st) false true))
| A_pass : verdict_ok s -> p_unreported st = [] ->
    active_entry now st s (after_pass (check_expired now st) s (pass now s (p_awaiting st) (p_mailbox st))).

Lemma active_step now st s : active now st s -> active_entry now st s (step now st).
Proof.
  intros Hact. rewrite (step_active now st s Hact). unfold popped.
  destruct (ss_receiving s) as [[r m]|] eqn:Ercv; [destruct (verdict_of r m) as [n| |e] eqn:Evd|].
  3:{ eapply A_err; eauto. }
  all: assert (Hok : verdict_ok s) by (intros r' m' e' Hr; congruence).
  all: destruct (p_unreported st) eqn:Hun; [apply A_pass|apply A_repark]; auto; congruence.
Qed.

(* one `step`, by the phase the process is in *)
Inductive entry (now : Z) (st : proc) : outcome proc -> Prop :=
| E_idle : p_queued (check_expired now st) = false -> entry now st (Val (check_expired now st))
| E_dead e : p_queued (check_expired now st) = true -> p_error st = Some e ->
    entry now st (Val (set_flags (check_expired now st) false (p_selecting (check_expired now st))))
| E_beyond v : p_queued (check_expired now st) = true -> p_error st = None -> p_value st = Some v ->
    entry now st (Val (check_expired now st))
| E_init : p_queued (check_expired now st) = true -> p_error st = None -> p_value st = None ->
    p_sel st = None -> entry now st (Val (initialize_select written now (check_expired now st)))
| E_active s o : active now st s -> active_entry now st s o -> entry now st o.

Lemma step_entry now st : entry now st (step now st).
Proof.
  destruct (check_expired_fields now st) as (_ & _ & Fsel & Fval & Ferr & _).
  destruct (p_queued (check_expired now st)) eqn:Hq.
  2:{ unfold Select.step. rewrite Hq. apply E_idle. exact Hq. }
  destruct (p_error st) as [pe|] eqn:Herr.
  { unfold Select.step. rewrite Hq, Ferr. eapply E_dead; eauto. }
  destruct (p_value st) as [v|] eqn:Hval.
  { unfold Select.step. rewrite Hq, Ferr, Fval. eapply E_beyond; eauto. }
  destruct (p_sel st) as [s|] eqn:Hsel.
  2:{ unfold Select.step. rewrite Hq, Ferr, Fval, Fsel. apply E_init; auto. }
  assert (Hact : active now st s) by (repeat split; assumption).
  exact (E_active now st s _ Hact (active_step now st s Hact)).
Qed.

Lemma pass_frame now s aw mb :
  match pass now s aw mb with
  | SCalled s' | SPark s' | SError _ s' => ss_sources s' = ss_sources s /\ ss_start s' = Some (start_of s now)
  | _ => True
  end.
Proof. apply process_sources_frame. Qed.

(* Every arrival is made of four updates (a message appended, a result stored, the error set,
   awaits reported) and flag changes; an entry adds the initialisation and the outcomes of a pass.
   `clock_ok` restricts the clock values of the entries. *)
Section Preserved.
Variable P : proc -> Prop.
Variable clock_ok : Z -> Prop.
Hypothesis P_flags : forall st q sl, P st -> P (set_flags st q sl).
Hypothesis P_error : forall st e, P st -> P (set_error st e).
Hypothesis P_msg : forall st m, P st -> P (set_mailbox st (p_mailbox st ++ [m])).
Hypothesis P_result : forall st p v, P st -> fix45 && negb (aw_has p (p_awaiting st)) = false ->
  P (set_awaiting (report [p] st) (aw_insert p (Some v) (p_awaiting st))).
Hypothesis P_report : forall st ps, P st -> P (report ps st).
Hypothesis P_init : forall now st, clock_ok now -> P st ->
  p_error st = None -> p_value st = None -> p_sel st = None -> P (initialize_select written now st).
Hypothesis P_pass : forall now st s, clock_ok now -> P st ->
  p_error st = None -> p_value st = None -> p_sel st = Some s -> verdict_ok s -> p_unreported st = [] ->
  match pass now s (p_awaiting st) (p_mailbox st) with
  | SComplete v mb => P (complete_select fix45 st (ss_sources s) v mb)
  | SCalled s' | SPark s' => P (set_sel st (Some s'))
  | SError e s' => P (set_error (set_sel st (Some s')) (PErr e))
  | SPanic _ => True
  end.

Lemma check_expired_preserves now st : P st -> P (check_expired now st).
Proof. intros H. unfold check_expired. destruct (_ && _); auto. Qed.

Lemma step_preserves now st st' : clock_ok now -> P st -> step now st = Val st' -> P st'.
Proof.
  intros Hnow HP Hstep. apply (check_expired_preserves now) in HP.
  destruct (check_expired_fields now st) as (Fmb & Faw & Fsel & Fval & Ferr & Fun).
  revert Hstep.
  destruct (step_entry now st)
    as [Hq|e Hq He|v Hq He Hv|Hq He Hv Hs|s o (_ & He & Hv & Hs) [r m e Hr Hvd|Hok Hun|Hok Hun]];
    intros Hstep; try (injection Hstep as <-; auto; fail).
  - injection Hstep as <-. apply P_init; auto; congruence.
  - pose proof (P_pass now (check_expired now st) s Hnow HP) as Hp.
    rewrite Ferr, Fval, Fsel, Fun, Faw, Fmb in Hp. specialize (Hp He Hv Hs Hok Hun).
    destruct (pass now s (p_awaiting st) (p_mailbox st)); try discriminate; injection Hstep as <-; auto.
Qed.

Lemma apply_event_preserves ev :
  match ev with EStep now => clock_ok now | _ => True end ->
  forall st st', P st -> apply_event ev st = Val st' -> P st'.
Proof.
  intros Hev st st' HP H.
  assert (Hwake : forall st0, P st0 -> P (wake st0)).
  { intros st0 H0. unfold wake. destruct (p_selecting st0); auto. }
  assert (Hres : forall p v, P (notify_result fix45 p v st)).
  { intros p v. unfold notify_result. apply Hwake. destruct (fix45 && negb _) eqn:E; auto. }
  destruct ev as [now|m|p v|p| |p r|tnow|rps]; cbn [Select.apply_event] in H.
  - eapply step_preserves; eauto.
  - injection H as <-. auto.
  - injection H as <-. apply Hres.
  - injection H as <-. destruct (fix45 && negb _); auto.
  - injection H as <-. auto.
  - destruct (aw_has p (p_awaiting st)); [destruct r|]; injection H as <-; auto.
  - injection H as <-. apply check_expired_preserves. exact HP.
  - injection H as <-. auto.
Qed.

End Preserved.

Lemma run_preserves (P : proc -> Prop) (Q : event -> Prop) :
  (forall ev, Q ev -> forall st st', P st -> apply_event ev st = Val st' -> P st') ->
  forall evs st st', Forall Q evs -> P st -> run evs st = Val st' -> P st'.
Proof.
  intros Hev. induction evs as [|ev evs IH]; intros st st' Hall HP H; cbn [Select.run] in H.
  - injection H as <-. exact HP.
  - inversion Hall as [|? ? Hq Hall']; subst.
    destruct (apply_event ev st) as [st1| |] eqn:E; cbn [obind] in H; try discriminate.
    exact (IH st1 st' Hall' (Hev ev Hq st st1 HP E) H).
Qed.

Lemma sel_inv_init t mb :
  sel_inv {| ss_sources := written; ss_cursors := repeat 0 (count_recv written);
             ss_start := t; ss_receiving := None |} mb.
Proof.
  assert (H0 : forall r, cur_get r (repeat 0 (count_recv written)) = 0).
  { intros r. unfold cur_get. destruct (Nat.lt_ge_cases r (count_recv written)).
    - apply nth_repeat.
    - apply nth_overflow. rewrite repeat_length. lia. }
  unfold sel_inv; cbn [ss_sources ss_cursors ss_receiving]. repeat split; auto.
  - apply repeat_length.
  - intros r c ty _ j m Hj. rewrite H0 in Hj. lia.
  - intros r. rewrite H0. lia.
Qed.

Lemma Inv_error st e : Inv (set_error st e).
Proof. unfold Inv. cbn. discriminate. Qed.
Lemma Inv_awaiting st aw : Inv st -> Inv (set_awaiting st aw).
Proof. unfold Inv. cbn. auto. Qed.

(* appending a message keeps the invariant (positions before any cursor are unchanged) *)
Lemma sel_inv_app s mb m : sel_inv s mb -> sel_inv s (mb ++ [m]).
Proof.
  intros (H1 & H2 & H3 & H4 & H5). unfold sel_inv. repeat split; auto.
  - intros r c t Hs j x Hj Hx.
    assert (j < length mb) by (specialize (H5 r); lia).
    rewrite nth_error_app1 in Hx by auto. eapply H3; eauto.
  - destruct (ss_receiving s) as [[r0 m0]|]; cbn in *; auto.
    destruct H4 as (c & A & B & C). exists c. repeat split; auto.
    rewrite nth_error_app1; auto. apply nth_error_Some. congruence.
  - intros r. rewrite app_length. specialize (H5 r). lia.
Qed.

Lemma apply_event_Inv ev : forall st st', Inv st -> apply_event ev st = Val st' -> Inv st'.
Proof.
  apply (apply_event_preserves Inv (fun _ => True)); [..|destruct ev; exact I].
  - intros st q sl HI. exact HI.
  - intros st e _. apply Inv_error.
  - intros st m HI He s Hs. apply sel_inv_app. exact (HI He s Hs).
  - intros st p v HI _. apply Inv_awaiting. exact HI.
  - intros st ps HI. exact HI.
  - intros now st _ _ _ _ _. unfold initialize_select.
    destruct (pids_of written); intros _ s [= <-]; apply sel_inv_init.
  - intros now st s _ HI He Hv Hs Hok _.
    pose proof (pass_ok s (p_mailbox st) (p_awaiting st) now (HI He s Hs) Hok) as H.
    destruct (pass now s (p_awaiting st) (p_mailbox st)); auto; try apply Inv_error; intros _ s2 [= <-]; apply H.
Qed.

Lemma step_total now st : Inv st -> exists st', step now st = Val st'.
Proof.
  intros HI.
  destruct (step_entry now st) as [| | | |s o (_ & He & _ & Hs) [| |Hok _]]; eauto.
  pose proof (pass_ok s (p_mailbox st) (p_awaiting st) now (HI He s Hs) Hok) as H.
  unfold after_pass. destruct (pass now s (p_awaiting st) (p_mailbox st)); eauto. contradiction.
Qed.

Lemma Inv_initial mb aw : Inv (initial mb aw).
Proof. unfold Inv, initial; cbn. intros _ s Hs. discriminate Hs. Qed.

Lemma run_total : forall evs st, Inv st -> exists st', run evs st = Val st'.
Proof.
  induction evs as [|ev evs IH]; intros st HI; cbn [Select.run]; [eauto|].
  assert (exists st1, apply_event ev st = Val st1) as (st1 & E).
  { destruct ev as [now|m|p v|p| |p r|tnow|rps]; cbn [Select.apply_event]; eauto using step_total.
    destruct (aw_has p (p_awaiting st)); [destruct r|]; eauto. }
  rewrite E. cbn [obind]. apply IH. exact (apply_event_Inv ev st st1 HI E).
Qed.

Lemma reach_Inv mb0 aw0 evs st : run evs (initial mb0 aw0) = Val st -> Inv st.
Proof.
  apply (run_preserves Inv (fun _ => True)); [intros ev _; apply apply_event_Inv|apply Forall_forall; auto|].
  apply Inv_initial.
Qed.

Theorem machine_never_panics mb0 aw0 evs : exists st, run evs (initial mb0 aw0) = Val st.
Proof. exact (run_total evs (initial mb0 aw0) (Inv_initial mb0 aw0)). Qed.

Lemma cursor_skips_only_rejected_reach mb0 aw0 evs st s :
  run evs (initial mb0 aw0) = Val st -> p_error st = None -> p_sel st = Some s ->
  forall r c t, nth_recv written r = Some (c, t) ->
  forall j m, j < cur_get r (ss_cursors s) -> nth_error (p_mailbox st) j = Some m ->
  compat c m = false \/ (t = false /\ verdict_of r m = VdNil).
Proof.
  intros Hrun Herr Hsel r c t Hsrc j m Hj Hm.
  destruct (reach_Inv _ _ _ _ Hrun Herr s Hsel) as (_ & _ & Hsk & _).
  exact (accepts_nil r c t m (Hsk r c t Hsrc j m Hj Hm)).
Qed.

(* a step that turns "no value yet" into "value v" is a pass of an active select that completes *)
Lemma completing_is_active now st st' v :
  step now st = Val st' -> p_value st = None -> p_value st' = Some v ->
  exists s mb', active now st s /\ verdict_ok s /\ p_unreported st = [] /\
    pass now s (p_awaiting st) (p_mailbox st) = SComplete v mb' /\
    st' = complete_select fix45 (check_expired now st) (ss_sources s) v mb'.
Proof.
  intros Hstep Hv0 Hv1. destruct (check_expired_fields now st) as (_ & _ & _ & Fval & _).
  revert Hstep.
  destruct (step_entry now st)
    as [Hq|e Hq He|v' Hq He Hv|Hq He Hv Hs|s o Hact [r m e Hr Hvd|Hok Hun|Hok Hun]];
    intros Hstep; try (injection Hstep as <-; cbn in Hv1; congruence).
  - injection Hstep as <-. unfold initialize_select in Hv1. destruct (pids_of written); cbn in Hv1; congruence.
  - destruct (pass now s (p_awaiting st) (p_mailbox st)) as [v0 mb'| | | |] eqn:Ep; try discriminate;
      injection Hstep as <-; cbn in Hv1; try congruence.
    injection Hv1 as ->. exists s, mb'. auto 6.
Qed.

Lemma select_refines_spec_step now st st' v :
  Inv st -> step now st = Val st' -> p_value st = None -> p_value st' = Some v ->
  exists s, p_sel st = Some s /\
    select_spec written (p_mailbox st) (p_awaiting st) (start_of s now) now = Complete v (p_mailbox st').
Proof.
  intros HI Hstep Hv0 Hv1.
  destruct (completing_is_active now st st' v Hstep Hv0 Hv1) as (s & mb' & (_ & He & _ & Hs) & Hok & _ & Ep & ->).
  exists s. split; [exact Hs|].
  pose proof (pass_ok s (p_mailbox st) (p_awaiting st) now (HI He s Hs) Hok) as H. rewrite Ep in H. exact H.
Qed.

(* a PASS that parks *)
Lemma park_entry now st st' s :
  Inv st -> active now st s -> p_unreported st = [] ->
  step now st = Val st' -> p_queued st' = false -> p_error st' = None ->
  exists s', st' = set_flags (set_sel (check_expired now st) (Some s')) false true /\
    select_spec written (p_mailbox st) (p_awaiting st) (start_of s now) now = Wait /\
    sel_inv s' (p_mailbox st) /\ ss_start s' = Some (start_of s now) /\
    Forall (fun c => c = length (p_mailbox st)) (ss_cursors s').
Proof.
  intros HI Hact Hun Hstep Hq' He'. pose proof Hact as (Hq & He & Hv & Hs).
  revert Hstep. destruct (active_step now st s Hact) as [r m e _ _|_ Hne|Hok _]; intros Hstep;
    [|contradiction|].
  - injection Hstep as <-. discriminate He'.
  - unfold after_pass in Hstep. pose proof (pass_ok s (p_mailbox st) (p_awaiting st) now (HI He s Hs) Hok) as H.
    destruct (pass now s (p_awaiting st) (p_mailbox st)) as [v mb'|s'|s'|e s'|n]; try discriminate;
      injection Hstep as <-; cbn in Hq', He'; try congruence.
    exists s'. split; [reflexivity|exact H].
Qed.

(* a step that kills a live process with an executor error: either the entry itself failed and
   the spec says Fail on this entry's state, or the popped verdict was a filter error *)
Lemma fails_only_when_spec_fails_step now st st' s e :
  Inv st -> step now st = Val st' -> active now st s -> p_error st' = Some (PErr e) ->
  (exists r m, ss_receiving s = Some (r, m) /\ verdict_of r m = VdErr e) \/
  select_spec written (p_mailbox st) (p_awaiting st) (start_of s now) now = Fail e.
Proof.
  intros HI Hstep Hact He'. pose proof Hact as (Hq & He & Hv & Hs).
  destruct (check_expired_fields now st) as (_ & _ & _ & _ & Ferr & _).
  revert Hstep. destruct (active_step now st s Hact) as [r m e0 Hr Hvd|_ _|Hok _]; intros Hstep.
  - injection Hstep as <-. injection He' as <-. left. eauto.
  - (* a re-park leaves the process alive *)
    injection Hstep as <-. cbn in He'. congruence.
  - right. unfold after_pass in Hstep.
    pose proof (pass_ok s (p_mailbox st) (p_awaiting st) now (HI He s Hs) Hok) as H.
    destruct (pass now s (p_awaiting st) (p_mailbox st)) as [v mb'|s'|s'|e0 s'|n]; try discriminate;
      injection Hstep as <-; cbn in He'; congruence.
Qed.

(* ... and a filter is only ever CALLED on a message for which the spec, on the calling entry's
   state, depends on that verdict: if the verdict is an error the spec already says Fail *)
Lemma failing_filter_called_only_when_spec_fails_step now st st' s s' r m e :
  Inv st -> step now st = Val st' -> active now st s -> verdict_ok s ->
  p_error st' = None -> p_queued st' = true ->
  p_sel st' = Some s' -> ss_receiving s' = Some (r, m) -> verdict_of r m = VdErr e ->
  select_spec written (p_mailbox st) (p_awaiting st) (start_of s now) now = Fail e.
Proof.
  intros HI Hstep Hact Hne He' Hq' Hs' Hr Hvd. pose proof Hact as (Hq & He & Hv & Hs).
  revert Hstep. destruct (active_step now st s Hact) as [r0 m0 e0 Hr0 Hvd0|_ _|_ _]; intros Hstep;
    [destruct (Hne r0 m0 e0 Hr0 Hvd0)| |].
  { (* a re-park takes the process off the queue *) injection Hstep as <-. discriminate Hq'. }
  unfold after_pass in Hstep.
  pose proof (pass_ok s (p_mailbox st) (p_awaiting st) now (HI He s Hs) Hne) as H.
  destruct (pass now s (p_awaiting st) (p_mailbox st)) as [v mb'|s2|s2|e0 s2|n]; try discriminate;
    injection Hstep as <-; cbn in He', Hq', Hs'; try discriminate.
  injection Hs' as ->. destruct H as (_ & r1 & m1 & Hr1 & Hfail). apply Hfail. congruence.
Qed.

Theorem select_refines_spec mb0 aw0 evs st now st' v :
  run evs (initial mb0 aw0) = Val st ->
  step now st = Val st' -> p_value st = None -> p_value st' = Some v ->
  exists s, p_sel st = Some s /\
    select_spec written (p_mailbox st) (p_awaiting st) (start_of s now) now = Complete v (p_mailbox st').
Proof. intros Hrun. apply select_refines_spec_step. exact (reach_Inv _ _ _ _ Hrun). Qed.

Theorem parks_only_when_spec_waits mb0 aw0 evs st now st' s :
  run evs (initial mb0 aw0) = Val st ->
  step now st = Val st' -> active now st s -> p_unreported st = [] ->
  p_queued st' = false -> p_error st' = None ->
  select_spec written (p_mailbox st) (p_awaiting st) (start_of s now) now = Wait.
Proof.
  intros Hrun Hstep Hact Hun Hq' He'.
  destruct (park_entry now st st' s (reach_Inv _ _ _ _ Hrun) Hact Hun Hstep Hq' He') as (s' & _ & H & _). exact H.
Qed.

Theorem fails_only_when_spec_fails mb0 aw0 evs st now st' s e :
  run evs (initial mb0 aw0) = Val st ->
  step now st = Val st' -> active now st s -> p_unreported st = [] -> p_error st' = Some (PErr e) ->
  (exists r m, ss_receiving s = Some (r, m) /\ verdict_of r m = VdErr e) \/
  select_spec written (p_mailbox st) (p_awaiting st) (start_of s now) now = Fail e.
Proof.
  intros Hrun Hstep Hact _. apply fails_only_when_spec_fails_step; auto. exact (reach_Inv _ _ _ _ Hrun).
Qed.

Theorem failing_filter_called_only_when_spec_fails mb0 aw0 evs st now st' s s' r m e :
  run evs (initial mb0 aw0) = Val st ->
  step now st = Val st' -> active now st s -> p_unreported st = [] ->
  (forall r m e, ss_receiving s = Some (r, m) -> verdict_of r m <> VdErr e) ->
  p_error st' = None -> p_value st' = None -> p_queued st' = true ->
  p_sel st' = Some s' -> ss_receiving s' = Some (r, m) -> verdict_of r m = VdErr e ->
  select_spec written (p_mailbox st) (p_awaiting st) (start_of s now) now = Fail e.
Proof.
  intros Hrun Hstep Hact _ Hok He' _. apply failing_filter_called_only_when_spec_fails_step; auto.
  exact (reach_Inv _ _ _ _ Hrun).
Qed.

(* Process.unreported_awaits (F72) is non-empty only between the Await and its
   last report, and in that window the select has not started evaluating its sources *)
Definition UInv (st : proc) : Prop :=
  p_error st = None -> p_value st = None ->
  (p_sel st = None -> p_unreported st = []) /\
  (p_unreported st <> [] -> forall s, p_sel st = Some s -> ss_start s = None /\ ss_receiving s = None).

Lemma UInv_report ps st : UInv st -> UInv (report ps st).
Proof.
  intros H He Hv. destruct (H He Hv) as (A & B). cbn. split.
  - intros Hn. rewrite (A Hn). reflexivity.
  - intros Hne. apply B. intros E. rewrite E in Hne. apply Hne. reflexivity.
Qed.

Lemma reach_UInv mb0 aw0 evs st : run evs (initial mb0 aw0) = Val st -> UInv st.
Proof.
  apply (run_preserves UInv (fun _ => True)); [intros ev _|apply Forall_forall; auto|intros _ _; cbn; tauto].
  apply (apply_event_preserves UInv (fun _ => True)); [..|destruct ev; exact I].
  - intros st0 q sl H. exact H.
  - intros st0 e _ He. discriminate He.
  - intros st0 m H. exact H.
  - intros st0 p v H _. exact (UInv_report [p] st0 H).
  - exact (fun st0 ps => UInv_report ps st0).
  - intros now st0 _ H He Hv Hs _ _. destruct (H He Hv) as (A & _). unfold initialize_select.
    destruct (pids_of written); cbn; (split; [discriminate|]).
    + rewrite (A Hs). intros Hc. contradiction.
    + intros _ s [= <-]. auto.
  - (* a pass is only made with nothing unreported, and leaves a value, a select state or an error *)
    intros now st0 s _ _ _ _ _ _ Hun.
    destruct (pass now s (p_awaiting st0) (p_mailbox st0)) as [v mb'|s'|s'|e s'|n]; [| | | |exact I];
      intros He Hv; try discriminate; cbn; rewrite Hun; (split; [discriminate|intros Hc; contradiction]).
Qed.

Notation step_action := (step_action written).

(* the entry executes instructions of a live process that is still before / inside its select *)
Definition runs (now : Z) (st : proc) : Prop :=
  p_queued (check_expired now st) = true /\ p_error st = None /\ p_value st = None.

Lemma active_runs now st s : active now st s -> runs now st.
Proof. intros (A & B & C & _). repeat split; auto. Qed.

(* park_honest, first clause: an entry parks only after it has scanned the whole mailbox with
   every receive source: every cursor is at the end of the mailbox, the sources have been
   evaluated (start time set) *)
Theorem parks_only_after_full_scan mb0 aw0 evs st now st' s :
  run evs (initial mb0 aw0) = Val st ->
  step now st = Val st' -> active now st s -> p_unreported st = [] ->
  p_queued st' = false -> p_error st' = None ->
  exists s', p_sel st' = Some s' /\ p_selecting st' = true /\ ss_start s' <> None /\
             Forall (fun c => c = length (p_mailbox st')) (ss_cursors s').
Proof.
  intros Hrun Hstep Hact Hun Hq' He'.
  destruct (park_entry now st st' s (reach_Inv _ _ _ _ Hrun) Hact Hun Hstep Hq' He') as (s' & -> & _ & _ & F & G).
  destruct (check_expired_fields now st) as (Fmb & _).
  exists s'. cbn. rewrite Fmb, F. repeat split; auto. discriminate.
Qed.

(* ... so it never parks with an unseen matching message: no message of the mailbox is acceptable
   to any receive source (type-compatible and, for a filter source, not rejected) *)
Theorem never_parks_with_acceptable_message mb0 aw0 evs st now st' s :
  run evs (initial mb0 aw0) = Val st ->
  step now st = Val st' -> active now st s -> p_unreported st = [] ->
  p_queued st' = false -> p_error st' = None ->
  forall r c t, nth_recv written r = Some (c, t) ->
  forall m, In m (p_mailbox st') -> compat c m = false \/ (t = false /\ verdict_of r m = VdNil).
Proof.
  intros Hrun Hstep Hact Hun Hq' He' r c t Hsrc m Hin.
  destruct (park_entry now st st' s (reach_Inv _ _ _ _ Hrun) Hact Hun Hstep Hq' He')
    as (s' & -> & _ & (_ & Hlen & Hsk & _) & _ & G).
  destruct (check_expired_fields now st) as (Fmb & _). cbn in Hin. rewrite Fmb in Hin.
  apply In_nth_error in Hin. destruct Hin as (j & Hj).
  assert (Hcur : cur_get r (ss_cursors s') = length (p_mailbox st)).
  { rewrite Forall_nth in G. apply G. rewrite Hlen. eapply nth_recv_lt; eauto. }
  assert (Hjl : j < length (p_mailbox st)) by (apply nth_error_Some; congruence).
  exact (accepts_nil r c t m (Hsk r c t Hsrc j m ltac:(lia) Hj)).
Qed.

(* an Action is returned only by the initialising entry *)
Lemma step_action_only_at_init now st ts :
  step_action now st = Some ts -> runs now st /\ p_sel st = None.
Proof.
  intros Ha. destruct (check_expired_fields now st) as (_ & _ & Fsel & Fval & Ferr & _).
  unfold Select.step_action in Ha. unfold runs.
  destruct (p_queued (check_expired now st)); cbn [negb] in Ha; [|discriminate].
  rewrite Ferr, Fval, Fsel in Ha.
  destruct (p_error st); [discriminate|]. destruct (p_value st); [discriminate|].
  destruct (p_sel st); [discriminate|]. auto.
Qed.

(* park_honest, second clause: the slice that returns Action::Await is the initialising entry; it
   has not started evaluating its sources (start time unset), it parks, and its targets are the
   process sources in written order *)
Theorem await_slice_has_not_started now st st' ts :
  step_action now st = Some ts -> step now st = Val st' ->
  ts = pids_of written /\ ts <> [] /\ p_queued st' = false /\ p_selecting st' = true /\
  exists s', p_sel st' = Some s' /\ ss_start s' = None /\ ss_sources s' = written /\
             ss_receiving s' = None /\
             p_awaiting st' = fold_left (fun aw p => aw_insert p None aw) ts (p_awaiting st) /\
             p_unreported st' = ts.
Proof.
  intros Ha Hstep. destruct (step_action_only_at_init now st ts Ha) as ((Hq & He & Hv) & Hs).
  destruct (check_expired_fields now st) as (_ & Faw & Fsel & Fval & Ferr & _).
  unfold Select.step_action in Ha. rewrite Hq, Ferr, He, Fval, Hv, Fsel, Hs in Ha. cbn [negb] in Ha.
  revert Hstep. destruct (step_entry now st) as [| | | |? ? (_ & _ & _ & Hs') _]; try congruence.
  intros [= <-]. unfold initialize_select.
  destruct (pids_of written) as [|q qs]; [discriminate|]. injection Ha as <-. cbn. rewrite Faw.
  repeat split; auto; try discriminate. eexists. repeat split.
Qed.

(* a select woken (by a message, a timeout tick, a single result) while some awaited process is
   still unreported parks again: nothing is evaluated, nothing changes but the scheduling flags,
   and its start time is still unset *)
Theorem reparks_until_all_reported mb0 aw0 evs st now s :
  run evs (initial mb0 aw0) = Val st ->
  active now st s -> p_unreported st <> [] ->
  step now st = Val (set_flags (check_expired now st) false true) /\
  ss_start s = None /\ ss_receiving s = None.
Proof.
  intros Hrun Hact Hun. pose proof Hact as (_ & He & Hv & Hs).
  destruct (reach_UInv _ _ _ _ Hrun He Hv) as (_ & HB). destruct (HB Hun s Hs) as (Hst & Hrc).
  split; [|auto].
  destruct (active_step now st s Hact) as [r m e Hr _|_ _|_ Hun']; [congruence|reflexivity|contradiction].
Qed.

(* ... so an entry that completes the select (or evaluates anything) runs only once every awaited
   process has been reported: a process source that finished long ago cannot lose to a later
   source whose result merely arrived first *)
Theorem completes_only_after_all_reported now st st' v :
  step now st = Val st' -> p_value st = None -> p_value st' = Some v -> p_unreported st = [].
Proof.
  intros Hstep Hv0 Hv1. destruct (completing_is_active now st st' v Hstep Hv0 Hv1) as (s & mb' & _ & _ & H & _).
  exact H.
Qed.

(* ANY entry that parks: the start time is unset (Await slice, re-park), or it is a pass as in park_entry *)
Lemma parking_entry mb0 aw0 evs st now st' :
  run evs (initial mb0 aw0) = Val st ->
  step now st = Val st' -> runs now st -> p_queued st' = false -> p_error st' = None ->
  forall s', p_sel st' = Some s' ->
  ss_start s' = None \/
  exists s, p_mailbox st' = p_mailbox st /\
    select_spec written (p_mailbox st) (p_awaiting st) (start_of s now) now = Wait /\
    sel_inv s' (p_mailbox st) /\ ss_start s' = Some (start_of s now) /\
    Forall (fun c => c = length (p_mailbox st)) (ss_cursors s').
Proof.
  intros Hrun Hstep (Hq & He & Hv) Hq' He' s' Hs'.
  destruct (check_expired_fields now st) as (Fmb & _ & Fsel & _).
  destruct (p_sel st) as [s|] eqn:Hsel.
  - assert (Hact : active now st s) by (repeat split; assumption).
    destruct (p_unreported st) as [|u us] eqn:Hun.
    + destruct (park_entry now st st' s (reach_Inv _ _ _ _ Hrun) Hact Hun Hstep Hq' He') as (s2 & -> & H).
      injection Hs' as <-. right. exists s. split; [exact Fmb|exact H].
    + left. destruct (reparks_until_all_reported _ _ _ _ now s Hrun Hact) as (E & Hst & _);
        [rewrite Hun; discriminate|].
      rewrite E in Hstep. injection Hstep as <-. cbn in Hs'. congruence.
  - left. revert Hstep.
    destruct (step_entry now st) as [| | | |? ? (_ & _ & _ & Hs) _]; try congruence.
    intros [= <-]. unfold initialize_select in Hs', Hq'.
    destruct (pids_of written); cbn in Hs', Hq'; [congruence|]. injection Hs' as <-. reflexivity.
Qed.

(* park_honest clause 1 as sys/ProtoParked.v states it: whichever way an entry parks
   the process, IF the select has started evaluating (start time set) THEN every receive cursor
   is at the end of the mailbox.  (An Await slice and a re-park before all reports have the start
   time unset.) *)
Theorem parked_started_select_is_fully_scanned mb0 aw0 evs st now st' :
  run evs (initial mb0 aw0) = Val st ->
  step now st = Val st' -> runs now st -> p_queued st' = false -> p_error st' = None ->
  forall s', p_sel st' = Some s' -> ss_start s' <> None ->
             Forall (fun c => c = length (p_mailbox st')) (ss_cursors s').
Proof.
  intros Hrun Hstep Hr Hq' He' s' Hs' Hstart.
  destruct (parking_entry _ _ _ _ _ _ Hrun Hstep Hr Hq' He' s' Hs') as [H|(s & -> & _ & _ & _ & G)];
    [contradiction|exact G].
Qed.

(* time_honest (for the slice that parks): an entry never parks the process with a timeout
   already due at the clock it checked — whether it parks after a pass over the sources (every
   timeout source was found not ready against the start time of this select) or by awaiting (the
   start time is unset: check_expired_timeouts ignores the process) *)
Theorem never_parks_with_due_timeout mb0 aw0 evs st now st' :
  run evs (initial mb0 aw0) = Val st ->
  step now st = Val st' -> runs now st -> p_queued st' = false -> p_error st' = None ->
  forall s', p_sel st' = Some s' -> expired s' now = false.
Proof.
  intros Hrun Hstep Hr Hq' He' s' Hs'. unfold expired.
  destruct (parking_entry _ _ _ _ _ _ Hrun Hstep Hr Hq' He' s' Hs') as [->|(s & _ & Hw & (-> & _) & -> & _)];
    [reflexivity|].
  destruct (select_spec_means _ _ _ _ _ Hw) as (Htm & _).
  apply not_true_is_false. intros Hex. apply existsb_exists in Hex. destruct Hex as (src & Hin & Hrd).
  destruct src as [p|c t|d|e]; try discriminate. rewrite (Htm d Hin) in Hrd. discriminate.
Qed.

(* ... hence the check_expired_timeouts of a later step at the same clock leaves it parked *)
Corollary parked_not_expired_at_same_clock mb0 aw0 evs st now st' :
  run evs (initial mb0 aw0) = Val st ->
  step now st = Val st' -> runs now st -> p_queued st' = false -> p_error st' = None ->
  check_expired now st' = st'.
Proof.
  intros Hrun Hstep Hr Hq' He'. unfold check_expired.
  destruct (p_sel st') as [s'|] eqn:Hs'; [|rewrite andb_false_r; reflexivity].
  rewrite (never_parks_with_due_timeout _ _ _ _ _ _ Hrun Hstep Hr Hq' He' s' Hs'), andb_false_r. reflexivity.
Qed.

(* await_honest (a): no entry is executed for a process whose result is already set (a process
   completed in place by a failure notification has its frames cleared): the step only takes it
   off the run queue; it returns no Action and changes nothing else *)
Theorem dead_process_runs_no_entry now st st' e :
  p_error st = Some e -> step now st = Val st' ->
  step_action now st = None /\
  p_sel st' = p_sel st /\ p_mailbox st' = p_mailbox st /\ p_awaiting st' = p_awaiting st /\
  p_value st' = p_value st /\ p_error st' = Some e /\ p_queued st' = false.
Proof.
  intros He Hstep. destruct (check_expired_fields now st) as (Fmb & Faw & Fsel & Fval & Ferr & _).
  unfold Select.step_action. unfold Select.step in Hstep.
  destruct (p_queued (check_expired now st)) eqn:Hq; cbn [negb] in *.
  - rewrite Ferr, He in *. inversion Hstep; subst st'. cbn. repeat split; auto.
  - inversion Hstep; subst st'. repeat split; auto. congruence.
Qed.

Lemma completing_step_awaiting now st st' v :
  Inv st -> step now st = Val st' -> p_value st = None -> p_value st' = Some v ->
  p_awaiting st' = if fix45 then fold_left (fun aw p => aw_remove p aw) (pids_of written) (p_awaiting st)
                   else p_awaiting st.
Proof.
  intros HI Hstep Hv0 Hv1.
  destruct (completing_is_active now st st' v Hstep Hv0 Hv1) as (s & mb' & (_ & He & _ & Hs) & _ & _ & _ & ->).
  destruct (check_expired_fields now st) as (_ & Faw & _).
  cbn. rewrite Faw, (proj1 (HI He s Hs)). reflexivity.
Qed.

(* untaken_preserved_in_order: a completion either leaves the mailbox alone or removes exactly
   one occurrence of the message it yields, keeping the order of all others *)
Theorem untaken_preserved_in_order mb0 aw0 evs st now st' v :
  run evs (initial mb0 aw0) = Val st ->
  step now st = Val st' -> p_value st = None -> p_value st' = Some v ->
  p_mailbox st' = p_mailbox st \/
  exists m l1 l2, v = VMsg m /\ p_mailbox st = l1 ++ m :: l2 /\ p_mailbox st' = l1 ++ l2.
Proof.
  intros Hrun Hstep Hv0 Hv1.
  destruct (select_refines_spec _ _ _ _ _ _ _ Hrun Hstep Hv0 Hv1) as (s & _ & Hspec).
  destruct (select_spec_means _ _ _ _ _ Hspec) as [(E & _)|H]; auto.
Qed.

Definition steps_ge (t0 : Z) (evs : list event) : Prop :=
  Forall (fun ev => match ev with EStep t => (t0 <= t)%Z | _ => True end) evs.

Definition start_ge (t0 : Z) (st : proc) : Prop :=
  forall s t, p_sel st = Some s -> ss_start s = Some t -> (t0 <= t)%Z.

Lemma reach_start_ge t0 mb0 aw0 evs st :
  steps_ge t0 evs -> run evs (initial mb0 aw0) = Val st -> start_ge t0 st.
Proof.
  intros Hall. refine (run_preserves (start_ge t0) _ _ evs _ st Hall _); [intros ev Hev|intros s t [=]].
  apply (apply_event_preserves (start_ge t0) (fun now => (t0 <= now)%Z)); [..|exact Hev];
    try (intros st0; intros; assumption).
  - intros now st0 Hnow _ _ _ _ s t. unfold initialize_select.
    destruct (pids_of written); cbn; intros [= <-] [= <-]. exact Hnow.
  - intros now st0 s Hnow H _ _ Hs _ _. pose proof (pass_frame now s (p_awaiting st0) (p_mailbox st0)) as F.
    assert (Hs1 : (t0 <= start_of s now)%Z).
    { unfold start_of. destruct (ss_start s) eqn:E; [exact (H s z Hs E)|exact Hnow]. }
    destruct (pass now s (p_awaiting st0) (p_mailbox st0)); auto; intros s2 t [= <-] Ht;
      destruct F as (_ & F); congruence.
Qed.

Lemma eff_timeout_lower d : (Z.min d i64_max <= eff_timeout d)%Z.
Proof.
  unfold eff_timeout, to_i64_or_max, in_i64, i64_max.
  destruct ((- two63 <=? d)%Z && (d <? two63)%Z) eqn:E; lia.
Qed.

(* the clamp is invisible for every duration that fits an i64 *)
Lemma eff_timeout_in_range d : in_i64 d = true -> eff_timeout d = Z.max d 0.
Proof. unfold eff_timeout, to_i64_or_max. intros ->. reflexivity. Qed.

(* timeout_not_early: with a clock that never runs behind t0 (any lower bound of the clock
   values, e.g. the time of the select's first entry), a select that completes with nil although no awaited process returned nil does so no
   earlier than the (clamped) duration of one of its timeouts after t0 *)
Theorem timeout_not_early t0 mb0 aw0 evs st now st' :
  steps_ge t0 evs -> (t0 <= now)%Z ->
  run evs (initial mb0 aw0) = Val st ->
  step now st = Val st' -> p_value st = None -> p_value st' = Some VNil ->
  (forall p, aw_get p (p_awaiting st) <> Some (Some VNil)) ->
  exists d, In (SrcTimeout d) written /\ (Z.min d i64_max <= now - t0)%Z /\ (eff_timeout d <= now - t0)%Z.
Proof.
  intros Hall Hnow Hrun Hstep Hv0 Hv1 Hnonil.
  destruct (select_refines_spec _ _ _ _ _ _ _ Hrun Hstep Hv0 Hv1) as (s & Hsel & Hspec).
  pose proof (reach_start_ge t0 _ _ _ _ Hall Hrun) as Hge.
  destruct (select_spec_means _ _ _ _ _ Hspec) as [(_ & [(p & _ & Hp)|(_ & d & Hin & Hd)])|(m & l1 & l2 & [=] & _)].
  - exfalso. eapply Hnonil; eauto.
  - exists d. split; auto.
    assert (Hstart : (t0 <= start_of s now)%Z).
    { unfold start_of. destruct (ss_start s) eqn:E; auto. eapply Hge; eauto. }
    unfold timeout_ready, elapsed in Hd. apply Z.leb_le in Hd.
    pose proof (eff_timeout_lower d).
    assert ((0 <= eff_timeout d)%Z) by (unfold eff_timeout; lia).
    lia.
Qed.

End Refine.

(* two filter oracles that agree on accept / reject / fail, whatever non-nil value they return *)
Definition same_verdict (a b : verdict) : Prop :=
  match a, b with
  | Truthy _, Truthy _ => True
  | VdNil, VdNil => True
  | VdErr e, VdErr e' => e = e'
  | _, _ => False
  end.

Lemma process_sources_payload s0 n n' start now aw : forall srcs r s mb,
  process_sources s0 (Some (Some n)) start now aw srcs r s mb =
  process_sources s0 (Some (Some n')) start now aw srcs r s mb.
Proof.
  induction srcs as [|[p|c t|d|e] rest IH]; intros r s mb; cbn [process_sources]; auto.
  - destruct (aw_get p aw) as [[x|]|]; auto.
  - unfold handle_select_receive.
    destruct (ss_receiving s0) as [[idx m]|].
    + destruct (Nat.eqb idx r); auto.
      destruct (scan_mailbox r c t s0 s mb); auto.
    + destruct (scan_mailbox r c t s0 s mb); auto.
  - destruct (timeout_ready d start now); auto.
Qed.

Lemma step_same_verdict fix45 v1 v2 written now st :
  (forall r m, same_verdict (v1 r m) (v2 r m)) ->
  step fix45 v1 written now st = step fix45 v2 written now st.
Proof.
  intros Hsame. unfold step.
  destruct (negb (p_queued (check_expired now st))); auto.
  destruct (p_error (check_expired now st)); auto.
  destruct (p_value (check_expired now st)); auto.
  destruct (p_sel (check_expired now st)) as [s|]; auto.
  destruct (ss_receiving s) as [[r m]|]; auto.
  specialize (Hsame r m). destruct (v1 r m) as [n| |e], (v2 r m) as [n'| |e']; cbn in Hsame; try contradiction; auto.
  - rewrite (process_sources_payload _ n n'). reflexivity.
  - subst. reflexivity.
Qed.

Theorem verdict_is_only_a_verdict fix45 v1 v2 written :
  (forall r m, same_verdict (v1 r m) (v2 r m)) ->
  forall evs st, run fix45 v1 written evs st = run fix45 v2 written evs st.
Proof.
  intros Hsame. induction evs as [|ev evs IH]; intros st; cbn [run]; auto.
  assert (Hev : apply_event fix45 v1 written ev st = apply_event fix45 v2 written ev st).
  { destruct ev; cbn [apply_event]; auto. apply step_same_verdict; auto. }
  rewrite Hev. destruct (apply_event fix45 v2 written ev st); cbn [obind]; auto.
Qed.

(* ... and the specification itself never looks at the payload either *)
Lemma pick_msg_same_verdict v1 v2 :
  (forall r m, same_verdict (v1 r m) (v2 r m)) ->
  forall r c t mb, pick_msg v1 r c t mb = pick_msg v2 r c t mb.
Proof.
  intros Hsame r c t. induction mb as [|a mb IHm]; cbn; auto.
  unfold accepts. destruct (compat c a); [destruct t|]; cbn.
  - reflexivity.
  - specialize (Hsame r a). destruct (v1 r a), (v2 r a); cbn in Hsame; try contradiction; subst; auto.
    rewrite IHm. reflexivity.
  - rewrite IHm. reflexivity.
Qed.

Lemma select_spec_same_verdict v1 v2 :
  (forall r m, same_verdict (v1 r m) (v2 r m)) ->
  forall srcs mb aw start now, select_spec v1 srcs mb aw start now = select_spec v2 srcs mb aw start now.
Proof.
  intros Hsame srcs mb aw start now. unfold select_spec. generalize 0.
  induction srcs as [|[p|c t|d|e] rest IH]; intros r; cbn; auto.
  - destruct (aw_get p aw) as [[x|]|]; auto.
  - rewrite (pick_msg_same_verdict v1 v2 Hsame). destruct (pick_msg v2 r c t mb); auto.
  - destruct (timeout_ready d start now); auto.
Qed.

(* F45, stale awaits.  `! [p0, 0]` : the select completes with nil (timeout 0); afterwards p0 fails *)
Definition f45_written : list source := [SrcProc 0; SrcTimeout 0%Z].
Definition f45_events : list event := [EStep 0%Z; EReport [0]; EActive; EStep 0%Z; EFail 0].
Definition no_verdict : nat -> msg -> verdict := fun _ _ => VdNil.

(* "a process whose select has completed is not killed by the later failure of a process it
   awaited in that select" *)
Definition completed_select_survives (fix45 : bool) : Prop :=
  forall verdict written evs mb st p st',
    run fix45 verdict written evs (initial mb []) = Val st ->
    p_value st <> None -> p_error st = None ->
    apply_event fix45 verdict written (EFail p) st = Val st' ->
    p_error st' = None.

(* fix45 = false: Process.awaiting is never cleared and the kill is unconditional *)
Definition f45_state : proc :=
  {| p_mailbox := []; p_awaiting := [(0, None)]; p_sel := None; p_queued := true; p_selecting := false;
     p_value := Some VNil; p_error := None; p_unreported := [] |}.

Lemma f45_state_reached :
  run false no_verdict f45_written [EStep 0%Z; EReport [0]; EActive; EStep 0%Z] (initial [] []) = Val f45_state.
Proof. vm_compute. reflexivity. Qed.

Lemma stale_await_kills_refuted : ~ completed_select_survives false.
Proof.
  intros H.
  assert (K : p_error (set_error f45_state (PAwaited 0)) = None).
  { eapply (H no_verdict f45_written _ [] f45_state 0); [exact f45_state_reached|discriminate|reflexivity|reflexivity]. }
  discriminate K.
Qed.

(* the same history with fix45 = true *)
Definition f45_state_fixed : proc :=
  {| p_mailbox := []; p_awaiting := []; p_sel := None; p_queued := true; p_selecting := false;
     p_value := Some VNil; p_error := None; p_unreported := [] |}.

Example stale_await_witness_repaired :
  run true no_verdict f45_written f45_events (initial [] []) = Val f45_state_fixed.
Proof. vm_compute. reflexivity. Qed.

Lemma aw_has_insert p q v aw : aw_has p (aw_insert q v aw) = (Nat.eqb p q || aw_has p aw)%bool.
Proof.
  unfold aw_has. change (aw_get p (aw_insert q v aw)) with (aget p (aset q v aw)).
  rewrite aget_aset. destruct (Nat.eqb p q); reflexivity.
Qed.

Lemma aw_has_remove p q aw : aw_has p (aw_remove q aw) = (negb (Nat.eqb p q) && aw_has p aw)%bool.
Proof.
  unfold aw_has. induction aw as [|[k w] aw IH]; cbn.
  - rewrite andb_false_r. reflexivity.
  - destruct (Nat.eqb q k) eqn:Eqk; cbn.
    + apply Nat.eqb_eq in Eqk. subst k. rewrite IH.
      destruct (Nat.eqb p q) eqn:Epq; cbn; auto.
    + destruct (Nat.eqb p k) eqn:Epk; cbn; auto.
      apply Nat.eqb_eq in Epk. subst k.
      assert (Nat.eqb p q = false) as -> by (rewrite Nat.eqb_sym; exact Eqk). reflexivity.
Qed.

Lemma aw_has_fold_insert p : forall ps aw,
  aw_has p (fold_left (fun aw q => aw_insert q None aw) ps aw) = true -> In p ps \/ aw_has p aw = true.
Proof.
  induction ps as [|q ps IH]; intros aw H; cbn in H; auto.
  apply IH in H. destruct H as [H|H]; [left; right; auto|].
  rewrite aw_has_insert in H. apply orb_true_iff in H. destruct H as [H|H]; auto.
  apply Nat.eqb_eq in H. left; left; auto.
Qed.

Lemma aw_has_fold_remove p : forall ps aw,
  aw_has p (fold_left (fun aw q => aw_remove q aw) ps aw) = true -> ~ In p ps /\ aw_has p aw = true.
Proof.
  induction ps as [|q ps IH]; intros aw H; cbn in H; auto.
  apply IH in H. destruct H as (Hn & H). rewrite aw_has_remove in H.
  apply andb_true_iff in H. destruct H as (Hne & H). split; auto.
  intros [->|Hin]; auto. rewrite Nat.eqb_refl in Hne. discriminate.
Qed.

Lemma in_pids_of p : forall srcs, In p (pids_of srcs) <-> In (SrcProc p) srcs.
Proof.
  induction srcs as [|[q|c t|d|e] rest IH]; cbn; [tauto| |..]; rewrite IH; [|intuition discriminate..].
  split; (intros [H|H]; [left; congruence|right; exact H]).
Qed.

(* while the select is running only its own targets are awaited; once it is over, nothing is *)
Definition keys_ok (written : list source) (st : proc) : Prop :=
  (forall s, p_sel st = Some s -> ss_sources s = written) /\
  forall p, aw_has p (p_awaiting st) = true ->
            p_value st = None /\ In p (pids_of written) /\ p_sel st <> None.

Lemma apply_event_keys verdict written ev : forall st st',
  keys_ok written st -> apply_event true verdict written ev st = Val st' -> keys_ok written st'.
Proof.
  apply (apply_event_preserves true verdict written (keys_ok written) (fun _ => True)); [..|destruct ev; exact I];
    try (intros st0; intros; assumption).
  - intros st0 p v (Hs & Hk) Hp. apply negb_false_iff in Hp. split; [exact Hs|]. cbn. intros q Hq.
    rewrite aw_has_insert in Hq. apply orb_true_iff in Hq. destruct Hq as [Hq|Hq]; auto.
    apply Nat.eqb_eq in Hq. subst q. auto.
  - intros now st0 _ (_ & Hk) _ Hv Hs. unfold keys_ok, initialize_select.
    destruct (pids_of written) as [|q qs]; (split; [intros s2 [= <-]; reflexivity|]); cbn; intros p Hp.
    + destruct (Hk p Hp) as (_ & [] & _).
    + repeat split; auto; [|discriminate]. apply (aw_has_fold_insert p (q :: qs)) in Hp.
      destruct Hp as [Hp|Hp]; [exact Hp|apply (Hk p Hp)].
  - intros now st0 s _ (Hsrc & Hk) _ Hv Hs _ _.
    (* a select state handed back has the same sources and the awaiting map is untouched *)
    assert (Hkeep : forall s', ss_sources s' = ss_sources s -> forall st1, p_sel st1 = Some s' ->
              p_awaiting st1 = p_awaiting st0 -> p_value st1 = p_value st0 -> keys_ok written st1).
    { intros s' Hsame st1 Hs1 Ha1 Hv1. unfold keys_ok. rewrite Hs1, Ha1, Hv1. split.
      - intros s2 [= <-]. rewrite Hsame. exact (Hsrc s Hs).
      - intros p Hp. destruct (Hk p Hp) as (A & B & _). repeat split; auto. discriminate. }
    pose proof (pass_frame verdict now s (p_awaiting st0) (p_mailbox st0)) as F.
    destruct (pass verdict now s (p_awaiting st0) (p_mailbox st0)) as [v mb'|s'|s'|e s'|n];
      [|apply (Hkeep s' (proj1 F)); reflexivity..|exact I].
    (* completion: the process sources of the select leave the map, and nothing else was in it *)
    split; [intros s2 [=]|]. cbn. intros p Hp. apply aw_has_fold_remove in Hp. destruct Hp as (Hn & Hp).
    destruct Hn. rewrite (Hsrc s Hs). apply (Hk p Hp).
Qed.

Lemma reach_keys_ok verdict written evs mb st :
  run true verdict written evs (initial mb []) = Val st -> keys_ok written st.
Proof.
  apply (run_preserves true verdict written (keys_ok written) (fun _ => True));
    [intros ev _; apply apply_event_keys|apply Forall_forall; auto|split; [intros s [=]|intros p [=]]].
Qed.

(* with fix45 = true (the code of /repo), a process whose select has completed survives the later failure of any
   process: nothing is awaited any more *)
Theorem completed_select_survives_repaired : completed_select_survives true.
Proof.
  intros verdict written evs mb st p st' Hrun Hv He Hev.
  destruct (reach_keys_ok _ _ _ _ _ Hrun) as (_ & HK).
  cbn [apply_event andb] in Hev.
  destruct (aw_has p (p_awaiting st)) eqn:E.
  - destruct (HK p E) as (Hn & _). contradiction.
  - cbn [negb] in Hev. inversion Hev; subst. unfold wake. destruct (p_selecting st); exact He.
Qed.

(* await_honest (b), for fix45 = true.  Invariant over all histories of a process that started
   with no awaited key: every key of `awaiting` is a process source of the CURRENT select — the
   select exists, it has not completed, its source list is the written one *)
Theorem awaiting_keys_subset_of_current_sources verdict written evs mb st :
  run true verdict written evs (initial mb []) = Val st ->
  forall p, aw_has p (p_awaiting st) = true ->
    p_value st = None /\ In (SrcProc p) written /\
    exists s, p_sel st = Some s /\ ss_sources s = written.
Proof.
  intros Hrun p Hp. destruct (reach_keys_ok _ _ _ _ _ Hrun) as (Hs & HK). destruct (HK p Hp) as (A & B & C).
  split; [exact A|]. split; [apply in_pids_of; exact B|].
  destruct (p_sel st) as [s|]; [|contradiction]. exists s. auto.
Qed.

(* from ANY initial awaiting map (complete_select in executor.rs) *)
Theorem complete_select_clears_process_sources verdict written evs mb aw0 st now st' v :
  run true verdict written evs (initial mb aw0) = Val st ->
  step true verdict written now st = Val st' -> p_value st = None -> p_value st' = Some v ->
  forall p, In (SrcProc p) written -> aw_has p (p_awaiting st') = false.
Proof.
  intros Hrun Hstep Hv0 Hv1 p Hin.
  rewrite (completing_step_awaiting true verdict written now st st' v (reach_Inv _ _ _ _ _ _ _ Hrun) Hstep Hv0 Hv1).
  apply not_true_is_false. intros E. apply aw_has_fold_remove in E. destruct E as (Hn & _).
  apply Hn, in_pids_of, Hin.
Qed.

(* ... so that a process that started with no awaited key awaits nothing once its select is over:
   the next select starts from an empty awaiting map again (a process blocks in one select at a
   time) *)
Theorem completed_select_awaits_nothing verdict written evs mb st :
  run true verdict written evs (initial mb []) = Val st ->
  p_value st <> None -> forall p, aw_has p (p_awaiting st) = false.
Proof.
  intros Hrun Hv p. destruct (aw_has p (p_awaiting st)) eqn:E; auto.
  destruct (awaiting_keys_subset_of_current_sources _ _ _ _ _ Hrun p E) as (A & _). contradiction.
Qed.

(* await_honest (b): when a slice ends with Action::Await on targets ts, every key that remains in
   `awaiting` is one of ts *)
Theorem await_slice_leaves_only_its_targets verdict written evs mb st now st' ts :
  run true verdict written evs (initial mb []) = Val st ->
  step_action written now st = Some ts -> step true verdict written now st = Val st' ->
  forall p, aw_has p (p_awaiting st') = true -> In p ts.
Proof.
  intros Hrun Ha Hstep p Hp.
  destruct (await_slice_has_not_started true verdict written now st st' ts Ha Hstep) as (-> & _).
  apply (apply_event_keys verdict written (EStep now) st st' (reach_keys_ok _ _ _ _ _ Hrun) Hstep). exact Hp.
Qed.

(* Non-vacuity.  `! [p0, &f, 50]` with a filter that rejects message 4, accepts message 2 (payload 77) and would
   fail on message 3; mailbox [4;2] before the select; message 3 arrives after the first entry.
   Entries: init (parks: awaits p0) - message wakes it - calls f on 4 - rejected, calls f on 2 -
   accepted: completes with message 2, the mailbox keeps [4;3]. *)
Definition ex_written : list source := [SrcProc 0; SrcRecv [0; 1; 2] false; SrcTimeout 50%Z].
Definition ex_verdict : nat -> msg -> verdict :=
  fun r m => match fst m with 2 => Truthy 77 | 3 => VdErr InvalidArgument | _ => VdNil end.
Definition ex_events : list event := [EStep 0%Z; EMsg (3, 2); EReport [0]; EStep 1%Z; EStep 2%Z].

Definition ex_mb0 : list msg := [(4, 0); (2, 1)].
Definition ex_st : proc :=
  Eval vm_compute in
    match run false ex_verdict ex_written ex_events (initial ex_mb0 []) with Val st => st | _ => initial [] [] end.
Definition ex_st' : proc :=
  Eval vm_compute in
    match step false ex_verdict ex_written 2%Z ex_st with Val st => st | _ => initial [] [] end.

Example ex_select_completes :
    run false ex_verdict ex_written ex_events (initial ex_mb0 []) = Val ex_st /\
    p_value ex_st = None /\
    (exists s, p_sel ex_st = Some s /\ ss_cursors s = [1] /\ ss_receiving s = Some (0, (2, 1)) /\ ss_start s = Some 1%Z) /\
    step false ex_verdict ex_written 2%Z ex_st = Val ex_st' /\
    p_value ex_st' = Some (VMsg (2, 1)) /\ p_mailbox ex_st' = [(4, 0); (3, 2)] /\
    select_spec ex_verdict ex_written (p_mailbox ex_st) (p_awaiting ex_st) 1%Z 2%Z = Complete (VMsg (2, 1)) [(4, 0); (3, 2)].
Proof.
  split; [vm_compute; reflexivity|]. split; [reflexivity|].
  split; [eexists; split; [reflexivity|]; repeat split|].
  split; [vm_compute; reflexivity|]. repeat split; vm_compute; reflexivity.
Qed.

(* a parked select with two sources whose timeout then fires, not early *)
Definition ex2_written : list source := [SrcRecv [0] true; SrcTimeout 5%Z].
Definition ex2_st : proc :=
  Eval vm_compute in
    match run false no_verdict ex2_written [EStep 10%Z; EStep 10%Z; EStep 14%Z] (initial [(7, 1)] []) with
    | Val st => st | _ => initial [] [] end.
Definition ex2_st' : proc :=
  Eval vm_compute in match step false no_verdict ex2_written 15%Z ex2_st with Val st => st | _ => initial [] [] end.

Example ex_timeout_fires :
    run false no_verdict ex2_written [EStep 10%Z; EStep 10%Z; EStep 14%Z] (initial [(7, 1)] []) = Val ex2_st /\
    p_selecting ex2_st = true /\ p_value ex2_st = None /\
    step false no_verdict ex2_written 15%Z ex2_st = Val ex2_st' /\
    p_value ex2_st' = Some VNil /\ p_mailbox ex2_st' = [(7, 1)].
Proof.
  split; [vm_compute; reflexivity|]. split; [reflexivity|]. split; [reflexivity|].
  split; [vm_compute; reflexivity|]. split; reflexivity.
Qed.

(* ex2 (`! [#'int, 5]`, mailbox [a 'bin message]): the second entry at clock 10 parks *)
Definition ex2_pre : proc :=
  Eval vm_compute in
    match run true no_verdict ex2_written [EStep 10%Z] (initial [(7, 1)] []) with Val st => st | _ => initial [] [] end.
Definition ex2_parked : proc :=
  Eval vm_compute in match step true no_verdict ex2_written 10%Z ex2_pre with Val st => st | _ => initial [] [] end.

Example ex_parks_after_full_scan :
  run true no_verdict ex2_written [EStep 10%Z] (initial [(7, 1)] []) = Val ex2_pre /\
  (exists s, active 10%Z ex2_pre s) /\
  step true no_verdict ex2_written 10%Z ex2_pre = Val ex2_parked /\
  p_queued ex2_parked = false /\ p_selecting ex2_parked = true /\ p_error ex2_parked = None /\
  (exists s', p_sel ex2_parked = Some s' /\ ss_cursors s' = [1] /\ ss_start s' = Some 10%Z /\
              length (p_mailbox ex2_parked) = 1 /\ expired s' 10%Z = false /\ expired s' 15%Z = true).
Proof.
  split; [vm_compute; reflexivity|]. split; [eexists; repeat split|].
  split; [vm_compute; reflexivity|]. repeat split. eexists. repeat split.
Qed.

(* `! [p0, 0]`: the first entry returns Action::Await [0], parks with the start time unset and
   awaits exactly p0; the select completes by its timeout and forgets p0 *)
Definition f45_init : proc :=
  Eval vm_compute in match step true no_verdict f45_written 0%Z (initial [] []) with Val st => st | _ => initial [] [] end.

Example ex_await_slice :
  step_action f45_written 0%Z (initial [] []) = Some [0] /\
  step true no_verdict f45_written 0%Z (initial [] []) = Val f45_init /\
  p_awaiting f45_init = [(0, None)] /\ p_selecting f45_init = true /\
  (exists s, p_sel f45_init = Some s /\ ss_start s = None) /\
  run true no_verdict f45_written [EReport [0]; EActive; EStep 0%Z] f45_init = Val f45_state_fixed /\
  p_value f45_state_fixed = Some VNil /\ p_awaiting f45_state_fixed = [].
Proof.
  split; [reflexivity|]. split; [vm_compute; reflexivity|]. repeat split.
  all: try (eexists; split; reflexivity).
  all: try (vm_compute; reflexivity).
Qed.

(* a process completed in place by a failure: the next step executes no entry *)
Example ex_dead_process :
  exists st st',
    run true no_verdict f45_written [EStep 0%Z; EFail 0; EActive] (initial [] []) = Val st /\
    p_error st = Some (PAwaited 0) /\ p_queued st = true /\
    step true no_verdict f45_written 1%Z st = Val st' /\ step_action f45_written 1%Z st = None /\
    p_queued st' = false /\ p_sel st' = p_sel st.
Proof.
  eexists. eexists. split; [vm_compute; reflexivity|]. split; [reflexivity|]. split; [reflexivity|].
  split; [vm_compute; reflexivity|]. repeat split.
Qed.

(* The premise holds of the slice that PARKS.  A slice that ends runnable may well end with a
   timeout that is already due (it fires at the next entry): `! [0]`, quantum 1 — the initialising
   entry sets the start time to the current clock and the slice ends before the first pass.  An
   unconditional reading of time_honest ("no slice ends with a due timeout") is false of the machine
   and of the real executor alike. *)
Example ex_runnable_slice_may_end_with_due_timeout :
  exists st', step true no_verdict [SrcTimeout 0%Z] 7%Z (initial [] []) = Val st' /\
              p_queued st' = true /\ p_selecting st' = false /\
              exists s', p_sel st' = Some s' /\ ss_start s' = Some 7%Z /\ expired s' 7%Z = true.
Proof. eexists. split; [vm_compute; reflexivity|]. repeat split. eexists. repeat split. Qed.

(* F72, in the model: `! [p1, p3]`; p3 completes on the awaiter's worker while the await is in
   flight (ELocal: direct notification, wakes the awaiter); p1 had completed long ago but its result
   only comes with the snapshot.  The woken select parks again (p1 unreported); after the snapshot
   (report of both, result of p1) it completes with p1's 11, not p3's 33. *)
Definition f72_written : list source := [SrcProc 1; SrcProc 3].
Definition f72_woken : proc :=
  Eval vm_compute in
    match run true no_verdict f72_written [EStep 0%Z; ELocal 3 (Some (VVal 33))] (initial [] []) with
    | Val st => st | _ => initial [] [] end.
Definition f72_final : proc :=
  Eval vm_compute in
    match run true no_verdict f72_written [EStep 1%Z; EReport [1; 3]; EResult 1 (VVal 11); EStep 2%Z] f72_woken with
    | Val st => st | _ => initial [] [] end.

Example ex_f72_reparks_then_first_source_wins :
  run true no_verdict f72_written [EStep 0%Z; ELocal 3 (Some (VVal 33))] (initial [] []) = Val f72_woken /\
  p_queued f72_woken = true /\ p_unreported f72_woken = [1] /\
  aw_get 3 (p_awaiting f72_woken) = Some (Some (VVal 33)) /\ aw_get 1 (p_awaiting f72_woken) = Some None /\
  (exists s, active 1%Z f72_woken s) /\
  step true no_verdict f72_written 1%Z f72_woken = Val (set_flags f72_woken false true) /\
  run true no_verdict f72_written [EStep 1%Z; EReport [1; 3]; EResult 1 (VVal 11); EStep 2%Z] f72_woken = Val f72_final /\
  p_value f72_final = Some (VVal 11) /\ p_awaiting f72_final = [] /\ p_unreported f72_final = [].
Proof.
  split; [vm_compute; reflexivity|]. repeat split.
  all: try (eexists; repeat split; reflexivity).
  all: vm_compute; reflexivity.
Qed.
