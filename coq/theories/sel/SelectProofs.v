(* SelectProofs.v — the property of the environment's await protocol (F8), its refutation for
   merge = false and the witness history. *)
From Quiver Require Import Base.
From Quiver Require Import sel.Select sel.SelectSpec.

(* Witness: `! [p1, p3, p2]`, p1/p3 on worker 1, p2 on worker 0.
   Worker 1 answers the query {p1: Some 11, p3: None}; p3 then finishes and worker 1 sends
   {p3: Some 33} while worker 0 has not answered yet; worker 0 answers {p2: None}. *)
Definition f8_events : list (wid * answer) :=
  [ (1%nat, [(1%nat, Some 11%nat); (3%nat, None)]);
    (1%nat, [(3%nat, Some 33%nat)]);
    (0%nat, [(2%nat, None)]) ].
Definition f8_pending : option pending := Some {| pa_expected := [0%nat; 1%nat]; pa_responses := [] |}.

(* "for every target, what finally reaches the awaiter is the latest answer any worker gave" *)
Definition delivers_all (merge : bool) (expected : list wid) (evs : list (wid * answer)) (targets : list pid) : Prop :=
  let outs := snd (env_run merge evs (Some {| pa_expected := expected; pa_responses := [] |})) in
  forall p, In p targets ->
    match latest p evs None with
    | Some v => ans_get p (delivered outs) = Some v
    | None => True
    end.

Lemma await_protocol_refuted :
  exists expected evs targets, ~ delivers_all false expected evs targets.
Proof.
  exists [0%nat; 1%nat], f8_events, [1%nat; 3%nat; 2%nat].
  intro H. specialize (H 1%nat (or_introl eq_refl)). vm_compute in H. discriminate H.
Qed.

(* the same history with merge = true *)
Example await_protocol_witness_repaired :
  delivers_all true [0%nat; 1%nat] f8_events [1%nat; 3%nat; 2%nat].
Proof.
  intros p [<-|[<-|[<-|[]]]]; vm_compute; reflexivity.
Qed.
