(* Assoc.v — association lists keyed by nat, insertion replaces.  Select.aw_get / aw_insert (values
   option value), SelectSpec.ans_get / ans_insert (values option nat) and SelectSpec.resp_get /
   resp_set (values answer) are these two functions at three value types: the fixpoints are
   convertible, so every lemma below applies to all of them. *)
From Quiver Require Import Base.

Section Assoc.
Context {V : Type}.

Fixpoint aget (k : nat) (l : list (nat * V)) : option V :=
  match l with
  | [] => None
  | (q, v) :: r => if Nat.eqb k q then Some v else aget k r
  end.
Fixpoint aset (k : nat) (v : V) (l : list (nat * V)) : list (nat * V) :=
  match l with
  | [] => [(k, v)]
  | (q, w) :: r => if Nat.eqb k q then (q, v) :: r else (q, w) :: aset k v r
  end.

Lemma aget_In : forall k l v, aget k l = Some v -> In (k, v) l.
Proof.
  induction l as [|[q u] r IH]; simpl; intros v H; [discriminate|].
  destruct (Nat.eqb_spec k q) as [->|_]; [injection H as ->; left; reflexivity|right; auto].
Qed.

Lemma aget_None_notin : forall k l, aget k l = None -> forall v, ~ In (k, v) l.
Proof.
  induction l as [|[q u] r IH]; simpl; intros H v Hin; [assumption|].
  destruct (Nat.eqb_spec k q) as [|Hne]; [discriminate|].
  destruct Hin as [[= Hq _]|Hin]; [congruence|exact (IH H v Hin)].
Qed.

Lemma aget_NoDup_In : forall k v l, NoDup (map fst l) -> In (k, v) l -> aget k l = Some v.
Proof.
  induction l as [|[q u] r IH]; simpl; intros Hnd Hin; [contradiction|].
  inversion Hnd as [|x l Hnotin Hnd']; subst.
  destruct Hin as [[= -> ->]|Hin]; [rewrite Nat.eqb_refl; reflexivity|].
  destruct (Nat.eqb_spec k q) as [->|_]; [|auto].
  destruct Hnotin. apply in_map_iff. exists (q, v). auto.
Qed.

Lemma aget_aset : forall k q v l, aget k (aset q v l) = if Nat.eqb k q then Some v else aget k l.
Proof.
  induction l as [|[j u] r IH]; simpl; [reflexivity|].
  destruct (Nat.eqb_spec q j) as [->|Hqj]; simpl; [destruct (Nat.eqb k j); reflexivity|].
  rewrite IH. destruct (Nat.eqb_spec k j) as [->|_]; [|reflexivity].
  destruct (Nat.eqb_spec j q); [congruence|reflexivity].
Qed.

Lemma In_aset : forall k v q u l, In (k, v) (aset q u l) -> (k, v) = (q, u) \/ In (k, v) l.
Proof.
  induction l as [|[j x] r IH]; simpl; intros H.
  - destruct H as [H|[]]; left; symmetry; exact H.
  - destruct (Nat.eqb_spec q j) as [->|_]; destruct H as [H|H]; auto. destruct (IH H); auto.
Qed.

Lemma NoDup_aset : forall q u l, NoDup (map fst l) -> NoDup (map fst (aset q u l)).
Proof.
  induction l as [|[j x] r IH]; simpl; intros H.
  - constructor; [intros []|constructor].
  - inversion H as [|? ? Hn Hd]; subst. destruct (Nat.eqb_spec q j) as [->|Hne]; simpl; constructor; auto.
    intros Hin. apply in_map_iff in Hin. destruct Hin as ([k v] & Hk & Hin). simpl in Hk. subst k.
    apply In_aset in Hin. destruct Hin as [[= Hj _]|Hin]; [congruence|].
    apply Hn. apply in_map_iff. exists (j, v). auto.
Qed.

End Assoc.
