(* BuiltinProofs.v — the integer builtins on their well-shaped argument (`BTup [BInt a; BInt b]`,
   resp. `BInt n`): the value or error the implementation model returns, stated against plain
   arithmetic on Z (there is no spec_ function for them); and `integer_builtins_never_panic` for
   every argument. The bitwise not / shift / popcount are in IntBitProofs.v. *)
From Quiver Require Import BuiltinSpec.

Lemma wrap_u64_land_ones z : wrap_u64 z = Z.land z (Z.ones 64).
Proof. unfold wrap_u64, two64. rewrite Z.land_ones by lia. reflexivity. Qed.

Lemma bitop_mod_pow2 (op : Z -> Z -> Z) (f : bool -> bool -> bool) n a b :
  f false false = false ->
  (forall x y i, Z.testbit (op x y) i = f (Z.testbit x i) (Z.testbit y i)) ->
  0 <= n -> op a b mod 2 ^ n = op (a mod 2 ^ n) (b mod 2 ^ n).
Proof.
  intros Hf Hop Hn. apply Z.bits_inj. intros i.
  rewrite Hop, !Z.testbit_mod_pow2, Hop by exact Hn.
  destruct (i <? n); [reflexivity | symmetry; exact Hf].
Qed.

Lemma bitop_below_pow2 (op : Z -> Z -> Z) (f : bool -> bool -> bool) n a b :
  f false false = false ->
  (forall x y i, Z.testbit (op x y) i = f (Z.testbit x i) (Z.testbit y i)) ->
  0 <= n -> 0 <= a < 2 ^ n -> 0 <= b < 2 ^ n -> 0 <= op a b < 2 ^ n.
Proof.
  intros Hf Hop Hn Ha Hb.
  rewrite <- (Z.mod_small a (2 ^ n)), <- (Z.mod_small b (2 ^ n)) by assumption.
  rewrite <- (bitop_mod_pow2 op f) by assumption. apply Z.mod_pos_bound. lia.
Qed.

Lemma signed_range_bits n z : 0 <= n ->
  - 2 ^ n <= z < 2 ^ n <-> (forall i, n <= i -> Z.testbit z i = Z.testbit z n).
Proof.
  intros Hn.
  (* both sides say that z / 2^n is 0 or -1 *)
  assert (Hq : - 2 ^ n <= z < 2 ^ n <-> z / 2 ^ n = 0 \/ z / 2 ^ n = -1).
  { pose proof (Z.pow_pos_nonneg 2 n ltac:(lia) Hn) as Hp.
    pose proof (Z.div_mod z (2 ^ n) ltac:(lia)). pose proof (Z.mod_pos_bound z (2 ^ n) Hp). nia. }
  assert (Hb : forall i, n <= i -> Z.testbit z i = Z.testbit (z / 2 ^ n) (i - n)).
  { intros i Hi. rewrite Z.div_pow2_bits by lia. f_equal. lia. }
  rewrite Hq. split.
  - intros H i Hi. rewrite !Hb by lia. destruct H as [-> | ->].
    + rewrite !Z.bits_0. reflexivity.
    + rewrite !Z.bits_m1 by lia. reflexivity.
  - intros H. destruct (Z.testbit z n); [right | left]; apply Z.bits_inj'; intros i Hi;
      rewrite Z.div_pow2_bits, H by lia; symmetry; [apply Z.bits_m1; lia | apply Z.bits_0].
Qed.

(* to_i64 only looks at the residue mod 2^64 *)
Lemma to_i64_mod_eq x y : x mod two64 = y mod two64 -> to_i64 x = to_i64 y.
Proof. intros H. unfold to_i64. rewrite H. reflexivity. Qed.

Lemma to_i64_wrap z : to_i64 (wrap_u64 z) = to_i64 z.
Proof. apply to_i64_mod_eq, Z.mod_mod. unfold two64. lia. Qed.

Lemma i64_bitop_correct (op : Z -> Z -> Z) (f : bool -> bool -> bool) a b :
  f false false = false ->
  (forall x y i, Z.testbit (op x y) i = f (Z.testbit x i) (Z.testbit y i)) ->
  (p <- two_i64 (BTup [BInt a; BInt b]) ;; Val (BInt (op (fst p) (snd p)))) =
  if in_i64 a && in_i64 b then Val (BInt (spec_bitop op a b)) else Err InvalidArgument.
Proof.
  intros Hf Hop. unfold two_i64, to_i64_checked, spec_bitop.
  destruct (in_i64 a) eqn:Ea; cbn [obind andb]; [|reflexivity].
  destruct (in_i64 b) eqn:Eb; cbn [obind fst snd]; [|reflexivity].
  do 2 f_equal. unfold wrap_u64, two64.
  rewrite <- (bitop_mod_pow2 op f) by (assumption || lia). fold two64 (wrap_u64 (op a b)).
  rewrite to_i64_wrap. symmetry. apply to_i64_id.
  (* op acts on the sign-extension bits position by position: the result is an i64 again *)
  unfold in_i64, two63 in *.
  apply (signed_range_bits 63); [lia|]. intros i Hi. rewrite !Hop.
  f_equal; apply (signed_range_bits 63); lia.
Qed.

Theorem integer_and_correct a b :
  impl_integer_and (BTup [BInt a; BInt b]) =
  if in_i64 a && in_i64 b then Val (BInt (spec_bitop Z.land a b)) else Err InvalidArgument.
Proof. exact (i64_bitop_correct Z.land andb a b eq_refl Z.land_spec). Qed.

Theorem integer_or_correct a b :
  impl_integer_or (BTup [BInt a; BInt b]) =
  if in_i64 a && in_i64 b then Val (BInt (spec_bitop Z.lor a b)) else Err InvalidArgument.
Proof. exact (i64_bitop_correct Z.lor orb a b eq_refl Z.lor_spec). Qed.

Theorem integer_xor_correct a b :
  impl_integer_xor (BTup [BInt a; BInt b]) =
  if in_i64 a && in_i64 b then Val (BInt (spec_bitop Z.lxor a b)) else Err InvalidArgument.
Proof. exact (i64_bitop_correct Z.lxor xorb a b eq_refl Z.lxor_spec). Qed.

(* arithmetic builtins: exact on unbounded integers, truncating division *)
Theorem integer_add_correct a b : impl_integer_add (BTup [BInt a; BInt b]) = Val (BInt (a + b)).
Proof. reflexivity. Qed.
Theorem integer_subtract_correct a b : impl_integer_subtract (BTup [BInt a; BInt b]) = Val (BInt (a - b)).
Proof. reflexivity. Qed.
Theorem integer_multiply_correct a b : impl_integer_multiply (BTup [BInt a; BInt b]) = Val (BInt (a * b)).
Proof. reflexivity. Qed.

Theorem integer_divide_correct a b :
  (b = 0 -> impl_integer_divide (BTup [BInt a; BInt b]) = Err InvalidArgument) /\
  (b <> 0 -> exists q r, impl_integer_divide (BTup [BInt a; BInt b]) = Val (BInt q) /\
                         impl_integer_modulo (BTup [BInt a; BInt b]) = Val (BInt r) /\
                         a = b * q + r /\ Z.abs r < Z.abs b /\ 0 <= r * a).
Proof.
  unfold impl_integer_divide, impl_integer_modulo. cbn [two_bigints obind fst snd]. split.
  - intros ->. reflexivity.
  - intros Hb. destruct (b =? 0) eqn:E; [apply Z.eqb_eq in E; contradiction|].
    exists (Z.quot a b), (Z.rem a b). repeat split.
    + apply Z.quot_rem'.
    + apply Z.rem_bound_abs; assumption.
    + apply Z.rem_sign_mul; assumption.
Qed.

Theorem integer_sqrt_correct n :
  (n < 0 -> impl_integer_sqrt (BInt n) = Err InvalidArgument) /\
  (0 <= n -> exists r, impl_integer_sqrt (BInt n) = Val (BInt r) /\ 0 <= r /\ r * r <= n < (r + 1) * (r + 1)).
Proof.
  unfold impl_integer_sqrt. split; intros H.
  - destruct (n <? 0) eqn:E; [reflexivity | apply Z.ltb_ge in E; lia].
  - destruct (n <? 0) eqn:E; [apply Z.ltb_lt in E; lia|].
    exists (Z.sqrt n). split; [reflexivity|]. split; [apply Z.sqrt_nonneg|].
    pose proof (Z.sqrt_spec n H). unfold Z.succ in *. lia.
Qed.

Theorem integer_gcd_correct a b :
  exists g, impl_integer_gcd (BTup [BInt a; BInt b]) = Val (BInt g) /\ 0 <= g /\ (g | a) /\ (g | b) /\
            forall d, (d | a) -> (d | b) -> (d | g).
Proof.
  exists (Z.gcd a b). split; [reflexivity|]. split; [apply Z.gcd_nonneg|].
  split; [apply Z.gcd_divide_l|]. split; [apply Z.gcd_divide_r|]. intros; now apply Z.gcd_greatest.
Qed.

Theorem integer_compare_correct a b :
  impl_integer_compare (BTup [BInt a; BInt b]) = Val (BInt (if a <? b then -1 else if b <? a then 1 else 0)).
Proof.
  unfold impl_integer_compare. cbn [two_bigints obind fst snd]. rewrite !Z.ltb_compare, (Z.compare_antisym a b).
  destruct (a ?= b); reflexivity.
Qed.

Theorem integer_abs_correct n : impl_integer_abs (BInt n) = Val (BInt (if n <? 0 then - n else n)).
Proof.
  unfold impl_integer_abs. destruct (n <? 0) eqn:E; [apply Z.ltb_lt in E | apply Z.ltb_ge in E]; f_equal; f_equal; lia.
Qed.

Definition not_panic {A} (o : outcome A) : Prop := match o with Panic _ => False | _ => True end.

Lemma not_panic_bind {A B} (o : outcome A) (f : A -> outcome B) :
  not_panic o -> (forall x, not_panic (f x)) -> not_panic (obind o f).
Proof. destruct o; [intros _ H; apply H | trivial ..]. Qed.

Lemma not_panic_if {A} (c : bool) (x y : outcome A) :
  not_panic x -> not_panic y -> not_panic (if c then x else y).
Proof. destruct c; trivial. Qed.

Lemma to_i64_checked_np z : not_panic (to_i64_checked z).
Proof. apply not_panic_if; exact I. Qed.

Lemma two_bigints_np a : not_panic (two_bigints a).
Proof. destruct a as [| |[|[] [|[] []]]|]; exact I. Qed.

Lemma two_i64_np a : not_panic (two_i64 a).
Proof.
  destruct a as [| |[|[x| | |] [|y []]]|]; try exact I.
  apply not_panic_bind; [apply to_i64_checked_np|]. intros x'. destruct y; try exact I.
  apply not_panic_bind; [apply to_i64_checked_np|]. intros y'. exact I.
Qed.

(* no integer builtin panics, on any argument whatsoever *)
Theorem integer_builtins_never_panic (a : bval) :
  not_panic (impl_integer_abs a) /\ not_panic (impl_integer_sqrt a) /\ not_panic (impl_integer_add a) /\
  not_panic (impl_integer_subtract a) /\ not_panic (impl_integer_multiply a) /\ not_panic (impl_integer_gcd a) /\
  not_panic (impl_integer_divide a) /\ not_panic (impl_integer_modulo a) /\ not_panic (impl_integer_compare a) /\
  not_panic (impl_integer_and a) /\ not_panic (impl_integer_or a) /\ not_panic (impl_integer_xor a) /\
  not_panic (impl_integer_not a) /\ not_panic (impl_integer_shift a) /\ not_panic (impl_integer_popcount a).
Proof.
  repeat split.
  - destruct a; exact I.
  - destruct a; try exact I. apply not_panic_if; exact I.
  - apply not_panic_bind; [apply two_bigints_np | intros; exact I].
  - apply not_panic_bind; [apply two_bigints_np | intros; exact I].
  - apply not_panic_bind; [apply two_bigints_np | intros; exact I].
  - apply not_panic_bind; [apply two_bigints_np | intros; exact I].
  - apply not_panic_bind; [apply two_bigints_np | intros; apply not_panic_if; exact I].
  - apply not_panic_bind; [apply two_bigints_np | intros; apply not_panic_if; exact I].
  - apply not_panic_bind; [apply two_bigints_np | intros; exact I].
  - apply not_panic_bind; [apply two_i64_np | intros; exact I].
  - apply not_panic_bind; [apply two_i64_np | intros; exact I].
  - apply not_panic_bind; [apply two_i64_np | intros; exact I].
  - destruct a; try exact I. apply not_panic_bind; [apply to_i64_checked_np | intros; exact I].
  - apply not_panic_bind; [apply two_i64_np | intros; cbv zeta; repeat apply not_panic_if; exact I].
  - destruct a; try exact I. apply not_panic_bind; [apply to_i64_checked_np | intros; exact I].
Qed.
