(* SimplifyCompose.v — formatter-normalisation followed by compiler-normalisation equals compiler-normalisation
   (model of simplify.rs `normalize_blocks`, Simplify.v):
     normalize_blocks (normalize_blocks p (formatter_options k)) compiler_options = normalize_blocks p compiler_options
   for EVERY keep predicate k.
   Route: (1) invariants of strip_* for any options (match-freeness, emptiness, tail-call positions), (2) for the compiler's
   options the recursive tail-call test is invariant under strip_term, (3) chain level: a block the formatter splices is
   contributed by the compiler as exactly the compiler-normal form of its body terms (whether or not the compiler's lifting
   intervenes inside that block), (4) a grouped consequence is un-grouped again by the compiler's lifting,
   (5) mutual induction over the AST. *)
From Quiver Require Import Base Ast Simplify SimplifyProofs.

Local Notation co := compiler_options.
Local Notation fo := formatter_options.

(* the shape `{ ch }` of a block with one branch, no consequence, one chain *)
Definition blk1 (ch : chain) : term := Block (Expression [Branch (Sequence [ch]) None]).
Definition blkn (cs : list chain) : term := Block (Expression [Branch (Sequence cs) None]).

Lemma existsb_map_Forall {A} (g : A -> bool) (f : A -> A) (l : list A) :
  Forall (fun x => g (f x) = g x) l -> existsb g (map f l) = existsb g l.
Proof. induction 1 as [|x r Hx Hr IH]; cbn; [reflexivity|]. rewrite Hx, IH. reflexivity. Qed.

Lemma forallb_map_all {A} (g : A -> bool) (f : A -> A) (l : list A) :
  (forall x, g (f x) = g x) -> forallb g (map f l) = forallb g l.
Proof. intros H. induction l as [|x r IH]; cbn; [reflexivity|]. rewrite H, IH. reflexivity. Qed.

Lemma removelast_map {A B} (f : A -> B) (l : list A) : removelast (map f l) = map f (removelast l).
Proof.
  induction l as [|x r IH]; [reflexivity|]. destruct r as [|y r]; [reflexivity|].
  cbn [map removelast] in *. rewrite IH. reflexivity.
Qed.

(* `body.terms.last().is_some_and(ends_in_tail_call)` on a bare term list *)
Definition terms_end_in_tail_call (l : list term) : bool :=
  match last_term l with Some t => term_ends_in_tail_call t | None => false end.

Lemma ends_terms_end ch : ends_in_tail_call ch = terms_end_in_tail_call (chain_terms ch).
Proof. reflexivity. Qed.

Lemma terms_end_cons t r : terms_end_in_tail_call (t :: r) = if null r then term_ends_in_tail_call t else terms_end_in_tail_call r.
Proof. destruct r; reflexivity. Qed.

Lemma terms_end_app_ne l1 l2 : l2 <> [] -> terms_end_in_tail_call (l1 ++ l2) = terms_end_in_tail_call l2.
Proof.
  intros Hne. induction l1 as [|t r IH]; [reflexivity|]. cbn [app].
  rewrite terms_end_cons, null_app_ne by assumption. exact IH.
Qed.

Lemma terms_end_map_Forall (f : term -> term) l :
  Forall (fun t => term_ends_in_tail_call (f t) = term_ends_in_tail_call t) l -> terms_end_in_tail_call (map f l) = terms_end_in_tail_call l.
Proof.
  induction 1 as [|t r Ht Hr IH]; [reflexivity|]. cbn [map]. rewrite !terms_end_cons, null_map, Ht, IH. reflexivity.
Qed.

Lemma terms_end_map (f : term -> term) l :
  (forall t, term_ends_in_tail_call (f t) = term_ends_in_tail_call t) -> terms_end_in_tail_call (map f l) = terms_end_in_tail_call l.
Proof. intros H. apply terms_end_map_Forall, Forall_forall. auto. Qed.

(* the length test of has_nonfinal_tail_call is redundant *)
Lemma nonfinal_removelast l : has_nonfinal_tail_call l = existsb is_tail_call (removelast l).
Proof.
  unfold has_nonfinal_tail_call. destruct (1 <? Z.of_nat (length l)) eqn:E; [reflexivity|].
  apply Z.ltb_ge in E. destruct l as [|a [|b l]]; [reflexivity|reflexivity|]. cbn [length] in E. lia.
Qed.

Lemma nonfinal_cons t x :
  has_nonfinal_tail_call (t :: x) = if null x then false else is_tail_call t || has_nonfinal_tail_call x.
Proof. rewrite !nonfinal_removelast. destruct x; reflexivity. Qed.

Lemma nonfinal_map (f : term -> term) l :
  (forall t, is_tail_call (f t) = is_tail_call t) -> has_nonfinal_tail_call (map f l) = has_nonfinal_tail_call l.
Proof.
  intros H. rewrite !nonfinal_removelast, removelast_map. apply existsb_map_Forall, Forall_forall. auto.
Qed.

(* the anonymous inner fixpoint of term_ends_in_tail_call is `terms_end_in_tail_call` *)
Lemma inner_fix_terms_end ts :
  (fix last_ends (l : list term) : bool :=
     match l with
     | [] => false
     | x :: r => match r with [] => term_ends_in_tail_call x | _ :: _ => last_ends r end
     end) ts = terms_end_in_tail_call ts.
Proof.
  induction ts as [|t r IH]; [reflexivity|]. rewrite terms_end_cons. destruct r as [|t2 r2]; [reflexivity|].
  cbn [null]. exact IH.
Qed.

Lemma redundant_blk1 ch : redundant_body (bare_block [ch]) = if is_inlinable_chain ch then Some ch else None.
Proof. reflexivity. Qed.

(* simplify.rs:274 ends_in_tail_call in terms of the fused test *)
Lemma term_ends_unfold t :
  term_ends_in_tail_call t =
  match redundant_body t with Some body => ends_in_tail_call body | None => is_tail_call t end.
Proof.
  destruct (bare_block_view t) as [[cs ->]|(Hr & _ & He)]; [|rewrite Hr; exact He].
  destruct cs as [|[mp sp ts] [|c2 cs]]; try reflexivity.
  cbn [bare_block redundant_body term_ends_in_tail_call].
  destruct (is_inlinable_chain (Chain mp sp ts)); [|reflexivity].
  rewrite inner_fix_terms_end. reflexivity.
Qed.

Lemma term_ends_blk1 ch :
  is_inlinable_chain ch = true -> term_ends_in_tail_call (bare_block [ch]) = ends_in_tail_call ch.
Proof. intros Hin. rewrite term_ends_unfold, redundant_blk1, Hin. reflexivity. Qed.

Lemma is_tail_ends t : is_tail_call t = true -> term_ends_in_tail_call t = true.
Proof.
  intros H. rewrite term_ends_unfold. destruct (redundant_body t) as [body|] eqn:Hr; [|exact H].
  apply redundant_body_inv in Hr as [-> _]. discriminate H.
Qed.

(* the flag only matters for terms that end in a tail call *)
Lemma should_strip_flag o t b : term_ends_in_tail_call t = false -> should_strip o t b = should_strip o t true.
Proof.
  intros H. unfold should_strip. rewrite term_ends_unfold in H.
  destruct (redundant_body t) as [body|]; [|reflexivity]. rewrite H. cbn [negb orb]. reflexivity.
Qed.

Lemma inlinable_parts ch :
  is_inlinable_chain ch = true ->
  is_frame_free_chain ch = true /\ has_nonfinal_tail_call (chain_terms ch) = false.
Proof.
  unfold is_inlinable_chain. intros H.
  apply andb_true_iff in H as [H H3]. apply andb_true_iff in H as [_ H2].
  apply negb_true_iff in H3. auto.
Qed.

Lemma no_tail_calls l : has_nonfinal_tail_call l = false -> terms_end_in_tail_call l = false -> existsb is_tail_call l = false.
Proof.
  induction l as [|a r IH]; [reflexivity|]. rewrite nonfinal_cons, terms_end_cons. destruct r as [|b r'].
  - cbn [null existsb]. intros _ He. rewrite orb_false_r.
    destruct (is_tail_call a) eqn:Ht; [|reflexivity]. apply is_tail_ends in Ht. congruence.
  - cbn [null]. intros Hn He. apply orb_false_iff in Hn as [Ha Hn]. cbn [existsb]. rewrite Ha. cbn [orb].
    apply IH; assumption.
Qed.

Lemma splice_terms_end o l : terms_end_in_tail_call (splice o l) = terms_end_in_tail_call l.
Proof.
  induction l as [|t r IH]; [reflexivity|]. cbn [splice].
  destruct (should_strip o t (null r)) as [bt|] eqn:Hs.
  - apply should_strip_inv in Hs as (body & -> & Hin & -> & _).
    rewrite terms_end_cons. destruct r as [|t2 r2].
    + cbn [splice null]. rewrite app_nil_r. symmetry. apply term_ends_blk1, Hin.
    + cbn [null]. rewrite terms_end_app_ne by apply splice_cons_ne. exact IH.
  - rewrite !terms_end_cons, splice_null, IH. reflexivity.
Qed.

Lemma splice_nonfinal o l : has_nonfinal_tail_call (splice o l) = has_nonfinal_tail_call l.
Proof.
  induction l as [|t r IH]; [reflexivity|]. cbn [splice].
  destruct (should_strip o t (null r)) as [bt|] eqn:Hs.
  - apply should_strip_inv in Hs as (body & -> & Hin & -> & _ & Hflag).
    apply inlinable_parts in Hin as (_ & Hn).
    rewrite nonfinal_cons. destruct r as [|t2 r2].
    + cbn [splice null]. rewrite app_nil_r. exact Hn.
    + cbn [null] in *. destruct Hflag as [He|Hd]; [|discriminate].
      rewrite nonfinal_removelast, removelast_app by apply splice_cons_ne.
      rewrite existsb_app, <- nonfinal_removelast, (no_tail_calls _ Hn He). cbn [orb is_tail_call bare_block]. exact IH.
  - rewrite !nonfinal_cons, splice_null, IH. reflexivity.
Qed.

Lemma splice_no_match o l : existsb contains_match (splice o l) = existsb contains_match l.
Proof.
  induction l as [|t r IH]; [reflexivity|]. cbn [splice].
  destruct (should_strip o t (null r)) as [bt|] eqn:Hs.
  - apply should_strip_inv in Hs as (body & -> & Hin & -> & _).
    apply inlinable_parts in Hin as (Hff & _).
    rewrite existsb_app, IH. cbn [existsb contains_match bare_block orb].
    destruct body as [mp sp bs]. cbn [is_frame_free_chain chain_terms] in *.
    apply andb_true_iff in Hff as [_ Hff]. apply negb_true_iff in Hff. rewrite Hff. reflexivity.
  - cbn [existsb]. rewrite IH. reflexivity.
Qed.

(* splicing distributes over append when the seam cannot be a retained tail-call block *)
Lemma splice_app_gen o l1 l2 :
  l2 = [] \/ terms_end_in_tail_call l1 = false -> splice o (l1 ++ l2) = splice o l1 ++ splice o l2.
Proof.
  induction l1 as [|t r IH]; intros H; [reflexivity|]. cbn [app splice]. destruct r as [|t2 r2].
  - cbn [app null splice].
    assert (Hf : should_strip o t (null l2) = should_strip o t true).
    { destruct H as [->|He]; [reflexivity|]. apply should_strip_flag. exact He. }
    rewrite Hf. destruct (should_strip o t true); [rewrite app_nil_r|]; reflexivity.
  - change (null ((t2 :: r2) ++ l2)) with false. cbn [null].
    rewrite IH by (destruct H as [->|He]; [left; reflexivity|right; rewrite terms_end_cons in He; exact He]).
    destruct (should_strip o t false); [rewrite app_assoc|]; reflexivity.
Qed.

Lemma strip_is_tail_call o t : is_tail_call (strip_term o t) = is_tail_call t.
Proof. destruct t as [l|n fs|st segs|m|e|sg body|a|t'| |[srcs|]|n|a]; reflexivity. Qed.

Definition cm_chain (c : chain) : bool :=
  match c with Chain mp _ ts => is_some mp || existsb contains_match ts end.
Definition cm_field (f : tuple_field) : bool :=
  match f with
  | TupleField _ (FChain c) => cm_chain c
  | TupleField _ (FSpread _) => false
  end.

Lemma contains_match_Tuple n fs : contains_match (Tuple n fs) = existsb cm_field fs.
Proof.
  cbn [contains_match]. induction fs as [|f r IH]; [reflexivity|]. cbn [existsb]. rewrite IH.
  destruct f as [nm [[mp sp ts]|s]]; reflexivity.
Qed.

Lemma contains_match_Select cs : contains_match (Select (Some cs)) = existsb cm_chain cs.
Proof.
  cbn [contains_match]. induction cs as [|c r IH]; [reflexivity|]. cbn [existsb]. rewrite IH.
  destruct c as [mp sp ts]; reflexivity.
Qed.

Lemma strip_contains_match o :
  (forall t, contains_match (strip_term o t) = contains_match t) /\
  (forall f, cm_field (strip_field o f) = cm_field f) /\
  (forall v, on_field_chain (fun c => cm_chain (strip_chain o c) = cm_chain c) v) /\
  (forall g : str_segment, True) /\
  (forall c, cm_chain (strip_chain o c) = cm_chain c) /\
  (forall s : sequence, True) /\ (forall b : branch, True) /\ (forall e : expression, True).
Proof.
  apply ast_mutind; try (intros; exact I); try reflexivity.
  (* left: Tuple, Select (Some _), TupleField, FChain, Chain *)
  - intros n fs IH. cbn [strip_term]. rewrite !contains_match_Tuple. apply existsb_map_Forall. exact IH.
  - intros cs IH. cbn [strip_term]. rewrite !contains_match_Select. apply existsb_map_Forall. exact IH.
  - intros n v IH. destruct v as [c|s]; [|reflexivity]. cbn [strip_field cm_field]. exact IH.
  - intros c IH. exact IH.
  - intros mp sp ts IH. cbn [strip_chain cm_chain]. f_equal.
    rewrite splice_no_match. apply existsb_map_Forall. exact IH.
Qed.

Lemma strip_frame_free o c : is_frame_free_chain (strip_chain o c) = is_frame_free_chain c.
Proof.
  destruct (strip_contains_match o) as (_ & _ & _ & _ & H & _). specialize (H c).
  destruct c as [mp sp ts]. cbn [strip_chain cm_chain is_frame_free_chain] in *.
  destruct mp; cbn [is_some negb andb orb] in *; [reflexivity|]. rewrite H. reflexivity.
Qed.

Lemma strip_chain_null o c : null (chain_terms (strip_chain o c)) = null (chain_terms c).
Proof. destruct c as [mp sp ts]. cbn [strip_chain chain_terms]. rewrite splice_null, null_map. reflexivity. Qed.

Lemma strip_chain_pattern o c : chain_pattern (strip_chain o c) = chain_pattern c.
Proof. destruct c; reflexivity. Qed.

Lemma strip_chain_span o c : chain_span (strip_chain o c) = chain_span c.
Proof. destruct c; reflexivity. Qed.

Lemma strip_has_nonfinal_tail_call o c :
  has_nonfinal_tail_call (chain_terms (strip_chain o c)) = has_nonfinal_tail_call (chain_terms c).
Proof.
  destruct c as [mp sp ts]. cbn [strip_chain chain_terms]. rewrite splice_nonfinal.
  apply nonfinal_map, strip_is_tail_call.
Qed.

Lemma strip_inlinable o c : is_inlinable_chain (strip_chain o c) = is_inlinable_chain c.
Proof.
  unfold is_inlinable_chain. rewrite strip_chain_null, strip_frame_free, strip_has_nonfinal_tail_call. reflexivity.
Qed.

Lemma lift_length o l : (length l <= length (lift_chains o l))%nat.
Proof.
  induction l as [|c r IH]; [reflexivity|]. cbn [lift_chains].
  destruct (should_lift o c) as [inner|] eqn:Hs; cbn [length]; [|lia].
  apply should_lift_inv in Hs as (_ & Hne & _). rewrite app_length.
  destruct inner; [congruence|]. cbn [length]. lia.
Qed.

Lemma lift_frame_free o l :
  forallb is_frame_free_chain l = true -> forallb is_frame_free_chain (lift_chains o l) = true.
Proof.
  induction l as [|c r IH]; [reflexivity|]. cbn [forallb lift_chains]. intros H.
  apply andb_true_iff in H as [Hc Hr]. destruct (should_lift o c) as [inner|] eqn:Hs.
  - apply should_lift_inv in Hs as (_ & _ & Hff). rewrite forallb_app, Hff. cbn [andb]. auto.
  - cbn [forallb]. rewrite Hc. cbn [andb]. auto.
Qed.

Lemma lift_off o l : lift o = false -> lift_chains o l = l.
Proof.
  intros Hoff. apply lift_chains_id. apply Forall_forall. intros c _. unfold should_lift. rewrite Hoff. reflexivity.
Qed.

Lemma co_compat : group_consequences co = true -> lift co = false.
Proof. cbn. discriminate. Qed.

Lemma co_nf_term t : nf_term co (strip_term co t).
Proof. destruct (strip_nf co co_compat) as (H & _). apply H. Qed.
Lemma co_nf_chain c : nf_chain co (strip_chain co c).
Proof. destruct (strip_nf co co_compat) as (_ & _ & _ & _ & H & _). apply H. Qed.

(* with keep = false, a term retained in final position is not a redundant block *)
Lemma co_not_stripped t : should_strip co t true = None -> redundant_body t = None.
Proof.
  unfold should_strip. destruct (redundant_body t) as [body|]; [|reflexivity].
  cbn [keep co negb andb]. rewrite orb_true_r. discriminate.
Qed.

Lemma strip_blk1 o ch :
  strip_term o (bare_block [ch]) = bare_block (lift_chains o [strip_chain o ch]).
Proof. reflexivity. Qed.

(* the compiler-normalised one-chain sequence: either it stays one chain, or its sole term is a block that is lifted —
   and then that block is not redundant *)
Lemma co_lift_single ch :
  (lift_chains co [strip_chain co ch] = [strip_chain co ch])
  \/ (exists inner, chain_terms (strip_chain co ch) = [bare_block inner] /\
                    lift_chains co [strip_chain co ch] = inner /\
                    should_strip co (bare_block inner) true = None).
Proof.
  pose proof (co_nf_chain ch) as Hnf. cbn [lift_chains].
  destruct (should_lift co (strip_chain co ch)) as [inner|] eqn:Hs; [right|left; reflexivity].
  apply should_lift_inv in Hs as ((sp & Heq) & _). rewrite Heq in *. exists inner. rewrite app_nil_r.
  split; [reflexivity|]. split; [reflexivity|].
  inversion Hnf as [? ? ? _ Hdn]; subst. cbn [dn null negb andb] in Hdn. apply Hdn.
Qed.

(* a redundant block after compiler-normalisation comes from a redundant block *)
Lemma co_redundant_strip_inv e B :
  redundant_body (strip_term co (Block e)) = Some B ->
  exists ch, Block e = bare_block [ch] /\ is_inlinable_chain ch = true.
Proof.
  intros Hr. apply redundant_body_inv in Hr as [Heq Hin].
  destruct e as [bs]. cbn [strip_term strip_expression] in Heq. injection Heq as Heq.
  destruct bs as [|[s k] [|b2 bs]]; cbn [map] in Heq; try discriminate.
  cbn [strip_branch] in Heq. injection Heq as Hs Hk. destruct k as [k|]; [discriminate|].
  destruct s as [cs]. cbn [strip_sequence] in Hs. injection Hs as Hs.
  destruct cs as [|ch [|ch2 cs]].
  - discriminate.
  - exists ch. cbn [map] in Hs. destruct (co_lift_single ch) as [Hl|(inner & _ & Hl & Hss)].
    + rewrite Hl in Hs. injection Hs as <-. rewrite strip_inlinable in Hin. split; [reflexivity|exact Hin].
    + exfalso. rewrite Hl in Hs. subst inner. apply co_not_stripped in Hss.
      rewrite redundant_blk1, Hin in Hss. discriminate.
  - exfalso. pose proof (lift_length co (map (strip_chain co) (ch :: ch2 :: cs))) as Hlen.
    rewrite Hs in Hlen. cbn [map length] in Hlen. lia.
Qed.

(* the recursive tail-call test is invariant under compiler-normalisation *)
Lemma co_term_ends :
  forall t, term_ends_in_tail_call (strip_term co t) = term_ends_in_tail_call t.
Proof.
  (* the other motives only carry Pt down to the terms of the chains of a block's first branch *)
  pose (Pt := fun t => term_ends_in_tail_call (strip_term co t) = term_ends_in_tail_call t).
  pose (Pc := fun c => Forall Pt (chain_terms c)).
  pose (Ps := fun s => Forall Pc (seq_chains s)).
  pose (Pb := fun b => match b with Branch c _ => Ps c end).
  pose (Pe := fun e => match e with Expression bs => Forall Pb bs end).
  enough (H : (forall t, Pt t) /\ (forall f : tuple_field, True) /\ (forall v : field_value, True) /\
              (forall g : str_segment, True) /\ (forall c, Pc c) /\ (forall s, Ps s) /\ (forall b, Pb b) /\
              (forall e, Pe e)) by apply H.
  apply ast_mutind; subst Pt Pc Ps Pb Pe; cbn beta; try (intros; exact I); try reflexivity; try (intros; assumption).
  - (* Block *)
    intros e IH. rewrite !term_ends_unfold.
    destruct (redundant_body (Block e)) as [ch|] eqn:Hr.
    + apply redundant_body_inv in Hr as [Heq Hin]. rewrite Heq. injection Heq as ->.
      inversion IH as [|? ? Hb _]; subst. cbn [seq_chains] in Hb. inversion Hb as [|? ? Hts _]; subst.
      assert (Hends : terms_end_in_tail_call (chain_terms (strip_chain co ch)) = terms_end_in_tail_call (chain_terms ch)).
      { destruct ch as [mp sp ts]. cbn [strip_chain chain_terms] in *. rewrite splice_terms_end.
        apply terms_end_map_Forall. exact Hts. }
      rewrite strip_blk1.
      destruct (co_lift_single ch) as [Hl|(inner & Hct & Hl & Hss)]; rewrite Hl.
      * rewrite redundant_blk1, strip_inlinable, Hin. exact Hends.
      * apply co_not_stripped in Hss. rewrite Hss. rewrite ends_terms_end, <- Hends, Hct.
        unfold terms_end_in_tail_call. cbn [last_term map last]. rewrite term_ends_unfold, Hss. reflexivity.
    + destruct (redundant_body (strip_term co (Block e))) as [B|] eqn:Hr2; [exfalso|reflexivity].
      apply co_redundant_strip_inv in Hr2 as (ch & Heq & Hin).
      rewrite Heq, redundant_blk1, Hin in Hr. discriminate.
Qed.

Lemma co_ends_chain ch : ends_in_tail_call (strip_chain co ch) = ends_in_tail_call ch.
Proof.
  rewrite !ends_terms_end. destruct ch as [mp sp ts]. cbn [strip_chain chain_terms].
  rewrite splice_terms_end. apply terms_end_map. apply co_term_ends.
Qed.

(* (3) the crux: what the compiler contributes for (the compiler-normal form of) a redundant block `u = { bf }` that
   may be spliced at its position is exactly the compiler-normal form of bf's terms — also when lifting intervenes *)
Lemma co_contribution bf b :
  is_inlinable_chain bf = true ->
  ends_in_tail_call bf = false \/ b = true ->
  match should_strip co (strip_term co (bare_block [bf])) b with
  | Some bt => bt
  | None => [strip_term co (bare_block [bf])]
  end = chain_terms (strip_chain co bf).
Proof.
  intros Hin Hflag. rewrite strip_blk1.
  destruct (co_lift_single bf) as [Hl|(inner & Hct & Hl & Hss)]; rewrite Hl.
  - unfold should_strip. rewrite redundant_blk1, strip_inlinable, Hin, co_ends_chain.
    cbn [keep co negb andb]. destruct Hflag as [->| ->]; [reflexivity|]. rewrite orb_true_r. reflexivity.
  - assert (Hn : should_strip co (bare_block inner) b = None).
    { destruct b; [exact Hss|]. apply should_strip_none_weaken. exact Hss. }
    rewrite Hn. symmetry. exact Hct.
Qed.

Lemma chain_level k ts :
  Forall (fun t => strip_term co (strip_term (fo k) t) = strip_term co t) ts ->
  splice co (map (strip_term co) (splice (fo k) (map (strip_term (fo k)) ts)))
  = splice co (map (strip_term co) ts).
Proof.
  induction 1 as [|t r Ht Hr IH]; [reflexivity|]. cbn [map splice].
  destruct (should_strip (fo k) (strip_term (fo k) t) (null (map (strip_term (fo k)) r))) as [bt|] eqn:Hs.
  - (* the formatter splices the block: so does the compiler, up to lifting inside it *)
    apply should_strip_inv in Hs as (bf & Hu & Hin & -> & _ & Hflag).
    rewrite null_map in Hflag.
    rewrite map_app, splice_app_gen, IH.
    + rewrite <- Ht, Hu. rewrite null_map.
      pose proof (co_contribution bf (null r) Hin Hflag) as Hc.
      destruct bf as [mp sp bs]. cbn [strip_chain chain_terms] in Hc |- *.
      destruct (should_strip co (strip_term co (bare_block [Chain mp sp bs])) (null r)) as [bt|];
        rewrite <- Hc; reflexivity.
    + destruct Hflag as [He|Hn].
      * right. rewrite terms_end_map by apply co_term_ends. exact He.
      * left. apply null_true in Hn. subst r. reflexivity.
  - (* the formatter retains the term *)
    cbn [map splice]. rewrite !null_map, splice_null, null_map, Ht, IH. reflexivity.
Qed.

(* (4) grouping is undone by the compiler's lifting *)
Lemma co_ungroup s : strip_sequence co (group_consequence s) = strip_sequence co s.
Proof.
  destruct s as [cs]. cbn [group_consequence].
  destruct ((1 <? Z.of_nat (length cs)) && forallb is_frame_free_chain cs) eqn:Hcond; [|reflexivity].
  apply andb_true_iff in Hcond as [Hlen Hff]. apply Z.ltb_lt in Hlen.
  cbn [strip_sequence strip_chain strip_term strip_expression strip_branch map].
  set (L := lift_chains co (map (strip_chain co) cs)).
  assert (HL : (2 <= length L)%nat).
  { pose proof (lift_length co (map (strip_chain co) cs)) as H. rewrite map_length in H. subst L. lia. }
  assert (HffL : forallb is_frame_free_chain L = true).
  { subst L. apply lift_frame_free. rewrite forallb_map_all by apply strip_frame_free. exact Hff. }
  assert (Hsp : splice co [Block (Expression [Branch (Sequence L) None])]
                = [Block (Expression [Branch (Sequence L) None])]).
  { destruct L as [|[mp sp ts] [|b L']]; cbn [length] in HL; try lia. reflexivity. }
  rewrite Hsp. cbn [lift_chains should_lift lift co liftable_chains]. rewrite HffL.
  destruct L as [|a L']; [cbn [length] in HL; lia|]. cbn [null negb andb]. rewrite app_nil_r. reflexivity.
Qed.

Lemma compose_all k :
  (forall t, strip_term co (strip_term (fo k) t) = strip_term co t) /\
  (forall f, strip_field co (strip_field (fo k) f) = strip_field co f) /\
  (forall v, on_field_chain (fun c => strip_chain co (strip_chain (fo k) c) = strip_chain co c) v) /\
  (forall g, strip_segment co (strip_segment (fo k) g) = strip_segment co g) /\
  (forall c, strip_chain co (strip_chain (fo k) c) = strip_chain co c) /\
  (forall s, strip_sequence co (strip_sequence (fo k) s) = strip_sequence co s) /\
  (forall b, strip_branch co (strip_branch (fo k) b) = strip_branch co b) /\
  (forall e, strip_expression co (strip_expression (fo k) e) = strip_expression co e).
Proof.
  apply ast_mutind; try reflexivity.
  (* left: Tuple, String, Block, Function, Spawn, Select (Some _), TupleField, FChain, Hole, Chain, Sequence, Branch,
     Expression *)
  - intros n fs IH. cbn [strip_term]. f_equal. rewrite map_map. apply map_ext_Forall. exact IH.
  - intros st segs IH. cbn [strip_term]. f_equal. rewrite map_map. apply map_ext_Forall. exact IH.
  - intros e IH. cbn [strip_term]. f_equal. exact IH.
  - intros sg [e|] IH; [|reflexivity]. cbn [strip_term Popt] in *. rewrite IH. reflexivity.
  - intros t IH. cbn [strip_term]. f_equal. exact IH.
  - intros cs IH. cbn [strip_term]. do 2 f_equal. rewrite map_map. apply map_ext_Forall. exact IH.
  - intros n v IH. destruct v as [c|s]; [|reflexivity]. cbn [strip_field]. rewrite IH. reflexivity.
  - intros c IH. exact IH.
  - intros e IH. cbn [strip_segment]. f_equal. exact IH.
  - intros mp sp ts IH. cbn [strip_chain]. f_equal. apply chain_level. exact IH.
  - intros cs IH. cbn [strip_sequence]. f_equal. rewrite (lift_off (fo k)) by reflexivity.
    rewrite map_map. f_equal. apply map_ext_Forall. exact IH.
  - intros c [s|] IHc IHs; cbn [strip_branch Popt group_consequences fo formatter_options co compiler_options] in *.
    + rewrite IHc, co_ungroup, IHs. reflexivity.
    + rewrite IHc. reflexivity.
  - intros bs IH. cbn [strip_expression]. f_equal. rewrite map_map. apply map_ext_Forall. exact IH.
Qed.

Theorem format_then_compile_same : forall (k : chain -> bool) (p : program),
  normalize_blocks (normalize_blocks p (formatter_options k)) compiler_options
  = normalize_blocks p compiler_options.
Proof.
  intros k [stmts]. cbn [normalize_blocks]. f_equal. rewrite map_map. apply map_ext.
  intros [n ps ty|sq]; [reflexivity|]. f_equal.
  destruct (compose_all k) as (_ & _ & _ & _ & _ & Hs & _). apply Hs.
Qed.
Print Assumptions format_then_compile_same.

(* A program on which the formatter (keeping the blocks whose body chains start at offsets 10 and 74)
     - strips the redundant block at 4 and keeps the redundant block at 10,
     - leaves `{ 1 { 2 ^ } } 3` alone (kept inner block at 74 ends in a tail call: the recursive test protects the outer one),
     - does not lift the two-step block of the chain at 20, and
     - groups the compound consequence at 50/53,
   while the compiler strips 4 and 10, strips 74 inside 72 (then retains 72: tail call in non-final position),
   lifts the two-step block, and does not group. *)
Definition sc_chain (sp : Z) (ts : list term) : chain := Chain None (Some sp) ts.
Definition sc_blk (sp : Z) (ts : list term) : term := blk1 (sc_chain sp ts).
Definition sc_cond (k : option sequence) : term :=
  Block (Expression [Branch (Sequence [sc_chain 44 [Match (SxAtom 0)]]) k;
                     Branch (Sequence [sc_chain 60 [lit 3]]) None]).
Definition sc_program : program :=
  Program [TypeAlias (Some 1) [] (SxAtom 2);
           StmtExpression (Sequence
    [sc_chain 0 [lit 5; sc_blk 4 [lit 6; lit 7]; sc_blk 10 [lit 8]; lit 9];
     sc_chain 20 [blkn [sc_chain 22 [lit 1]; sc_chain 25 [lit 2]]];
     sc_chain 40 [lit 0; sc_cond (Some (Sequence [sc_chain 50 [lit 8]; sc_chain 53 [lit 9]]))];
     sc_chain 70 [sc_blk 72 [lit 1; sc_blk 74 [lit 2; tail]]; lit 3]])].
Definition sc_keep : chain -> bool := keep_by_span (fun off => (off =? 10) || (off =? 74)).

Definition sc_formatted : program :=
  Program [TypeAlias (Some 1) [] (SxAtom 2);
           StmtExpression (Sequence
    [sc_chain 0 [lit 5; lit 6; lit 7; sc_blk 10 [lit 8]; lit 9];
     sc_chain 20 [blkn [sc_chain 22 [lit 1]; sc_chain 25 [lit 2]]];
     sc_chain 40 [lit 0; sc_cond (Some (Sequence
        [Chain None None [blkn [sc_chain 50 [lit 8]; sc_chain 53 [lit 9]]]]))];
     sc_chain 70 [sc_blk 72 [lit 1; sc_blk 74 [lit 2; tail]]; lit 3]])].
Definition sc_compiled : program :=
  Program [TypeAlias (Some 1) [] (SxAtom 2);
           StmtExpression (Sequence
    [sc_chain 0 [lit 5; lit 6; lit 7; lit 8; lit 9];
     sc_chain 22 [lit 1]; sc_chain 25 [lit 2];
     sc_chain 40 [lit 0; sc_cond (Some (Sequence [sc_chain 50 [lit 8]; sc_chain 53 [lit 9]]))];
     sc_chain 70 [sc_blk 72 [lit 1; lit 2; tail]; lit 3]])].

Example format_then_compile_nonvacuous :
  normalize_blocks sc_program (formatter_options sc_keep) = sc_formatted /\
  normalize_blocks sc_program compiler_options = sc_compiled /\
  sc_formatted <> sc_compiled /\ sc_formatted <> sc_program /\ sc_compiled <> sc_program /\
  normalize_blocks sc_program (formatter_options sc_keep)
    <> normalize_blocks sc_program (formatter_options (fun _ => false)) /\
  normalize_blocks sc_formatted compiler_options = sc_compiled.
Proof.
  split; [vm_compute; reflexivity|]. split; [vm_compute; reflexivity|].
  split; [intros Heq; vm_compute in Heq; discriminate Heq|].
  split; [intros Heq; vm_compute in Heq; discriminate Heq|].
  split; [intros Heq; vm_compute in Heq; discriminate Heq|].
  split; [intros Heq; vm_compute in Heq; discriminate Heq|].
  vm_compute. reflexivity.
Qed.

Example format_then_compile_instance :
  normalize_blocks (normalize_blocks sc_program (formatter_options sc_keep)) compiler_options
  = normalize_blocks sc_program compiler_options.
Proof. apply format_then_compile_same. Qed.
