(* EscapePretty.v — ties Escape.v's model of a rendered multi-line string line to Pretty.v's model of the
   printer's trailing-whitespace stripping (pretty.rs:299, which strips ' ' and TAB only; finding F18):
   printing a rendered line at indentation `margin` and stripping it gives exactly `Escape.indent_line`
   (the full line, or nothing for an empty line) — for EVERY string, including lines that end in U+00A0 etc.
   This is the assumption `render_multiline` makes about the printer. *)
From Quiver Require Import Base Escape EscapeProofs.
From Quiver Require Pretty.

Lemma trim_end_snoc l c :
  Pretty.trim_end (l ++ [c]) = if Pretty.is_ws c then Pretty.trim_end l else l ++ [c].
Proof.
  induction l as [|a l IH]; cbn [app Pretty.trim_end]; [destruct (Pretty.is_ws c); reflexivity|].
  rewrite IH. destruct (Pretty.is_ws c); [reflexivity|].
  destruct (l ++ [c]) eqn:E; [destruct l; discriminate|reflexivity].
Qed.

Lemma trim_end_all_space (n : nat) : Pretty.trim_end (repeat 32 n) = [].
Proof.
  induction n as [|n IH]; [reflexivity|]. cbn [repeat]. rewrite repeat_cons, trim_end_snoc. exact IH.
Qed.

Theorem rendered_line_survives_strip : forall (margin : nat) (l : list Z),
  Pretty.trim_end (repeat 32 margin ++ render_line l) = indent_line margin (render_line l).
Proof.
  intros margin l. unfold indent_line, render_line.
  destruct (protect_end _ (escape_multiline_no_tab l)) as [->|(y & c & -> & Hc)].
  - rewrite app_nil_r. apply trim_end_all_space.
  - rewrite app_assoc, trim_end_snoc.
    (* what the printer strips is what the parser calls horizontal space *)
    change (Pretty.is_ws c) with (is_hspace c). rewrite Hc, <- app_assoc. destruct y; reflexivity.
Qed.

Example rendered_line_survives_strip_ex :
  (* "ab" ++ NBSP ++ two spaces at margin 2: the NBSP stays (F18), the spaces are \s-protected *)
  Pretty.trim_end (repeat 32 2 ++ render_line [97; 98; 160; 32; 32]) = [32; 32; 97; 98; 160; 92; 115; 92; 115].
Proof. vm_compute. reflexivity. Qed.
