(* TransProofs.v — transitivity of is_compatible on the cycle-free fragment.

   `subref` is a reference relation: the ALL-mode arms of check_type_relation without assumptions
   and stacks, by recursion on fuel.  Under `topo` (children have smaller ids) its value does not
   depend on the fuel once fuel > s + p (`subref_fuel`), which gives the canonical `R s p`.
   `check_exact` (in TransCheck.v) shows that check_rel computes exactly R on the fragment;
   `R_trans` shows R transitive by induction on a + b + c, for all ids: only check_exact needs the
   fragment. *)
From Quiver Require Import Base Types RelProofs.
From Coq Require Import Arith Lia.
Close Scope Z_scope.
Open Scope nat_scope.

Lemma forallb_ext_in {A} (f g : A -> bool) l : (forall x, In x l -> f x = g x) -> forallb f l = forallb g l.
Proof.
  induction l as [|a l IH]; intros H; cbn; [reflexivity|].
  rewrite (H a (or_introl eq_refl)), IH; [reflexivity|]. intros x Hx. apply H. right; exact Hx.
Qed.

Lemma existsb_ext_in {A} (f g : A -> bool) l : (forall x, In x l -> f x = g x) -> existsb f l = existsb g l.
Proof.
  induction l as [|a l IH]; intros H; cbn; [reflexivity|].
  rewrite (H a (or_introl eq_refl)), IH; [reflexivity|]. intros x Hx. apply H. right; exact Hx.
Qed.

Lemma forallb_map {A B} (g : A -> B) (f : B -> bool) l : forallb f (map g l) = forallb (fun x => f (g x)) l.
Proof. induction l as [|a l IH]; cbn; [reflexivity|]. rewrite IH. reflexivity. Qed.

Lemma existsb_map {A B} (g : A -> B) (f : B -> bool) l : existsb f (map g l) = existsb (fun x => f (g x)) l.
Proof. induction l as [|a l IH]; cbn; [reflexivity|]. rewrite IH. reflexivity. Qed.

Definition union_variants (t : ty) : option (list nat) :=
  match t with TUnion vs => Some vs | _ => None end.

Lemma union_variants_Some t vs : union_variants t = Some vs -> t = TUnion vs.
Proof. destruct t; try discriminate. intros H. injection H as ->. reflexivity. Qed.

Definition name_fits (self pat : option nat) : bool :=
  match pat with Some n => opt_eqb self (Some n) | None => true end.

Lemma name_fits_trans a b c : name_fits a b = true -> name_fits b c = true -> name_fits a c = true.
Proof. destruct c as [c|]; [|reflexivity]. cbn. intros Hab Hbc. apply opt_eqb_eq in Hbc. subst b. exact Hab. Qed.

Definition tuple_label (o : option nat) (l : nat) : bool := opt_eqb o (Some l).

Section Fields.
  Variable r : nat -> nat -> bool.

  (* zip(fields1, fields2).all(|..| label1 == label2 && r(t1, t2)) *)
  Definition fields_ref (f1 f2 : list (option nat * nat)) : bool :=
    forallb (fun k => opt_eqb (fst (fst k)) (fst (snd k)) && r (snd (fst k)) (snd (snd k))) (combine f1 f2).

  (* pattern_fields.all(|(l, t)| self_fields.any(|(l', t')| l' == l && r(t', t))): tuple against
     partial (labels `tuple_label`) and partial against partial (labels `Nat.eqb`) *)
  Definition covers {L} (lab : L -> nat -> bool) (xs : list (L * nat)) (pfs : list (nat * nat)) : bool :=
    forallb (fun pf => existsb (fun x => r (snd x) (snd pf)) (filter (fun x => lab (fst x) (fst pf)) xs)) pfs.

  Lemma covers_spec {L} (lab : L -> nat -> bool) xs pfs :
    covers lab xs pfs = true <->
    forall pf, In pf pfs -> exists x, In x xs /\ lab (fst x) (fst pf) = true /\ r (snd x) (snd pf) = true.
  Proof.
    unfold covers. rewrite forallb_forall. split; intros H pf Hpf; specialize (H pf Hpf).
    - apply existsb_exists in H. destruct H as [x [Hx Hr]]. apply filter_In in Hx. exists x. tauto.
    - destruct H as [x (Hx & Hl & Hr)]. apply existsb_exists. exists x. split; [apply filter_In; auto|exact Hr].
  Qed.

  Definition trans_at (x y z : nat) : Prop := r x y = true -> r y z = true -> r x z = true.

  Lemma fields_ref_trans f1 : forall f2 f3, length f1 = length f2 ->
    (forall x y z, In x f1 -> In y f2 -> In z f3 -> trans_at (snd x) (snd y) (snd z)) ->
    fields_ref f1 f2 = true -> fields_ref f2 f3 = true -> fields_ref f1 f3 = true.
  Proof.
    unfold fields_ref. induction f1 as [|[n1 t1] f1 IH]; intros [|[n2 t2] f2] [|[n3 t3] f3] Hlen Htr H12 H23; cbn in *;
      try reflexivity; try discriminate.
    apply andb_true_iff in H12. destruct H12 as [H12 H12']. apply andb_true_iff in H12. destruct H12 as [Hn12 Hr12].
    apply andb_true_iff in H23. destruct H23 as [H23 H23']. apply andb_true_iff in H23. destruct H23 as [Hn23 Hr23].
    apply opt_eqb_eq in Hn12. subst n1.
    pose proof (Htr (n2, t1) (n2, t2) (n3, t3) (or_introl eq_refl) (or_introl eq_refl) (or_introl eq_refl) Hr12 Hr23) as Hr13.
    cbn in Hr13. rewrite Hn23, Hr13. cbn.
    apply (IH f2 f3); [lia| |assumption|assumption]. intros x y z Hx Hy Hz. apply Htr; right; assumption.
  Qed.

  Lemma fields_ref_In f1 : forall f2 y, length f1 = length f2 -> fields_ref f1 f2 = true -> In y f2 ->
    exists x, In x f1 /\ fst x = fst y /\ r (snd x) (snd y) = true.
  Proof.
    unfold fields_ref. induction f1 as [|[n1 t1] f1 IH]; intros [|[n2 t2] f2] y Hlen H Hin; cbn in *;
      try discriminate; [destruct Hin|].
    apply andb_true_iff in H. destruct H as [H H']. apply andb_true_iff in H. destruct H as [Hn Hr].
    apply opt_eqb_eq in Hn. destruct Hin as [<-|Hin]; [exists (n1, t1); cbn; auto|].
    destruct (IH f2 y ltac:(lia) H' Hin) as [x [Hx Hrest]]. exists x. split; [right; exact Hx|exact Hrest].
  Qed.

  Lemma fields_covers_trans (lab : option nat -> nat -> bool) fa fb pfs :
    (forall x y z, In x fa -> In y fb -> In z pfs -> trans_at (snd x) (snd y) (snd z)) ->
    length fa = length fb -> fields_ref fa fb = true -> covers lab fb pfs = true -> covers lab fa pfs = true.
  Proof.
    intros Htr Hlen Hab Hbp. rewrite covers_spec in Hbp. apply covers_spec. intros z Hz.
    destruct (Hbp z Hz) as [y (Hy & Hl & Hyz)].
    destruct (fields_ref_In fa fb y Hlen Hab Hy) as [x (Hx & Hfst & Hxy)].
    exists x. rewrite Hfst. repeat split; [exact Hx|exact Hl|]. eapply Htr; eassumption.
  Qed.

  Lemma covers_trans {L} (lab : L -> nat -> bool) xs ys zs :
    (forall x y z, In x xs -> In y ys -> In z zs -> trans_at (snd x) (snd y) (snd z)) ->
    covers lab xs ys = true -> covers Nat.eqb ys zs = true -> covers lab xs zs = true.
  Proof.
    intros Htr Hxy Hyz. rewrite covers_spec in Hxy. rewrite covers_spec in Hyz. apply covers_spec. intros z Hz.
    destruct (Hyz z Hz) as [y (Hy & Hl & Hr)].
    apply Nat.eqb_eq in Hl. destruct (Hxy y Hy) as [x (Hx & Hlx & Hrx)].
    exists x. rewrite <- Hl. repeat split; [exact Hx|exact Hlx|]. eapply Htr; eassumption.
  Qed.
End Fields.

Lemma fields_ref_ext (r1 r2 : nat -> nat -> bool) f1 f2 :
  (forall a b, In a f1 -> In b f2 -> r1 (snd a) (snd b) = r2 (snd a) (snd b)) ->
  fields_ref r1 f1 f2 = fields_ref r2 f1 f2.
Proof.
  intros H. apply forallb_ext_in. intros [a b] Hk. cbn.
  rewrite (H a b); [reflexivity|eapply in_combine_l; exact Hk|eapply in_combine_r; exact Hk].
Qed.

Lemma covers_ext {L} (lab : L -> nat -> bool) (r1 r2 : nat -> nat -> bool) xs pfs :
  (forall x pf, In x xs -> In pf pfs -> r1 (snd x) (snd pf) = r2 (snd x) (snd pf)) ->
  covers r1 lab xs pfs = covers r2 lab xs pfs.
Proof.
  intros H. apply forallb_ext_in. intros pf Hpf. apply existsb_ext_in. intros x Hx.
  apply filter_In in Hx. apply H; [apply Hx|exact Hpf].
Qed.

Section Ref.
  Variable P : registry.

  (* two types that are not unions; r is the recursive call *)
  Definition struct_ref (r : nat -> nat -> bool) (ts tp : ty) : bool :=
    match ts, tp with
    | TInteger, TInteger | TBinary, TBinary | TReference, TReference => true
    | TResource r1, TResource r2 => Nat.eqb r1 r2
    | TTuple id1, TTuple id2 =>
      if Nat.eqb id1 id2 then true else
      match lookup_tuple P id1, lookup_tuple P id2 with
      | Some i1, Some i2 =>
        opt_eqb (tname i1) (tname i2) && Nat.eqb (length (tfields i1)) (length (tfields i2))
        && fields_ref r (tfields i1) (tfields i2)
      | _, _ => false
      end
    | TTuple cid, TPartial pn pf =>
      match lookup_tuple P cid with
      | Some ci => name_fits (tname ci) pn && covers r tuple_label (tfields ci) pf
      | None => false
      end
    | TPartial n1 f1, TPartial n2 f2 => name_fits n1 n2 && covers r Nat.eqb f1 f2
    | TProcess (Some s1) (Some r1), TProcess (Some s2) (Some r2) => r s1 s2 && r r1 r2
    | TCallable p1 r1 c1, TCallable p2 r2 c2 => r p2 p1 && r r1 r2 && r c2 c1
    | _, _ => false
    end.

  (* types.rs:320-367: a union on the left is taken apart first, then one on the right *)
  Definition ref_arm (r : nat -> nat -> bool) (s p : nat) (ts tp : ty) : bool :=
    match union_variants ts with
    | Some vs => forallb (fun v => r v p) vs
    | None =>
      match union_variants tp with
      | Some ws => existsb (fun w => r s w) ws
      | None => struct_ref r ts tp
      end
    end.

  (* one unfolding, given the recursive call r *)
  Definition subref_step (r : nat -> nat -> bool) (s p : nat) : bool :=
    if Nat.eqb s p then true else
    match lookup_type P s, lookup_type P p with
    | Some ts, Some tp => ref_arm r s p ts tp
    | _, _ => false
    end.

  Fixpoint subref (fuel : nat) (s p : nat) : bool :=
    match fuel with
    | 0 => false
    | S f => subref_step (subref f) s p
    end.

  Definition R (s p : nat) : bool := subref (S (s + p)) s p.

  Lemma struct_ref_ext (r1 r2 : nat -> nat -> bool) ts tp :
    (forall x y, In x (children P ts) -> In y (children P tp) -> r1 x y = r2 x y /\ r1 y x = r2 y x) ->
    struct_ref r1 ts tp = struct_ref r2 ts tp.
  Proof.
    destruct ts as [| | |id1|n1 f1|p1 q1 c1| | |[s1|] [q1|]| |], tp as [| | |id2|n2 f2|p2 q2 c2| | |[s2|] [q2|]| |];
      try reflexivity; cbn.
    - destruct (Nat.eqb id1 id2); [reflexivity|].
      destruct (lookup_tuple P id1) as [i1|]; [|reflexivity]. destruct (lookup_tuple P id2) as [i2|]; [|reflexivity].
      intros H. f_equal. apply fields_ref_ext. intros a b Ha Hb. apply (H (snd a) (snd b)); apply in_map; assumption.
    - destruct (lookup_tuple P id1) as [i1|]; [|reflexivity].
      intros H. f_equal. apply covers_ext. intros a b Ha Hb. apply (H (snd a) (snd b)); apply in_map; assumption.
    - intros H. f_equal. apply covers_ext. intros a b Ha Hb. apply (H (snd a) (snd b)); apply in_map; assumption.
    - intros H. destruct (H p1 p2) as [_ Hp]; auto. destruct (H q1 q2) as [Hq _]; auto. destruct (H c1 c2) as [_ Hc]; auto.
      rewrite Hp, Hq, Hc. reflexivity.
    - intros H. destruct (H s1 s2) as [Hs _]; auto. destruct (H q1 q2) as [Hq _]; auto. rewrite Hs, Hq. reflexivity.
  Qed.

  Lemma struct_ref_trans (r : nat -> nat -> bool) ta tb tc :
    (forall x y z, In x (children P ta) -> In y (children P tb) -> In z (children P tc) ->
                   trans_at r x y z /\ trans_at r z y x) ->
    struct_ref r ta tb = true -> struct_ref r tb tc = true -> struct_ref r ta tc = true.
  Proof.
    destruct ta as [| | |ida|na fa|pa qa ca| | |[sa|] [qa|]|ra|], tb as [| | |idb|nb fb|pb qb cb| | |[sb|] [qb|]|rb|];
      try (intros _ Hab; discriminate Hab);
      destruct tc as [| | |idc|nc fc|pc qc cc| | |[sc|] [qc|]|rc|]; try (intros _ _ Hbc; discriminate Hbc); try reflexivity;
      cbn.
    - (* tuple, tuple, tuple: equal tuple ids compare like one *)
      destruct (Nat.eqb ida idb) eqn:E1; [apply Nat.eqb_eq in E1; subst idb; intros _ _ Hbc; exact Hbc|].
      destruct (Nat.eqb idb idc) eqn:E2; [apply Nat.eqb_eq in E2; subst idc; rewrite E1; intros _ Hab _; exact Hab|].
      destruct (Nat.eqb ida idc); [reflexivity|].
      destruct (lookup_tuple P ida) as [ia|]; [|intros _ Hab; discriminate Hab].
      destruct (lookup_tuple P idb) as [ib|]; [|intros _ Hab; discriminate Hab].
      destruct (lookup_tuple P idc) as [ic|]; [|intros _ _ Hbc; discriminate Hbc]. intros Htr Hab Hbc.
      apply andb_true_iff in Hab. destruct Hab as [Hab Hfab]. apply andb_true_iff in Hab. destruct Hab as [Hnab Hlab].
      apply andb_true_iff in Hbc. destruct Hbc as [Hbc Hfbc]. apply andb_true_iff in Hbc. destruct Hbc as [Hnbc Hlbc].
      apply opt_eqb_eq in Hnab. apply Nat.eqb_eq in Hlab. rewrite Hnab, Hnbc, Hlab, Hlbc. cbn.
      apply (fields_ref_trans r _ (tfields ib)); [assumption| |assumption|assumption].
      intros x y z Hx Hy Hz. apply (Htr (snd x) (snd y) (snd z)); apply in_map; assumption.
    - (* tuple, tuple, partial *)
      destruct (Nat.eqb ida idb) eqn:E1; [apply Nat.eqb_eq in E1; subst idb; intros _ _ Hbc; exact Hbc|].
      destruct (lookup_tuple P ida) as [ia|]; [|intros _ Hab; discriminate Hab].
      destruct (lookup_tuple P idb) as [ib|]; [|intros _ Hab; discriminate Hab]. intros Htr Hab Hbc.
      apply andb_true_iff in Hab. destruct Hab as [Hab Hfab]. apply andb_true_iff in Hab. destruct Hab as [Hnab Hlab].
      apply andb_true_iff in Hbc. destruct Hbc as [Hnbc Hfbc].
      apply opt_eqb_eq in Hnab. apply Nat.eqb_eq in Hlab. rewrite Hnab, Hnbc. cbn.
      apply (fields_covers_trans r _ _ (tfields ib)); try assumption.
      intros x y z Hx Hy Hz. apply (Htr (snd x) (snd y) (snd z)); apply in_map; assumption.
    - (* tuple, partial, partial *)
      destruct (lookup_tuple P ida) as [ia|]; [|intros _ Hab; discriminate Hab]. intros Htr Hab Hbc.
      apply andb_true_iff in Hab. destruct Hab as [Hnab Hfab]. apply andb_true_iff in Hbc. destruct Hbc as [Hnbc Hfbc].
      rewrite (name_fits_trans _ _ _ Hnab Hnbc). cbn.
      apply (covers_trans r _ _ fb); try assumption.
      intros x y z Hx Hy Hz. apply (Htr (snd x) (snd y) (snd z)); apply in_map; assumption.
    - (* partial, partial, partial *)
      intros Htr Hab Hbc.
      apply andb_true_iff in Hab. destruct Hab as [Hnab Hfab]. apply andb_true_iff in Hbc. destruct Hbc as [Hnbc Hfbc].
      rewrite (name_fits_trans _ _ _ Hnab Hnbc). cbn.
      apply (covers_trans r _ _ fb); try assumption.
      intros x y z Hx Hy Hz. apply (Htr (snd x) (snd y) (snd z)); apply in_map; assumption.
    - (* callable: parameter and receive type contravariant *)
      intros Htr Hab Hbc.
      apply andb_true_iff in Hab. destruct Hab as [Hab H3]. apply andb_true_iff in Hab. destruct Hab as [H1 H2].
      apply andb_true_iff in Hbc. destruct Hbc as [Hbc H6]. apply andb_true_iff in Hbc. destruct Hbc as [H4 H5].
      rewrite (proj2 (Htr pa pb pc ltac:(auto) ltac:(auto) ltac:(auto)) H4 H1),
              (proj1 (Htr qa qb qc ltac:(auto) ltac:(auto) ltac:(auto)) H2 H5),
              (proj2 (Htr ca cb cc ltac:(auto) ltac:(auto) ltac:(auto)) H6 H3). reflexivity.
    - (* process *)
      intros Htr Hab Hbc.
      apply andb_true_iff in Hab. destruct Hab as [H1 H2]. apply andb_true_iff in Hbc. destruct Hbc as [H4 H5].
      rewrite (proj1 (Htr sa sb sc ltac:(auto) ltac:(auto) ltac:(auto)) H1 H4),
              (proj1 (Htr qa qb qc ltac:(auto) ltac:(auto) ltac:(auto)) H2 H5). reflexivity.
    - (* resources *)
      intros _ Hab Hbc. apply Nat.eqb_eq in Hab. apply Nat.eqb_eq in Hbc. apply Nat.eqb_eq. congruence.
  Qed.

  Hypothesis Htopo : topo P.

  (* the step only looks at r on pairs of strictly smaller measure *)
  Lemma subref_step_ext (r1 r2 : nat -> nat -> bool) s p :
    (forall s' p', s' + p' < s + p -> r1 s' p' = r2 s' p') -> subref_step r1 s p = subref_step r2 s p.
  Proof.
    intros Hr. unfold subref_step. destruct (Nat.eqb s p); [reflexivity|].
    destruct (lookup_type P s) as [ts|] eqn:Hls; [|reflexivity]. destruct (lookup_type P p) as [tp|] eqn:Hlp; [|reflexivity].
    pose proof (Htopo s ts Hls) as Cs. pose proof (Htopo p tp Hlp) as Cp. unfold ref_arm.
    destruct (union_variants ts) as [vs|] eqn:Us.
    { apply union_variants_Some in Us. subst ts. apply forallb_ext_in. intros v Hv. apply Hr. specialize (Cs v Hv). lia. }
    destruct (union_variants tp) as [ws|] eqn:Up.
    { apply union_variants_Some in Up. subst tp. apply existsb_ext_in. intros w Hw. apply Hr. specialize (Cp w Hw). lia. }
    apply struct_ref_ext. intros x y Hx Hy. specialize (Cs x Hx). specialize (Cp y Hy). split; apply Hr; lia.
  Qed.

  Lemma subref_fuel : forall f1 f2 s p, s + p < f1 -> s + p < f2 -> subref f1 s p = subref f2 s p.
  Proof.
    induction f1 as [|f1 IH]; intros f2 s p H1 H2; [lia|]. destruct f2 as [|f2]; [lia|]. cbn [subref].
    apply subref_step_ext. intros s' p' Hlt. apply IH; lia.
  Qed.

  Lemma R_unfold s p : R s p = subref_step R s p.
  Proof.
    unfold R at 1. cbn [subref]. apply subref_step_ext. intros s' p' Hlt. unfold R. apply subref_fuel; lia.
  Qed.

  Lemma R_refl s : R s s = true.
  Proof. unfold R. cbn [subref]. unfold subref_step. rewrite Nat.eqb_refl. reflexivity. Qed.

  Lemma R_intro s p ts tp :
    lookup_type P s = Some ts -> lookup_type P p = Some tp -> ref_arm R s p ts tp = true -> R s p = true.
  Proof. intros Hs Hp H. rewrite R_unfold. unfold subref_step. rewrite Hs, Hp, H. destruct (Nat.eqb s p); reflexivity. Qed.

  Lemma R_inv s p : R s p = true ->
    s = p \/ exists ts tp, lookup_type P s = Some ts /\ lookup_type P p = Some tp /\ ref_arm R s p ts tp = true.
  Proof.
    rewrite R_unfold. unfold subref_step. destruct (Nat.eqb s p) eqn:E; [left; apply Nat.eqb_eq; exact E|].
    destruct (lookup_type P s) as [ts|]; [|discriminate]. destruct (lookup_type P p) as [tp|]; [|discriminate]. eauto 6.
  Qed.

  Theorem R_trans a b c : R a b = true -> R b c = true -> R a c = true.
  Proof.
    revert a b c.
    enough (H : forall n a b c, a + b + c < n -> R a b = true -> R b c = true -> R a c = true)
      by (intros a b c; apply (H (S (a + b + c))); lia).
    induction n as [|n IH]; intros a b c Hn Hab Hbc; [lia|].
    destruct (R_inv _ _ Hab) as [->|(ta & tb & Hla & Hlb & Hab')]; [exact Hbc|].
    destruct (R_inv _ _ Hbc) as [<-|(tb' & tc & Hlb' & Hlc & Hbc')]; [exact Hab|].
    rewrite Hlb in Hlb'. injection Hlb' as <-.
    pose proof (Htopo a ta Hla) as Ca. pose proof (Htopo b tb Hlb) as Cb. pose proof (Htopo c tc Hlc) as Cc.
    unfold ref_arm in Hab', Hbc'.
    destruct (union_variants ta) as [vs|] eqn:Ua.
    { (* every variant of a is below b, hence below c *)
      apply union_variants_Some in Ua. subst ta. apply (R_intro _ _ _ _ Hla Hlc). cbn.
      rewrite forallb_forall in *. intros v Hv. specialize (Ca v Hv). apply (IH v b c); [lia|apply Hab'; exact Hv|exact Hbc]. }
    destruct (union_variants tb) as [ws|] eqn:Ub.
    { (* a is below a variant of b, and they all are below c *)
      apply union_variants_Some in Ub. subst tb. apply existsb_exists in Hab'. destruct Hab' as [w [Hw Haw]].
      rewrite forallb_forall in Hbc'. specialize (Cb w Hw). apply (IH a w c); [lia|exact Haw|apply Hbc'; exact Hw]. }
    apply (R_intro _ _ _ _ Hla Hlc). unfold ref_arm. rewrite Ua.
    destruct (union_variants tc) as [us|] eqn:Uc.
    { (* b is below a variant of c *)
      apply union_variants_Some in Uc. subst tc. apply existsb_exists in Hbc'. destruct Hbc' as [u [Hu Hbu]].
      apply existsb_exists. exists u. split; [exact Hu|]. specialize (Cc u Hu). apply (IH a b u); [lia|exact Hab|exact Hbu]. }
    apply (struct_ref_trans R ta tb tc); [|exact Hab'|exact Hbc'].
    intros x y z Hx Hy Hz. specialize (Ca x Hx). specialize (Cb y Hy). specialize (Cc z Hz).
    split; intros H1 H2; [apply (IH x y z)|apply (IH z y x)]; assumption || lia.
  Qed.
End Ref.

Arguments R : simpl never.
