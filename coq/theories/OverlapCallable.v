(* OverlapCallable.v — overlap_complete on the cycle-free fragment WITH callable and process types,
   for the model variants that contain the F25 repair (ANY mode: two callable types, and two process
   types, always overlap): a `false` of types_overlap is a proof of disjointness for ints, bins, refs,
   resources, tuples, unions, callables and processes (a callable never shares a value with a
   non-callable, a process with a non-process). *)
From Quiver Require Import Base Types Rel Sem SemProofs RelProofs OverlapProofs.
From Coq Require Import Arith.
Close Scope Z_scope.
Open Scope nat_scope.

Fixpoint focb (P : registry) (k : nat) (t : nat) : bool :=
  match k with
  | 0 => false
  | S k' =>
    match lookup_type P t with
    | Some TInteger | Some TBinary | Some TReference | Some (TResource _) => true
    | Some (TCallable _ _ _) | Some (TProcess _ _) => true
    | Some (TUnion vs) => forallb (focb P k') vs
    | Some (TTuple tid) =>
      match lookup_tuple P tid with
      | Some info => forallb (fun f => focb P k' (snd f)) (tfields info)
      | None => false
      end
    | _ => false
    end
  end.

Lemma focb_frag P : forall k t, focb P k t = true -> frag P true false t.
Proof.
  induction k as [|k IH]; intros t H; [discriminate|]. cbn in H.
  destruct (lookup_type P t) as [ty|] eqn:Hl; [|discriminate].
  destruct ty as [| | |tid|pn fs|p r rc|d|vs|s r|r|v]; try discriminate.
  - eapply frag_int; eassumption.
  - eapply frag_bin; eassumption.
  - eapply frag_ref; eassumption.
  - destruct (lookup_tuple P tid) as [info|] eqn:Ht; [|discriminate].
    eapply frag_tuple; [eassumption|eassumption|]. rewrite forallb_forall in H. intros f Hf. apply IH. apply H. exact Hf.
  - eapply frag_callable; [reflexivity|eassumption].
  - eapply frag_union; [eassumption|]. rewrite forallb_forall in H. intros u Hu. apply IH. apply H. exact Hu.
  - eapply frag_process; [reflexivity|eassumption].
  - eapply frag_res; eassumption.
Qed.

(* first-order + callable + process (components of callables / processes unconstrained) *)
Definition foc_domain (P : registry) (t : nat) : bool := focb P (S (length (types P))) t.

Theorem overlap_complete_foc : forall cfg P fuel a b r,
  cfg_any_callable cfg = true ->
  foc_domain P a = true -> foc_domain P b = true ->
  types_overlap_with cfg fuel P a b = Some r ->
  (exists n v, inhab P n [] v a /\ inhab P n [] v b) -> r = true.
Proof.
  intros cfg P fuel a b r Hany Ha Hb.
  apply (overlap_complete_nopartial cfg P true); [intros _; exact Hany|eapply focb_frag; exact Ha|eapply focb_frag; exact Hb].
Qed.
