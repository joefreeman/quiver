(* CompatProofs.v — the runtime type-test tables (Compat.v) are exactly the relation
   "the tag's type is assignable to the pattern" (table_is_relation), with the tag's type given by
   the FIRST matching entry of the type table (first-occurrence rule); consequences for IsType
   (sound relative to C09's compat_sound, complete under explicit hypotheses) and for the
   parameter tables (permissive only when absent). *)
From Quiver Require Import Base Types Rel Sem SemProofs RelProofs TypesProofs Compat.
From Coq Require Import Arith Lia.
Close Scope Z_scope.
Open Scope nat_scope.

Lemma position_snoc {A} (pred : A -> bool) l x :
  position pred (l ++ [x]) =
  match position pred l with
  | Some i => Some i
  | None => if pred x then Some (length l) else None
  end.
Proof.
  induction l as [|a l IH]; cbn.
  - destruct (pred x); reflexivity.
  - destruct (pred a); [reflexivity|]. rewrite IH. destruct (position pred l); cbn; [reflexivity|].
    destruct (pred x); reflexivity.
Qed.

Lemma pair_eqb_eq a b : pair_eqb a b = true <-> a = b.
Proof.
  destruct a, b. unfold pair_eqb. cbn. rewrite andb_true_iff, !Nat.eqb_eq. split; [intros [-> ->]; reflexivity|intros H; inversion H; auto].
Qed.

Lemma opt_eqb_iff a b : opt_eqb a b = true <-> a = b.
Proof.
  split; [apply opt_eqb_true|intros ->; apply opt_eqb_refl].
Qed.

Lemma opair_eqb_eq a b : opair_eqb a b = true <-> a = b.
Proof.
  destruct a, b. unfold opair_eqb. cbn. rewrite andb_true_iff, !opt_eqb_iff. split; [intros [-> ->]; reflexivity|intros H; inversion H; auto].
Qed.

Section Assoc.
  Context {K : Type} (eqb : K -> K -> bool).
  Hypothesis eqb_eq : forall a b, eqb a b = true <-> a = b.

  Lemma assoc_app k (m : list (K * nat)) k0 v :
    assoc eqb k (m ++ [(k0, v)]) =
    match assoc eqb k m with Some w => Some w | None => if eqb k k0 then Some v else None end.
  Proof.
    induction m as [|[k1 v1] m IH]; cbn; [reflexivity|]. destruct (eqb k k1); [reflexivity|exact IH].
  Qed.

  Lemma assoc_or_insert k (m : list (K * nat)) k0 v :
    assoc eqb k (or_insert eqb m k0 v) =
    match assoc eqb k m with Some w => Some w | None => if eqb k k0 then Some v else None end.
  Proof.
    unfold or_insert. destruct (assoc eqb k0 m) eqn:E0.
    - destruct (assoc eqb k m) eqn:E; [reflexivity|].
      destruct (eqb k k0) eqn:Ek; [|reflexivity]. apply eqb_eq in Ek. subst. congruence.
    - apply assoc_app.
  Qed.
End Assoc.

Lemma nth_error_set_if_none l i x j :
  nth_error (set_if_none l i x) j =
  if Nat.eqb j i then match nth_error l i with Some None => Some (Some x) | o => o end
  else nth_error l j.
Proof.
  revert i j. induction l as [|o l IH]; intros i j; cbn.
  - destruct (Nat.eqb j i); destruct i, j; reflexivity.
  - destruct i as [|i].
    + destruct j as [|j]; cbn; destruct o; reflexivity.
    + destruct j as [|j]; cbn; [destruct o; reflexivity|]. destruct o; cbn; apply IH.
Qed.

Lemma length_set_if_none l i x : length (set_if_none l i x) = length l.
Proof.
  revert i. induction l as [|o l IH]; intros i; cbn; [reflexivity|].
  destruct i; destruct o; cbn; try rewrite IH; reflexivity.
Qed.

Definition is_int (t : ty) : bool := match t with TInteger => true | _ => false end.
Definition is_bin (t : ty) : bool := match t with TBinary => true | _ => false end.
Definition is_ref (t : ty) : bool := match t with TReference => true | _ => false end.
Definition is_tuple (tid : nat) (t : ty) : bool := match t with TTuple x => Nat.eqb tid x | _ => false end.
Definition never_at (P : registry) (rc : nat) : bool :=
  match lookup_type P rc with Some r => is_never r | None => false end.
Definition is_callable_never (P : registry) (key : nat * nat) (t : ty) : bool :=
  match t with TCallable p r rc => pair_eqb key (p, r) && never_at P rc | _ => false end.
Definition is_process (key : option nat * option nat) (t : ty) : bool :=
  match t with TProcess s r => opair_eqb key (s, r) | _ => false end.
Definition is_resource (name : nat) (t : ty) : bool :=
  match t with TResource n => Nat.eqb name n | _ => false end.

Section Index.
  Variable P : registry.
  Let ntup := length (tuples P).

  Definition IxInv (ix : type_index) (pre : list ty) : Prop :=
    ix_integer ix = position is_int pre /\
    ix_binary ix = position is_bin pre /\
    ix_reference ix = position is_ref pre /\
    length (ix_tuple_to_type ix) = ntup /\
    (forall tid, tid < ntup -> nth_error (ix_tuple_to_type ix) tid = Some (position (is_tuple tid) pre)) /\
    (forall key, assoc pair_eqb key (ix_callable_to_type ix) = position (is_callable_never P key) pre) /\
    (forall key, assoc opair_eqb key (ix_process_to_type ix) = position (is_process key) pre) /\
    (forall n, assoc Nat.eqb n (ix_resource_to_type ix) = position (is_resource n) pre).

  Lemma goi_spec (pred : ty -> bool) pre t :
    get_or_insert (position pred pre) (length pre) = (if pred t then position pred (pre ++ [t]) else get_or_insert (position pred pre) (length pre)).
  Proof.
    rewrite position_snoc. destruct (position pred pre); cbn; destruct (pred t); reflexivity.
  Qed.

  Lemma index_step_fields ix n t : index_step P ix n t = mk_index
    (if is_int t then get_or_insert (ix_integer ix) n else ix_integer ix)
    (if is_bin t then get_or_insert (ix_binary ix) n else ix_binary ix)
    (if is_ref t then get_or_insert (ix_reference ix) n else ix_reference ix)
    (match t with TTuple tid => set_if_none (ix_tuple_to_type ix) tid n | _ => ix_tuple_to_type ix end)
    (match t with
     | TCallable p r rc => if never_at P rc then or_insert pair_eqb (ix_callable_to_type ix) (p, r) n else ix_callable_to_type ix
     | _ => ix_callable_to_type ix
     end)
    (match t with TProcess s r => or_insert opair_eqb (ix_process_to_type ix) (s, r) n | _ => ix_process_to_type ix end)
    (match t with TResource name => or_insert Nat.eqb (ix_resource_to_type ix) name n | _ => ix_resource_to_type ix end).
  Proof.
    destruct ix, t; try reflexivity. unfold index_step, never_at.
    destruct (match lookup_type P receive with Some r => is_never r | None => false end); reflexivity.
  Qed.

  (* every slot keeps the first id of its shape (position_snoc); only a type of that shape touches it *)
  Lemma IxInv_step ix pre t : IxInv ix pre -> IxInv (index_step P ix (length pre) t) (pre ++ [t]).
  Proof.
    intros (Hi & Hb & Hr & Hlen & Ht & Hc & Hp & Hs). rewrite index_step_fields. unfold IxInv.
    cbn [ix_integer ix_binary ix_reference ix_tuple_to_type ix_callable_to_type ix_process_to_type ix_resource_to_type].
    assert (Hopt : forall pred o, o = position pred pre ->
                   (if pred t then get_or_insert o (length pre) else o) = position pred (pre ++ [t])).
    { intros pred o ->. rewrite position_snoc. destruct (pred t), (position pred pre); reflexivity. }
    assert (Hkeep : forall pred : ty -> bool, pred t = false -> position pred (pre ++ [t]) = position pred pre).
    { intros pred Hf. rewrite position_snoc, Hf. destruct (position pred pre); reflexivity. }
    split; [apply Hopt, Hi|]. split; [apply Hopt, Hb|]. split; [apply Hopt, Hr|]. repeat split.
    - destruct t; rewrite ?length_set_if_none; exact Hlen.
    - intros tid0 Hlt. destruct t as [| | |tid| | | | | | |]; try (rewrite Hkeep by reflexivity; exact (Ht tid0 Hlt)).
      rewrite nth_error_set_if_none, position_snoc. cbn [is_tuple].
      destruct (Nat.eqb tid0 tid) eqn:E; [apply Nat.eqb_eq in E; subst tid0|];
        rewrite (Ht _ Hlt); destruct (position (is_tuple _) pre); reflexivity.
    - intros key. destruct t as [| | | | |p r rc| | | | |]; try (rewrite Hkeep by reflexivity; exact (Hc key)).
      rewrite position_snoc. cbn [is_callable_never]. destruct (never_at P rc).
      + rewrite (assoc_or_insert pair_eqb pair_eqb_eq), Hc, andb_true_r. reflexivity.
      + rewrite Hc, andb_false_r. destruct (position (is_callable_never P key) pre); reflexivity.
    - intros key. destruct t as [| | | | | | | |s r| |]; try (rewrite Hkeep by reflexivity; exact (Hp key)).
      rewrite (assoc_or_insert opair_eqb opair_eqb_eq), Hp, position_snoc. reflexivity.
    - intros n. destruct t as [| | | | | | | | |rn|]; try (rewrite Hkeep by reflexivity; exact (Hs n)).
      rewrite (assoc_or_insert Nat.eqb Nat.eqb_eq), Hs, position_snoc. reflexivity.
  Qed.

  Lemma IxInv_pass : forall ts ix pre, IxInv ix pre -> IxInv (index_pass P ix (length pre) ts) (pre ++ ts).
  Proof.
    induction ts as [|t ts IH]; intros ix pre H; cbn.
    - rewrite app_nil_r. exact H.
    - replace (pre ++ t :: ts) with ((pre ++ [t]) ++ ts) by (rewrite <- app_assoc; reflexivity).
      replace (S (length pre)) with (length (pre ++ [t])) by (rewrite app_length; cbn; lia).
      apply IH. apply IxInv_step. exact H.
  Qed.

  (* TypeIndex::build computes, for every shape, the FIRST type id of that shape *)
  Theorem build_index_spec : IxInv (build_index P) (types P).
  Proof.
    unfold build_index. apply (IxInv_pass (types P) _ []).
    unfold IxInv; cbn. repeat split; try reflexivity.
    - apply repeat_length.
    - intros tid Hlt. apply nth_error_repeat. exact Hlt.
  Qed.
End Index.

Lemma In_enumerate_from {A} (l : list A) : forall s i x,
  In (i, x) (enumerate_from s l) <-> s <= i /\ nth_error l (i - s) = Some x.
Proof.
  induction l as [|a l IH]; intros s i x; cbn.
  - split; [intros []|intros [_ H]; destruct (i - s); discriminate].
  - rewrite IH. split.
    + intros [H|[Hle Hn]]; [inversion H; subst; split; [lia|rewrite Nat.sub_diag; reflexivity]|].
      split; [lia|]. replace (i - s) with (S (i - S s)) by lia. exact Hn.
    + intros [Hle Hn]. destruct (Nat.eq_dec i s) as [->|Hne].
      * rewrite Nat.sub_diag in Hn. cbn in Hn. inversion Hn. left; reflexivity.
      * right. split; [lia|]. replace (i - s) with (S (i - S s)) in Hn by lia. exact Hn.
Qed.

Lemma In_flat_enum {A B} (g : nat * A -> list B) (l : list A) (c : B) :
  In c (flat_map g (enumerate_from 0 l)) <-> exists i x, nth_error l i = Some x /\ In c (g (i, x)).
Proof.
  rewrite in_flat_map. split.
  - intros [[i x] [Hin Hc]]. apply In_enumerate_from in Hin. destruct Hin as [_ Hn].
    rewrite Nat.sub_0_r in Hn. exists i, x. auto.
  - intros [i [x [Hn Hc]]]. exists (i, x). split; [|exact Hc].
    apply In_enumerate_from. split; [lia|rewrite Nat.sub_0_r; exact Hn].
Qed.

Section Relation.
  Variable cfg : rel_cfg.
  Variable fuel : nat.
  Variable I : compat_input.
  Let P := ci_reg I.
  Let PX := ci_xreg I.

  (* the type a tag stands for: the FIRST entry of the type table of the tag's shape *)
  Definition type_of_tag (c : ctag) : option nat :=
    match c with
    | CInteger => position is_int (types PX)
    | CBinary => position is_bin (types PX)
    | CReference => position is_ref (types PX)
    | CTuple tid => if tid <? length (tuples PX) then position (is_tuple tid) (types PX) else None
    | CFunction f => option_map f_type_id (nth_error (ci_functions I) f)
    | CBuiltin b =>
      match nth_error (ci_builtins I) b with
      | Some key => position (is_callable_never PX key) (types PX)
      | None => None
      end
    | CProcess f =>
      match nth_error (ci_functions I) f with
      | Some fi => let '(_, _, s, r) := extract_function_type_info P fi in position (is_process (s, r)) (types PX)
      | None => None
      end
    | CResource r =>
      match nth_error (ci_resources I) r with
      | Some name => position (is_resource name) (types PX)
      | None => None
      end
    end.

  (* a primitive without an entry in the type table is accepted exactly by itself and by `never`
     (compatibility.rs:245-250, 257-261, 268-272) *)
  Definition prim_fallback (c : ctag) (t : nat) : bool :=
    match lookup_type PX t with
    | Some pattern =>
      match c with
      | CInteger => is_int pattern || is_never pattern
      | CBinary => is_bin pattern || is_never pattern
      | CReference => is_ref pattern || is_never pattern
      | _ => false
      end
    | None => false
    end.

  Definition accepts (c : ctag) (t : nat) : bool :=
    match type_of_tag c with
    | Some tau => compat cfg fuel PX tau t
    | None => prim_fallback c t
    end.

  Lemma In_prim_check found is_prim tag t c :
    type_of_tag tag = found ->
    prim_fallback tag t = match lookup_type PX t with Some pattern => is_prim pattern || is_never pattern | None => false end ->
    In c (prim_check cfg fuel PX found is_prim tag t) <-> c = tag /\ accepts tag t = true.
  Proof.
    intros Htag Hfb. unfold accepts, prim_check. rewrite Htag, Hfb. destruct found as [id|].
    - destruct (compat cfg fuel PX id t); cbn; intuition congruence.
    - destruct (lookup_type PX t) as [pattern|]; [|cbn; intuition congruence].
      destruct (is_prim pattern || is_never pattern); cbn; intuition congruence.
  Qed.

  Lemma extract_callable fi : snd (fst (fst (extract_function_type_info P fi))) = f_type_id fi.
  Proof. unfold extract_function_type_info. destruct (lookup_type P (f_type_id fi)) as [[]|]; reflexivity. Qed.

  (* the other five segments enumerate a table `l`; entry x of it stands for the type `ty_of x` *)
  Lemma In_rows {A} (tag : nat -> ctag) (ty_of : A -> option nat) (g : nat * A -> list ctag) (l : list A) t c :
    (forall i x, g (i, x) = match ty_of x with Some id => if compat cfg fuel PX id t then [tag i] else [] | None => [] end) ->
    (forall i, type_of_tag (tag i) = match nth_error l i with Some x => ty_of x | None => None end) ->
    (forall i, prim_fallback (tag i) t = false) ->
    In c (flat_map g (enumerate_from 0 l)) <-> exists i, c = tag i /\ accepts (tag i) t = true.
  Proof.
    intros Hg Htag Hfb. rewrite In_flat_enum. unfold accepts. split.
    - intros (i & x & Hn & Hin). rewrite Hg in Hin. exists i. rewrite Htag, Hn.
      destruct (ty_of x) as [id|]; [|destruct Hin]. destruct (compat cfg fuel PX id t); [|destruct Hin].
      destruct Hin as [<-|[]]. auto.
    - intros (i & -> & H). rewrite Htag in H. destruct (nth_error l i) as [x|] eqn:Hn; [|rewrite Hfb in H; discriminate].
      exists i, x. split; [exact Hn|]. rewrite Hg. destruct (ty_of x) as [id|]; [|rewrite Hfb in H; discriminate].
      rewrite H. left; reflexivity.
  Qed.

  Theorem table_is_relation : forall c t,
    In c (compute_compatible_concrete_types cfg fuel I PX (build_index PX) t) <-> accepts c t = true.
  Proof.
    intros c t.
    destruct (build_index_spec PX) as (Hi & Hb & Hr & Hlen & Ht & Hc & Hp & Hs).
    assert (Hfb : forall c', c' <> CInteger -> c' <> CBinary -> c' <> CReference -> prim_fallback c' t = false).
    { intros c' H1 H2 H3. unfold prim_fallback. destruct (lookup_type PX t), c'; congruence. }
    unfold compute_compatible_concrete_types. fold P. fold PX. rewrite !in_app_iff.
    rewrite !In_prim_check by (symmetry; assumption || reflexivity).
    rewrite (In_rows CTuple (fun o => o)); [|reflexivity| |intros; apply Hfb; discriminate].
    2: { (* the vector of tuple entries has one slot per tuple id *)
      intros i. unfold type_of_tag. destruct (i <? length (tuples PX)) eqn:E.
      - apply Nat.ltb_lt in E. rewrite (Ht i E). reflexivity.
      - apply Nat.ltb_ge in E. rewrite <- Hlen in E. apply nth_error_None in E. rewrite E. reflexivity. }
    rewrite (In_rows CFunction (fun fi => Some (f_type_id fi))); [| | |intros; apply Hfb; discriminate].
    2: { intros i x. cbn. pose proof (extract_callable x) as Hx.
         destruct (extract_function_type_info P x) as [[[pa ca] se] re]. cbn in Hx. subst ca. reflexivity. }
    2: { intros i. cbn. destruct (nth_error (ci_functions I) i); reflexivity. }
    rewrite (In_rows CBuiltin (fun key => position (is_callable_never PX key) (types PX)));
      [|intros i x; cbn; rewrite Hc; reflexivity|reflexivity|intros; apply Hfb; discriminate].
    rewrite (In_rows CProcess (fun fi => let '(_, _, s, r) := extract_function_type_info P fi in
                                         position (is_process (s, r)) (types PX)));
      [| |reflexivity|intros; apply Hfb; discriminate].
    2: { intros i x. cbn. destruct (extract_function_type_info P x) as [[[pa ca] se] re]. rewrite Hp. reflexivity. }
    rewrite (In_rows CResource (fun name => position (is_resource name) (types PX)));
      [|intros i x; cbn; rewrite Hs; reflexivity|reflexivity|intros; apply Hfb; discriminate].
    split.
    - intros [[-> H]|[[-> H]|[[-> H]|[[i [-> H]]|[[i [-> H]]|[[i [-> H]]|[[i [-> H]]|[i [-> H]]]]]]]]]; exact H.
    - intros H. destruct c as [| | |i|i|i|i|i];
        [left|right; left|do 2 right; left|do 3 right; left|do 4 right; left|do 5 right; left|do 6 right; left|do 7 right]; eauto.
  Qed.
End Relation.

Lemma ctag_eqb_eq a b : ctag_eqb a b = true <-> a = b.
Proof.
  destruct a, b; cbn; try (split; [discriminate|discriminate]); try (split; reflexivity);
    (rewrite Nat.eqb_eq; split; [intros ->; reflexivity|intros H; inversion H; reflexivity]).
Qed.

Lemma mem_tag_In c s : mem_tag c s = true <-> In c s.
Proof.
  unfold mem_tag. rewrite existsb_exists. split.
  - intros [x [Hin Heq]]. apply ctag_eqb_eq in Heq. subst. exact Hin.
  - intros Hin. exists c. split; [exact Hin|apply ctag_eqb_eq; reflexivity].
Qed.

Lemma nth_error_seq s n i : i < n -> nth_error (seq s n) i = Some (s + i).
Proof.
  revert s i. induction n as [|n IH]; intros s i H; [lia|]. destruct i as [|i]; cbn.
  - f_equal. lia.
  - rewrite IH by lia. f_equal. lia.
Qed.

Section IsType.
  Variable cfg : rel_cfg.
  Variable fuel : nat.
  Variable I : compat_input.
  Let P := ci_reg I.
  Let PX := ci_xreg I.
  Let table := compute_type_compatibility cfg fuel I.

  Definition is_pattern (t : nat) : bool := existsb (Nat.eqb t) (pattern_type_ids I).

  (* handle_is_type answers Ok exactly when: t is a registered type id that some IsType instruction
     names, and the tag's type is assignable to it *)
  Theorem istype_is_relation : forall c t,
    check_type_compatible table c t = true <->
    t < length (types P) /\ is_pattern t = true /\ accepts cfg fuel I c t = true.
  Proof.
    intros c t. unfold check_type_compatible, table, compute_type_compatibility. fold P. fold PX.
    rewrite nth_error_map. destruct (Nat.lt_ge_cases t (length (types P))) as [Hlt|Hge].
    - rewrite nth_error_seq by exact Hlt. cbn [option_map Nat.add]. unfold is_pattern.
      destruct (existsb (Nat.eqb t) (pattern_type_ids I)).
      + rewrite mem_tag_In. unfold PX. rewrite (table_is_relation cfg fuel I c t). intuition.
      + cbn. intuition discriminate.
    - replace (nth_error (seq 0 (length (types P))) t) with (@None nat)
        by (symmetry; apply nth_error_None; rewrite seq_length; exact Hge).
      cbn. split; [discriminate|lia].
  Qed.

  Lemma not_accepted c t : accepts cfg fuel I c t = false -> check_type_compatible table c t = false.
  Proof.
    intros Ha. destruct (check_type_compatible table c t) eqn:E; [|reflexivity].
    apply istype_is_relation in E. destruct E as (_ & _ & E). congruence.
  Qed.

  (* a tuple id without a `Type::Tuple(tid)` entry in the type table is never accepted *)
  Corollary no_tuple_entry_never_accepted : forall tid t,
    position (is_tuple tid) (types PX) = None -> check_type_compatible table (CTuple tid) t = false.
  Proof.
    intros tid t Hpos. apply not_accepted. unfold accepts, type_of_tag, prim_fallback. fold PX. rewrite Hpos.
    destruct (tid <? length (tuples PX)); destruct (lookup_type PX t); reflexivity.
  Qed.

  (* istype_sound, relative to C09's compat_sound: on the fragment where assignability is proved
     sound, an accepted value that inhabits its tag's type inhabits the pattern type *)
  Theorem istype_sound : forall c t tau n v,
    cfg_retract cfg = true ->
    check_type_compatible table c t = true ->
    type_of_tag I c = Some tau ->
    cf_domain cfg PX tau = true -> cf_domain cfg PX t = true ->
    inhab PX n [] v tau -> inhab PX n [] v t.
  Proof.
    intros c t tau n v Hret Hchk Htag Hd1 Hd2 Hv.
    apply istype_is_relation in Hchk. destruct Hchk as (_ & _ & Hacc).
    unfold accepts in Hacc. rewrite Htag in Hacc. unfold compat in Hacc. fold PX in Hacc.
    destruct (is_compatible_with cfg fuel PX tau t) as [[|]|] eqn:Hc; try discriminate.
    exact (compat_sound_cf cfg PX fuel tau t Hret Hd1 Hd2 Hc n v Hv).
  Qed.

  (* a value whose tag has a type entry (`type_of_tag I c = Some tau`) and whose tag type is assignable
     to its static type S is accepted by every pattern S is assignable to, given transitivity of
     is_compatible at (tau, S, t).  With the first two premises at hand the last hypothesis amounts to
     `tau` being assignable to `t`: nothing else about S is used. *)
  Theorem istype_complete : forall c t tau S,
    t < length (types P) -> is_pattern t = true ->
    type_of_tag I c = Some tau ->
    is_compatible_with cfg fuel PX tau S = Some true ->
    is_compatible_with cfg fuel PX S t = Some true ->
    (is_compatible_with cfg fuel PX tau S = Some true -> is_compatible_with cfg fuel PX S t = Some true ->
     is_compatible_with cfg fuel PX tau t = Some true) ->
    check_type_compatible table c t = true.
  Proof.
    intros c t tau S Hlt Hpat Htag H1 H2 Htrans. apply istype_is_relation. repeat split; try assumption.
    unfold accepts. rewrite Htag. unfold compat. fold PX. rewrite (Htrans H1 H2). reflexivity.
  Qed.

  (* without a type entry (F70: the process type of the top-level function is not in the type table)
     the tag is never accepted, whatever the pattern.  The second hypothesis says that c is not one of
     the three primitives (take p := c). *)
  Theorem no_type_entry_never_accepted : forall c t,
    type_of_tag I c = None -> (forall p, c <> p \/ (p <> CInteger /\ p <> CBinary /\ p <> CReference)) ->
    check_type_compatible table c t = false.
  Proof.
    intros c t Htag Hnp. apply not_accepted. unfold accepts. rewrite Htag. unfold prim_fallback.
    destruct (lookup_type (ci_xreg I) t); [|reflexivity].
    destruct c; try reflexivity.
    - destruct (Hnp CInteger) as [H|[H _]]; congruence.
    - destruct (Hnp CBinary) as [H|[_ [H _]]]; congruence.
    - destruct (Hnp CReference) as [H|[_ [_ H]]]; congruence.
  Qed.

  Theorem param_tables_cover : forall fp bp,
    compute_param_compatibility cfg fuel I = (fp, bp) ->
    length fp = length (ci_functions I) /\ length bp = length (ci_builtins I).
  Proof. intros fp bp H. unfold compute_param_compatibility in H. inversion H. rewrite !map_length. auto. Qed.

  (* a receive filter is permissive (accepts a message it has no row for) only when the row is absent *)
  Theorem param_table_permissive_only_when_absent : forall fp bp c f row,
    nth_error fp f = Some row ->
    check_message_compatible fp bp c (SrcFunction f) = mem_tag c row.
  Proof. intros fp bp c f row H. cbn. rewrite H. reflexivity. Qed.

  Theorem param_table_absent_is_permissive : forall fp bp c f,
    nth_error fp f = None -> check_message_compatible fp bp c (SrcFunction f) = true.
  Proof. intros fp bp c f H. cbn. rewrite H. reflexivity. Qed.

  (* with the tables computed (param_compat = true) every function has a row, and the row is the
     relation "tag type assignable to the function's parameter type" *)
  Theorem param_row_is_relation : forall fp bp c f fi,
    param_tables cfg fuel I true = (fp, bp) -> nth_error (ci_functions I) f = Some fi ->
    check_message_compatible fp bp c (SrcFunction f) =
    accepts cfg fuel I c (fst (fst (fst (extract_function_type_info P fi)))).
  Proof.
    intros fp bp c f fi H Hn. cbn in H. unfold compute_param_compatibility in H. inversion H; subst. cbn.
    rewrite nth_error_map, Hn. cbn. fold P.
    destruct (extract_function_type_info P fi) as [[[pa ca] se] re]. cbn.
    apply eq_true_iff_eq. rewrite <- (table_is_relation cfg fuel I c pa). exact (mem_tag_In c _).
  Qed.
End IsType.

Lemma position_exists {A} (pred : A -> bool) l : (exists x, In x l /\ pred x = true) -> position pred l <> None.
Proof.
  induction l as [|a l IH]; intros [x [Hin Hp]]; [destruct Hin|]. cbn.
  destruct (pred a) eqn:Ea; [discriminate|].
  destruct Hin as [->|Hin]; [congruence|].
  destruct (position pred l) eqn:Epos; [discriminate|]. exfalso. apply IH; [exists x; auto|reflexivity].
Qed.

Lemma process_types_pass_covers P : forall fs known f s r pa ca,
  In f fs -> extract_function_type_info P f = (pa, ca, Some s, r) ->
  existsb (opair_eqb (Some s, r)) known = true \/ In (TProcess (Some s) r) (process_types_pass P known fs).
Proof.
  induction fs as [|f0 fs IH]; intros known f s r pa ca Hin Hex; [destruct Hin|]. cbn [process_types_pass].
  destruct (extract_function_type_info P f0) as [[[pa0 ca0] s0] r0] eqn:Hex0.
  destruct Hin as [->|Hin].
  - rewrite Hex in Hex0. inversion Hex0; subst pa0 ca0 s0 r0.
    destruct (existsb (opair_eqb (Some s, r)) known) eqn:Ek; [left; reflexivity|right; left; reflexivity].
  - destruct s0 as [s0|]; [|exact (IH known f s r pa ca Hin Hex)].
    destruct (existsb (opair_eqb (Some s0, r0)) known) eqn:Ek; [exact (IH known f s r pa ca Hin Hex)|].
    destruct (IH ((Some s0, r0) :: known) f s r pa ca Hin Hex) as [H|H]; [|right; right; exact H].
    cbn [existsb] in H. apply orb_true_iff in H. destruct H as [H|H]; [|left; exact H].
    apply opair_eqb_eq in H. inversion H; subst. right; left; reflexivity.
Qed.

Lemma known_keys_in_types P key :
  existsb (opair_eqb key) (known_process_keys P) = true -> exists t, In t (types P) /\ is_process key t = true.
Proof.
  intros H. apply existsb_exists in H. destruct H as [k [Hin Hk]]. apply opair_eqb_eq in Hk. subst k.
  unfold known_process_keys in Hin. apply in_flat_map in Hin. destruct Hin as [t [Ht Hin]].
  exists t. split; [exact Ht|]. destruct t; try (destruct Hin; fail). destruct Hin as [<-|[]].
  cbn. apply opair_eqb_eq. reflexivity.
Qed.

(* F70 (fix 5eb967d): the tables are computed over the program's types extended with the process type of
   every function that has none, so the process tag of EVERY function has a type entry *)
Theorem process_has_type_entry : forall I f fi p r rc,
  nth_error (ci_functions I) f = Some fi ->
  lookup_type (ci_reg I) (f_type_id fi) = Some (TCallable p r rc) ->
  exists tau, type_of_tag I (CProcess f) = Some tau.
Proof.
  intros I f fi p r rc Hn Hl. unfold type_of_tag. rewrite Hn.
  assert (Hex : extract_function_type_info (ci_reg I) fi = (p, f_type_id fi, Some rc, Some r))
    by (unfold extract_function_type_info; rewrite Hl; reflexivity).
  rewrite Hex.
  destruct (position (is_process (Some rc, Some r)) (types (ci_xreg I))) as [tau|] eqn:Hpos; [eauto|exfalso].
  revert Hpos. apply position_exists. unfold ci_xreg. cbn [types].
  destruct (process_types_pass_covers (ci_reg I) (ci_functions I) (known_process_keys (ci_reg I)) fi rc (Some r) p (f_type_id fi)
              (nth_error_In _ _ Hn) Hex) as [H|H].
  - destruct (known_keys_in_types _ _ H) as [t [Ht Hp]]. exists t. split; [apply in_or_app; left; exact Ht|exact Hp].
  - exists (TProcess (Some rc) (Some r)). split; [apply in_or_app; right; exact H|]. cbn. apply opair_eqb_eq. reflexivity.
Qed.

Theorem xreg_keeps_ids : forall I i t, lookup_type (ci_reg I) i = Some t -> lookup_type (ci_xreg I) i = Some t.
Proof.
  intros I i t H. unfold lookup_type, ci_xreg in *. cbn [types]. apply nth_error_app_some. exact H.
Qed.
