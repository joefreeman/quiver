(* Witness.v — concrete type graphs on which the real functions (and the model variant that mirrors
   them) violate a C09 statement as found, and the answers of the repaired variants on the same graphs,
   checked by vm_compute.  Each registry literal is the dump of the real `Program` after the `(ops ..)`
   shown above it (harness qv_types), with the answers the code gave when the defect was found; the
   probes are replayed against the real code by ./check C09 (corpus/c09_graphs.txt).  Membership is
   judged by the executable `inhabb` of Sem.v (`memb` below). *)
From Quiver Require Import Base Types Rel Sem Narrow.
From Coq Require Import Arith.
Close Scope Z_scope.
Open Scope nat_scope.

(* (ops (tu 0) (tu 1) (tu 2) (tuple 2) (tuple 3) (tuple 4) (union 0 1) (tu 3 (- 3)) (tuple 5) (tu 3 (- 4)) (tuple 6) (tu 3 (- 0)) (tuple 7) (tu 3 (- 6)) (tuple 8) (union 6 2) (tu 3 (- 8)) (tuple 9) (union 7 9)) (qs (compat 5 10)) : real answers ['0'] *)
Definition reg_F7 : registry :=
  mk_reg
    [mk_tuple None []; mk_tuple (Some name_ok) []; mk_tuple (Some 0) []; mk_tuple (Some 1) []; mk_tuple (Some 2) []; mk_tuple (Some 3) [(None, 3)]; mk_tuple (Some 3) [(None, 4)]; mk_tuple (Some 3) [(None, 0)]; mk_tuple (Some 3) [(None, 6)]; mk_tuple (Some 3) [(None, 8)]]
    [TTuple 2; TTuple 3; TTuple 4; TUnion [0; 1]; TTuple 5; TTuple 6; TTuple 7; TTuple 8; TUnion [6; 2]; TTuple 9; TUnion [7; 9]].

(* (ops (int) (bin) (cycle 1) (tu 0 (- 2)) (tuple 2) (union 0 3) (tu 0 (- 0)) (tuple 3) (union 5 1)) (qs (overlap 4 6) (overlap 6 4)) : real answers ['1', '1'] *)
Definition reg_F12 : registry :=
  mk_reg
    [mk_tuple None []; mk_tuple (Some name_ok) []; mk_tuple (Some 0) [(None, 2)]; mk_tuple (Some 0) [(None, 0)]]
    [TInteger; TBinary; TCycle 1; TTuple 2; TUnion [0; 3]; TTuple 3; TUnion [5; 1]].

(* (ops (int) (bin) (tuple 0) (cycle 2) (union 2 3) (tu 0 (- 4)) (tuple 2) (union 0 5) (union 1 5) (tu 0 (- 0)) (tuple 3) (tu 1 (- 8) (- 8)) (tuple 4) (tu 1 (- 6) (- 7)) (tuple 5)) (qs (compat 9 10)) : real answers ['1'] *)
Definition reg_F23a : registry :=
  mk_reg
    [mk_tuple None []; mk_tuple (Some name_ok) []; mk_tuple (Some 0) [(None, 4)]; mk_tuple (Some 0) [(None, 0)]; mk_tuple (Some 1) [(None, 8); (None, 8)]; mk_tuple (Some 1) [(None, 6); (None, 7)]]
    [TInteger; TBinary; TTuple 0; TCycle 2; TUnion [2; 3]; TTuple 2; TUnion [0; 5]; TUnion [1; 5]; TTuple 3; TTuple 4; TTuple 5].

(* (ops (tuple 0) (tu 5) (tuple 2) (cycle 2) (tu 1 (- 2)) (tuple 3) (union 1 3) (tu 0 (- 4)) (tuple 4) (cycle 1) (tu 2 (- 6)) (tuple 5) (union 0 5 7) (tu 2 (- 1)) (tuple 6) (tu 1 (- 9)) (tuple 7) (tu 0 (- 10)) (tuple 8)) (qs (compat 11 8)) : real answers ['1'] *)
Definition reg_F23c : registry :=
  mk_reg
    [mk_tuple None []; mk_tuple (Some name_ok) []; mk_tuple (Some 5) []; mk_tuple (Some 1) [(None, 2)]; mk_tuple (Some 0) [(None, 4)]; mk_tuple (Some 2) [(None, 6)]; mk_tuple (Some 2) [(None, 1)]; mk_tuple (Some 1) [(None, 9)]; mk_tuple (Some 0) [(None, 10)]]
    [TTuple 0; TTuple 2; TCycle 2; TTuple 3; TUnion [1; 3]; TTuple 4; TCycle 1; TTuple 5; TUnion [0; 5; 7]; TTuple 6; TTuple 7; TTuple 8].

(* (ops (int) (bin) (union) (fn 0 0 2) (fn 1 0 2) (union 0 1) (fn 5 0 2)) (qs (overlap 3 4)) : real answers ['0'] *)
Definition reg_F25fn : registry :=
  mk_reg
    [mk_tuple None []; mk_tuple (Some name_ok) []]
    [TInteger; TBinary; TUnion []; TCallable 0 0 2; TCallable 1 0 2; TUnion [0; 1]; TCallable 5 0 2].

(* (ops (int) (partial - (0 0)) (tu 0 (0 0)) (tuple 2)) (qs (overlap 1 2) (overlap 2 1)) : real answers ['0', '1'] *)
Definition reg_F25partial : registry :=
  mk_reg
    [mk_tuple None []; mk_tuple (Some name_ok) []; mk_tuple (Some 0) [((Some 0), 0)]]
    [TInteger; TPartial None [(0, 0)]; TTuple 2].

(* (ops (int) (partial - (0 0)) (partial 0 (0 0)) (tu 1 (0 0)) (tuple 2)) (qs (compat 1 2)) : real answers ['1'] *)
Definition reg_Pname : registry :=
  mk_reg
    [mk_tuple None []; mk_tuple (Some name_ok) []; mk_tuple (Some 1) [((Some 0), 0)]]
    [TInteger; TPartial None [(0, 0)]; TPartial (Some 0) [(0, 0)]; TTuple 2].


Definition memb (P : registry) (v : value) (t : nat) : bool := inhabb P 64 400 6 [] v t.
Definition tup (n : nat) (fs : list value) : value := VTup (Some n) (map (fun v => (None, v)) fs).

(* a violation of assignability => containment on (P, a, b): accepted, both in the domain, and a
   value of a that is not a value of b *)
Definition compat_violation (cfg : rel_cfg) (P : registry) (a b : nat) (v : value) : bool :=
  closedb P a && closedb P b
  && match is_compatible_with cfg 1000 P a b with Some true => true | _ => false end
  && memb P v a && negb (memb P v b).

(* a violation of overlap completeness: answered "disjoint" although v inhabits both *)
Definition overlap_violation (cfg : rel_cfg) (P : registry) (a b : nat) (v : value) : bool :=
  closedb P a && closedb P b
  && match types_overlap_with cfg 1000 P a b with Some false => true | _ => false end
  && memb P v a && memb P v b.

(* F7: Wrap[Wrap[A|B]] vs Wrap[Wrap[A]] | Wrap[Wrap[A]|O]; value Wrap[Wrap[B]] *)
Definition v_F7 : value := tup 3 [tup 3 [tup 1 []]].
Lemma F7_legacy : compat_violation legacy_cfg reg_F7 5 10 v_F7 = true.
Proof. vm_compute. reflexivity. Qed.
Lemma F7_repaired : is_compatible_with current_cfg 1000 reg_F7 5 10 = Some false.
Proof. vm_compute. reflexivity. Qed.

(* F12: 'int | B[^] vs B['int] | 'bin; value B[0] *)
Definition v_F12 : value := tup 0 [VInt 0%Z].
Lemma F12_legacy : overlap_violation legacy_cfg reg_F12 4 6 v_F12 = true.
Proof. vm_compute. reflexivity. Qed.
Lemma F12_f7_only : overlap_violation f7_cfg reg_F12 4 6 v_F12 = true.
Proof. vm_compute. reflexivity. Qed.
Lemma F12_repaired : types_overlap_with current_cfg 1000 reg_F12 4 6 = Some true
                     /\ types_overlap_with current_cfg 1000 reg_F12 6 4 = Some true.
Proof. vm_compute. split; reflexivity. Qed.

(* F23 (a): p = Nil | ^2 shared by W1 = int | Box[p] and W2 = bin | Box[p];
   Pair[Box[int], Box[int]] is accepted for Pair[W1, W2] although Box[int] is not in W2 *)
Definition v_F23a : value := tup 1 [tup 0 [VInt 0%Z]; tup 0 [VInt 0%Z]].
Lemma F23a_current : compat_violation current_cfg reg_F23a 9 10 v_F23a = true.
Proof. vm_compute. reflexivity. Qed.

(* F23 (c): T = Nil | A[U] | C[^1], U = Nil2 | B[^2]; A[B[C[Nil2]]] is accepted for T *)
Definition v_F23c : value := tup 0 [tup 1 [tup 2 [tup 5 []]]].
Lemma F23c_current : compat_violation current_cfg reg_F23c 11 8 v_F23c = true.
Proof. vm_compute. reflexivity. Qed.

(* F25: fn(int)->int and fn(bin)->int are answered disjoint although a function declared
   fn(int|bin)->int belongs to both; a partial on the self side never overlaps a tuple *)
Lemma F25_callable_as_found : overlap_violation f55_cfg reg_F25fn 3 4 (VFun 6) = true.
Proof. vm_compute. reflexivity. Qed.
Lemma F25_callable_repaired : types_overlap_with current_cfg 1000 reg_F25fn 3 4 = Some true.
Proof. vm_compute. reflexivity. Qed.
Definition v_F25p : value := VTup (Some 0) [(Some 0, VInt 0%Z)].
Lemma F25p_as_found : overlap_violation fixed_cfg reg_F25partial 1 2 v_F25p = true.
Proof. vm_compute. reflexivity. Qed.
Lemma F25p_repaired : types_overlap_with current_cfg 1000 reg_F25partial 1 2 = Some true
                      /\ types_overlap_with current_cfg 1000 reg_F25partial 2 1 = Some true.
Proof. vm_compute. split; reflexivity. Qed.

(* F29: unnamed partial accepted where a named partial is expected: (x:int) vs N0(x:int); value N1[x: 0] *)
Definition v_Pname : value := VTup (Some 1) [(Some 0, VInt 0%Z)].
Lemma F29_as_found : compat_violation fixed_cfg reg_Pname 1 2 v_Pname = true.
Proof. vm_compute. reflexivity. Qed.
Lemma F29_repaired : is_compatible_with current_cfg 1000 reg_Pname 1 2 = Some false.
Proof. vm_compute. reflexivity. Qed.

(* F24: complement(muX. N1 | N0[X] | bin, bin) = muY. N1 | N0[Y], which drops N0[bin] *)
Definition reg_F24 : registry :=
  mk_reg [mk_tuple None []; mk_tuple (Some name_ok) []; mk_tuple (Some 1) []; mk_tuple (Some 0) [(None, 2)]]
         [TBinary; TTuple 2; TCycle 1; TTuple 3; TUnion [1; 3; 0]].
Definition v_F24 : value := tup 0 [VBin []].

(* a violation of complement_keeps: v is in o, not in nr, and not in compute_complement o nr *)
Definition complement_violation (cfg : rel_cfg) (P : registry) (o nr : nat) (v : value) : bool :=
  closedb P o && closedb P nr &&
  match compute_complement cfg 1000 1000 P o nr with
  | Some (P', r) => memb P v o && negb (memb P v nr) && negb (memb P' v r)
  | None => false
  end.

(* a violation of intersect_keeps: v is in a and in b, and not in intersect_types a b *)
Definition intersect_violation (cfg : rel_cfg) (P : registry) (a b : nat) (v : value) : bool :=
  closedb P a && closedb P b &&
  match intersect_types cfg 1000 1000 P a b with
  | Some (P', r) => memb P v a && memb P v b && negb (memb P' v r)
  | None => false
  end.

Lemma F24_current : complement_violation current_cfg reg_F24 4 0 v_F24 = true.
Proof. vm_compute. reflexivity. Qed.

(* F25 through intersect_types: fn(int)->int /\ fn(bin)->int used to be `never` although fn(int|bin)->int is
   in both; since 79f9965 (F25b) intersect_pair builds the exact meet fn(int|bin)->int *)
Lemma F25_intersect_repaired : intersect_violation current_cfg reg_F25fn 3 4 (VFun 6) = false.
Proof. vm_compute. reflexivity. Qed.

(* filter_variants_by_field: parent = A[x: int|bin] | B[x: int]; after a test of field x against int
   succeeded the is_compatible test keeps only B (A's field type is not ASSIGNABLE to int), dropping A[x: 0] *)
Definition reg_filter : registry :=
  mk_reg [mk_tuple None []; mk_tuple (Some name_ok) []; mk_tuple (Some 0) [(Some 0, 2)]; mk_tuple (Some 1) [(Some 0, 0)]]
         [TInteger; TBinary; TUnion [0; 1]; TTuple 2; TTuple 3; TUnion [3; 4]].
Definition v_filter : value := VTup (Some 0) [(Some 0, VInt 0%Z)].

(* a violation of filter_keeps: the tuple value is in the parent, its field idx is in `must`, and the
   value is not in filter_variants_by_field's result *)
Definition filter_violation (cfg : rel_cfg) (by_overlap : bool) (P : registry) (parent idx must : nat) (v fv : value) : bool :=
  closedb P parent && closedb P must &&
  match filter_variants_by_field cfg 1000 by_overlap P parent idx must with
  | Some (P', r) => memb P v parent && memb P fv must && negb (memb P' v r)
  | None => false
  end.

Lemma F87_as_found : filter_violation current_cfg false reg_filter 5 0 0 v_filter (VInt 0%Z) = true.
Proof. vm_compute. reflexivity. Qed.
Lemma F87_repaired : filter_violation current_cfg current_filter_by_overlap reg_filter 5 0 0 v_filter (VInt 0%Z) = false
  /\ match filter_variants_by_field current_cfg 1000 current_filter_by_overlap reg_filter 5 0 0 with
     | Some (P', r) => memb P' v_filter r | None => false end = true.
Proof. vm_compute. split; reflexivity. Qed.
