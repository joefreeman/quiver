(* NumReal.v — the sign decision of the surd kernel agrees with the sign of a + b sqrt n in the real
   numbers.  This is the only file of the C20 cone that uses Coq's classical Reals (and therefore
   the standard-library axioms of Reals); everything else is axiom-free. *)
From Coq Require Import QArith Reals Qreals Lra Psatz.
From Quiver Require Import Base Num NumProofs NumSurd.

Lemma Q2R_inject_Z n : Q2R (inject_Z n) = IZR n.
Proof. unfold Q2R, inject_Z. cbn [Qnum Qden]. rewrite Rinv_1. ring. Qed.

Lemma Qcompare_R x y :
  match (x ?= y)%Q with
  | Eq => Q2R x = Q2R y
  | Lt => (Q2R x < Q2R y)%R
  | Gt => (Q2R y < Q2R x)%R
  end.
Proof. destruct (Qcompare_spec x y); [apply Qeq_eqR | apply Qlt_Rlt | apply Qlt_Rlt]; assumption. Qed.

Definition rsgn (v : R) (s : Z) : Prop :=
  (s = 1%Z <-> (0 < v)%R) /\ (s = (-1)%Z <-> (v < 0)%R) /\ (s = 0%Z <-> v = 0%R).

Lemma rsgn_zcmp x y : rsgn (Q2R x - Q2R y) (zcmp (x ?= y)%Q).
Proof.
  pose proof (Qcompare_R x y) as H. unfold rsgn. destruct (x ?= y)%Q; cbn [zcmp];
    repeat split; intros; try lia; try lra.
Qed.

Theorem surd_sign_real qa qb n : (0 < n)%Z ->
  rsgn (Q2R qa + Q2R qb * R_sqrt.sqrt (IZR n)) (surd_sign qa qb n).
Proof.
  (* with r = sqrt n: (B r - A)(B r + A) = B^2 n - A^2, and in the mixed-sign cases one factor has a
     known sign (Hpos), so the squares comparison decides the other; the rest is linear *)
  intros Hn. set (A := Q2R qa). set (B := Q2R qb). set (N := IZR n).
  assert (HN : (0 < N)%R) by (apply IZR_lt; exact Hn).
  set (r := R_sqrt.sqrt N). assert (Hr : (0 < r)%R) by (apply sqrt_lt_R0; exact HN).
  assert (Hr2 : (r * r = N)%R) by (apply sqrt_sqrt; lra).
  unfold surd_sign.
  pose proof (Qcompare_R qb 0) as Cb. pose proof (Qcompare_R qa 0) as Ca.
  pose proof (Qcompare_R (qa * qa) (qb * qb * inject_Z n)) as Cd.
  rewrite RMicromega.Q2R_0 in Cb, Ca. rewrite !Q2R_mult, Q2R_inject_Z in Cd.
  fold A in Ca, Cd. fold B in Cb, Cd. fold N in Cd.
  assert (Hprod : ((B * r - A) * (B * r + A) = B * B * N - A * A)%R) by (rewrite <- Hr2; ring).
  unfold rsgn.
  destruct (qb ?= 0)%Q.
  - (* b = 0 *) rewrite Cb. replace (A + 0 * r)%R with A by ring.
    destruct (qa ?= 0)%Q; cbn [zcmp]; repeat split; intros; try lia; try lra.
  - (* b < 0 *)
    destruct (qa ?= 0)%Q.
    + repeat split; intros; try lia; try nra.
    + repeat split; intros; try lia; try nra.
    + (* a > 0 > b: compare a^2 with b^2 n *)
      assert (Hpos : (0 < A - B * r)%R) by nra.
      destruct (qa * qa ?= qb * qb * inject_Z n)%Q; cbn [zcmp]; repeat split; intros; try lia; try nra.
  - (* b > 0 *)
    destruct (qa ?= 0)%Q.
    + repeat split; intros; try lia; try nra.
    + (* a < 0 < b *)
      assert (Hpos : (0 < B * r - A)%R) by nra.
      destruct (qa * qa ?= qb * qb * inject_Z n)%Q; cbn [zcmp]; repeat split; intros; try lia; try nra.
    + repeat split; intros; try lia; try nra.
Qed.

Theorem ssign_real a b n : canon a -> canon b -> (0 < n)%Z ->
  exists s, ssign a b n = Val s /\ rsgn (Q2R (qval a) + Q2R (qval b) * R_sqrt.sqrt (IZR n)) s.
Proof.
  intros Ca Cb Hn. exists (surd_sign (qval a) (qval b) n). split; [apply ssign_spec; assumption |].
  apply surd_sign_real. exact Hn.
Qed.

Theorem compare_surd_real x y : wf_num x -> wf_num y -> is_surd x \/ is_surd y ->
  (exists a b n c d m, x = NSurd a b n /\ y = NSurd c d m /\ n <> m /\ compare (Some x) (Some y) = Val None) \/
  (exists n px py s, (1 < n)%Z /\ denotes x n px /\ denotes y n py /\ compare (Some x) (Some y) = Val (Some s) /\
     rsgn ((Q2R (fst px) + Q2R (snd px) * R_sqrt.sqrt (IZR n)) - (Q2R (fst py) + Q2R (snd py) * R_sqrt.sqrt (IZR n))) s).
Proof.
  intros Hx Hy Hs. destruct (compare_surd x y Hx Hy Hs) as [H | (n & px & py & Hn & _ & Dx & Dy & E)]; [left; exact H |].
  right. exists n, px, py, (surd_sign (fst (psub px py)) (snd (psub px py)) n).
  split; [exact Hn |]. split; [exact Dx |]. split; [exact Dy |]. split; [exact E |].
  pose proof (surd_sign_real (fst (psub px py)) (snd (psub px py)) n ltac:(lia)) as H.
  unfold psub in H. cbn [fst snd] in H. unfold Qminus in H. rewrite !Q2R_plus, !Q2R_opp in H.
  match goal with |- rsgn ?v _ => replace v with
    (Q2R (fst px) + - Q2R (fst py) + (Q2R (snd px) + - Q2R (snd py)) * R_sqrt.sqrt (IZR n))%R by ring end.
  exact H.
Qed.
