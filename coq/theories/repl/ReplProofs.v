(* The bookkeeping invariant of the REPL (every variable's slot holds its value) through compaction,
   a line and orphan release; what a rejected line leaves behind; a program cut into lines. *)
From Coq Require Import List Arith Bool PeanoNat Lia Permutation.
From Quiver Require Import Base repl.Repl.
Import ListNotations.
Local Open Scope nat_scope.

(* The predicates in which the theorems of props/C11.v are stated. *)
Section Spec.
  Context {V : Type}.

  (* The invariant: every bound variable's slot holds the variable's value.  The theorems state it
     on `forget s`, the session as the REPL sees it whenever it compacts or looks a variable up: a
     line that short-circuits leaves variables bound whose slots were never stored, and `forget`
     drops exactly those. *)
  Definition aligned (val : name -> V) (s : @session V) : Prop :=
    forall x i, In (x, BVar i) (s_bindings s) -> nth_error (s_locals s) i = Some (val x).

  Definition in_range (s : @session V) : Prop :=
    forall x i, In (x, BVar i) (s_bindings s) -> i < length (s_locals s).

  (* What the compiler must deliver for the bookkeeping to stay aligned (its slot discipline):
     every variable of the new map is either an old variable at its compacted slot with its old
     value, or lives in a slot at or after the line's parameter slot n (= local_count = physical
     length after compaction), and then — IF the line stored that slot at all — the slot holds the
     variable's value.  A variable whose slot was never stored (the line short-circuited before its
     step) needs nothing: the REPL forgets it. *)
  Definition line_wf (s1 : @session V) (c : compiled) (r : @ran V) (val val' : name -> V) : Prop :=
    forall x i, In (x, BVar i) (c_bindings c) ->
      (i < length (s_locals s1) /\ In (x, BVar i) (s_bindings s1) /\ val' x = val x) \/
      (c_has_expr c = true /\ length (s_locals s1) <= i /\
       (i < length (s_locals s1 ++ s_result s1 :: r_stored r) ->
        nth_error (s_result s1 :: r_stored r) (i - length (s_locals s1)) = Some (val' x))).
End Spec.

Section SplitSpec.
  Context {V env step : Type}.
  Variable exec : step -> env -> V -> env * V.
  Variable isnil : V -> bool.
  Notation run_seq := (run_seq exec isnil).

  (* for every line: it is empty, or its value is not nil, or no step follows it (a nil at the
     very end skips nothing in the one program either) *)
  Fixpoint lines_nil_free (ls : list (list step)) (e : env) (v : V) : Prop :=
    match ls with
    | [] => True
    | l :: r =>
        let (e', v') := run_seq l e v in
        (l = [] \/ isnil v' = false \/ concat r = []) /\ lines_nil_free r e' v'
    end.
End SplitSpec.

Lemma Forall2_In_r {A B} (R : A -> B -> Prop) l l' y :
  Forall2 R l l' -> In y l' -> exists x, In x l /\ R x y.
Proof.
  induction 1 as [|a b l l' Hab _ IH]; intros Hin; [destruct Hin|].
  destruct Hin as [<-|Hin]; [exists a; cbn; auto|].
  destruct (IH Hin) as (x & ? & ?). exists x. cbn. auto.
Qed.

Lemma Forall2_In_l {A B} (R : A -> B -> Prop) l l' x :
  Forall2 R l l' -> In x l -> exists y, In y l' /\ R x y.
Proof.
  induction 1 as [|a b l l' Hab _ IH]; intros Hin; [destruct Hin|].
  destruct Hin as [<-|Hin]; [exists b; cbn; auto|].
  destruct (IH Hin) as (y & ? & ?). exists y. cbn. auto.
Qed.

Lemma insert_perm x l : Permutation (x :: l) (insert x l).
Proof.
  induction l as [|a l IH]; cbn [insert]; [reflexivity|].
  destruct (x <=? a); [reflexivity|].
  etransitivity; [apply perm_swap|apply perm_skip, IH].
Qed.

Lemma sort_perm l : Permutation l (sort l).
Proof.
  induction l as [|a l IH]; cbn [sort]; [constructor|].
  etransitivity; [apply perm_skip, IH|apply insert_perm].
Qed.

Fixpoint sorted (l : list nat) : Prop :=
  match l with
  | [] => True
  | x :: r => (forall y, In y r -> x <= y) /\ sorted r
  end.

Lemma insert_sorted x l : sorted l -> sorted (insert x l).
Proof.
  induction l as [|a l IH]; cbn [insert sorted]; intros Hs.
  - split; [intros y []|exact I].
  - destruct Hs as [Ha Hs]. destruct (Nat.leb_spec x a) as [E|E]; cbn [sorted].
    + split; [|split; assumption].
      intros y [<-|Hy]; [assumption|]. specialize (Ha y Hy). lia.
    + split; [|auto].
      intros y Hy. apply (Permutation_in _ (Permutation_sym (insert_perm x l))) in Hy.
      destruct Hy as [<-|Hy]; [lia|auto].
Qed.

Lemma sort_sorted l : sorted (sort l).
Proof. induction l as [|a l IH]; cbn [sort]; [exact I|]. now apply insert_sorted. Qed.

Lemma sorted_nth_le l i j a b :
  sorted l -> i <= j -> nth_error l i = Some a -> nth_error l j = Some b -> a <= b.
Proof.
  revert i j. induction l as [|x l IH]; intros i j Hs Hij Hi Hj; [destruct i; discriminate|].
  destruct Hs as [Hx Hs]. destruct i as [|i], j as [|j]; cbn [nth_error] in *.
  - injection Hi as <-. injection Hj as <-. lia.
  - injection Hi as <-. apply Hx. eapply nth_error_In; eassumption.
  - lia.
  - apply (IH i j); auto. lia.
Qed.

Lemma sorted_last_max l d : sorted l -> l <> [] -> forall y, In y l -> y <= last l d.
Proof.
  induction l as [|a l IH]; intros Hs Hne y Hy; [congruence|].
  destruct Hs as [Ha Hs]. destruct l as [|b l]; [destruct Hy as [<-|[]]; cbn; lia|].
  change (last (a :: b :: l) d) with (last (b :: l) d).
  (* a is below the head b of the rest, which is below the last element *)
  specialize (IH Hs ltac:(discriminate)).
  destruct Hy as [<-|Hy]; [|exact (IH y Hy)].
  specialize (Ha b (or_introl eq_refl)). specialize (IH b (or_introl eq_refl)). lia.
Qed.

Lemma index_mapping_from_S st keep old :
  index_mapping_from (S st) keep old = option_map S (index_mapping_from st keep old).
Proof.
  revert st. induction keep as [|a keep IH]; intros st; cbn [index_mapping_from]; [reflexivity|].
  rewrite (IH (S st)). destruct (index_mapping_from (S st) keep old); [reflexivity|].
  now destruct (Nat.eqb a old).
Qed.

Lemma index_mapping_spec keep old :
  match index_mapping keep old with
  | Some j => nth_error keep j = Some old /\ forall k, nth_error keep k = Some old -> k <= j
  | None => ~ In old keep
  end.
Proof.
  unfold index_mapping. induction keep as [|a keep IH]; cbn [index_mapping_from]; [intros []|].
  rewrite index_mapping_from_S. destruct (index_mapping_from 0 keep old) as [j|]; cbn [option_map].
  - destruct IH as [Hn Hlast]. split; [exact Hn|].
    intros [|k]; cbn [nth_error]; intros Hk; [apply Nat.le_0_l|]. now apply le_n_S, Hlast.
  - destruct (Nat.eqb_spec a old) as [->|Hne].
    + split; [reflexivity|].
      intros [|k]; cbn [nth_error]; intros Hk; [apply le_n|]. apply nth_error_In in Hk. contradiction.
    + intros [?|?]; contradiction.
Qed.

Lemma index_mapping_Some keep old j :
  index_mapping keep old = Some j ->
  nth_error keep j = Some old /\ forall k, nth_error keep k = Some old -> k <= j.
Proof. intros E. generalize (index_mapping_spec keep old). now rewrite E. Qed.

Lemma index_mapping_In keep old : In old keep -> exists j, index_mapping keep old = Some j.
Proof.
  intros Hin. generalize (index_mapping_spec keep old).
  destruct (index_mapping keep old) as [j|]; [eauto|contradiction].
Qed.

Lemma index_mapping_leb keep a b ja jb :
  sorted keep -> index_mapping keep a = Some ja -> index_mapping keep b = Some jb ->
  (a <=? b) = (ja <=? jb).
Proof.
  intros Hs Ha Hb.
  destruct (index_mapping_Some _ _ _ Ha) as [Hna _], (index_mapping_Some _ _ _ Hb) as [Hnb _].
  destruct (Nat.leb_spec ja jb) as [Hj|Hj].
  - apply Nat.leb_le. exact (sorted_nth_le _ _ _ _ _ Hs Hj Hna Hnb).
  - apply Nat.leb_gt. pose proof (sorted_nth_le _ _ _ _ _ Hs (Nat.lt_le_incl _ _ Hj) Hnb Hna).
    (* b <= a, and a = b would give ja = jb *)
    destruct (Nat.eq_dec a b) as [->|]; [|lia]. rewrite Ha in Hb. injection Hb as ->. lia.
Qed.

Lemma var_indices_In b i : In i (var_indices b) <-> exists x, In (x, BVar i) b.
Proof.
  induction b as [|[y [k|]] b IH]; cbn [var_indices In]; rewrite ?IH.
  - split; [intros []|intros [_ []]].
  - split.
    + intros [<-|[x Hx]]; [exists y|exists x]; auto.
    + intros [x [[= _ <-]|Hx]]; eauto.
  - split; [intros [x Hx]; eauto|intros [x [[=]|Hx]]; eauto].
Qed.

Lemma keep_indices_var b i : In i (keep_indices b) <-> In i (var_indices b).
Proof. split; apply Permutation_in; [symmetry|]; apply sort_perm. Qed.

Lemma keep_indices_In b i : In i (keep_indices b) <-> exists x, In (x, BVar i) b.
Proof. now rewrite keep_indices_var, var_indices_In. Qed.

Lemma retain_below_filter n b :
  retain_below n b = filter (fun p => match snd p with BVar i => i <? n | BAlias => true end) b.
Proof.
  induction b as [|[y [k|]] b IH]; cbn; [reflexivity| |]; rewrite IH; [|reflexivity].
  now destruct (k <? n).
Qed.

Lemma retain_below_In n b x bd :
  In (x, bd) (retain_below n b) <-> In (x, bd) b /\ match bd with BVar i => i < n | BAlias => True end.
Proof.
  rewrite retain_below_filter, filter_In. cbn [snd].
  destruct bd as [i|]; [rewrite Nat.ltb_lt|]; tauto.
Qed.

Lemma lookup_In x b bd : lookup x b = Some bd -> In (x, bd) b.
Proof.
  induction b as [|[y bd'] b IH]; cbn [lookup]; [discriminate|].
  destruct (Nat.eqb_spec x y) as [->|_]; [intros [= <-]; now left|right; now apply IH].
Qed.

Inductive renumbered (keep : list nat) : name * binding -> name * binding -> Prop :=
| ren_var x i j : index_mapping keep i = Some j -> renumbered keep (x, BVar i) (x, BVar j)
| ren_alias x : renumbered keep (x, BAlias) (x, BAlias).

Lemma renumber_Forall2 keep b b' : renumber keep b = Val b' -> Forall2 (renumbered keep) b b'.
Proof.
  revert b'. induction b as [|[x [i|]] b IH]; intros b'; cbn [renumber].
  - intros [= <-]. constructor.
  - destruct (index_mapping keep i) as [j|] eqn:E; [|discriminate].
    destruct (renumber keep b) as [r| |]; cbn [obind]; [|discriminate..].
    intros [= <-]. constructor; [now constructor|now apply IH].
  - destruct (renumber keep b) as [r| |]; cbn [obind]; [|discriminate..].
    intros [= <-]. constructor; [constructor|now apply IH].
Qed.

Lemma renumber_total keep b : incl (var_indices b) keep -> exists b', renumber keep b = Val b'.
Proof.
  induction b as [|[x [i|]] b IH]; cbn [renumber var_indices]; intros Hk; [eauto| |].
  - apply incl_cons_inv in Hk as [Hi Hk]. apply index_mapping_In in Hi as [j ->].
    destruct (IH Hk) as [b' ->]. cbn. eauto.
  - destruct (IH Hk) as [b' ->]. cbn. eauto.
Qed.

Lemma renumbered_keys keep b b' : Forall2 (renumbered keep) b b' -> map fst b' = map fst b.
Proof. induction 1 as [|p q b b' [] _ IH]; cbn; now rewrite ?IH. Qed.

Lemma renumbered_In keep b b' x j :
  Forall2 (renumbered keep) b b' -> In (x, BVar j) b' ->
  exists i, In (x, BVar i) b /\ index_mapping keep i = Some j.
Proof.
  intros HF Hin. destruct (Forall2_In_r _ _ _ _ HF Hin) as (p & Hp & Hr).
  inversion Hr; subst. eauto.
Qed.

Lemma renumbered_var_indices keep b b' :
  Forall2 (renumbered keep) b b' ->
  Forall2 (fun i j => index_mapping keep i = Some j) (var_indices b) (var_indices b').
Proof. induction 1 as [|p q b b' [] _ IH]; cbn [var_indices]; auto. Qed.

(* `renumbered` on the entries of `vars_of` (name, index), which is what get_variables sorts *)
Definition moved (keep : list nat) (p q : name * nat) : Prop :=
  fst p = fst q /\ index_mapping keep (snd p) = Some (snd q).

Lemma moved_names keep l l' : Forall2 (moved keep) l l' -> map fst l' = map fst l.
Proof. induction 1 as [|p q l l' [Hpq _] _ IH]; cbn; [reflexivity|]. now rewrite Hpq, IH. Qed.

Lemma renumbered_vars_of keep b b' :
  Forall2 (renumbered keep) b b' -> Forall2 (moved keep) (vars_of b) (vars_of b').
Proof.
  induction 1 as [|p q b b' [] _ IH]; cbn [vars_of]; [constructor| |assumption].
  constructor; [split; [reflexivity|assumption]|assumption].
Qed.

Lemma renumbered_lookup keep b b' x :
  Forall2 (renumbered keep) b b' ->
  match lookup x b, lookup x b' with
  | Some bd, Some bd' => renumbered keep (x, bd) (x, bd')
  | None, None => True
  | _, _ => False
  end.
Proof.
  induction 1 as [|p q b b' [y i j Hj|y] _ IH]; cbn [lookup]; [exact I| |];
    (destruct (Nat.eqb_spec x y) as [->|_]; [now constructor|exact IH]).
Qed.

(* the `fold_right Nat.max 0` of local_count is the library's list_max, by conversion *)
Lemma local_count_ub b i : In i (var_indices b) -> i < local_count b.
Proof.
  unfold local_count. destruct (var_indices b) as [|a l]; [intros []|].
  intros Hin. apply Nat.lt_succ_r. revert i Hin.
  apply Forall_forall, (list_max_le (a :: l)), le_n.
Qed.

Lemma local_count_least b n : (forall i, In i (var_indices b) -> i < n) -> local_count b <= n.
Proof.
  unfold local_count. intros H. destruct (var_indices b) as [|a l] eqn:E; [lia|].
  apply Forall_forall, list_max_lt in H; [exact H|discriminate].
Qed.

(* compiler.rs (local_count): what the compiler computes from the renumbered map is the physical length
   of the compacted locals: this is why compaction is correctness-critical *)
Lemma renumbered_local_count keep b b' :
  incl keep (var_indices b) -> Forall2 (renumbered keep) b b' -> local_count b' = length keep.
Proof.
  intros Hp HF%renumbered_var_indices. apply Nat.le_antisymm.
  - (* every new index is a position in keep ... *)
    apply local_count_least. intros j Hj.
    destruct (Forall2_In_r _ _ _ _ HF Hj) as (i & _ & [Hn _]%index_mapping_Some).
    apply nth_error_Some. congruence.
  - (* ... and the index in the last position of keep is mapped to that position *)
    destruct (nth_error keep (length keep - 1)) as [m|] eqn:Em;
      [|apply nth_error_None in Em; lia].
    pose proof (Hp m (nth_error_In _ _ Em)) as Hm.
    destruct (Forall2_In_l _ _ _ _ HF Hm) as (j & Hj%local_count_ub & [_ Hlast]%index_mapping_Some).
    apply Hlast in Em. lia.
Qed.

(* get_variables is insensitive to a renumbering that preserves the order of the indices *)
Section SortByIndex.
  Variable R : name * nat -> name * nat -> Prop.
  Hypothesis R_leb : forall p q p' q', R p q -> R p' q' -> (snd p <=? snd p') = (snd q <=? snd q').

  Lemma insert_by_index_Forall2 p q l l' :
    R p q -> Forall2 R l l' -> Forall2 R (insert_by_index p l) (insert_by_index q l').
  Proof.
    intros Hpq HF. induction HF as [|a b l l' Hab HF IH]; cbn [insert_by_index].
    - constructor; [assumption|constructor].
    - rewrite (R_leb _ _ _ _ Hpq Hab). destruct (snd q <=? snd b).
      + constructor; [assumption|]. constructor; assumption.
      + constructor; assumption.
  Qed.

  Lemma sort_by_index_Forall2 l l' : Forall2 R l l' -> Forall2 R (sort_by_index l) (sort_by_index l').
  Proof.
    induction 1 as [|a b l l' Hab HF IH]; cbn [sort_by_index]; [constructor|].
    now apply insert_by_index_Forall2.
  Qed.
End SortByIndex.

Section Session.
  Context {V : Type}.
  Variable vnil : V.

  Lemma aligned_in_range val (s : @session V) : aligned val s -> in_range s.
  Proof. intros Ha x i Hin. apply nth_error_Some. rewrite (Ha x i Hin). discriminate. Qed.

  Lemma gather_total (ls : list V) keep :
    (forall i, In i keep -> i < length ls) -> exists ls', gather ls keep = WOk ls'.
  Proof.
    induction keep as [|a keep IH]; intros Hk; cbn [gather]; [eauto|].
    destruct (nth_error ls a) eqn:Ea.
    - destruct IH as [ls' ->]; [intros i Hi; apply Hk; now right|eauto].
    - apply nth_error_None in Ea. specialize (Hk a (or_introl eq_refl)). lia.
  Qed.

  Lemma gather_nth (ls ls' : list V) keep :
    gather ls keep = WOk ls' ->
    length ls' = length keep /\
    forall j i, nth_error keep j = Some i -> nth_error ls' j = nth_error ls i.
  Proof.
    revert ls'. induction keep as [|a keep IH]; intros ls'; cbn [gather].
    - intros [= <-]. split; [reflexivity|]. intros [|j] i; discriminate.
    - destruct (nth_error ls a) as [v|] eqn:Ea; [|discriminate].
      destruct (gather ls keep) as [l|]; [|discriminate].
      intros [= <-]. destruct (IH _ eq_refl) as [Hlen Hnth]. split; [cbn; now rewrite Hlen|].
      intros [|j] i; cbn [nth_error]; [intros [= <-]; now rewrite Ea|apply Hnth].
  Qed.

  Lemma release_from_nth keep (ls : list V) st i :
    nth_error (release_from vnil st ls keep) i =
    match nth_error ls i with
    | Some v => Some (if existsb (Nat.eqb (st + i)) keep then v else vnil)
    | None => None
    end.
  Proof.
    revert st i. induction ls as [|v ls IH]; intros st i; cbn [release_from].
    - destruct i; reflexivity.
    - destruct i as [|i]; cbn [nth_error].
      + now rewrite Nat.add_0_r.
      + rewrite IH. now replace (S st + i) with (st + S i) by lia.
  Qed.

  Lemma release_keeps keep (ls : list V) i :
    In i keep -> nth_error (release_orphan_locals vnil ls keep) i = nth_error ls i.
  Proof.
    intros Hin. unfold release_orphan_locals. rewrite release_from_nth. cbn [Nat.add].
    destruct (nth_error ls i); [|reflexivity].
    replace (existsb (Nat.eqb i) keep) with true; [reflexivity|].
    symmetry. apply existsb_exists. exists i. split; [assumption|apply Nat.eqb_refl].
  Qed.

  Lemma release_length keep (ls : list V) : length (release_orphan_locals vnil ls keep) = length ls.
  Proof.
    unfold release_orphan_locals. generalize 0. induction ls as [|v ls IH]; intros st; cbn; [reflexivity|].
    now rewrite IH.
  Qed.

  (* the session once the worker has released the orphans, with the keep-set of its own bindings *)
  Definition released (s : @session V) : @session V :=
    mkSession (s_bindings s) (release_orphan_locals vnil (s_locals s) (keep_indices (s_bindings s)))
              (s_result s) (s_lrt_nil s) (s_pending s).

  (* A fact of its own: the proof for a line cannot go through it, because the session before the
     release is not aligned (its never-stored variables address no slot); there `release_keeps` is
     applied to the variables that survive `forget`. *)
  Lemma release_aligned val (s : @session V) : aligned val s -> aligned val (released s).
  Proof.
    intros Ha x i Hin. cbn [released s_bindings s_locals] in *.
    rewrite release_keeps by (apply keep_indices_In; eauto). now apply Ha.
  Qed.

  Lemma forget_pending (s : @session V) : s_pending (forget s) = None.
  Proof. unfold forget. destruct (s_pending s) eqn:E; [reflexivity|assumption]. Qed.
  Lemma forget_idem (s : @session V) : forget (forget s) = forget s.
  Proof. unfold forget at 1. now rewrite forget_pending. Qed.
  Lemma forget_none (s : @session V) : s_pending s = None -> forget s = s.
  Proof. unfold forget. now intros ->. Qed.
  Lemma forget_fields (s : @session V) :
    s_locals (forget s) = s_locals s /\ s_result (forget s) = s_result s /\ s_lrt_nil (forget s) = s_lrt_nil s.
  Proof. unfold forget. destruct (s_pending s); repeat split. Qed.

  (* whatever a line bound, once the REPL has forgotten the variables beyond the reported locals
     count every remaining variable addresses an existing slot *)
  Lemma forget_in_range (s : @session V) n :
    s_pending s = Some n -> n <= length (s_locals s) -> in_range (forget s).
  Proof.
    intros Hp Hn x i Hin. unfold forget in *. rewrite Hp in *. cbn [s_bindings s_locals] in *.
    apply retain_below_In in Hin. lia.
  Qed.
End Session.

Lemma compact_core_total {V} (s : @session V) : in_range s -> exists s1, compact_core s = COk s1.
Proof.
  intros Hr. unfold compact_core.
  destruct (renumber_total (keep_indices (s_bindings s)) (s_bindings s)) as [b' ->];
    [exact (fun i => proj2 (keep_indices_var _ i))|].
  destruct (gather_total (s_locals s) (keep_indices (s_bindings s))) as [ls' ->]; [|eauto].
  intros i [x Hx]%keep_indices_In. exact (Hr x i Hx).
Qed.

Section Compacted.
  Context {V : Type} (s s1 : @session V).
  Hypothesis Hc : compact_core s = COk s1.

  Lemma compact_core_inv :
    renumber (keep_indices (s_bindings s)) (s_bindings s) = Val (s_bindings s1) /\
    gather (s_locals s) (keep_indices (s_bindings s)) = WOk (s_locals s1) /\
    s_result s1 = s_result s /\ s_lrt_nil s1 = s_lrt_nil s /\ s_pending s1 = s_pending s.
  Proof.
    revert Hc. unfold compact_core. destruct (renumber _ _) as [b'| |]; [|discriminate..].
    destruct (gather _ _) as [ls'|]; [|discriminate]. intros [= <-]. repeat split.
  Qed.

  Lemma compact_core_bindings :
    Forall2 (renumbered (keep_indices (s_bindings s))) (s_bindings s) (s_bindings s1).
  Proof. apply renumber_Forall2, compact_core_inv. Qed.

  Lemma compact_core_slot i j :
    index_mapping (keep_indices (s_bindings s)) i = Some j ->
    nth_error (s_locals s1) j = nth_error (s_locals s) i.
  Proof.
    intros [Hn _]%index_mapping_Some. destruct compact_core_inv as (_ & Hg & _).
    exact (proj2 (gather_nth _ _ _ Hg) _ _ Hn).
  Qed.

  Lemma compact_core_aligned val : aligned val s -> aligned val s1.
  Proof.
    intros Ha x j Hin. destruct (renumbered_In _ _ _ _ _ compact_core_bindings Hin) as (i & Hi & Hj).
    rewrite (compact_core_slot _ _ Hj). now apply Ha.
  Qed.

  Lemma compact_core_local_count : local_count (s_bindings s1) = length (s_locals s1).
  Proof.
    destruct compact_core_inv as (_ & [Hlen _]%gather_nth & _). rewrite Hlen.
    apply (renumbered_local_count _ _ _ (fun i => proj1 (keep_indices_var _ i)) compact_core_bindings).
  Qed.

  Lemma compact_core_request_variable x :
    s_pending s = None -> request_variable s1 x = request_variable s x.
  Proof.
    intros Hp. destruct compact_core_inv as (_ & Hg & _ & _ & Hp1).
    unfold request_variable, forget. rewrite Hp1, Hp.
    pose proof (renumbered_lookup _ _ _ x compact_core_bindings) as Hl.
    destruct (lookup x (s_bindings s)) as [bd|] eqn:El, (lookup x (s_bindings s1)) as [bd'|];
      try contradiction; [|reflexivity].
    inversion Hl as [? i j Hj|]; subst; [|reflexivity].
    pose proof (compact_core_slot _ _ Hj) as Hs. rewrite Hs.
    destruct (nth_error (s_locals s) i) eqn:En; [reflexivity|].
    (* slot i exists, since gathering it succeeded: j is a position in the gathered list *)
    apply nth_error_None in Hs. apply index_mapping_Some in Hj as [Hn _].
    apply gather_nth in Hg as [Hlen _].
    assert (j < length (keep_indices (s_bindings s))) by (apply nth_error_Some; congruence). lia.
  Qed.

  Lemma compact_core_get_variables : get_variables s1 = get_variables s.
  Proof.
    unfold get_variables. apply (moved_names (keep_indices (s_bindings s))), sort_by_index_Forall2.
    - intros p q p' q' [_ H] [_ H']. exact (index_mapping_leb _ _ _ _ _ (sort_sorted _) H H').
    - exact (renumbered_vars_of _ _ _ compact_core_bindings).
  Qed.

  Lemma compact_core_alias x :
    lookup x (s_bindings s1) = Some BAlias <-> lookup x (s_bindings s) = Some BAlias.
  Proof.
    pose proof (renumbered_lookup _ _ _ x compact_core_bindings) as Hl.
    destruct (lookup x (s_bindings s)), (lookup x (s_bindings s1)); try contradiction; [|tauto].
    inversion Hl; subst; [split; discriminate|tauto].
  Qed.
End Compacted.

Lemma compact_ok {V} (s : @session V) :
  in_range (forget s) ->
  exists s1, compact s = COk s1 /\ (forall val, aligned val (forget s) -> aligned val s1) /\
             s_result s1 = s_result s /\ s_lrt_nil s1 = s_lrt_nil s /\
             local_count (s_bindings s1) = length (s_locals s1) /\ s_pending s1 = None.
Proof.
  intros Hr. destruct (compact_core_total _ Hr) as [s1 Hc].
  destruct (compact_core_inv _ _ Hc) as (_ & _ & Hres & Hl & Hp).
  destruct (forget_fields s) as (_ & Hfr & Hfl).
  exists s1. split; [exact Hc|]. split; [exact (compact_core_aligned _ _ Hc)|].
  split; [now rewrite Hres, Hfr|]. split; [now rewrite Hl, Hfl|].
  split; [exact (compact_core_local_count _ _ Hc)|]. rewrite Hp. apply forget_pending.
Qed.

Lemma compact_aligned {V} val (s : @session V) :
  aligned val (forget s) ->
  exists s1, compact s = COk s1 /\ aligned val s1 /\
             s_result s1 = s_result s /\ s_lrt_nil s1 = s_lrt_nil s /\
             local_count (s_bindings s1) = length (s_locals s1) /\ s_pending s1 = None.
Proof.
  intros Ha. destruct (compact_ok s (aligned_in_range _ _ Ha)) as (s1 & Hc & Hal & Hrest).
  exists s1. split; [exact Hc|]. split; [exact (Hal _ Ha)|exact Hrest].
Qed.

Section Lines.
  Context {V : Type}.
  Variable vnil : V.

  (* an accepted line with expressions, once compaction has succeeded: the line runs
     (run_line_unreleased) and the worker releases the orphans before it reports the result *)
  Lemma evaluate_line (s s1 : @session V) c r :
    compact s = COk s1 -> c_has_expr c = true ->
    evaluate vnil s (LOk c r) = EValue (r_value r) (released vnil (run_line_unreleased s1 c r)).
  Proof. intros Hc He. cbn [evaluate]. now rewrite Hc, He. Qed.

  Lemma line_aligned val val' (s1 : @session V) c r :
    aligned val s1 -> line_wf s1 c r val val' ->
    aligned val' (forget (released vnil (run_line_unreleased s1 c r))).
  Proof.
    intros Ha Hwf x i Hin. unfold forget, released, run_line_unreleased in *.
    cbn [s_pending s_bindings s_locals] in *.
    apply retain_below_In in Hin. destruct Hin as [Hin Hlt].
    rewrite release_keeps by (apply keep_indices_In; eauto).
    destruct (Hwf x i Hin) as [(Hlt' & Hold & Hv)|(_ & Hge & Hn)].
    - rewrite nth_error_app1 by assumption. rewrite Hv. now apply Ha.
    - rewrite nth_error_app2 by assumption. exact (Hn Hlt).
  Qed.

  (* the parameter of a line is the stored result of the previous one (worker.rs resume_process) *)
  Lemma line_parameter_is_previous_result (s1 : @session V) c r :
    nth_error (s_locals (run_line_unreleased s1 c r)) (length (s_locals s1)) = Some (s_result s1).
  Proof. cbn. rewrite nth_error_app2 by lia. now rewrite Nat.sub_diag. Qed.

  (* repl_alignment: the invariant through a whole `evaluate`, whatever the line is *)
  Theorem repl_alignment_thm val (s : @session V) (l : line) :
    aligned val (forget s) ->
    match l with
    | LParseError => evaluate vnil s l = EParseError s
    | LCompileError => exists s1, evaluate vnil s l = ECompileError s1 /\ aligned val (forget s1)
    | LOk c r =>
        exists s1, compact s = COk s1 /\ aligned val s1 /\
                   local_count (s_bindings s1) = length (s_locals s1) /\
        forall val', line_wf s1 c r val val' ->
          if c_has_expr c
          then exists s', evaluate vnil s l = EValue (r_value r) s' /\ aligned val' (forget s') /\ s_result s' = r_value r
          else exists s', evaluate vnil s l = ENone s' /\ aligned val' (forget s') /\ s_result s' = s_result s
    end.
  Proof.
    intros Ha. destruct (compact_aligned val s Ha) as (s1 & Hc & Ha1 & Hres & _ & Hlc & Hp).
    destruct l as [| |c r]; [reflexivity| |]; exists s1.
    - cbn. rewrite Hc. split; [reflexivity|]. now rewrite (forget_none _ Hp).
    - repeat split; try assumption. intros val' Hwf. destruct (c_has_expr c) eqn:Ehe.
      + eexists. split; [exact (evaluate_line _ _ _ _ Hc Ehe)|].
        split; [|reflexivity]. now apply (line_aligned val val').
      + cbn [evaluate]. rewrite Hc, Ehe. eexists. split; [reflexivity|].
        split; [|now cbn]. rewrite forget_none by (cbn; assumption).
        intros x i Hin. cbn [s_bindings s_locals] in *.
        (* a line without expressions stores nothing: it cannot introduce a variable *)
        destruct (Hwf x i Hin) as [(Hlt & Hold & Hv)|(Hhe & _)]; [|congruence].
        rewrite Hv. now apply Ha1.
  Qed.

  Theorem session_survives_thm (s : @session V) c r :
    in_range (forget s) -> c_has_expr c = true ->
    exists s', evaluate vnil s (LOk c r) = EValue (r_value r) s' /\ in_range (forget s') /\
               exists s1', compact s' = COk s1'.
  Proof.
    intros Hr He. destruct (compact_ok s Hr) as (s1 & Hc & _).
    eexists. split; [exact (evaluate_line _ _ _ _ Hc He)|].
    assert (Hir : in_range (forget (released vnil (run_line_unreleased s1 c r)))).
    { eapply forget_in_range; [reflexivity|]. cbn [released s_locals]. now rewrite release_length. }
    split; [exact Hir|]. destruct (compact_ok _ Hir) as (s1' & Hc' & _). eauto.
  Qed.

  (* a line the parser rejects: nothing happens (repl.rs:91 returns before `compact`) *)
  Theorem rejected_by_parser_inert (s : @session V) : evaluate vnil s LParseError = EParseError s.
  Proof. reflexivity. Qed.

  (* `compact` runs before the compiler (repl.rs:95, then 118-129): a line the compiler rejects
     leaves the compacted session *)
  Theorem rejected_by_compiler_inert val (s : @session V) :
    aligned val (forget s) ->
    exists s1,
      evaluate vnil s LCompileError = ECompileError s1 /\
      renumber (keep_indices (s_bindings (forget s))) (s_bindings (forget s)) = Val (s_bindings s1) /\
      map fst (s_bindings s1) = map fst (s_bindings (forget s)) /\
      s_result s1 = s_result s /\ s_lrt_nil s1 = s_lrt_nil s /\
      (forall x, request_variable s1 x = request_variable s x) /\
      get_variables s1 = get_variables (forget s) /\
      (forall x, lookup x (s_bindings s1) = Some BAlias <-> lookup x (s_bindings (forget s)) = Some BAlias) /\
      aligned val (forget s1).
  Proof.
    intros Ha. destruct (compact_aligned val s Ha) as (s1 & Hc & Ha1 & Hres & Hl & _ & Hp).
    pose proof (compact_core_inv _ _ Hc) as [Hr _].
    exists s1. split; [cbn [evaluate]; now rewrite Hc|]. split; [exact Hr|].
    split; [exact (renumbered_keys _ _ _ (compact_core_bindings _ _ Hc))|].
    split; [exact Hres|]. split; [exact Hl|]. split; [|split; [|split]].
    - intros x. rewrite (compact_core_request_variable _ _ Hc x (forget_pending s)).
      unfold request_variable. now rewrite forget_idem.
    - exact (compact_core_get_variables _ _ Hc).
    - exact (compact_core_alias _ _ Hc).
    - now rewrite (forget_none _ Hp).
  Qed.
End Lines.

Section Split.
  Context {V env step : Type}.
  Variable exec : step -> env -> V -> env * V.
  Variable isnil : V -> bool.
  Notation run_seq := (run_seq exec isnil).
  Notation run_lines := (run_lines exec isnil).
  Notation line_values := (line_values exec isnil).
  Notation lines_nil_free := (lines_nil_free exec isnil).

  (* one sequence cut in two: the second part runs unless the (non-empty) first part ended in nil *)
  Lemma run_seq_app a b e v :
    run_seq (a ++ b) e v =
    match a with
    | [] => run_seq b e v
    | _ => let (e', v') := run_seq a e v in if isnil v' then (e', v') else run_seq b e' v'
    end.
  Proof.
    revert e v. induction a as [|s a IH]; intros e v; [reflexivity|].
    cbn [app Repl.run_seq]. destruct (exec s e v) as [e1 v1]. destruct (isnil v1) eqn:En.
    - now rewrite En.
    - rewrite IH. destruct a as [|s' a]; [cbn; now rewrite En|reflexivity].
  Qed.

  Theorem split_equivalence_thm ls e v :
    lines_nil_free ls e v -> run_lines ls e v = run_seq (concat ls) e v.
  Proof.
    revert e v. induction ls as [|l r IH]; intros e v; [reflexivity|].
    cbn [ReplProofs.lines_nil_free Repl.run_lines concat]. rewrite run_seq_app.
    destruct (run_seq l e v) as [e' v'] eqn:El. intros [Hl Hr]. rewrite (IH _ _ Hr).
    destruct l as [|s l].
    - cbn in El. now injection El as <- <-.
    - destruct Hl as [Hl|[Hl|Hl]]; [discriminate|now rewrite Hl|].
      rewrite Hl. cbn [Repl.run_seq]. now destruct (isnil v').
  Qed.

  Lemma lines_nil_free_firstn n ls e v : lines_nil_free ls e v -> lines_nil_free (firstn n ls) e v.
  Proof.
    revert n e v. induction ls as [|l r IH]; intros [|n] e v; cbn [firstn ReplProofs.lines_nil_free]; auto.
    destruct (run_seq l e v) as [e' v']. intros [Hl Hr]. split; [|now apply IH].
    destruct Hl as [Hl|[Hl|Hl]]; auto. right; right.
    (* nothing follows the line, so nothing follows it in the prefix *)
    rewrite <- (firstn_skipn n r), concat_app in Hl. now apply app_eq_nil in Hl.
  Qed.

  Lemma line_values_nth ls e v k :
    k < length ls -> nth_error (line_values ls e v) k = Some (snd (run_lines (firstn (S k) ls) e v)).
  Proof.
    revert e v k. induction ls as [|l r IH]; intros e v k Hk; [cbn in Hk; lia|].
    cbn [Repl.line_values Repl.run_lines firstn]. destruct (run_seq l e v) as [e' v'].
    destruct k as [|k]; [reflexivity|]. cbn [nth_error]. apply IH. cbn in Hk. lia.
  Qed.

  Lemma line_value_prefix ls e v k :
    k < length ls -> lines_nil_free (firstn (S k) ls) e v ->
    nth_error (line_values ls e v) k = Some (snd (run_seq (concat (firstn (S k) ls)) e v)).
  Proof.
    intros Hk Hnf. now rewrite (line_values_nth _ _ _ _ Hk), (split_equivalence_thm _ _ _ Hnf).
  Qed.

  (* the value printed for every line is the value of the one program made of the lines so far *)
  Theorem split_equivalence_per_line ls e v k :
    lines_nil_free ls e v -> k < length ls ->
    nth_error (line_values ls e v) k = Some (snd (run_seq (concat (firstn (S k) ls)) e v)).
  Proof. intros Hnf Hk. apply (line_value_prefix _ _ _ _ Hk). now apply lines_nil_free_firstn. Qed.
End Split.

Module Examples.
  (* values are numbers, nil is 0; names: x = 0, t = 1 (an alias), z = 2, w = 3 *)
  Definition s_ex : @session nat :=
    mkSession [(0, BVar 3); (1, BAlias); (2, BVar 1)] [0; 20; 0; 10] 77 false None.
  Definition val_ex (x : name) : nat := match x with 0 => 10 | 2 => 20 | _ => 0 end.

  Lemma s_ex_aligned : aligned val_ex (forget s_ex).
  Proof.
    intros x i Hin. cbn in Hin.
    destruct Hin as [H|[H|[H|[]]]]; try discriminate; injection H as <- <-; reflexivity.
  Qed.

  (* compaction renumbers here: x 3 -> 1, z 1 -> 0, locals [20; 10] *)
  Example compact_ex :
    compact s_ex = COk (mkSession [(0, BVar 1); (1, BAlias); (2, BVar 0)] [20; 10] 77 false None).
  Proof. reflexivity. Qed.

  (* a line `w = <99>, x = <55>` (shadowing x): parameter at slot 2, w at 3, a temporary at 4, x at 5 *)
  Definition c_ex : compiled := mkCompiled [(0, BVar 5); (1, BAlias); (2, BVar 0); (3, BVar 3)] true false.
  Definition r_ex : @ran nat := mkRan [99; 1; 55] 1.
  Definition val_ex' (x : name) : nat := match x with 0 => 55 | 2 => 20 | 3 => 99 | _ => 0 end.

  Example line_wf_ex :
    line_wf (mkSession [(0, BVar 1); (1, BAlias); (2, BVar 0)] [20; 10] 77 false None) c_ex r_ex val_ex val_ex'.
  Proof.
    unfold line_wf. cbn.
    intros x i [H|[H|[H|[H|[]]]]]; try discriminate; injection H as <- <-.
    - right. repeat split; lia.
    - left. repeat split; [lia|auto].
    - right. repeat split; lia.
  Qed.

  Example evaluate_ex :
    evaluate 0 s_ex (LOk c_ex r_ex) =
    EValue 1 (mkSession [(0, BVar 5); (1, BAlias); (2, BVar 0); (3, BVar 3)] [20; 0; 0; 99; 0; 55] 1 false (Some 6)).
  Proof. reflexivity. Qed.

  (* the compile-rejected line on the same session: observationally the same session *)
  Example rejected_ex :
    evaluate 0 s_ex LCompileError = ECompileError (mkSession [(0, BVar 1); (1, BAlias); (2, BVar 0)] [20; 10] 77 false None)
    /\ get_variables s_ex = [2; 0]
    /\ request_variable s_ex 0 = WOk 10.
  Proof. repeat split. Qed.

  (* split_equivalence: steps add their number to the value; step 0 yields nil (0) *)
  Definition exec_ex (s : nat) (e : list nat) (v : nat) : list nat * nat := (s :: e, if Nat.eqb s 0 then 0 else v + s).
  Example split_ex :
    lines_nil_free exec_ex (Nat.eqb 0) [[1; 2]; []; [3]; [4; 5]] [] 0 /\
    run_lines exec_ex (Nat.eqb 0) [[1; 2]; []; [3]; [4; 5]] [] 0 = ([5; 4; 3; 2; 1], 15) /\
    line_values exec_ex (Nat.eqb 0) [[1; 2]; []; [3]; [4; 5]] [] 0 = [3; 3; 6; 15].
  Proof. cbn. repeat split; auto. Qed.
  (* ... and the hypothesis matters: with a nil line in the middle the REPL goes on, the program stops *)
  Example split_nil_differs :
    run_lines exec_ex (Nat.eqb 0) [[1; 0]; [3]] [] 0 <> run_seq exec_ex (Nat.eqb 0) (concat [[1; 0]; [3]]) [] 0.
  Proof. cbn. discriminate. Qed.

  (* the line `5 =6, x = 7` on a fresh session (the reproducer of F51): the compiler returns x at
     slot 1, the run stores only the parameter (the second step is skipped), the worker reports 1
     local; see C11_shortcircuit_line_survives *)
  Definition c_f51 : compiled := mkCompiled [(0, BVar 1)] true false.
  Definition r_f51 : @ran nat := mkRan [] 0.
  Definition s_f51 : @session nat := mkSession [(0, BVar 1)] [0] 0 false (Some 1).
  Lemma shortcircuit_survives :
    evaluate 0 (initial 0) (LOk c_f51 r_f51) = EValue 0 s_f51 /\
    (forall val, ~ aligned val s_f51) /\
    (forall val, aligned val (forget s_f51)) /\
    request_variable s_f51 0 = WErr VariableNotFound /\
    get_variables s_f51 = [0] /\
    evaluate 0 s_f51 LCompileError = ECompileError (mkSession [] [] 0 false None) /\
    evaluate 0 s_f51 (LOk (mkCompiled [(1, BVar 1)] true false) (mkRan [9] 1))
      = EValue 1 (mkSession [(1, BVar 1)] [0; 9] 1 false (Some 2)).
  Proof.
    split; [reflexivity|]. split.
    { intros val Ha. specialize (Ha 0 1 (or_introl eq_refl)). discriminate. }
    split; [intros val x i []|]. repeat split.
  Qed.
End Examples.
