(* FormatFragProofs.v — round-trip theorems for the data-literal fragment of FormatFrag.v:
   parse_frag (format_frag c w) = Some c for every width w (frag_roundtrip), and corollaries.
   Route: (S1) layout_shape: the token list produced by the layout machine is one of the `shape`s of the doc
   (an over-approximation that forgets `fits` and indentation); (S2) every rendered shape of a fragment doc is
   in the grammar x* of FormatFragLang.v; (S3) the parser is complete on that grammar and (S4)
   strip_trailing_whitespace maps grammar texts to grammar texts (x_complete, x_cb there). *)
From Quiver Require Import Base Escape Pretty PrettyProofs EscapeProofs FormatFrag FormatFrag2 FormatFragLang.
From Coq Require Import ZifyBool.

(* the token lists the layout machine may emit for a doc in a mode, forgetting `fits` and indentation *)
Inductive shape : Pretty.mode -> doc -> list token -> Prop :=
| S_nil m : shape m DNil []
| S_text m s : shape m (DText s) [TText s]
| S_line_flat : shape Flat DLine [TSpace]
| S_line_break i : shape Break DLine [TNewline i]
| S_softline_flat : shape Flat DSoftLine []
| S_softline_break i : shape Break DSoftLine [TNewline i]
| S_hardline m i : shape m DHardLine [TNewline i]
| S_breakparent m : shape m DBreakParent []
| S_concat m ds l : shape_list m ds l -> shape m (DConcat ds) l
| S_nest m n d l : shape m d l -> shape m (DNest n d) l
| S_group_forced m d l : shape Break d l -> shape m (DGroup d true) l
| S_group_free m m' d l : shape m' d l -> shape m (DGroup d false) l
| S_ifbreak m br fl l :
    shape m (match m with Break => br | Flat => fl end) l -> shape m (DIfBreak br fl) l
with shape_list : Pretty.mode -> list doc -> list token -> Prop :=
| SL_nil m : shape_list m [] []
| SL_cons m d ds l1 l2 :
    shape m d l1 -> shape_list m ds l2 -> shape_list m (d :: ds) (l1 ++ l2).

Scheme shape_mind := Minimality for shape Sort Prop
  with shape_list_mind := Minimality for shape_list Sort Prop.
Combined Scheme shape_mutind from shape_mind, shape_list_mind.

Inductive shape_stack : list frame -> list token -> Prop :=
| SS_nil : shape_stack [] []
| SS_cons i m d rest l1 l2 :
    shape m d l1 -> shape_stack rest l2 -> shape_stack ((i, m, d) :: rest) (l1 ++ l2).

Lemma shape_stack_concat : forall ds i m rest l,
  shape_stack (map (fun c => (i, m, c)) ds ++ rest) l ->
  exists l1 l2, l = l1 ++ l2 /\ shape_list m ds l1 /\ shape_stack rest l2.
Proof.
  induction ds as [|d ds IH]; intros i m rest l Hcs.
  - exists [], l. split; [reflexivity|]. split; [constructor|exact Hcs].
  - cbn [map app] in Hcs.
    inversion Hcs as [|i' m' d' rest' la lb Hd Hrest]; subst.
    destruct (IH _ _ _ _ Hrest) as [l1 [l2 [El [Hl1 Hl2]]]]. subst lb.
    exists (la ++ l1), l2. split; [apply app_assoc|].
    split; [constructor; assumption|assumption].
Qed.

Lemma layout_fuel_shape : forall fuel width stack col out ts,
  stack_suffix_free stack ->
  layout_fuel fuel width stack [] col out = Some ts ->
  exists l, shape_stack stack l /\ ts = rev out ++ l.
Proof.
  induction fuel as [|f IH]; intros width stack col out ts Hsf Hrun; [discriminate|].
  cbn [layout_fuel] in Hrun.
  destruct stack as [|[[i m] d] rest].
  - inversion Hrun; subst. exists []. split; [constructor|]. rewrite app_nil_r. reflexivity.
  - inversion Hsf as [|fr0 st0 Hd Hrest]; subst. cbn [snd] in Hd.
    assert (Hskip : forall col',
      shape m d [] ->
      layout_fuel f width rest [] col' out = Some ts ->
      exists l, shape_stack ((i, m, d) :: rest) l /\ ts = rev out ++ l).
    { intros col' Hc Hr.
      destruct (IH _ _ _ _ _ Hrest Hr) as [l [Hcs Ht]].
      exists ([] ++ l). split; [constructor; assumption|exact Ht]. }
    assert (Hone : forall col' tok,
      shape m d [tok] ->
      layout_fuel f width rest [] col' (tok :: out) = Some ts ->
      exists l, shape_stack ((i, m, d) :: rest) l /\ ts = rev out ++ l).
    { intros col' tok Hc Hr.
      destruct (IH _ _ _ _ _ Hrest Hr) as [l [Hcs Ht]].
      exists ([tok] ++ l). split; [constructor; assumption|].
      rewrite Ht. cbn [rev]. rewrite <- app_assoc. reflexivity. }
    assert (Hpush : forall i' m' d',
      suffix_free d' = true ->
      (forall l1, shape m' d' l1 -> shape m d l1) ->
      layout_fuel f width ((i', m', d') :: rest) [] col out = Some ts ->
      exists l, shape_stack ((i, m, d) :: rest) l /\ ts = rev out ++ l).
    { intros i' m' d' Hd' Himp Hr.
      assert (Hsf' : stack_suffix_free ((i', m', d') :: rest))
        by (constructor; [exact Hd'|exact Hrest]).
      destruct (IH _ _ _ _ _ Hsf' Hr) as [l [Hcs Ht]].
      inversion Hcs as [|i0 m0 d0 rest0 l1 l2 Hc1 Hc2]; subst.
      exists (l1 ++ l2). split; [constructor; [apply Himp; exact Hc1|exact Hc2]|reflexivity]. }
    destruct d; cbn [suffix_free] in Hd.
    + eapply Hskip; [constructor|exact Hrun].
    + eapply Hone; [constructor|exact Hrun].
    + 
      destruct m.
      * eapply Hone; [constructor|exact Hrun].
      * eapply Hone; [constructor|exact Hrun].
    + 
      destruct m.
      * eapply Hskip; [constructor|exact Hrun].
      * eapply Hone; [constructor|exact Hrun].
    + eapply Hone; [constructor|exact Hrun].
    + 
      assert (Hsf' : stack_suffix_free (map (fun c => (i, m, c)) ds ++ rest))
        by (apply stack_suffix_free_concat; assumption).
      destruct (IH _ _ _ _ _ Hsf' Hrun) as [l [Hcs Ht]].
      destruct (shape_stack_concat _ _ _ _ _ Hcs) as [l1 [l2 [El [Hl1 Hl2]]]]. subst l.
      exists (l1 ++ l2). split; [constructor; [constructor; exact Hl1|exact Hl2]|exact Ht].
    + 
      eapply Hpush; [exact Hd| |exact Hrun]. intros l1 Hc. constructor. exact Hc.
    + 
      destruct should_break.
      * eapply Hpush; [exact Hd| |exact Hrun]. intros l1 Hc. constructor. exact Hc.
      * destruct (fits (S f) (width - col)%nat i d rest) as [fb|]; [|discriminate].
        eapply Hpush; [exact Hd| |exact Hrun]. intros l1 Hc.
        eapply S_group_free. exact Hc.
    + 
      apply andb_true_iff in Hd. destruct Hd as [Hb Hf].
      eapply Hpush; [| |exact Hrun].
      * destruct m; assumption.
      * intros l1 Hc. constructor. exact Hc.
    + discriminate.
    + eapply Hskip; [constructor|exact Hrun].
Qed.

Theorem layout_shape : forall d width ts,
  suffix_free d = true -> layout d width = Some ts -> shape Break d ts.
Proof.
  intros d width ts Hsf Hrun. unfold layout in Hrun.
  assert (Hst : stack_suffix_free [(0%nat, Break, d)]) by (constructor; [exact Hsf|constructor]).
  destruct (layout_fuel_shape _ _ _ _ _ _ Hst Hrun) as [l [Hcs Ht]].
  inversion Hcs as [|i0 m0 d0 rest0 l1 l2 Hc1 Hc2]; subst.
  inversion Hc2; subst. cbn [rev app]. rewrite app_nil_r. exact Hc1.
Qed.

(* the rendered shapes, as a recursive predicate on characters (forgets should_break) *)

Definition rsh_list (f : doc -> list Z -> Prop) :=
  fix go (ds : list doc) (s : list Z) : Prop :=
    match ds with
    | [] => s = []
    | d :: r => exists a b, s = a ++ b /\ f d a /\ go r b
    end.

Fixpoint rsh (m : Pretty.mode) (d : doc) (s : list Z) {struct d} : Prop :=
  match d with
  | DNil | DBreakParent => s = []
  | DText t => s = t
  | DLine => match m with Flat => s = [32] | Break => exists i, s = nl i end
  | DSoftLine => match m with Flat => s = [] | Break => exists i, s = nl i end
  | DHardLine => exists i, s = nl i
  | DConcat ds => rsh_list (rsh m) ds s
  | DNest _ d' => rsh m d' s
  | DGroup d' _ => exists m', rsh m' d' s
  | DIfBreak br fl => match m with Break => rsh m br s | Flat => rsh m fl s end
  | DLineSuffix _ => False
  end.

Lemma render_app a b : render (a ++ b) = render a ++ render b.
Proof.
  induction a as [|t a IH]; [reflexivity|].
  destruct t; cbn [render app]; rewrite IH.
  - rewrite app_assoc. reflexivity.
  - reflexivity.
  - rewrite <- app_assoc. reflexivity.
Qed.

Lemma shape_rsh_both :
  (forall m d ts, shape m d ts -> rsh m d (render ts)) /\
  (forall m ds ts, shape_list m ds ts -> rsh_list (rsh m) ds (render ts)).
Proof.
  apply shape_mutind; intros; cbn [rsh rsh_list render]; try reflexivity.
  - rewrite app_nil_r. reflexivity.
  - exists i. unfold nl. rewrite app_nil_r. reflexivity.
  - exists i. unfold nl. rewrite app_nil_r. reflexivity.
  - exists i. unfold nl. rewrite app_nil_r. reflexivity.
  - assumption.
  - assumption.
  - exists Break. assumption.
  - exists m'. assumption.
  - destruct m; assumption.
  - exists (render l1), (render l2). split; [apply render_app|]. split; assumption.
Qed.

Lemma shape_rsh m d ts : shape m d ts -> rsh m d (render ts).
Proof. apply shape_rsh_both. Qed.

(* the property the doc lemmas are about: d defers nothing to the end of the line, and each of its rendered shapes,
   whatever the modes of its groups, satisfies P *)
Definition renders (d : doc) (P : list Z -> Prop) : Prop :=
  suffix_free d = true /\ forall m s, rsh m d s -> P s.

(* a rendering of a concatenation is the concatenation of renderings of the parts, in the same mode *)
Lemma rsh_concat1 m a s : rsh m (DConcat [a]) s -> rsh m a s.
Proof. cbn [rsh rsh_list]. intros (x & r & -> & Hx & ->). rewrite app_nil_r. exact Hx. Qed.
Lemma rsh_group m d b s : rsh m (DGroup d b) s -> exists m', rsh m' d s.
Proof. exact (fun H => H). Qed.
Lemma rsh_nest m n d s : rsh m (DNest n d) s -> rsh m d s.
Proof. exact (fun H => H). Qed.
Lemma rsh_concat2 m a b s : rsh m (DConcat [a; b]) s -> exists x y, s = x ++ y /\ rsh m a x /\ rsh m b y.
Proof.
  cbn [rsh rsh_list]. intros (x & r1 & -> & Hx & (y & r2 & -> & Hy & ->)).
  exists x, y. rewrite app_nil_r. repeat split; assumption.
Qed.
Lemma rsh_concat3 m a b c s :
  rsh m (DConcat [a; b; c]) s -> exists x y z, s = x ++ y ++ z /\ rsh m a x /\ rsh m b y /\ rsh m c z.
Proof.
  cbn [rsh rsh_list]. intros (x & r1 & -> & Hx & (y & r2 & -> & Hy & (z & r3 & -> & Hz & ->))).
  exists x, y, z. rewrite app_nil_r. repeat split; assumption.
Qed.
Lemma rsh_concat4 m a b c d s :
  rsh m (DConcat [a; b; c; d]) s ->
  exists x y z u, s = x ++ y ++ z ++ u /\ rsh m a x /\ rsh m b y /\ rsh m c z /\ rsh m d u.
Proof.
  cbn [rsh rsh_list]. intros (x & r1 & -> & Hx & (y & r2 & -> & Hy & (z & r3 & -> & Hz & (u & r4 & -> & Hu & ->)))).
  exists x, y, z, u. rewrite app_nil_r. repeat split; assumption.
Qed.

Lemma rsh_flatten_raw : forall d, suffix_free d = true -> rsh Flat d (flatten_raw d).
Proof.
  fix IH 1. intros [ |s| | | |ds|n d|d b|b f|d| ] Hsf; cbn [suffix_free flatten_raw rsh] in *; try reflexivity.
  - exists 0%nat. reflexivity.
  - induction ds as [|x r IHr]; [reflexivity|].
    cbn [forallb] in Hsf. apply andb_true_iff in Hsf. destruct Hsf as [H1 H2].
    cbn [rsh_list]. eexists _, _. split; [reflexivity|]. split; [apply IH; exact H1|apply IHr; exact H2].
  - apply IH. exact Hsf.
  - exists Flat. apply IH. exact Hsf.
  - apply andb_true_iff in Hsf. apply IH. apply Hsf.
  - discriminate.
Qed.

Lemma rsh_list_app f l1 l2 s :
  rsh_list f (l1 ++ l2) s -> exists a b, s = a ++ b /\ rsh_list f l1 a /\ rsh_list f l2 b.
Proof.
  revert s. induction l1 as [|d l1 IH]; intros s H.
  - exists [], s. repeat split. exact H.
  - cbn [app rsh_list] in H. destruct H as (a & b & E & Hd & Hr).
    destruct (IH _ Hr) as (a' & b' & E' & H1 & H2). subst s b.
    exists (a ++ a'), b'. split; [apply app_assoc|]. split; [|exact H2].
    cbn [rsh_list]. exists a, a'. repeat split; assumption.
Qed.

Lemma biwt_sf d n : suffix_free (break_if_wider_than d n) = suffix_free d.
Proof.
  unfold break_if_wider_than. destruct (flat_width d n); [reflexivity|].
  cbn [suffix_free forallb]. rewrite !andb_true_r. reflexivity.
Qed.

Lemma biwt_rsh m d n s : rsh m (break_if_wider_than d n) s -> rsh m d s.
Proof.
  unfold break_if_wider_than. destruct (flat_width d n); [auto|].
  cbn [rsh rsh_list]. intros (a & b & E & Ha & (a' & b' & E' & Ha' & Hb')). subst.
  rewrite !app_nil_r. exact Ha.
Qed.

Lemma split_last_none {A} (l : list A) : split_last l = None -> l = [].
Proof.
  destruct l as [|x r]; [reflexivity|]. cbn [split_last].
  destruct (split_last r) as [[h t]|]; discriminate.
Qed.

Lemma join_docs_cons2 sep d d' ds : join_docs sep (d :: d' :: ds) = d :: sep :: join_docs sep (d' :: ds).
Proof. reflexivity. Qed.

Lemma join_sf sep items : suffix_free sep = true -> forallb suffix_free items = true ->
  forallb suffix_free (join_docs sep items) = true.
Proof.
  intros Hs. induction items as [|d r IH]; [reflexivity|]. cbn [forallb]. intros H.
  apply andb_true_iff in H. destruct H as [Hd Hr]. destruct r as [|d' r'].
  - cbn [join_docs forallb]. rewrite Hd. reflexivity.
  - rewrite join_docs_cons2. cbn [forallb]. rewrite Hd, Hs. apply IH. exact Hr.
Qed.

Lemma bracketed_sf o c items : forallb suffix_free items = true -> suffix_free (bracketed o c items) = true.
Proof.
  intros H. unfold bracketed, group. cbn [suffix_free forallb].
  rewrite (join_sf (DConcat [DText [44]; DLine]) items eq_refl H). reflexivity.
Qed.

Lemma bracketed_rsh m o c items s : rsh m (bracketed o c items) s ->
  exists m' w1 body oc w2,
    s = o ++ w1 ++ body ++ oc ++ w2 ++ c /\ gws w1 /\ gws w2 /\ (oc = [] \/ oc = [44]) /\
    rsh_list (rsh m') (join_docs (DConcat [DText [44]; DLine]) items) body.
Proof.
  unfold bracketed, group. intros H. apply rsh_group in H. destruct H as [m' H].
  destruct (rsh_concat4 _ _ _ _ _ _ H) as (a1 & a2 & a3 & a4 & -> & H1 & H2 & H3 & H4). cbn [rsh] in H1, H4. subst a1 a4.
  apply rsh_nest in H2. destruct (rsh_concat3 _ _ _ _ _ H2) as (x1 & x2 & x3 & -> & G1 & G2 & G3). cbn [rsh] in G2.
  exists m', x1, x2, x3, a3. rewrite <- !app_assoc. split; [reflexivity|].
  destruct m'; cbn [rsh] in G1, G3, H3.
  - repeat split; try (left; assumption). exact G2.
  - repeat split; try (right; assumption). exact G2.
Qed.

(* chain_terms_parts / g_chain_terms_parts, chain_doc_of / g_chain_doc_of and the field_doc part of term_doc /
   g_term_doc at any term type: the fixed ones are these, by conversion *)
Section ChainDoc.
  Context {T : Type}.
  Variables container ender : T -> bool.
  Fixpoint Chain_parts (prev : option T) (items : list (T * doc)) : list doc :=
    match items with
    | [] => []
    | (t, d) :: r =>
        (match prev with
         | None => []
         | Some p => if ender p then [DLine; DIfBreak (DText [126; 62; 32]) DNil] else [DText [32]]
         end) ++ d :: Chain_parts (Some t) r
    end.
  Definition Chain_default (items : list (T * doc)) : doc :=
    DConcat [DNil; group (break_if_wider_than (DConcat (Chain_parts None items)) CHAIN_SOFT_WIDTH)].
  Definition Chain_doc_of (items : list (T * doc)) : doc :=
    match split_last items with
    | Some (head, (tl, tl_doc)) =>
        if (1 <? length items)%nat && container tl && negb (existsb (fun td => forces_break (snd td)) head)
        then DConcat [DNil; DText (flat_map (fun td => flatten (snd td) ++ [32]) head); tl_doc]
        else Chain_default items
    | None => Chain_default items
    end.
End ChainDoc.
Definition Field_doc (label : option (list Z)) (chain : doc) : doc :=
  DConcat [DNil; match label with Some n => DConcat [DText (n ++ [58; 32]); chain] | None => chain end; DNil].

(* over the doc of a term (tdoc) and the relation R between the term the text is read back as and the term
   printed (equality for the data-literal fragment; the block fragment reads back print-time braces) *)
Section LangDocs.
  Variable L : lang.
  Local Notation T := (Tm L).
  Local Notation F := (Fd L).
  Variables (container ender : T -> bool) (tdoc : T -> doc) (fdoc : F -> doc).
  Variables (R : T -> T -> Prop) (Rf : F -> F -> Prop).

  Definition items_of (c : list T) : list (T * doc) := map (fun t => (t, tdoc t)) c.
  Definition cdoc (c : list T) : doc := Chain_doc_of container ender (items_of c).

  Hypothesis fdoc_eq : forall l v, fdoc (mk_field L l v) = Field_doc l (cdoc v).
  Hypothesis Rf_field : forall l v' v, Forall2 R v' v -> Rf (mk_field L l v') (mk_field L l v).
  Hypothesis R_tuple : forall name fs' fs, Forall2 Rf fs' fs -> R (t_tuple L name fs') (t_tuple L name fs).

  Definition Q (t : T) : Prop :=
    renders (tdoc t) (fun s => exists t', R t' t /\ xterm L t' s).
  Definition Qc (c : list T) : Prop :=
    renders (cdoc c) (fun s => exists c', Forall2 R c' c /\ xchainL L c' s).
  Definition Qf (f : F) : Prop :=
    renders (fdoc f) (fun s => exists f', Rf f' f /\ xfield L f' s).

  Lemma Q_text t s : tdoc t = DText s -> R t t -> xterm L t s -> Q t.
  Proof.
    intros E Hr Hx. unfold Q. rewrite E. split; [reflexivity|].
    intros m s' H. cbn [rsh] in H. subst s'. exists t. split; assumption.
  Qed.

  (* the text `flatten` puts into the head of a chain is the one-line layout of the term *)
  Lemma Q_flat t : Q t -> exists t', R t' t /\ xterm L t' (flatten (tdoc t)).
  Proof.
    intros [Hsf Hg]. destruct (Hg Flat _ (rsh_flatten_raw _ Hsf)) as (t' & Hw & Hx).
    exists t'. split; [exact Hw|apply xterm_strip; exact Hx].
  Qed.

  Lemma parts_sf c : Forall Q c -> forall prev, forallb suffix_free (Chain_parts ender prev (items_of c)) = true.
  Proof.
    induction 1 as [|t r [Hsf _] _ IH]; intros prev; [reflexivity|].
    cbn [items_of map Chain_parts]. fold (items_of r).
    rewrite forallb_app. cbn [forallb]. rewrite Hsf, IH.
    destruct prev as [p|]; [destruct (ender p)|]; reflexivity.
  Qed.

  Lemma parts_rsh c : Forall Q c -> forall m prev s,
    rsh_list (rsh m) (Chain_parts ender prev (items_of c)) s ->
    match c with
    | [] => s = []
    | _ :: _ => exists sep s' c', s = sep ++ s' /\
                                  match prev with None => sep = [] | Some _ => gcsep sep end /\
                                  Forall2 R c' c /\ xchainL L c' s'
    end.
  Proof.
    induction 1 as [|t r [_ Hg] Hr IH]; intros m prev s H; [exact H|].
    cbn [items_of map Chain_parts] in H. fold (items_of r) in H.
    destruct (rsh_list_app _ _ _ _ H) as (a & b & E & Ha & Hb).
    cbn [rsh_list] in Hb. destruct Hb as (x & y & Eb & Hx & Hy).
    apply Hg in Hx. destruct Hx as (t' & Hwt & Hxt). specialize (IH m (Some t) y Hy).
    assert (Hsep : match prev with None => a = [] | Some _ => gcsep a end).
    { destruct prev as [p|]; [|exact Ha].
      destruct (ender p).
      - cbn [rsh_list] in Ha. destruct Ha as (a1 & b1 & E1 & H1 & (a2 & b2 & E2 & H2 & E3)).
        destruct m; cbn [rsh] in H1, H2.
        + subst. left. reflexivity.
        + destruct H1 as [i Hi]. subst. right. exists i. rewrite app_nil_r. reflexivity.
      - cbn [rsh_list rsh] in Ha. destruct Ha as (a1 & b1 & E1 & H1 & E2). subst. left. reflexivity. }
    exists a. destruct r as [|t2 ts].
    - subst y. exists x, [t']. rewrite app_nil_r in Eb. subst.
      split; [reflexivity|]. split; [exact Hsep|]. split; [constructor; [exact Hwt|constructor]|].
      apply xc_one. exact Hxt.
    - destruct IH as (sep & s' & c' & Ey & Hsep' & Hwc & Hc). subst.
      destruct (xchainL_inv _ _ _ Hc) as (t2' & ts' & -> & Hc').
      exists (x ++ sep ++ s'), (t' :: t2' :: ts').
      split; [reflexivity|]. split; [exact Hsep|]. split; [constructor; assumption|].
      apply xc_cons; assumption.
  Qed.

  Lemma default_ok c : Forall Q c -> c <> [] ->
    renders (Chain_default ender (items_of c)) (fun s => exists c', Forall2 R c' c /\ xchainL L c' s).
  Proof.
    intros HQ Hne. split.
    - unfold Chain_default, group. cbn [suffix_free forallb]. rewrite biwt_sf.
      cbn [suffix_free]. rewrite (parts_sf c HQ None). reflexivity.
    - intros m s H. unfold Chain_default, group in H.
      destruct (rsh_concat2 _ _ _ _ H) as (a & a' & -> & Ha & Ha'). cbn [rsh] in Ha. subst a.
      apply rsh_group in Ha'. destruct Ha' as [m' Hm]. apply biwt_rsh in Hm. cbn [rsh] in Hm.
      pose proof (parts_rsh c HQ m' None a' Hm) as Hp. cbn [app].
      destruct c as [|t ts]; [congruence|]. destruct Hp as (sep & s' & c' & E & Hsep & Hw & Hc). subst.
      exists c'. split; assumption.
  Qed.

  Lemma headflat_text hc tl tl' a : Forall Q hc -> R tl' tl -> xterm L tl' a ->
    exists c', Forall2 R c' (hc ++ [tl]) /\
               xchainL L c' (flat_map (fun td : T * doc => flatten (snd td) ++ [32]) (items_of hc) ++ a).
  Proof.
    induction 1 as [|t r Ht _ IH]; intros Hw Ha.
    - exists [tl']. split; [constructor; [exact Hw|constructor]|]. apply xc_one. exact Ha.
    - destruct (IH Hw Ha) as (c' & Hwc & Hc). destruct (Q_flat t Ht) as (t' & Hwt & Hxt).
      cbn [items_of map flat_map snd app]. fold (items_of r).
      destruct (xchainL_inv _ _ _ Hc) as (t2 & ts2 & -> & Hc'). exists (t' :: t2 :: ts2).
      split; [constructor; assumption|].
      cbn [xchainL]. rewrite <- !app_assoc. apply xc_cons; [exact Hxt|left; reflexivity|exact Hc'].
  Qed.

  Lemma split_last_items c head tl d :
    split_last (items_of c) = Some (head, (tl, d)) ->
    exists hc, c = hc ++ [tl] /\ head = items_of hc /\ d = tdoc tl.
  Proof.
    revert head. induction c as [|x r IH]; intros head H; [discriminate|].
    cbn [items_of map split_last] in H. fold (items_of r) in H.
    destruct (split_last (items_of r)) as [[h t]|] eqn:E.
    - inversion H; subst. destruct (IH h eq_refl) as (hc & E1 & E2 & E3).
      exists (x :: hc). subst. repeat split.
    - inversion H; subst. apply split_last_none in E.
      apply map_eq_nil in E. subst r. exists []. repeat split.
  Qed.

  Lemma chain_doc_ok c : Forall Q c -> c <> [] -> Qc c.
  Proof.
    intros HQ Hne. pose proof (default_ok c HQ Hne) as Hdef.
    unfold Qc, cdoc, Chain_doc_of.
    destruct (split_last (items_of c)) as [[head [tl tl_doc]]|] eqn:E; [|exact Hdef].
    destruct ((1 <? length (items_of c))%nat && container tl && _); [|exact Hdef].
    destruct (split_last_items _ _ _ _ E) as (hc & Ec & Eh & Ed). subst.
    apply Forall_app in HQ. destruct HQ as [HQh HQt]. inversion HQt as [|? ? [Hsf Hg] _]; subst.
    split.
    - cbn [suffix_free forallb]. rewrite Hsf. reflexivity.
    - intros m s H. destruct (rsh_concat3 _ _ _ _ _ H) as (x & y & z & -> & Hx & Hy & Hz).
      cbn [rsh] in Hx, Hy. subst x y. cbn [app]. apply Hg in Hz. destruct Hz as (tl' & Hw & Hxt).
      apply (headflat_text hc tl tl' z); assumption.
  Qed.

  Lemma field_ok l v : label_ok l = true -> Qc v -> Qf (mk_field L l v).
  Proof.
    intros Hl [Hsf Hg]. unfold Qf, renders. rewrite fdoc_eq. split.
    - destruct l; cbn [Field_doc suffix_free forallb]; rewrite Hsf; reflexivity.
    - intros m s H. destruct l as [n|]; cbn [Field_doc] in H;
        destruct (rsh_concat3 _ _ _ _ _ H) as (x & y & z & -> & Hx & Hy & Hz); cbn [rsh] in Hx, Hz; subst x z;
        cbn [app]; rewrite app_nil_r.
      + destruct (rsh_concat2 _ _ _ _ Hy) as (u & w & -> & Hu & Hw). cbn [rsh] in Hu. subst u.
        apply Hg in Hw. destruct Hw as (c' & Hwc & Hx). destruct (xchainL_inv _ _ _ Hx) as (t & ts & -> & Hx').
        exists (mk_field L (Some n) (t :: ts)). split; [apply Rf_field; exact Hwc|].
        rewrite <- app_assoc. cbn [app]. apply xf_label; assumption.
      + apply Hg in Hy. destruct Hy as (c' & Hwc & Hx). destruct (xchainL_inv _ _ _ Hx) as (t & ts & -> & Hx').
        exists (mk_field L None (t :: ts)). split; [apply Rf_field; exact Hwc|apply xf_plain; exact Hx'].
  Qed.

  Lemma join_rsh m : forall fs f body, Forall Qf (f :: fs) ->
    rsh_list (rsh m) (join_docs (DConcat [DText [44]; DLine]) (map fdoc (f :: fs))) body ->
    exists f' fs', Forall2 Rf (f' :: fs') (f :: fs) /\ xfields L f' fs' body.
  Proof.
    induction fs as [|f2 fs IH]; intros f body HQ H; inversion HQ as [|? ? [_ Hg] HQ']; subst.
    - cbn [map join_docs rsh_list] in H. destruct H as (a & b & E & Ha & Eb). subst.
      rewrite app_nil_r. apply Hg in Ha. destruct Ha as (f' & Hw & Hx). exists f', [].
      split; [constructor; [exact Hw|constructor]|apply xfs_one; exact Hx].
    - cbn [map] in H. rewrite join_docs_cons2 in H. cbn [rsh_list] in H.
      destruct H as (a & b & E & Ha & (a2 & b2 & E2 & Hsep & Hrest)).
      destruct (rsh_concat2 _ _ _ _ Hsep) as (x & x2 & -> & Hx & Hy). cbn [rsh] in Hx.
      subst. apply Hg in Ha. destruct Ha as (f' & Hw & Hxf).
      destruct (IH f2 b2 HQ' Hrest) as (f2' & fs' & Hws & Hxs).
      exists f', (f2' :: fs'). split; [constructor; assumption|].
      rewrite <- app_assoc. cbn [app].
      apply xfs_cons; [exact Hxf| |exact Hxs].
      destruct m; [left; exact Hy|right; exact Hy].
  Qed.

  (* the fields of a tuple, from the induction hypothesis on their terms; lab / val take a field apart *)
  Lemma fields_ok (wft : T -> bool) (wff : F -> bool) (lab : F -> option (list Z)) (val : F -> list T) :
    (forall f, mk_field L (lab f) (val f) = f) -> (forall f, wff f = label_ok (lab f) && wfc L wft (val f)) ->
    forall fs, Forall (fun f => Forall (fun t => wft t = true -> Q t) (val f)) fs -> forallb wff fs = true -> Forall Qf fs.
  Proof.
    intros Hmk Hwff fs IH. induction IH as [|f r Hv _ IHr]; intros Hws; [constructor|].
    cbn [forallb] in Hws. apply andb_true_iff in Hws. destruct Hws as [Hw Hws].
    rewrite Hwff in Hw. apply andb_true_iff in Hw. destruct Hw as [Hl Hc].
    destruct (wfc_inv L wft _ Hc) as [Hne Hall]. constructor; [|apply IHr; exact Hws].
    rewrite <- (Hmk f). apply field_ok; [exact Hl|]. apply chain_doc_ok; [|exact Hne].
    rewrite Forall_forall in *. intros t Hin. apply Hv; [exact Hin|apply Hall; exact Hin].
  Qed.

  Lemma tuple_ok name f fs :
    tdoc (t_tuple L name (f :: fs)) = bracketed (topen name) [93] (map fdoc (f :: fs)) ->
    name_ok name = true -> Forall Qf (f :: fs) -> Q (t_tuple L name (f :: fs)).
  Proof.
    intros E Hn HQf. unfold Q. rewrite E. split.
    - apply bracketed_sf. clear -HQf. induction HQf as [|f0 r [Hsf _] _ IHr]; [reflexivity|].
      cbn [map forallb]. rewrite Hsf. exact IHr.
    - intros m s H.
      destruct (bracketed_rsh _ _ _ _ _ H) as (m' & w1 & body & oc & w2 & Es & Hw1 & Hw2 & Hoc & Hb).
      destruct (join_rsh m' fs f body HQf Hb) as (f' & fs' & Hws & Hx). subst s.
      exists (t_tuple L name (f' :: fs')). split; [apply R_tuple; exact Hws|apply xt_tuple; assumption].
  Qed.
End LangDocs.

Definition field_terms (f : ffield) : list fterm := match f with FField _ v => v end.


Definition field_doc (f : ffield) : doc :=
  match f with FField label value => Field_doc label (chain_doc value) end.

Lemma items_eq value :
  (fix items (ts : list fterm) : list (fterm * doc) :=
     match ts with [] => [] | x :: r' => (x, term_doc x) :: items r' end) value = chain_items value.
Proof.
  unfold chain_items. induction value as [|x v IHv]; [reflexivity|]. cbn [map]. rewrite <- IHv. reflexivity.
Qed.

Lemma term_doc_tuple name f fs :
  term_doc (FTuple name (f :: fs)) = bracketed (topen name) [93] (map field_doc (f :: fs)).
Proof.
  cbn [term_doc]. unfold topen. destruct f as [label value]. cbn [map field_doc]. f_equal. f_equal.
  induction fs as [|[l v] r IH]; [reflexivity|]. cbn [map field_doc]. rewrite <- IH. reflexivity.
Qed.

Definition wf_field (f : ffield) : bool :=
  match f with FField label value => label_ok label && wf_chain value end.

Lemma wf_term_tuple name fs : wf_term (FTuple name fs) = name_ok name && forallb wf_field fs.
Proof.
  cbn [wf_term]. f_equal. induction fs as [|[l v] r IH]; [reflexivity|].
  cbn [forallb wf_field]. rewrite <- IH. unfold wf_chain. rewrite andb_assoc. reflexivity.
Qed.

Lemma Forall2_eq {A} (l' l : list A) : Forall2 eq l' l -> l' = l.
Proof. induction 1 as [|x y l' l E _ IH]; [reflexivity|]. rewrite E, IH. reflexivity. Qed.

Lemma term_doc_ok : forall t, wf_term t = true -> Q L1 term_doc eq t.
Proof.
  fix IHt 1. intros [z|n|s0|name fields] Hwf.
  - apply (Q_text L1 term_doc eq _ (int_text z)); [reflexivity|reflexivity|apply (xt_int L1)].
  - apply (Q_text L1 term_doc eq _ n); [reflexivity|reflexivity|apply (xt_ident L1); exact Hwf].
  - apply (Q_text L1 term_doc eq _ (34 :: escape_single s0 ++ [34])); [reflexivity|reflexivity|apply (xt_str L1)].
  - rewrite wf_term_tuple in Hwf. apply andb_true_iff in Hwf. destruct Hwf as [Hn Hfs].
    destruct fields as [|f fs].
    + destruct name as [n|].
      * apply (Q_text L1 term_doc eq _ n); [reflexivity|reflexivity|apply (xt_name L1); exact Hn].
      * apply (Q_text L1 term_doc eq _ [91; 93]); [reflexivity|reflexivity|apply (xt_unit L1)].
    + apply (tuple_ok L1 term_doc field_doc eq eq).
      * intros nm fs' fs0 H. apply Forall2_eq in H. subst fs'. reflexivity.
      * apply term_doc_tuple.
      * exact Hn.
      * apply (fields_ok L1 is_breakable_container is_call_ender term_doc field_doc eq eq) with
          (wft := wf_term) (wff := wf_field) (lab := fun f => match f with FField l _ => l end) (val := field_terms);
          [reflexivity| |intros [l v]; reflexivity|intros [l v]; reflexivity| |exact Hfs].
        -- intros l v' v H. apply Forall2_eq in H. subst v'. reflexivity.
        -- (* the terms inside the fields are structurally smaller *)
           change (Forall (fun f0 : ffield => Forall (fun t : fterm => wf_term t = true -> Q L1 term_doc eq t) (field_terms f0))
                          (f :: fs)).
           generalize (f :: fs). intros l. induction l as [|[lab v] r IHr]; [constructor|]. constructor; [|exact IHr].
           cbn [field_terms]. induction v as [|x v IHv]; [constructor|]. constructor; [apply IHt|exact IHv].
Qed.

Lemma chain_doc_eq c : chain_doc c = cdoc L1 is_breakable_container is_call_ender term_doc c.
Proof. reflexivity. Qed.

Lemma program_doc_ok c : wf_chain c = true ->
  renders (program_doc c) (xchainL L1 c).
Proof.
  intros Hwf. destruct (wfc_inv L1 wf_term c Hwf) as [Hne Hall].
  assert (HQ : Forall (Q L1 term_doc eq) c) by (eapply Forall_impl; [|exact Hall]; apply term_doc_ok).
  destruct (chain_doc_ok L1 is_breakable_container is_call_ender term_doc eq c HQ Hne) as [Hsf Hg].
  rewrite <- chain_doc_eq in Hsf, Hg. split.
  - unfold program_doc, group. cbn [suffix_free forallb]. rewrite Hsf. reflexivity.
  - intros m s H. unfold program_doc, group in H. apply rsh_concat1, rsh_group in H. destruct H as [m' H].
    destruct (rsh_concat2 _ _ _ _ H) as (a & e & -> & Ha & He). cbn [rsh rsh_list] in He. subst e.
    destruct (rsh_concat3 _ _ _ _ _ Ha) as (x & y & z & -> & Hx & Hy & Hz). cbn [rsh] in Hx, Hz. subst x z.
    cbn [app]. rewrite !app_nil_r. apply Hg in Hy. destruct Hy as (c' & Hw & Hx).
    apply Forall2_eq in Hw. subst c'. exact Hx.
Qed.

Theorem parse_grammar t ts s : xchain L1 t ts s -> parse_frag (s ++ [10]) = Some (t :: ts).
Proof.
  intros H. unfold parse_frag.
  rewrite (skip_ws_stop (s ++ [10])) by (apply starts_stops, (starts_chain L1 _ _ _ H)).
  rewrite p_chain_eq. pose proof (chain_text_complete L1 p_term (fun _ => eq_refl) p_term_step t ts s H) as E.
  cbn [Tm L1] in E. rewrite E. reflexivity.
Qed.

Theorem frag_roundtrip : forall (c : fchain) (w : nat), wf_chain c = true ->
  exists out, format_frag c w = Some out /\ parse_frag out = Some c.
Proof.
  intros c w Hwf. destruct (layout_total (program_doc c) w) as [ts Hts].
  destruct (program_doc_ok c Hwf) as [Hsf Hg].
  pose proof (Hg Break _ (shape_rsh _ _ _ (layout_shape _ w _ Hsf Hts))) as Hx.
  unfold format_frag, print. rewrite Hts. cbn [option_map].
  eexists. split; [reflexivity|].
  destruct c as [|t ts']; [destruct Hx|]. apply parse_grammar, xchain_strip. exact Hx.
Qed.

Theorem frag_format_fixpoint : forall c w out, wf_chain c = true -> format_frag c w = Some out ->
  exists c', parse_frag out = Some c' /\ format_frag c' w = Some out.
Proof.
  intros c w out Hwf Hf. destruct (frag_roundtrip c w Hwf) as [out' [Hf' Hp]].
  rewrite Hf in Hf'. inversion Hf'; subst out'. exists c. split; assumption.
Qed.

Lemma p_term_wf : forall fuel s t r, p_term fuel s = Some (t, r) -> wf_term t = true.
Proof.
  apply (pt_wf L1 p_term (fun _ => eq_refl) p_term_step wf_term wf_field (fun _ => true)).
  - reflexivity.
  - reflexivity.
  - intros n H. exact H.
  - intros name fs Hn Hf. change (wf_term (FTuple name fs) = true). rewrite wf_term_tuple.
    apply andb_true_iff. split; [exact Hn|exact Hf].
  - reflexivity.
  - intros l v Hl Hc. apply andb_true_iff. split; [exact Hl|exact Hc].
  - reflexivity.
Qed.

Theorem parse_frag_wf : forall s c, parse_frag s = Some c -> wf_chain c = true.
Proof.
  intros s c. unfold parse_frag.
  destruct (p_chain (p_term (length (skip_ws s))) (skip_ws s)) as [[ts r]|] eqn:E; [|discriminate].
  destruct (skip_ws r); [|discriminate]. intros H. inversion H; subst.
  rewrite p_chain_eq in E. exact (P_chain_wf L1 wf_term _ (p_term_wf _) _ _ _ E).
Qed.

Theorem frag_source_fixpoint : forall s c w out, parse_frag s = Some c -> format_frag c w = Some out ->
  exists c', parse_frag out = Some c' /\ format_frag c' w = Some out.
Proof.
  intros s c w out Hp Hf. apply (frag_format_fixpoint c w out); [apply (parse_frag_wf s); exact Hp|exact Hf].
Qed.

(* qqq…q (60 characters)  P[x: -5, ''\''\{'' y? zzzzzzzz, [1, [2]]]   (the string is the two characters '' and { ) *)
Definition ex_long : list Z := repeat 113 60.
Definition ex_chain : fchain :=
  [FIdent ex_long;
   FTuple (Some [80])
     [FField (Some [120]) [FInt (-5)];
      FField None [FStr [34; 123]; FIdent [121; 63]; FIdent (repeat 122 8)];
      FField None [FTuple None [FField None [FInt 1];
                                FField None [FTuple None [FField None [FInt 2]]]]]]].

Example ex_chain_wf : wf_chain ex_chain = true.
Proof. vm_compute. reflexivity. Qed.

(* width 100: one line (99 characters and the final LF) *)
Definition ex_wide : list Z :=
  ex_long ++ [32; 80; 91; 120; 58; 32; 45; 53; 44; 32; 34; 92; 34; 92; 123; 34; 32; 121; 63; 32]
          ++ repeat 122 8 ++ [44; 32; 91; 49; 44; 32; 91; 50; 93; 93; 93; 10].
Example ex_chain_wide : format_frag ex_chain 100 = Some ex_wide.
Proof. vm_compute. reflexivity. Qed.
Example ex_chain_wide_one_line : length ex_wide = 100%nat /\ count_occ Z.eq_dec ex_wide 10 = 1%nat.
Proof. vm_compute. split; reflexivity. Qed.
Example ex_chain_wide_parse : parse_frag ex_wide = Some ex_chain.
Proof.
  destruct (frag_roundtrip ex_chain 100 ex_chain_wf) as (out & Hf & Hp).
  rewrite ex_chain_wide in Hf. injection Hf as <-. exact Hp.
Qed.

(* width 20: the tuple is broken (trailing comma before the closing bracket), and the field chain
   ''\''\{'' y? zzzzzzzz is broken after the call-ending y? with a `~> ` continuation:
     qqq…q P[
       x: -5,
       ''\''\{'' y?
       ~> zzzzzzzz,
       [1, [2]],
     ]                                                                                         *)
Definition ex_narrow : list Z :=
  ex_long ++ [32; 80; 91; 10; 32; 32; 120; 58; 32; 45; 53; 44; 10;
              32; 32; 34; 92; 34; 92; 123; 34; 32; 121; 63; 10;
              32; 32; 126; 62; 32] ++ repeat 122 8 ++ [44; 10;
              32; 32; 91; 49; 44; 32; 91; 50; 93; 93; 44; 10;
              93; 10].
Example ex_chain_narrow : format_frag ex_chain 20 = Some ex_narrow.
Proof. vm_compute. reflexivity. Qed.
Example ex_chain_narrow_lines : count_occ Z.eq_dec ex_narrow 10 = 6%nat.
Proof. vm_compute. reflexivity. Qed.
Example ex_chain_narrow_parse : parse_frag ex_narrow = Some ex_chain.
Proof.
  destruct (frag_roundtrip ex_chain 20 ex_chain_wf) as (out & Hf & Hp).
  rewrite ex_chain_narrow in Hf. injection Hf as <-. exact Hp.
Qed.

(* the theorem instantiated (not by computation) *)
Example ex_chain_roundtrip : forall w, exists out, format_frag ex_chain w = Some out /\ parse_frag out = Some ex_chain.
Proof. intros w. apply frag_roundtrip. exact ex_chain_wf. Qed.

(* the grammar is not only the formatter's image: a source with other spacing is accepted and re-formatted to a
   fixpoint (frag_source_fixpoint): `P[ x:  1 ,y ]` *)
Example ex_source :
  parse_frag [80; 91; 32; 120; 58; 32; 32; 49; 32; 44; 121; 32; 93]
    = Some [FTuple (Some [80]) [FField (Some [120]) [FInt 1]; FField None [FIdent [121]]]] /\
  format_frag [FTuple (Some [80]) [FField (Some [120]) [FInt 1]; FField None [FIdent [121]]]] 100
    = Some [80; 91; 120; 58; 32; 49; 44; 32; 121; 93; 10].
Proof. vm_compute. split; reflexivity. Qed.

Print Assumptions frag_roundtrip.
Print Assumptions frag_format_fixpoint.
Print Assumptions parse_frag_wf.
Print Assumptions frag_source_fixpoint.
Print Assumptions layout_shape.
