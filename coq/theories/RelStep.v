(* RelStep.v — how proofs about check_rel take Rel.step apart.

   `step` is written like types.rs:245-547, as one match on the pair (self type, pattern type);
   Coq compiles that into an 11 x 11 matrix, and a proof that destructs both types and simplifies
   pays for the whole matrix in every one of its goals.  Two things are therefore proved once here:

   * `step_view`: which ARM of check_type_relation answers for a pair of types, and what that arm
     computes.  A proof about check_rel destructs `step_viewP` and has one small goal per arm.
   * the eight list iterators of Rel.v are nestings of two short-circuit folds, `all_of` and
     `any_of`, that thread the assumption set; `all_of_spec` / `any_of_spec` (what an answer means)
     and `all_of_total` / `any_of_total` (that there is the answer one expects), `all_of_answers` /
     `any_of_answers` (that there is some answer) carry a property of the single call over a whole
     iteration, so no user repeats the induction. *)
From Quiver Require Import Base Types Rel.
From Coq Require Import Arith.
Close Scope Z_scope.
Open Scope nat_scope.

Section Folds.
  Context {X : Type}.
  Variable call : X -> assumptions -> res.

  Fixpoint all_of (xs : list X) (A : assumptions) : res :=
    match xs with
    | [] => Some (true, A)
    | x :: xs' => and_then (call x A) (all_of xs')
    end.

  Fixpoint any_of (xs : list X) (A : assumptions) : res :=
    match xs with
    | [] => Some (false, A)
    | x :: xs' =>
      match call x A with
      | None => None
      | Some (true, A') => Some (true, A')
      | Some (false, A') => any_of xs' A'
      end
    end.

  (* I: what is known of the assumptions before a call; R: how a call may change them *)
  Variable I : assumptions -> Prop.
  Variable R : assumptions -> assumptions -> Prop.
  Hypothesis R_refl : forall A, R A A.
  Hypothesis R_trans : forall A B C, R A B -> R B C -> R A C.
  Hypothesis I_R : forall A B, I A -> R A B -> I B.

  Section Spec.
    Variables Qt Qf : X -> Prop.   (* what the answers true / false of one call mean *)

    Definition call_spec (x : X) : Prop := forall A b A',
      I A -> call x A = Some (b, A') -> R A A' /\ (if b then Qt x else Qf x).

    Lemma all_of_spec xs : Forall call_spec xs -> forall A b A1,
      I A -> all_of xs A = Some (b, A1) -> R A A1 /\ (if b then Forall Qt xs else Exists Qf xs).
    Proof.
      induction 1 as [|x xs Hx _ IH]; intros A b A1 HI H; cbn in H.
      - injection H as <- <-. auto.
      - destruct (call x A) as [[[] A']|] eqn:E; try discriminate; destruct (Hx _ _ _ HI E) as [HR HQ].
        + destruct (IH _ _ _ (I_R _ _ HI HR) H) as [HR' HQ']. split; [eauto|].
          destruct b; [constructor; assumption|apply Exists_cons_tl; assumption].
        + injection H as <- <-. split; [assumption|apply Exists_cons_hd; assumption].
    Qed.

    Lemma any_of_spec xs : Forall call_spec xs -> forall A b A1,
      I A -> any_of xs A = Some (b, A1) -> R A A1 /\ (if b then Exists Qt xs else Forall Qf xs).
    Proof.
      induction 1 as [|x xs Hx _ IH]; intros A b A1 HI H; cbn in H.
      - injection H as <- <-. auto.
      - destruct (call x A) as [[[] A']|] eqn:E; try discriminate; destruct (Hx _ _ _ HI E) as [HR HQ].
        + injection H as <- <-. split; [assumption|apply Exists_cons_hd; assumption].
        + destruct (IH _ _ _ (I_R _ _ HI HR) H) as [HR' HQ']. split; [eauto|].
          destruct b; [apply Exists_cons_tl; assumption|constructor; assumption].
    Qed.
  End Spec.

  Section Total.
    Variable f : X -> bool.   (* the answer one call must give *)

    Definition call_total (x : X) : Prop := forall A,
      I A -> exists A', call x A = Some (f x, A') /\ R A A'.

    Lemma all_of_total xs : Forall call_total xs -> forall A,
      I A -> exists A1, all_of xs A = Some (forallb f xs, A1) /\ R A A1.
    Proof.
      induction 1 as [|x xs Hx _ IH]; intros A HI; cbn; [eauto|].
      destruct (Hx _ HI) as (A' & -> & HR). cbn. destruct (f x); cbn; [|eauto].
      destruct (IH _ (I_R _ _ HI HR)) as (A1 & -> & HR'). eauto.
    Qed.

    Lemma any_of_total xs : Forall call_total xs -> forall A,
      I A -> exists A1, any_of xs A = Some (existsb f xs, A1) /\ R A A1.
    Proof.
      induction 1 as [|x xs Hx _ IH]; intros A HI; cbn; [eauto|].
      destruct (Hx _ HI) as (A' & -> & HR). destruct (f x); cbn; [eauto|].
      destruct (IH _ (I_R _ _ HI HR)) as (A1 & -> & HR'). eauto.
    Qed.
  End Total.

  Section Answers.
    (* there is an answer, whatever it is: it may depend on the assumptions the call starts from *)
    Definition answers_on (x : X) : Prop := forall A,
      I A -> exists b A', call x A = Some (b, A') /\ R A A'.

    Lemma all_of_answers xs : Forall answers_on xs -> forall A,
      I A -> exists b A1, all_of xs A = Some (b, A1) /\ R A A1.
    Proof.
      induction 1 as [|x xs Hx _ IH]; intros A HI; cbn; [eauto|].
      destruct (Hx _ HI) as (b & A' & -> & HR). destruct b; cbn; [|eauto].
      destruct (IH _ (I_R _ _ HI HR)) as (b & A1 & -> & HR'). eauto.
    Qed.

    Lemma any_of_answers xs : Forall answers_on xs -> forall A,
      I A -> exists b A1, any_of xs A = Some (b, A1) /\ R A A1.
    Proof.
      induction 1 as [|x xs Hx _ IH]; intros A HI; cbn; [eauto|].
      destruct (Hx _ HI) as (b & A' & -> & HR). destruct b; [eauto|].
      destruct (IH _ (I_R _ _ HI HR)) as (b & A1 & -> & HR'). eauto.
    Qed.
  End Answers.
End Folds.

Section Iterators.
  Variable cfg : rel_cfg.
  Variable mode : union_mode.
  Variable rec : assumptions -> list nat -> list nat -> nat -> nat -> res.
  Variables ss ps : list nat.

  (* one recursive call on a pair of ids *)
  Definition call_pair (k : nat * nat) (A : assumptions) : res := rec A ss ps (fst k) (snd k).

  Lemma all_left_fold vs p A : all_left rec A ss ps vs p = all_of call_pair (map (fun v => (v, p)) vs) A.
  Proof. revert A. induction vs as [|v vs IH]; intros A; cbn; [reflexivity|]. unfold call_pair at 1; cbn.
    destruct (rec A ss ps v p) as [[[] A']|]; cbn; auto. Qed.

  Lemma any_left_fold vs p A : any_left rec A ss ps vs p = any_of call_pair (map (fun v => (v, p)) vs) A.
  Proof. revert A. induction vs as [|v vs IH]; intros A; cbn; [reflexivity|]. unfold call_pair at 1; cbn.
    destruct (rec A ss ps v p) as [[[] A']|]; auto. Qed.

  Lemma any_right_fold s vs A : any_right rec A ss ps s vs = any_of call_pair (map (fun v => (s, v)) vs) A.
  Proof. revert A. induction vs as [|v vs IH]; intros A; cbn; [reflexivity|]. unfold call_pair at 1; cbn.
    destruct (rec A ss ps s v) as [[[] A']|]; auto. Qed.

  (* zip stops at the shorter list; a pair of fields whose names differ answers false without a call *)
  Definition field_call (k : (option nat * nat) * (option nat * nat)) (A : assumptions) : res :=
    if opt_eqb (fst (fst k)) (fst (snd k)) then rec A ss ps (snd (fst k)) (snd (snd k)) else Some (false, A).

  Lemma tuple_fields_fold f1 f2 A : tuple_fields rec A ss ps f1 f2 = all_of field_call (combine f1 f2) A.
  Proof.
    revert f2 A. induction f1 as [|[n1 t1] f1 IH]; intros [|[n2 t2] f2] A; cbn; try reflexivity.
    unfold field_call at 1; cbn. destruct (opt_eqb n1 n2); [|reflexivity].
    destruct (rec A ss ps t1 t2) as [[[] A']|]; cbn; auto.
  Qed.

  Lemma any_concrete_field_fold cfields pname ptype A :
    any_concrete_field rec A ss ps cfields pname ptype =
    any_of call_pair (map (fun cf => (snd cf, ptype)) (filter (fun cf => opt_eqb (fst cf) (Some pname)) cfields)) A.
  Proof.
    revert A. induction cfields as [|[cn ct] cfields IH]; intros A; cbn; [reflexivity|].
    destruct (opt_eqb cn (Some pname)); cbn; [|apply IH]. unfold call_pair at 1; cbn.
    destruct (rec A ss ps ct ptype) as [[[] A']|]; auto.
  Qed.

  Lemma all_partial_fields_fold cfields pfields A :
    all_partial_fields rec A ss ps cfields pfields =
    all_of (fun pf A => any_concrete_field rec A ss ps cfields (fst pf) (snd pf)) pfields A.
  Proof.
    revert A. induction pfields as [|[pn pt] pfields IH]; intros A; cbn; [reflexivity|].
    destruct (any_concrete_field rec A ss ps cfields pn pt) as [[[] A']|]; cbn; auto.
  Qed.

  Lemma any_partial_field_fold fields1 fname2 ftype2 A :
    any_partial_field rec A ss ps fields1 fname2 ftype2 =
    any_of call_pair (map (fun f => (snd f, ftype2)) (filter (fun f => Nat.eqb (fst f) fname2) fields1)) A.
  Proof.
    revert A. induction fields1 as [|[n1 t1] fields1 IH]; intros A; cbn; [reflexivity|].
    destruct (Nat.eqb n1 fname2); cbn; [|apply IH]. unfold call_pair at 1; cbn.
    destruct (rec A ss ps t1 ftype2) as [[[] A']|]; auto.
  Qed.

  (* ANY mode with 7ba69a0: a label only the pattern names is unconstrained *)
  Definition partial_field_call (fields1 : list (nat * nat)) (f2 : nat * nat) (A : assumptions) : res :=
    if cfg_partial_any cfg && (match mode with Any => true | All => false end)
       && negb (existsb (fun f => Nat.eqb (fst f) (fst f2)) fields1)
    then Some (true, A)
    else any_partial_field rec A ss ps fields1 (fst f2) (snd f2).

  Lemma all_partial_partial_fold fields1 fields2 A :
    all_partial_partial cfg mode rec A ss ps fields1 fields2 = all_of (partial_field_call fields1) fields2 A.
  Proof.
    revert A. induction fields2 as [|[n2 t2] fields2 IH]; intros A; cbn; [reflexivity|].
    unfold partial_field_call at 1; cbn.
    destruct (_ && negb _); cbn; [apply IH|].
    destruct (any_partial_field rec A ss ps fields1 n2 t2) as [[[] A']|]; cbn; auto.
  Qed.
End Iterators.

(* neither a type variable nor a back-reference: the pair reaches the structural arms *)
Definition plain (t : ty) : bool := match t with TVariable _ | TCycle _ => false | _ => true end.
(* nor a union *)
Definition base (t : ty) : bool := match t with TUnion _ => false | _ => plain t end.
Lemma base_plain t : base t = true -> plain t = true.
Proof. destruct t; auto. Qed.
Lemma plain_cyc t : plain t = true -> match t with TCycle _ => true | _ => false end = false.
Proof. destruct t; (reflexivity || discriminate). Qed.
(* two base types that some structural arm compares *)
Definition same_head (t1 t2 : ty) : bool :=
  match t1, t2 with
  | TInteger, TInteger | TBinary, TBinary | TReference, TReference | TResource _, TResource _ => true
  | (TTuple _ | TPartial _ _), (TTuple _ | TPartial _ _) => true
  | TCallable _ _ _, TCallable _ _ _ | TProcess _ _, TProcess _ _ => true
  | _, _ => false
  end.

Section View.
  Variable cfg : rel_cfg.
  Variable P : registry.
  Variable mode : union_mode.
  Variable rec : assumptions -> list nat -> list nat -> nat -> nat -> res.
  Variable A : assumptions.
  Variables ss ps : list nat.
  Variables s p : nat.

  Local Notation is_any := (match mode with Any => true | All => false end).
  Local Notation is_all := (match mode with All => true | Any => false end).
  Local Notation ss1 := (if cfg_selfstack cfg then push_once ss s else ss).
  Local Notation ps1 := (push_once ps p).

  (* the self-side back-reference is resolved first (types.rs:295) *)
  Definition cycle_self (d : nat) : res :=
    match resolve_cycle (if cfg_selfstack cfg then ss else ps) d with
    | None => Some (true, A)
    | Some stack_id => rec A ss ps stack_id p
    end.

  Inductive step_view : ty -> ty -> res -> Prop :=
  | sv_empty_union pt : step_view (TUnion []) pt (Some (is_all, A))
  | sv_int : step_view TInteger TInteger (Some (true, A))
  | sv_bin : step_view TBinary TBinary (Some (true, A))
  | sv_ref : step_view TReference TReference (Some (true, A))
  | sv_res r1 r2 : step_view (TResource r1) (TResource r2) (Some (Nat.eqb r1 r2, A))
  | sv_var_self v pt : step_view (TVariable v) pt (Some (true, A))
  | sv_var_pat st v : st <> TUnion [] -> step_view st (TVariable v) (Some (true, A))
  | sv_cycles d1 d2 :
      step_view (TCycle d1) (TCycle d2) (if Nat.eqb d1 d2 then Some (true, A) else cycle_self d1)
  | sv_cycle_self d pt : plain pt = true -> step_view (TCycle d) pt (cycle_self d)
  | sv_cycle_pat st d : plain st = true -> st <> TUnion [] ->
      step_view st (TCycle d)
        (match resolve_cycle ps d with None => Some (true, A) | Some stack_id => rec A ss ps s stack_id end)
  | sv_union_left v vs pt : plain pt = true ->
      step_view (TUnion (v :: vs)) pt
        (retract cfg (length A)
           (match mode with
            | All => all_left rec ((s, p) :: A) ss1 ps (v :: vs) p
            | Any => any_left rec ((s, p) :: A) ss1 ps (v :: vs) p
            end))
  | sv_union_right st vs : base st = true ->
      step_view st (TUnion vs) (retract cfg (length A) (any_right rec ((s, p) :: A) ss ps1 s vs))
  | sv_tuple id1 id2 :
      step_view (TTuple id1) (TTuple id2)
        (if Nat.eqb id1 id2 then Some (true, A) else
         match lookup_tuple P id1, lookup_tuple P id2 with
         | Some info1, Some info2 =>
           if opt_eqb (tname info1) (tname info2) && Nat.eqb (length (tfields info1)) (length (tfields info2))
           then tuple_fields rec A ss ps (tfields info1) (tfields info2)
           else Some (false, A)
         | _, _ => Some (false, A)
         end)
  | sv_tuple_partial cid pn pfs :
      step_view (TTuple cid) (TPartial pn pfs)
        (match lookup_tuple P cid with
         | None => Some (false, A)
         | Some info =>
           if match pn with Some n => opt_eqb (tname info) (Some n) | None => true end
           then all_partial_fields rec A ss ps (tfields info) pfs
           else Some (false, A)
         end)
  | sv_partial n1 f1 n2 f2 :
      step_view (TPartial n1 f1) (TPartial n2 f2)
        (if (if cfg_partial_name cfg && is_all
             then match n2 with Some _ => negb (opt_eqb n1 n2) | None => false end
             else match n1, n2 with Some a, Some b => negb (Nat.eqb a b) | _, _ => false end)
         then Some (false, A)
         else all_partial_partial cfg mode rec A ss ps f1 f2)
  | sv_partial_tuple n1 f1 id2 :
      step_view (TPartial n1 f1) (TTuple id2)
        (if cfg_partial_any cfg && is_any then rec A ps ss p s else Some (false, A))
  | sv_process s1 r1 s2 r2 :
      step_view (TProcess s1 r1) (TProcess s2 r2)
        (if cfg_any_callable cfg && is_any then Some (true, A) else
         match (match s1, s2 with Some a, Some b => rec A ss ps a b | _, _ => Some (true, A) end) with
         | None => None
         | Some (send_ok, A1) =>
           match (match r1, r2 with Some a, Some b => rec A1 ss ps a b | _, _ => Some (true, A1) end) with
           | None => None
           | Some (receive_ok, A2) => Some (send_ok && receive_ok, A2)
           end
         end)
  | sv_callable p1 r1 c1 p2 r2 c2 :
      step_view (TCallable p1 r1 c1) (TCallable p2 r2 c2)
        (if cfg_any_callable cfg && is_any then Some (true, A) else
         let A0 := if cfg_callable_assume cfg then (s, p) :: A else A in
         (* contravariant positions: the sides swap, and (fix_F12) their stacks with them *)
         let css := if cfg_selfstack cfg then ps1 else ss1 in
         let cps := if cfg_selfstack cfg then ss1 else ps1 in
         let r := and_then (rec A0 css cps p2 p1) (fun A1 =>
                  and_then (rec A1 ss1 ps1 r1 r2) (fun A2 => rec A2 css cps c2 c1)) in
         if cfg_callable_assume cfg then retract cfg (length A) r else r)
  | sv_other st pt : base st = true -> base pt = true -> same_head st pt = false ->
      step_view st pt (Some (false, A)).

  (* One pass over the matrix; the lemmas below read off its rows.  `r` keeps the unfolded body
     of step to a single occurrence. *)
  Lemma step_cases r : r = step cfg P mode rec A ss ps s p ->
    if Nat.eqb s p then r = Some (true, A) else
    if assumed A (s, p) then r = Some (true, A) else
    match lookup_type P s, lookup_type P p with
    | Some st, Some pt => step_view st pt r
    | _, _ => r = Some (false, A)
    end.
  Proof.
    unfold step. destruct (Nat.eqb s p); [exact id|]. destruct (assumed A (s, p)); [exact id|].
    destruct (lookup_type P s) as [st|]; [|exact id]. destruct (lookup_type P p) as [pt|]; [|exact id].
    intros ->. destruct st as [| | | | | | |[|v vs]| | |], pt; constructor; (reflexivity || discriminate).
  Qed.

  Lemma step_viewP st pt :
    Nat.eqb s p = false -> assumed A (s, p) = false ->
    lookup_type P s = Some st -> lookup_type P p = Some pt ->
    step_view st pt (step cfg P mode rec A ss ps s p).
  Proof. intros Hsp Has Hs Hp. pose proof (step_cases _ eq_refl) as H. rewrite Hsp, Has, Hs, Hp in H. exact H. Qed.

  Lemma step_fast : Nat.eqb s p = true -> step cfg P mode rec A ss ps s p = Some (true, A).
  Proof. intros Hsp. pose proof (step_cases _ eq_refl) as H. rewrite Hsp in H. exact H. Qed.

  Lemma step_assumed : Nat.eqb s p = false -> assumed A (s, p) = true ->
    step cfg P mode rec A ss ps s p = Some (true, A).
  Proof. intros Hsp Has. pose proof (step_cases _ eq_refl) as H. rewrite Hsp, Has in H. exact H. Qed.

  Lemma step_unregistered : Nat.eqb s p = false -> assumed A (s, p) = false ->
    lookup_type P s = None \/ lookup_type P p = None ->
    step cfg P mode rec A ss ps s p = Some (false, A).
  Proof.
    intros Hsp Has Hl. pose proof (step_cases _ eq_refl) as H. rewrite Hsp, Has in H.
    destruct Hl as [Hl|Hl]; rewrite Hl in H; [|destruct (lookup_type P s)]; exact H.
  Qed.
End View.
