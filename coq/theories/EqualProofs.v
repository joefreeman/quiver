(* EqualProofs.v — proofs about the model in Equal.v (property C13). *)
From Quiver Require Import Base Equal.

Lemma list_eqb_spec_Forall {A} (eqb : A -> A -> bool) x :
  Forall (fun a => forall b, eqb a b = true <-> a = b) x ->
  forall y, list_eqb eqb x y = true <-> x = y.
Proof.
  induction 1 as [|a x Ha _ IH]; intros [|b y]; cbn [list_eqb]; try (split; easy).
  rewrite andb_true_iff, Ha, IH. split; [intros [-> ->]; reflexivity | intros [= -> ->]; auto].
Qed.

Lemma list_eqb_spec {A} (eqb : A -> A -> bool) :
  (forall a b, eqb a b = true <-> a = b) ->
  forall x y, list_eqb eqb x y = true <-> x = y.
Proof. intros Heq x. apply list_eqb_spec_Forall, Forall_forall. intros a _. apply Heq. Qed.

Lemma option_eqb_spec {A} (eqb : A -> A -> bool) :
  (forall a b, eqb a b = true <-> a = b) ->
  forall x y, option_eqb eqb x y = true <-> x = y.
Proof.
  intros Heq [a|] [b|]; cbn [option_eqb]; try (split; easy).
  rewrite Heq. split; [intros ->; reflexivity | intros [= ->]; reflexivity].
Qed.

Lemma Forall_mp {A} (Q R : A -> Prop) l : Forall (fun x => Q x -> R x) l -> Forall Q l -> Forall R l.
Proof. rewrite !Forall_forall. auto. Qed.

Lemma Forall2_map_eq {A B} (f : A -> B) l1 l2 :
  Forall2 (fun x y => f x = f y) l1 l2 <-> map f l1 = map f l2.
Proof.
  revert l2. induction l1 as [|x l1 IH]; intros [|y l2]; cbn [map].
  - split; [reflexivity | constructor].
  - split; [inversion 1 | discriminate].
  - split; [inversion 1 | discriminate].
  - split.
    + inversion 1; subst. f_equal; [assumption | apply IH; assumption].
    + intros [= Hx Hl]. constructor; [exact Hx | apply IH; exact Hl].
Qed.

Lemma nodup_map_inj {A B} (f : A -> B) l x y :
  NoDup (map f l) -> In x l -> In y l -> f x = f y -> x = y.
Proof.
  induction l as [|a l IH]; cbn [map]; intros Hnd Hx Hy E; [contradiction|].
  inversion Hnd as [|? ? Hnotin Hnd']; subst.
  destruct Hx as [Hx|Hx], Hy as [Hy|Hy]; subst.
  - reflexivity.
  - exfalso. apply Hnotin. rewrite E. apply in_map. exact Hy.
  - exfalso. apply Hnotin. rewrite <- E. apply in_map. exact Hx.
  - apply IH; assumption.
Qed.

(* `f` stays outside the `fix`: a recursive function passed for it still passes the guard check *)
Definition Forall_fix {A} (Q : A -> Prop) (f : forall a, Q a) : forall l, Forall Q l :=
  fix go l := match l with [] => Forall_nil _ | x :: l' => Forall_cons _ (f x) (go l') end.

Lemma bytes_eqb_eq x y : bytes_eqb x y = true <-> x = y.
Proof. apply list_eqb_spec. intros a b. apply Z.eqb_eq. Qed.

Lemma bytes_eqb_refl x : bytes_eqb x x = true.
Proof. apply bytes_eqb_eq. reflexivity. Qed.

Lemma bytes_eqb_sym x y : bytes_eqb x y = bytes_eqb y x.
Proof. apply eq_true_iff_eq. rewrite !bytes_eqb_eq. split; congruence. Qed.

Lemma bytes_eqb_length x y : bytes_eqb x y = true -> length x = length y.
Proof. intro H. apply bytes_eqb_eq in H. subst. reflexivity. Qed.

Lemma shape_eqb_spec a b : reflect (a = b) (shape_eqb a b).
Proof.
  apply iff_reflect. destruct a as [na la], b as [nb lb]. unfold shape_eqb. cbn [fst snd].
  rewrite andb_true_iff, (option_eqb_spec _ bytes_eqb_eq),
    (list_eqb_spec _ (option_eqb_spec _ bytes_eqb_eq)).
  split; [intros [= -> ->]; auto | intros [-> ->]; reflexivity].
Qed.

(* specification: index of the first entry of the table with the given shape *)
Fixpoint find_first (sh : shape) (ts : list tuple_info) : option nat :=
  match ts with
  | [] => None
  | t :: r => if shape_eqb (shape_of t) sh then Some 0%nat else option_map S (find_first sh r)
  end.

Lemma find_first_some sh ts j :
  find_first sh ts = Some j ->
  (exists info, nth_error ts j = Some info /\ shape_of info = sh) /\
  (forall i info, (i < j)%nat -> nth_error ts i = Some info -> shape_of info <> sh).
Proof.
  revert j. induction ts as [|t ts IH]; intros j; cbn [find_first]; [discriminate|].
  destruct (shape_eqb_spec (shape_of t) sh) as [E|N].
  - intros [= <-]. split; [exists t; auto | intros i info Hi; lia].
  - destruct (find_first sh ts) as [j'|]; [|discriminate]. intros [= <-].
    destruct (IH j' eq_refl) as [Hex Hmin]. split; [exact Hex|].
    intros [|i] info Hi Hn; cbn [nth_error] in Hn.
    + injection Hn as <-. exact N.
    + apply (Hmin i); [lia | exact Hn].
Qed.

Lemma find_first_present ts k info :
  nth_error ts k = Some info -> exists j, find_first (shape_of info) ts = Some j /\ (j <= k)%nat.
Proof.
  revert k. induction ts as [|t ts IH]; intros [|k] H; try discriminate; cbn [find_first nth_error] in *;
    destruct (shape_eqb_spec (shape_of t) (shape_of info)) as [E|N];
    try (exists 0%nat; split; [reflexivity | lia]).
  - injection H as <-. contradiction.
  - destruct (IH k H) as (j & -> & Hle). exists (S j). split; [reflexivity | lia].
Qed.

Lemma canon_go_spec ts : forall acc id k info,
  nth_error ts k = Some info ->
  nth_error (canon_go acc id ts) k =
  match assoc_shape (shape_of info) acc with
  | Some c => Some c
  | None => option_map (Nat.add id) (find_first (shape_of info) ts)
  end.
Proof.
  assert (Hzero : forall i, Some i = option_map (Nat.add i) (Some 0%nat)).
  { intro i. cbn [option_map]. f_equal. symmetry. apply Nat.add_0_r. }
  assert (Hshift : forall i o, option_map (Nat.add (S i)) o = option_map (Nat.add i) (option_map S o)).
  { intros i [j|]; cbn [option_map]; [f_equal; symmetry; apply Nat.add_succ_r | reflexivity]. }
  induction ts as [|t ts IH]; intros acc id [|k] info Hk; try discriminate;
    cbn [canon_go find_first nth_error] in *.
  - injection Hk as ->. destruct (assoc_shape (shape_of info) acc); [reflexivity|].
    destruct (shape_eqb_spec (shape_of info) (shape_of info)); [exact (Hzero id) | contradiction].
  - destruct (assoc_shape (shape_of t) acc) as [c|] eqn:A; cbn [nth_error];
      rewrite (IH _ _ _ _ Hk); cbn [assoc_shape];
      destruct (shape_eqb_spec (shape_of t) (shape_of info)) as [E|N].
    + (* t was in the accumulator and info has its shape: both sides find c there *)
      rewrite <- E, A. reflexivity.
    + (* t was there, info has another shape: only the counter has moved *)
      rewrite Hshift. reflexivity.
    + (* t is entered under id just now, and info has its shape *)
      rewrite <- E, A. exact (Hzero id).
    + rewrite Hshift. reflexivity.
Qed.

Lemma compute_canonical_spec ts k info :
  nth_error ts k = Some info ->
  nth_error (compute_canonical ts) k = find_first (shape_of info) ts.
Proof.
  intro H. unfold compute_canonical. rewrite (canon_go_spec ts [] 0%nat k info H).
  cbn [assoc_shape]. destruct (find_first (shape_of info) ts); reflexivity.
Qed.

Lemma canon_go_length ts : forall acc id, length (canon_go acc id ts) = length ts.
Proof.
  induction ts as [|t ts IH]; intros acc id; cbn [canon_go length]; [reflexivity|].
  destruct (assoc_shape (shape_of t) acc); cbn [length]; rewrite IH; reflexivity.
Qed.

Lemma compute_canonical_length ts : length (compute_canonical ts) = length ts.
Proof. apply canon_go_length. Qed.

Lemma canonical_is_lowest ts t info :
  nth_error ts t = Some info ->
  exists c, nth_error (compute_canonical ts) t = Some c /\ (c <= t)%nat /\
            (exists ic, nth_error ts c = Some ic /\ shape_of ic = shape_of info) /\
            (forall j ij, (j < c)%nat -> nth_error ts j = Some ij -> shape_of ij <> shape_of info).
Proof.
  intro H. rewrite (compute_canonical_spec _ _ _ H).
  destruct (find_first_present _ _ _ H) as (j & Hj & Hle).
  exists j. split; [exact Hj|]. split; [exact Hle|]. apply find_first_some. exact Hj.
Qed.

Lemma canonical_iff_same_shape ts t1 t2 i1 i2 :
  nth_error ts t1 = Some i1 -> nth_error ts t2 = Some i2 ->
  (nth_error (compute_canonical ts) t1 = nth_error (compute_canonical ts) t2 <->
   (t_name i1, t_labels i1) = (t_name i2, t_labels i2)).
Proof.
  intros H1 H2. rewrite (compute_canonical_spec _ _ _ H1), (compute_canonical_spec _ _ _ H2).
  fold (shape_of i1) (shape_of i2).
  split; [|intros ->; reflexivity].
  (* the common first index holds an entry of either shape *)
  destruct (find_first_present _ _ _ H1) as (j & Hj & _). rewrite Hj. intro E. symmetry in E.
  destruct (find_first_some _ _ _ Hj) as [(ia & Ha & <-) _].
  destruct (find_first_some _ _ _ E) as [(ib & Hb & <-) _]. congruence.
Qed.

(* canonical_tuple, of the table computed for `ts`: an id out of the table stands for itself *)
Definition canonical_or_self (ts : list tuple_info) (t : nat) : nat :=
  match nth_error (compute_canonical ts) t with Some c => c | None => t end.

Lemma canonical_id_iff ts ta tb ia :
  nth_error ts ta = Some ia ->
  (canonical_or_self ts ta = canonical_or_self ts tb <->
   option_map shape_of (nth_error ts tb) = Some (shape_of ia)).
Proof.
  unfold canonical_or_self. intro Ha. destruct (canonical_is_lowest _ _ _ Ha) as (ca & Ca & Hle & _). rewrite Ca.
  destruct (nth_error ts tb) as [ib|] eqn:Hb; cbn [option_map].
  - destruct (canonical_is_lowest _ _ _ Hb) as (cb & Cb & _).
    pose proof (canonical_iff_same_shape _ _ _ _ _ Ha Hb) as H. rewrite Ca, Cb in *.
    fold (shape_of ia) (shape_of ib) in H.
    split; intro E; [f_equal; symmetry; apply H; f_equal; exact E|].
    assert (E' : Some ca = Some cb) by (apply H; congruence). congruence.
  - (* out of the table the lookup falls back to `tb` itself, which is above every canonical id *)
    apply nth_error_None in Hb. assert (Ht : (ta < length ts)%nat) by (apply nth_error_Some; congruence).
    rewrite (proj2 (nth_error_None _ tb)) by (rewrite compute_canonical_length; exact Hb).
    split; [lia | discriminate].
Qed.

Lemma canonical_tuple_iff P ta tb ia :
  wf_tables P -> nth_error (tuples P) ta = Some ia ->
  (canonical_tuple P ta = canonical_tuple P tb <->
   option_map shape_of (nth_error (tuples P) tb) = Some (shape_of ia)).
Proof. intros Hwf. unfold canonical_tuple. rewrite Hwf. apply canonical_id_iff. Qed.

Lemma canon_go_app ts ext : forall acc id,
  exists acc' id', canon_go acc id (ts ++ ext) = canon_go acc id ts ++ canon_go acc' id' ext.
Proof.
  induction ts as [|t ts IH]; intros acc id; cbn [app canon_go]; [exists acc, id; reflexivity|].
  destruct (assoc_shape (shape_of t) acc); edestruct IH as (acc' & id' & E);
    exists acc', id'; rewrite E; reflexivity.
Qed.

Lemma compute_canonical_app ts ext t :
  (t < length ts)%nat ->
  nth_error (compute_canonical (ts ++ ext)) t = nth_error (compute_canonical ts) t.
Proof.
  intro Ht. unfold compute_canonical. destruct (canon_go_app ts ext [] 0%nat) as (acc' & id' & ->).
  apply nth_error_app1. rewrite canon_go_length. exact Ht.
Qed.

Section value_induction.
  Variable Pv : value -> Prop.
  Hypothesis Hint : forall z, Pv (VInt z).
  Hypothesis Hbin : forall b, Pv (VBin b).
  Hypothesis Href : forall r, Pv (VRef r).
  Hypothesis Htup : forall t fs, Forall Pv fs -> Pv (VTuple t fs).
  Hypothesis Hfun : forall f caps, Forall Pv caps -> Pv (VFun f caps).
  Hypothesis Hbi : forall b, Pv (VBuiltin b).
  Hypothesis Hproc : forall p f, Pv (VProc p f).
  Hypothesis Hres : forall r t, Pv (VRes r t).

  Fixpoint value_ind' (v : value) : Pv v :=
    match v with
    | VInt z => Hint z
    | VBin b => Hbin b
    | VRef r => Href r
    | VTuple t fs => Htup t fs (Forall_fix Pv value_ind' fs)
    | VFun f caps => Hfun f caps (Forall_fix Pv value_ind' caps)
    | VBuiltin b => Hbi b
    | VProc p f => Hproc p f
    | VRes r t => Hres r t
    end.
End value_induction.

(* the nested `zip_all` of values_equal is the top-level one *)
Lemma zip_all_fix P fa fb :
  (fix zip_all (xs ys : list value) {struct xs} : bool :=
     match xs, ys with
     | x :: xs', y :: ys' => values_equal P x y && zip_all xs' ys'
     | _, _ => true
     end) fa fb = zip_all P fa fb.
Proof.
  revert fb. induction fa as [|x fa IH]; intros [|y fb]; cbn [zip_all]; try reflexivity.
  rewrite IH. reflexivity.
Qed.

Lemma values_equal_tuple P ta fa tb fb :
  values_equal P (VTuple ta fa) (VTuple tb fb) = true <->
  canonical_tuple P ta = canonical_tuple P tb /\ length fa = length fb /\ zip_all P fa fb = true.
Proof. cbn [values_equal]. rewrite zip_all_fix, !andb_true_iff, !Nat.eqb_eq, and_assoc. reflexivity. Qed.

Lemma values_equal_fun P ia ca ib cb :
  values_equal P (VFun ia ca) (VFun ib cb) = true <->
  ia = ib /\ length ca = length cb /\ zip_all P ca cb = true.
Proof. cbn [values_equal]. rewrite zip_all_fix, !andb_true_iff, Z.eqb_eq, Nat.eqb_eq, and_assoc. reflexivity. Qed.

(* likewise the nested `all` of wf_value is Forall *)
Lemma wf_all_Forall P fs :
  (fix all (xs : list value) : Prop :=
     match xs with [] => True | x :: xs' => wf_value P x /\ all xs' end) fs <-> Forall (wf_value P) fs.
Proof.
  induction fs as [|x fs IH]; [split; constructor|]. rewrite Forall_cons_iff, <- IH. reflexivity.
Qed.

Lemma wf_value_fun P f caps :
  wf_value P (VFun f caps) <-> Forall (wf_value P) caps.
Proof. apply wf_all_Forall. Qed.

Lemma wf_value_tuple P t fs :
  wf_value P (VTuple t fs) <-> (t < length (tuples P))%nat /\ Forall (wf_value P) fs.
Proof. apply and_iff_compat_l, wf_all_Forall. Qed.

Lemma wf_valueb_spec P v : wf_valueb P v = true <-> wf_value P v.
Proof.
  induction v as [z|b|r|t fs IH|f caps IH|b|p f|r t] using value_ind'; cbn [wf_valueb wf_value];
    try (split; intro; [exact I | reflexivity]).
  - destruct (bin_bytes P b); split; congruence.
  - rewrite andb_true_iff, Nat.ltb_lt. apply and_iff_compat_l.
    induction IH as [|x fs Hx _ IHfs]; [split; intro; [exact I | reflexivity]|].
    rewrite andb_true_iff, Hx, IHfs. reflexivity.
  - induction IH as [|x fs Hx _ IHfs]; [split; intro; [exact I | reflexivity]|].
    rewrite andb_true_iff, Hx, IHfs. reflexivity.
Qed.

Lemma bin_equal_bytes P a b :
  bin_equal P a b =
  match bin_bytes P a, bin_bytes P b with Some x, Some y => bytes_eqb x y | _, _ => false end.
Proof.
  destruct a as [ia|ia], b as [ib|ib]; cbn [bin_equal bin_bytes].
  - destruct (nth_error (constants P) ia) as [[z|x]|], (nth_error (constants P) ib) as [[z'|y]|]; reflexivity.
  - destruct (nth_error (constants P) ia) as [[z|x]|], (nth_error (heap P) ib) as [y|]; reflexivity.
  - destruct (nth_error (constants P) ib) as [[z|y]|], (nth_error (heap P) ia) as [x|]; try reflexivity.
    apply bytes_eqb_sym.
  - destruct (nth_error (heap P) ia) as [x|], (nth_error (heap P) ib) as [y|]; try reflexivity.
    (* the length test is only a fast path: bytes_eqb is false on unequal lengths anyway *)
    destruct (Nat.eqb_spec (length x) (length y)) as [L|L]; [reflexivity|]. cbn [negb].
    destruct (bytes_eqb x y) eqn:E; [apply bytes_eqb_length in E; contradiction | reflexivity].
Qed.

Lemma zip_all_Forall2 P (Q : value -> value -> Prop) fa :
  Forall (fun x => forall y, values_equal P x y = true <-> Q x y) fa ->
  forall fb, length fa = length fb /\ zip_all P fa fb = true <-> Forall2 Q fa fb.
Proof.
  induction 1 as [|x fa Hx _ IH]; intros [|y fb]; cbn [length zip_all].
  - split; [constructor | split; reflexivity].
  - split; [intros [[=] _] | inversion 1].
  - split; [intros [[=] _] | inversion 1].
  - rewrite andb_true_iff, Hx. split.
    + intros [[= L] [Hxy Z]]. constructor; [exact Hxy | apply IH; split; assumption].
    + inversion 1 as [|? ? ? ? Hxy F]; subst. apply IH in F. destruct F as [-> Z]. auto.
Qed.

Lemma zip_all_spec P (Q : value -> value -> Prop) fa :
  Forall (fun x => forall y, values_equal P x y = true <-> Q x y) fa ->
  forall fb, length fa = length fb ->
  (zip_all P fa fb = true <-> Forall2 Q fa fb).
Proof. intros H fb L. rewrite <- (zip_all_Forall2 P Q fa H fb). tauto. Qed.

Theorem values_equal_erase P v :
  wf_tables P -> wf_value P v ->
  forall w, values_equal P v w = true <-> erase P v = erase P w.
Proof.
  intro Hwf. induction v as [z|b|r|t fs IH|f caps IH|b|p f|r t] using value_ind'; intros Hv w;
    (* what well-formedness says of a binary, a tuple, a function *)
    [ | cbn [wf_value] in Hv; destruct (bin_bytes P b) as [x|] eqn:Eb; [|contradiction]
      | | apply wf_value_tuple in Hv; destruct Hv as [Ht Hv];
          destruct (nth_error (tuples P) t) as [ia|] eqn:Ea; [|apply nth_error_None in Ea; lia]
      | apply wf_value_fun in Hv | | | ].
  (* off the diagonal values_equal is false and the erasures differ in the head, however the lookups
     of `erase P w` go: what does not resolve there erases to EBad, which `erase P v` lacks *)
  all: destruct w as [z'|b'|r'|t' fs'|f' caps'|b'|p' f'|r' t'];
    try (cbn [values_equal erase]; rewrite ?Eb, ?Ea; split; [discriminate|];
         try destruct (bin_bytes P b'); try destruct (nth_error (tuples P) t'); discriminate).
  (* atoms are compared by the one integer that erase keeps *)
  all: try (cbn [values_equal erase]; rewrite Z.eqb_eq; split; congruence).
  - cbn [values_equal erase]. rewrite bin_equal_bytes, Eb.
    destruct (bin_bytes P b') as [y|]; [|split; discriminate].
    rewrite bytes_eqb_eq. split; congruence.
  - rewrite values_equal_tuple, (canonical_tuple_iff P t t' ia Hwf Ea),
      (zip_all_Forall2 P _ fs (Forall_mp _ _ _ IH Hv)), Forall2_map_eq.
    cbn [erase]. rewrite Ea.
    destruct (nth_error (tuples P) t') as [ib|]; cbn [option_map]; [|split; [intros [[=] _] | discriminate]].
    unfold shape_of.
    split; [intros [[= -> ->] ->]; reflexivity | intros [= -> -> ->]; auto].
  - rewrite values_equal_fun, (zip_all_Forall2 P _ caps (Forall_mp _ _ _ IH Hv)), Forall2_map_eq.
    cbn [erase]. split; [intros [-> ->]; reflexivity | intros [= -> ->]; auto].
Qed.

(* the two-sided form that C13 states; values_equal_erase is the one to build on *)
Theorem values_equal_structural P :
  wf_tables P ->
  forall v w, wf_value P v -> wf_value P w ->
  (values_equal P v w = true <-> erase P v = erase P w).
Proof. intros Hwf v w Hv _. apply values_equal_erase; assumption. Qed.

Lemma evalue_eqb_go fs fs' :
  (fix go (xs ys : list evalue) {struct xs} : bool :=
     match xs, ys with
     | [], [] => true
     | x :: xs', y :: ys' => evalue_eqb x y && go xs' ys'
     | _, _ => false
     end) fs fs' = list_eqb evalue_eqb fs fs'.
Proof.
  revert fs'. induction fs as [|x fs IH]; intros [|y fs']; cbn [list_eqb]; try reflexivity.
  rewrite IH. reflexivity.
Qed.

Lemma evalue_eqb_spec : forall a b, evalue_eqb a b = true <-> a = b.
Proof.
  (* the nested lists are reached through Forall_fix, which keeps the calls guarded *)
  fix IH 1. intros [z|bs|r|n l fs|f caps|bi|p|r|] [z'|bs'|r'|n' l' fs'|f' caps'|bi'|p'|r'|]; cbn [evalue_eqb];
    try (split; discriminate); try (rewrite Z.eqb_eq; split; congruence).
  - rewrite bytes_eqb_eq. split; congruence.
  - rewrite !andb_true_iff, (option_eqb_spec _ bytes_eqb_eq),
      (list_eqb_spec _ (option_eqb_spec _ bytes_eqb_eq)), evalue_eqb_go,
      (list_eqb_spec_Forall _ _ (Forall_fix _ IH fs)).
    split; [intros [[-> ->] ->]; reflexivity | intros [= -> -> ->]; auto].
  - rewrite andb_true_iff, Z.eqb_eq, evalue_eqb_go, (list_eqb_spec_Forall _ _ (Forall_fix _ IH caps)).
    split; [intros [-> ->]; reflexivity | intros [= -> ->]; auto].
  - split; reflexivity.
Qed.

Corollary values_equal_is_erase_eqb P v w :
  wf_tables P -> wf_value P v -> wf_value P w ->
  values_equal P v w = evalue_eqb (erase P v) (erase P w).
Proof.
  intros Hwf Hv _. apply eq_true_iff_eq. rewrite evalue_eqb_spec. apply values_equal_erase; assumption.
Qed.

Lemma values_equal_refl P v : wf_value P v -> values_equal P v v = true.
Proof.
  assert (Hzip : forall fs, Forall (fun x => values_equal P x x = true) fs -> zip_all P fs fs = true).
  { induction 1 as [|x fs Hx _ IH]; cbn [zip_all]; [reflexivity | rewrite Hx, IH; reflexivity]. }
  induction v as [z|b|r|t fs IH|f caps IH|b|p f|r t] using value_ind'; intro Hv; try apply Z.eqb_refl.
  - (* an unresolvable binary is not equal to itself *)
    cbn [values_equal wf_value] in *. rewrite bin_equal_bytes.
    destruct (bin_bytes P b); [apply bytes_eqb_refl | contradiction].
  - apply wf_value_tuple in Hv. apply values_equal_tuple. repeat split. apply Hzip, (Forall_mp _ _ _ IH), Hv.
  - apply wf_value_fun in Hv. apply values_equal_fun. repeat split. apply Hzip, (Forall_mp _ _ _ IH), Hv.
Qed.

Theorem equal_refl P v : wf_tables P -> wf_value P v -> values_equal P v v = true.
Proof. intros _. apply values_equal_refl. Qed.

(* Symmetry and transitivity hold of any two or three values, in any tables: every arm of
   values_equal is symmetric and transitive as it stands. Only reflexivity asks for something. *)
Lemma values_equal_sym P v : forall w, values_equal P v w = values_equal P w v.
Proof.
  assert (Hzip : forall fa, Forall (fun x => forall y, values_equal P x y = values_equal P y x) fa ->
                            forall fb, zip_all P fa fb = zip_all P fb fa).
  { induction 1 as [|x fa Hx _ IH]; intros [|y fb]; cbn [zip_all]; try reflexivity.
    rewrite Hx, IH. reflexivity. }
  induction v as [z|b|r|t fs IH|f caps IH|b|p f|r t] using value_ind';
    intros [z'|b'|r'|t' fs'|f' caps'|b'|p' f'|r' t']; try reflexivity; cbn [values_equal];
    try apply Z.eqb_sym.
  - rewrite !bin_equal_bytes. destruct (bin_bytes P b), (bin_bytes P b'); try reflexivity.
    apply bytes_eqb_sym.
  - rewrite !zip_all_fix, (Hzip fs IH), (Nat.eqb_sym (length fs)), (Nat.eqb_sym (canonical_tuple P t)).
    reflexivity.
  - rewrite !zip_all_fix, (Hzip caps IH), (Nat.eqb_sym (length caps)), (Z.eqb_sym f). reflexivity.
Qed.

Lemma values_equal_trans P u : forall v w,
  values_equal P u v = true -> values_equal P v w = true -> values_equal P u w = true.
Proof.
  (* zip_all stops at the shorter list, so the middle one must be as long as the first *)
  assert (Hzip : forall fa, Forall (fun x => forall y z, values_equal P x y = true ->
                                      values_equal P y z = true -> values_equal P x z = true) fa ->
                 forall fb fc, length fa = length fb -> zip_all P fa fb = true ->
                               zip_all P fb fc = true -> zip_all P fa fc = true).
  { induction 1 as [|x fa Hx _ IH]; intros [|y fb] [|z fc]; cbn [zip_all length]; try reflexivity;
      try discriminate.
    rewrite !andb_true_iff. intros [= L] [H1 Z1] [H2 Z2]. split; [exact (Hx y z H1 H2) | exact (IH fb fc L Z1 Z2)]. }
  induction u as [z|b|r|t fs IH|f caps IH|b|p f|r t] using value_ind';
    intros [z1|b1|r1|t1 fs1|f1 caps1|b1|p1 f1|r1 t1]; try discriminate;
    intros [z2|b2|r2|t2 fs2|f2 caps2|b2|p2 f2|r2 t2]; try discriminate;
    try (cbn [values_equal]; rewrite !Z.eqb_eq; congruence).
  - cbn [values_equal]. rewrite !bin_equal_bytes.
    destruct (bin_bytes P b), (bin_bytes P b1), (bin_bytes P b2); try discriminate.
    rewrite !bytes_eqb_eq. congruence.
  - rewrite !values_equal_tuple. intros (C1 & L1 & Z1) (C2 & L2 & Z2).
    split; [congruence|]. split; [congruence | exact (Hzip fs IH fs1 fs2 L1 Z1 Z2)].
  - rewrite !values_equal_fun. intros (C1 & L1 & Z1) (C2 & L2 & Z2).
    split; [congruence|]. split; [congruence | exact (Hzip caps IH caps1 caps2 L1 Z1 Z2)].
Qed.

Theorem equal_sym P v w :
  wf_tables P -> wf_value P v -> wf_value P w ->
  values_equal P v w = values_equal P w v.
Proof. intros _ _ _. apply values_equal_sym. Qed.

Theorem equal_trans P u v w :
  wf_tables P -> wf_value P u -> wf_value P v -> wf_value P w ->
  values_equal P u v = true -> values_equal P v w = true -> values_equal P u w = true.
Proof. intros _ _ _ _. apply values_equal_trans. Qed.

(* a binary is its bytes, wherever it lives (constants table or heap slot) *)
Theorem equal_binary_representation_independent P a b :
  values_equal P (VBin a) (VBin b) = true <->
  exists bs, bin_bytes P a = Some bs /\ bin_bytes P b = Some bs.
Proof.
  cbn [values_equal]. rewrite bin_equal_bytes.
  destruct (bin_bytes P a) as [x|], (bin_bytes P b) as [y|];
    try (split; [discriminate | intros (bs & [=] & [=])]).
  rewrite bytes_eqb_eq. split; [intros ->; eauto | intros (bs & [= ->] & [= ->]); reflexivity].
Qed.

Corollary equal_constant_vs_heap P k i bs :
  nth_error (constants P) k = Some (CBin bs) -> nth_error (heap P) i = Some bs ->
  values_equal P (VBin (BConst k)) (VBin (BHeap i)) = true /\
  values_equal P (VBin (BHeap i)) (VBin (BConst k)) = true.
Proof.
  intros Hk Hi. split; apply equal_binary_representation_independent; exists bs;
    cbn [bin_bytes]; rewrite Hk, Hi; split; reflexivity.
Qed.

Theorem equal_tuple_id_independent P t1 t2 i1 i2 fs1 fs2 :
  wf_tables P ->
  nth_error (tuples P) t1 = Some i1 -> nth_error (tuples P) t2 = Some i2 ->
  (t_name i1, t_labels i1) = (t_name i2, t_labels i2) ->
  Forall2 (fun x y => values_equal P x y = true) fs1 fs2 ->
  values_equal P (VTuple t1 fs1) (VTuple t2 fs2) = true.
Proof.
  intros Hwf H1 H2 Hsh Hfs. apply values_equal_tuple. split.
  - apply (canonical_tuple_iff P t1 t2 i1 Hwf H1). rewrite H2. cbn [option_map]. unfold shape_of. congruence.
  - apply (zip_all_Forall2 P (fun x y => values_equal P x y = true) fs1); [|exact Hfs].
    apply Forall_forall. intros x _ y. reflexivity.
Qed.

Lemma bin_bytes_update P cs hs ts b :
  bin_bytes P b <> None -> bin_bytes (update_tables P cs hs ts) b = bin_bytes P b.
Proof.
  destruct b as [k|i]; cbn [bin_bytes update_tables constants heap]; intro H.
  - destruct (nth_error (constants P) k) as [c|] eqn:E; [|contradiction].
    rewrite nth_error_app1, E by (apply nth_error_Some; congruence). reflexivity.
  - rewrite nth_error_app1 by (apply nth_error_Some; exact H). reflexivity.
Qed.

Lemma wf_tables_update P cs hs ts : wf_tables (update_tables P cs hs ts).
Proof. reflexivity. Qed.

Lemma wf_value_update P cs hs ts v :
  wf_value P v -> wf_value (update_tables P cs hs ts) v.
Proof.
  induction v as [z|b|r|t fs IH|f caps IH|b|p f|r t] using value_ind'; try exact (fun _ => I).
  - cbn [wf_value]. intro H. rewrite bin_bytes_update; assumption.
  - rewrite !wf_value_tuple. cbn [update_tables tuples]. rewrite app_length.
    intros [Ht Hfs]. split; [lia | exact (Forall_mp _ _ _ IH Hfs)].
  - rewrite !wf_value_fun. apply Forall_mp, IH.
Qed.

Lemma erase_update P cs hs ts v :
  wf_value P v -> erase (update_tables P cs hs ts) v = erase P v.
Proof.
  induction v as [z|b|r|t fs IH|f caps IH|b|p f|r t] using value_ind'; intro H; try reflexivity.
  - cbn [erase wf_value] in *. rewrite bin_bytes_update by assumption. reflexivity.
  - apply wf_value_tuple in H. destruct H as [Ht Hfs]. cbn [erase update_tables tuples].
    rewrite nth_error_app1, (map_ext_Forall _ _ (Forall_mp _ _ _ IH Hfs)) by exact Ht. reflexivity.
  - apply wf_value_fun in H. cbn [erase]. rewrite (map_ext_Forall _ _ (Forall_mp _ _ _ IH H)). reflexivity.
Qed.

Theorem equal_stable_under_update P cs hs ts v w :
  wf_tables P -> wf_value P v -> wf_value P w ->
  values_equal (update_tables P cs hs ts) v w = values_equal P v w.
Proof.
  intros Hwf Hv Hw. apply eq_true_iff_eq.
  rewrite (values_equal_erase _ v (wf_tables_update P cs hs ts) (wf_value_update P cs hs ts v Hv)),
    (values_equal_erase P v Hwf Hv), !erase_update by assumption.
  reflexivity.
Qed.

Theorem canonical_stable_under_update P cs hs ts t :
  wf_tables P -> (t < length (tuples P))%nat ->
  canonical_tuple (update_tables P cs hs ts) t = canonical_tuple P t.
Proof.
  intros Hwf Ht. unfold canonical_tuple. cbn [update_tables canonical]. rewrite Hwf.
  rewrite compute_canonical_app by exact Ht. reflexivity.
Qed.

Theorem pin_matches_spec P a b :
  wf_tables P -> wf_value P a ->
  pin_matches P a b = Val (values_equal P a b).
Proof.
  intros _ Ha. unfold pin_matches, handle_equal.
  cbn [length Nat.ltb Nat.leb firstn rev app skipn forallb obind].
  rewrite (values_equal_refl P a Ha). cbn [andb].
  destruct (values_equal P a b); reflexivity.
Qed.

(* handle_equal never reads below the `count` topmost values and returns a verdict *)
Theorem handle_equal_verdict P first rest below :
  handle_equal P (S (length rest)) (rev (first :: rest) ++ below) =
  Val ((if forallb (values_equal P first) (first :: rest) then ok_value else nil_value) :: below).
Proof.
  (* the panic site is a unary numeral: rewriting around it is slow, so it is abstracted first *)
  unfold handle_equal. generalize 1943%nat. intro site.
  change (S (length rest)) with (length (first :: rest)). rewrite <- (rev_length (first :: rest)).
  rewrite (proj2 (Nat.ltb_ge _ _)) by (rewrite app_length; apply Nat.le_add_r).
  rewrite firstn_app, firstn_all, skipn_app, skipn_all, Nat.sub_diag, app_nil_r, rev_involutive.
  reflexivity.
Qed.

Lemma ref_value_arith w n :
  0 <= w < 2 ^ 16 -> ref_value w n = Z.lor (Z.shiftl w 48) n.
Proof.
  intro Hw. unfold ref_value, wrap_u64, two64. f_equal.
  rewrite Z.shiftl_mul_pow2 by lia. apply Z.mod_small.
  change (2 ^ 64) with (2 ^ 16 * 2 ^ 48). nia.
Qed.

Lemma ref_value_worker w n :
  0 <= w < 2 ^ 16 -> 0 <= n < 2 ^ 48 -> Z.shiftr (ref_value w n) 48 = w.
Proof.
  intros Hw Hn. rewrite ref_value_arith by exact Hw.
  rewrite Z.shiftr_lor, Z.shiftr_shiftl_l by lia.
  rewrite Z.sub_diag, Z.shiftl_0_r.
  rewrite (Z.shiftr_div_pow2 n) by lia. rewrite Z.div_small by lia. apply Z.lor_0_r.
Qed.

Lemma ref_value_counter w n :
  0 <= w < 2 ^ 16 -> 0 <= n < 2 ^ 48 -> Z.land (ref_value w n) (Z.ones 48) = n.
Proof.
  intros Hw Hn. rewrite ref_value_arith by exact Hw.
  rewrite Z.land_lor_distr_l, !Z.land_ones by lia.
  rewrite Z.shiftl_mul_pow2 by lia. rewrite Z.mod_mul by lia.
  rewrite Z.mod_small by lia. apply Z.lor_0_l.
Qed.

(* about ref_value, which is what create_ref mints (create_ref_ok below) *)
Theorem create_ref_injective w1 n1 w2 n2 :
  0 <= w1 < 2 ^ 16 -> 0 <= w2 < 2 ^ 16 -> 0 <= n1 < 2 ^ 48 -> 0 <= n2 < 2 ^ 48 ->
  ref_value w1 n1 = ref_value w2 n2 -> w1 = w2 /\ n1 = n2.
Proof.
  intros Hw1 Hw2 Hn1 Hn2 E. split.
  - rewrite <- (ref_value_worker w1 n1), <- (ref_value_worker w2 n2) by assumption. rewrite E. reflexivity.
  - rewrite <- (ref_value_counter w1 n1), <- (ref_value_counter w2 n2) by assumption. rewrite E. reflexivity.
Qed.

Definition bump (e : minter) : minter := {| worker_id := worker_id e; next_ref := next_ref e + 1 |}.

Lemma create_ref_ok m e :
  0 <= next_ref e -> next_ref e + 1 < 2 ^ 64 -> create_ref m e = Val (ref_value (worker_id e) (next_ref e), bump e).
Proof.
  intros H0 H1. unfold create_ref. replace (in_u64 (next_ref e + 1)) with true; [reflexivity|].
  symmetry. unfold in_u64, two64. apply andb_true_iff. split; [apply Z.leb_le | apply Z.ltb_lt]; lia.
Qed.

Lemma create_ref_collides_beyond_bound : ref_value 0 (2 ^ 48) = ref_value 1 0.
Proof. vm_compute. reflexivity. Qed.

Lemma update_nth_length {A} (l : list A) i x : length (update_nth l i x) = length l.
Proof.
  revert i. induction l as [|h t IH]; intros [|i]; cbn [update_nth length]; try reflexivity.
  rewrite IH. reflexivity.
Qed.

Lemma update_nth_hit {A} (l : list A) i x e :
  nth_error l i = Some e -> nth_error (update_nth l i x) i = Some x.
Proof.
  revert i. induction l as [|h t IH]; intros [|i] H; cbn in *; try discriminate; [reflexivity|].
  apply IH. exact H.
Qed.

Lemma update_nth_in {A} (l : list A) i x y : In y (update_nth l i x) -> y = x \/ In y l.
Proof.
  revert i. induction l as [|h t IH]; intros [|i]; cbn [update_nth In]; try tauto.
  - intros [<-|H]; tauto.
  - intros [H|H]; [|apply IH in H]; tauto.
Qed.

Lemma update_nth_map {A B} (f : A -> B) (l : list A) i x e :
  nth_error l i = Some e -> f x = f e -> map f (update_nth l i x) = map f l.
Proof.
  revert i. induction l as [|h t IH]; intros [|i] H E; cbn in *; try discriminate.
  - inversion H; subst. rewrite E. reflexivity.
  - f_equal. apply IH; assumption.
Qed.

(* `bound`: how many mintings are still to come in the whole system; none takes a counter to 2^48 *)
Definition minter_ok (bound : Z) (e : minter) : Prop :=
  0 <= worker_id e < 2 ^ 16 /\ 0 <= next_ref e /\ next_ref e + bound <= 2 ^ 48.

(* what `sys` can still mint: the worker id of one of its minters with a counter at or above
   that minter's current one *)
Definition minted_from (sys : list minter) (r : Z) : Prop :=
  exists e k, In e sys /\ next_ref e <= k < 2 ^ 48 /\ r = ref_value (worker_id e) k.

Lemma mint_step n sys i e :
  NoDup (map worker_id sys) -> (forall x, In x sys -> minter_ok (Z.of_nat (S n)) x) ->
  nth_error sys i = Some e ->
  let sys' := update_nth sys i (bump e) in
  NoDup (map worker_id sys') /\ (forall x, In x sys' -> minter_ok (Z.of_nat n) x) /\
  forall r, minted_from sys' r -> minted_from sys r /\ r <> ref_value (worker_id e) (next_ref e).
Proof.
  intros Hnd Hok Ei sys'.
  assert (He : In e sys) by (eapply nth_error_In; exact Ei).
  destruct (Hok e He) as (Hw & Hn & Hb).
  assert (Hnd' : NoDup (map worker_id sys')).
  { unfold sys'. rewrite (update_nth_map worker_id _ _ (bump e) _ Ei eq_refl). exact Hnd. }
  assert (Hok' : forall x, In x sys' -> minter_ok (Z.of_nat n) x).
  { intros x Hx. unfold minter_ok. destruct (update_nth_in _ _ _ _ Hx) as [->|Hx'].
    - cbn [bump worker_id next_ref]. lia.
    - destruct (Hok x Hx') as (? & ? & ?). lia. }
  split; [exact Hnd'|]. split; [exact Hok'|].
  intros r (x & k & Hx & Hk & ->). destruct (Hok' x Hx) as (Hwx & Hnx & _). split.
  - destruct (update_nth_in _ _ _ _ Hx) as [->|Hx']; [exists e, k | exists x, k];
      cbn [bump worker_id next_ref] in *; repeat split; auto; lia.
  - (* the only minter of sys' with e's worker id is `bump e`, whose counter has moved on *)
    intro E. apply create_ref_injective in E; try lia. destruct E as [Ew ->].
    assert (x = bump e).
    { apply (nodup_map_inj worker_id sys' _ _ Hnd' Hx); [|exact Ew].
      eapply nth_error_In, update_nth_hit, Ei. }
    subst x. cbn [bump next_ref] in Hk. lia.
Qed.

Lemma run_mints_unique m sched : forall sys,
  NoDup (map worker_id sys) ->
  (forall e, In e sys -> minter_ok (Z.of_nat (length sched)) e) ->
  exists refs, run_mints m sys sched = Val refs /\ NoDup refs /\ forall r, In r refs -> minted_from sys r.
Proof.
  induction sched as [|i rest IH]; intros sys Hnd Hok; cbn [run_mints].
  - exists []. repeat split; [constructor | intros r []].
  - destruct (nth_error sys i) as [e|] eqn:Ei.
    2: { apply IH; [exact Hnd|]. intros x Hx. destruct (Hok x Hx) as (? & ? & ?).
         unfold minter_ok. cbn [length] in *. lia. }
    destruct (Hok e (nth_error_In _ _ Ei)) as (Hw & Hn & Hb). cbn [length] in Hb.
    rewrite create_ref_ok by lia. cbn [obind fst snd].
    destruct (mint_step _ _ _ _ Hnd Hok Ei) as (Hnd' & Hok' & Hstep).
    destruct (IH _ Hnd' Hok') as (refs & -> & Hnodup & Hfrom).
    cbn [obind]. eexists. split; [reflexivity|]. split.
    + constructor; [|exact Hnodup]. intro Hr. apply (Hstep _ (Hfrom _ Hr)). reflexivity.
    + intros r [<-|Hr]; [|apply Hstep, Hfrom, Hr].
      exists e, (next_ref e). repeat split; eauto using nth_error_In; lia.
Qed.

Theorem refs_unique_system m sys sched :
  NoDup (map worker_id sys) ->
  Forall (fun e => 0 <= worker_id e < 2 ^ 16 /\ 0 <= next_ref e /\
                   next_ref e + Z.of_nat (length sched) <= 2 ^ 48) sys ->
  exists refs, run_mints m sys sched = Val refs /\ NoDup refs.
Proof.
  (* the body of the Forall is minter_ok (Z.of_nat (length sched)) unfolded *)
  intros Hnd Hok. rewrite Forall_forall in Hok.
  destruct (run_mints_unique m sched sys Hnd Hok) as (refs & H1 & H2 & _). eauto.
Qed.

(* witnesses that the hypotheses of the C13 theorems can be met *)
Definition ex_A : tuple_info := {| t_name := Some [65]; t_labels := [Some [120]; None] |}.   (* A[x: _, _] *)
Definition ex_B : tuple_info := {| t_name := Some [66]; t_labels := [Some [120]; None] |}.   (* B[x: _, _] *)
Definition ex_nil : tuple_info := {| t_name := None; t_labels := [] |}.
Definition ex_ok : tuple_info := {| t_name := Some [79; 107]; t_labels := [] |}.
Definition ex_tuples := [ex_nil; ex_ok; ex_A; ex_B; ex_A].
Definition ex_tables : tables :=
  {| constants := [CInt 5; CBin [10; 27]]; heap := [[10; 27]; [1]];
     tuples := ex_tuples; canonical := compute_canonical ex_tuples |}.
(* the same value twice: A[x: 0x0a1b, A[x: 1, <ref 7>]] with the tuple ids 2/4 swapped and the
   binary once as a constant, once on the heap *)
Definition ex_v : value := VTuple 2 [VBin (BConst 1); VTuple 4 [VInt 1; VRef 7]].
Definition ex_w : value := VTuple 4 [VBin (BHeap 0); VTuple 2 [VInt 1; VRef 7]].
Definition ex_u : value := VTuple 4 [VBin (BHeap 0); VTuple 3 [VInt 1; VRef 7]].   (* B inside *)

Example ex_canonical : compute_canonical ex_tuples = [0; 1; 2; 3; 2]%nat.
Proof. vm_compute. reflexivity. Qed.

Example ex_structural :
  wf_tables ex_tables /\ wf_value ex_tables ex_v /\ wf_value ex_tables ex_w /\ wf_value ex_tables ex_u /\
  ex_v <> ex_w /\
  values_equal ex_tables ex_v ex_w = true /\ erase ex_tables ex_v = erase ex_tables ex_w /\
  values_equal ex_tables ex_v ex_u = false /\ erase ex_tables ex_v <> erase ex_tables ex_u.
Proof.
  split; [reflexivity|].
  split; [apply wf_valueb_spec; vm_compute; reflexivity|].
  split; [apply wf_valueb_spec; vm_compute; reflexivity|].
  split; [apply wf_valueb_spec; vm_compute; reflexivity|].
  split; [discriminate|].
  split; [vm_compute; reflexivity|].
  split; [vm_compute; reflexivity|].
  split; [vm_compute; reflexivity|].
  vm_compute. discriminate.
Qed.

Example ex_update :
  let P' := update_tables ex_tables [CBin [10; 27]] [[10; 27]] [ex_A; ex_B] in
  canonical P' = [0; 1; 2; 3; 2; 2; 3]%nat /\
  values_equal P' ex_v ex_w = true /\
  values_equal P' ex_v (VTuple 5 [VBin (BConst 2); VTuple 4 [VInt 1; VRef 7]]) = true.
Proof. vm_compute. repeat split; reflexivity. Qed.

Example ex_pin :
  pin_matches ex_tables ex_v ex_w = Val true /\ pin_matches ex_tables ex_v ex_u = Val false /\
  pin_matches ex_tables nil_value nil_value = Val true.
Proof. vm_compute. repeat split; reflexivity. Qed.

Definition ex_sys : list minter :=
  [ {| worker_id := 0; next_ref := 0 |}; {| worker_id := 1; next_ref := 0 |}; {| worker_id := 65535; next_ref := 5 |} ].
Example ex_refs :
  NoDup (map worker_id ex_sys) /\
  Forall (fun e => 0 <= worker_id e < 2 ^ 16 /\ 0 <= next_ref e /\ next_ref e + Z.of_nat (length [0; 1; 2; 0; 2; 1]%nat) <= 2 ^ 48) ex_sys /\
  run_mints Debug ex_sys [0; 1; 2; 0; 2; 1]%nat =
    Val [0; 281474976710656; 18446462598732840965; 1; 18446462598732840966; 281474976710657].
Proof.
  split; [repeat constructor; cbn; intuition discriminate|].
  split; [repeat constructor; cbn; lia|].
  vm_compute. reflexivity.
Qed.
