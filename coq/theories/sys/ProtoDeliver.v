(* ProtoDeliver.v — C04 on M-Sys (sys/Proto.v): no DeliverMessage is ever handled for a process
   that does not exist (nothing is dropped at the mailbox), for every schedule and every oracle:
   a routed process either exists on its worker or its SpawnProcess / StartProcess command is
   queued on that worker AHEAD of every DeliverMessage addressed to it. *)
From Quiver Require Import sys.Proto sys.ProtoMsg sys.ProtoFifo sys.ProtoFail.

Definition spawns (c : cmd) : option pid :=
  match c with CSpawn p => Some p | CStart p _ => Some p | _ => None end.
Definition has (p : pid) (w : worker) : Prop := alookup p (w_procs w) <> None.

(* the process table only grows *)
Definition pk (w w' : worker) : Prop := forall p, has p w -> has p w'.
Lemma pk_refl w : pk w w. Proof. intros p H; exact H. Qed.
Lemma pk_trans a b c : pk a b -> pk b c -> pk a c. Proof. intros H1 H2 p H. apply H2, H1, H. Qed.
Lemma pk_same w w' : w_procs w' = w_procs w -> pk w w'. Proof. intros E p H. unfold has. rewrite E. exact H. Qed.
Lemma pk_set_procs_aset w k a : pk w (set_procs w (aset k a (w_procs w))).
Proof.
  intros p H. unfold has in *. simpl. rewrite alookup_aset. destruct (p =? k); [discriminate|exact H].
Qed.
Lemma pk_upd_proc p f w : pk w (upd_proc p f w).
Proof. unfold upd_proc. destruct (alookup p (w_procs w)); [apply pk_set_procs_aset|apply pk_refl]. Qed.
Lemma pk_mark_active p w : pk w (mark_active p w).
Proof. unfold mark_active. destruct (_ || _); apply pk_same; reflexivity. Qed.

Lemma has_in p w : has p w <-> In p (map fst (w_procs w)).
Proof.
  rewrite <- mem_in, alookup_mem. unfold has. destruct (alookup p (w_procs w)); split; congruence.
Qed.

(* one command: the table grows, a spawn command adds its process, and a DeliverMessage for an
   existing process drops nothing *)
Lemma handle_cmd_pk c w w' ev : handle_cmd c w = Good (w', ev) ->
  pk w w' /\ (forall t, spawns c = Some t -> has t w') /\
  (forall t m, c = CDeliver t m -> has t w -> w_dropped w' = w_dropped w) /\
  (deliv c = [] -> w_dropped w' = w_dropped w).
Proof.
  intros H. destruct (handle_cmd_frame _ _ _ _ H) as (K&_&_&_&_&D&_). repeat split.
  - intros p. rewrite !has_in, K. destruct c; auto; rewrite in_sadd; auto.
  - intros t Hs. rewrite has_in, K. destruct c; inversion Hs; subst; apply in_sadd; auto.
  - intros t m -> Hh. rewrite D. unfold has in Hh. destruct (alookup t (w_procs w)); [apply app_nil_r|contradiction].
  - intros Hd. rewrite D. destruct c; try apply app_nil_r. discriminate.
Qed.

Lemma pk_exec_step i now o w w' ev : exec_step i now o w = Good (w', ev) -> pk w w'.
Proof. intros H p. apply exec_step_frame in H. destruct H as (K&_). rewrite !has_in, K. auto. Qed.

Lemma pk_check_completed hint w w' ev : check_completed hint w = Good (w', ev) -> pk w w'.
Proof. intros H. apply check_completed_book in H. apply pk_same, H. Qed.

(* target t is ready on (w, cs): it exists, or its spawn command is queued ahead of every
   DeliverMessage addressed to it *)
Definition ready (t : pid) (w : worker) (cs : list cmd) : Prop :=
  has t w \/ exists a c b, cs = a ++ c :: b /\ spawns c = Some t /\ ft t (delivs a) = [].

Lemma ready_pk t w w' cs : pk w w' -> ready t w cs -> ready t w' cs.
Proof. intros K [H|H]; [left; apply K; exact H|right; exact H]. Qed.
Lemma ready_app t w cs c : ready t w cs -> ready t w (cs ++ [c]).
Proof.
  intros [H|(a&c0&b&E&Hs&Hf)]; [left; exact H|right]. exists a, c0, (b ++ [c]). subst cs.
  rewrite <- app_assoc. simpl. auto.
Qed.

(* handling a prefix of the queue: nothing is dropped, every target in R (in the use: routed to this
   worker) stays ready *)
Lemma handle_cmds_ready (R : pid -> Prop) : forall pre w rest w' ev,
  (forall t, R t -> ready t w (pre ++ rest)) ->
  (forall t, ft t (delivs (pre ++ rest)) <> [] -> R t) ->
  handle_cmds pre w = Good (w', ev) ->
  w_dropped w' = w_dropped w /\ pk w w' /\ (forall t, R t -> ready t w' rest).
Proof.
  induction pre as [|c pre IH]; intros w rest w' ev Hr Hd H; simpl in H.
  - inversion H; subst. repeat split; [apply pk_refl|exact Hr].
  - destruct (handle_cmd c w) as [[w1 e1]|] eqn:E1; simpl in H; [|discriminate].
    destruct (handle_cmds pre w1) as [[w2 e2]|] eqn:E2; simpl in H; [|discriminate].
    inversion H; subst w' ev; clear H.
    destruct (handle_cmd_pk _ _ _ _ E1) as (K1&Sp&Dl&Nd).
    assert (D1: w_dropped w1 = w_dropped w).
    { destruct (deliv c) eqn:Ec; [apply Nd; reflexivity|].
      destruct c; simpl in Ec; try discriminate. apply (Dl target m eq_refl).
      assert (Rt: R target).
      { apply Hd. simpl. rewrite Nat.eqb_refl. discriminate. }
      destruct (Hr target Rt) as [Hh|(a&c0&b&E&Hs&Hf)]; [exact Hh|].
      exfalso. destruct a as [|a0 a]; simpl in E; inversion E; subst.
      - simpl in Hs. discriminate.
      - simpl in Hf. rewrite Nat.eqb_refl in Hf. discriminate. }
    destruct (IH w1 rest w2 e2) as (D2&K2&R2); [| |exact E2|].
    + intros t Rt. destruct (Hr t Rt) as [Hh|(a&c0&b&E&Hs&Hf)]; [left; apply K1; exact Hh|].
      destruct a as [|a0 a]; simpl in E; inversion E; subst.
      * left. apply Sp. exact Hs.
      * right. exists a, c0, b. repeat split; [assumption|assumption|].
        simpl in Hf. unfold delivs in Hf. simpl in Hf. fold (delivs a) in Hf. rewrite ft_app in Hf.
        apply app_eq_nil in Hf. apply Hf.
    + intros t Ht. apply Hd. simpl. unfold delivs. simpl. fold (delivs (pre ++ rest)). rewrite ft_app.
      intros E. apply app_eq_nil in E. destruct E as (_&E). contradiction.
    + repeat split; [congruence|eapply pk_trans; eassumption|exact R2].
Qed.

Definition deliver_inv (s : sys) : Prop :=
  fifo_inv s /\
  (forall n nd, nth_error (s_nodes s) n = Some nd -> w_dropped (n_w nd) = []) /\
  (forall t n nd, alookup t (e_router (s_env s)) = Some n -> nth_error (s_nodes s) n = Some nd -> ready t (n_w nd) (n_cmd nd)).

(* nothing more is dropped *)
Definition dk (w w' : worker) : Prop := w_dropped w' = w_dropped w.
Lemma dk_geq w w' : geq w w' -> dk w w'. Proof. intros (_&_&_&D). exact D. Qed.

(* Worker::step keeps every routed target ready and drops nothing *)
Lemma node_step_ready (R : pid -> Prop) i now k o nd nd' :
  node_step i now k o nd = Good nd' ->
  (forall t, R t -> ready t (n_w nd) (n_cmd nd)) ->
  (forall t, ft t (delivs (n_cmd nd)) <> [] -> R t) ->
  w_dropped (n_w nd') = w_dropped (n_w nd) /\ (forall t, R t -> ready t (n_w nd') (n_cmd nd')).
Proof.
  intros H Hr Hd. destruct (node_step_shape _ _ _ _ _ _ H) as (pre&w1&e1&w2&e2&e3&Hs&E1&E2&E3&_).
  rewrite Hs in Hr, Hd.
  destruct (handle_cmds_ready R pre (n_w nd) (n_cmd nd') w1 e1 Hr Hd E1) as (D1&K1&R1).
  pose proof (pk_exec_step _ _ _ _ _ _ E2) as K2. pose proof (pk_check_completed _ _ _ _ E3) as K3.
  apply exec_step_frame in E2. destruct E2 as (_&_&D2&_). apply check_completed_book in E3. destruct E3 as ((_&_&_&_&G3)&_).
  split; [rewrite (dk_geq _ _ G3); congruence|].
  intros t Rt. eapply ready_pk; [exact (pk_trans _ _ _ K2 K3)|apply R1; exact Rt].
Qed.

(* no worker has dropped a message, and every routed target is ready on its worker *)
Definition EInv (e : env) (ns : list node) : Prop :=
  (forall n nd, nth_error ns n = Some nd -> w_dropped (n_w nd) = []) /\
  (forall t n nd, alookup t (e_router e) = Some n -> nth_error ns n = Some nd -> ready t (n_w nd) (n_cmd nd)).

Lemma EInv_push e ns w c : EInv e ns -> EInv e (push_cmd w c ns).
Proof.
  intros (D&R). split.
  - intros n nd Hn. rewrite nth_error_push in Hn. destruct (nth_error ns n) as [nd0|] eqn:En; [|discriminate].
    inversion Hn; subst nd. destruct (n =? w); simpl; apply (D n nd0 En).
  - intros t n nd Hr Hn. rewrite nth_error_push in Hn. destruct (nth_error ns n) as [nd0|] eqn:En; [|discriminate].
    inversion Hn; subst nd. destruct (n =? w); simpl; [apply ready_app|]; apply (R t n nd0 Hr En).
Qed.

(* allocating a fresh pid and queueing its spawn command on the chosen worker *)
Lemma EInv_alloc e ns evs w c :
  GInv e ns evs -> EInv e ns -> spawns c = Some (e_next e) -> EInv (alloc e w) (push_cmd w c ns).
Proof.
  intros (B&D&_&_) (Dr&R) Hc.
  assert (Hfresh: alookup (e_next e) (e_router e) = None).
  { destruct (alookup (e_next e) (e_router e)) eqn:E; [|reflexivity]. apply B in E. lia. }
  split.
  - intros n nd Hn. rewrite nth_error_push in Hn. destruct (nth_error ns n) as [nd0|] eqn:En; [|discriminate].
    inversion Hn; subst nd. destruct (n =? w); simpl; apply (Dr n nd0 En).
  - intros t n nd Hr Hn. simpl in Hr. rewrite alookup_aset in Hr.
    rewrite nth_error_push in Hn. destruct (nth_error ns n) as [nd0|] eqn:En; [|discriminate]. inversion Hn; subst nd; clear Hn.
    destruct (t =? e_next e) eqn:Et.
    + apply Nat.eqb_eq in Et. subst t. inversion Hr; subst n. rewrite Nat.eqb_refl. simpl.
      right. exists (n_cmd nd0), c, []. repeat split; [exact Hc|].
      apply (D w nd0 (e_next e) En). rewrite Hfresh. discriminate.
    + destruct (n =? w); simpl; [apply ready_app|]; apply (R t n nd0 Hr En).
Qed.

Lemma EInv_node e ns i nd nd' now k o :
  nth_error ns i = Some nd -> node_step i now k o nd = Good nd' -> GInv e ns [] -> EInv e ns ->
  EInv e (update_nth i (fun _ => nd') ns).
Proof.
  intros Ei Es (_&D&_&_) (Dr&R).
  destruct (node_step_ready (fun t => alookup t (e_router e) = Some i) _ _ _ _ _ _ Es) as (D1&R1).
  { intros t Ht. apply (R t i nd Ht Ei). }
  { (* nothing addressed to a target routed elsewhere is queued here *)
    intros t Ht. destruct (alookup t (e_router e)) as [j|] eqn:Er.
    - destruct (Nat.eq_dec j i) as [->|Hne]; [reflexivity|].
      exfalso. apply Ht. apply (D i nd t Ei). rewrite Er. intros E; inversion E; contradiction.
    - exfalso. apply Ht. apply (D i nd t Ei). rewrite Er. discriminate. }
  split.
  - intros n x Hx. destruct (Nat.eq_dec n i) as [->|Hne].
    + rewrite (nth_error_update_same _ _ _ _ Ei) in Hx. inversion Hx; subst x. rewrite D1. apply (Dr i nd Ei).
    + rewrite nth_error_update_other in Hx by exact Hne. apply (Dr n x Hx).
  - intros t n x Hr Hx. destruct (Nat.eq_dec n i) as [->|Hne].
    + rewrite (nth_error_update_same _ _ _ _ Ei) in Hx. inversion Hx; subst x. apply R1. exact Hr.
    + rewrite nth_error_update_other in Hx by exact Hne. apply (R t n x Hr Hx).
Qed.

Lemma EInv_collect e ns ks : EInv e ns -> EInv e (snd (collect ks ns)).
Proof.
  intros (Dr&R). split.
  - intros n nd' Hn. destruct (collect_nth _ _ _ _ Hn) as (nd&Hk&A2&_). rewrite A2. apply (Dr n nd Hk).
  - intros t n nd' Hr Hn. destruct (collect_nth _ _ _ _ Hn) as (nd&Hk&A2&A3). rewrite A2, A3. apply (R t n nd Hr Hk).
Qed.

Definition deliver_ok (s : sys) : Prop := fifo_inv s /\ EInv (s_env s) (s_nodes s).

Lemma deliver_init nw : 0 < nw -> deliver_ok (init nw).
Proof.
  intros H. split; [apply fifo_init; exact H|]. unfold init. simpl. split.
  - intros n nd Hn. apply nth_error_In, repeat_spec in Hn. subst nd. reflexivity.
  - intros t n nd Hr. discriminate.
Qed.

Lemma deliver_stable nw : env_stable nw (fun e ns evs => fifo_at nw e ns evs /\ EInv e ns).
Proof.
  destruct (fifo_at_stable nw) as (_&F2&F3&F4&F5). split; [|split; [|split; [|split]]].
  - intros e pe ns evs G. exact G.
  - intros e ns evs w c Hc (F&EI). split; [apply F2; assumption|apply EInv_push, EI].
  - intros e ns ev evs He (F&EI). split; [eapply F3; eassumption|exact EI].
  - intros e ns evs t m j Hj (F&EI). split; [apply F4; assumption|apply EInv_push, EI].
  - intros e ns evs c Hc (F&EI). split; [apply F5; assumption|].
    eapply EInv_alloc; [apply F|exact EI|]. destruct Hc as [->|(b&->)]; reflexivity.
Qed.

Lemma deliver_step s a s' : deliver_ok s -> sys_step s a = Good s' -> deliver_ok s'.
Proof.
  intros (F&EI) H. split; [eapply fifo_step; eassumption|]. destruct F as (Hn&G).
  refine (proj2 (inv_step _ _ (deliver_stable _) _ _ s a s' eq_refl H (conj (conj Hn (conj eq_refl G)) EI))); clear.
  - intros e ns i nd nd' now k o Ei Es (F&EI). split; [eapply fifo_at_node; eassumption|eapply EInv_node; [eassumption..|apply F|exact EI]].
  - intros e ns ks (F&EI). split; [apply fifo_at_collect, F|apply EInv_collect, EI].
Qed.

Lemma deliver_run sigma : forall s s', deliver_ok s -> run s sigma = Good s' -> deliver_ok s'.
Proof. apply run_invariant. exact deliver_step. Qed.

(* C04: for every schedule and every oracle no DeliverMessage is ever handled for a process that
   does not exist — every arrival (w_arrlog) is an append to the target's mailbox
   (handle_cmd, CDeliver arm) — and a routed process is always either present on its worker or
   about to be spawned there before any message for it is handled. *)
Theorem no_message_dropped : forall nw sigma s,
  0 < nw -> run (init nw) sigma = Good s ->
  (forall n nd, nth_error (s_nodes s) n = Some nd -> w_dropped (n_w nd) = []) /\
  (forall t n nd, alookup t (e_router (s_env s)) = Some n -> nth_error (s_nodes s) n = Some nd -> ready t (n_w nd) (n_cmd nd)).
Proof.
  intros nw sigma s Hnw H. destruct (deliver_run sigma _ _ (deliver_init nw Hnw) H) as (_&EI). exact EI.
Qed.
