(* ProtoAwait.v — worker-level lemmas for the await handshake of M-Sys (sys/Proto.v), used by
   ProtoAwaitInv.v (C04, fourth clause of Inv_parked):
     - how every worker operation changes the `awaiting` maps and results of the processes
       (`pstep`: keys only disappear, a None entry only comes from a None entry, a failed process
       stays failed) — with the single exception of the slice that issues the Await action;
     - Worker::query_and_await: every target is registered in awaiters_for_target or answered with
       its result;
     - Worker::update_await_results: a result in the answer is recorded in the awaiter (or the
       awaiter is failed by it);
     - the oracle premise `await_honest` (properties of the VM's select machine):
         (a) a time slice is executed only for a process that has no result yet (a process
             completed in place by a failure notification has its frames cleared), and
         (b) when a slice ends with the Await action for targets ts, every key left in
             `awaiting` is one of ts (complete_select forgets the process sources of a completed
             select, executor.rs:2671; a process blocks in one select at a time). *)
From Quiver Require Import sys.Proto sys.ProtoMsg sys.ProtoFifo sys.ProtoFail sys.ProtoWake sys.ProtoDeliver sys.ProtoWf sys.ProtoOps sys.ProtoClosed.

Lemma alookup_in_keys {A} k (l : list (nat * A)) : alookup k l <> None -> In k (map fst l).
Proof. intros H. apply mem_in. rewrite alookup_mem. destruct (alookup k l); [reflexivity|contradiction]. Qed.
Lemma keys_in_alookup {A} k (l : list (nat * A)) : In k (map fst l) -> alookup k l <> None.
Proof. intros H. apply mem_in in H. rewrite alookup_mem in H. destruct (alookup k l); discriminate. Qed.
Lemma keys_aset {A} k (a : A) l x : In x (map fst (aset k a l)) <-> x = k \/ In x (map fst l).
Proof. rewrite keys_aset_sadd, in_sadd. tauto. Qed.
Lemma NoDup_keys_aset {A} k (a : A) l : NoDup (map fst l) -> NoDup (map fst (aset k a l)).
Proof. rewrite keys_aset_sadd. apply NoDup_sadd. Qed.
Lemma aset_not_nil {A} k (a : A) l : aset k a l <> [].
Proof. destruct l as [|[k0 a0] l]; simpl; [discriminate|]. destruct (k =? k0); discriminate. Qed.

(* fold of HashMap::insert over a list with distinct keys *)
Definition asetf {A} (a : list (nat * A)) (x : nat * A) := aset (fst x) (snd x) a.
Lemma alookup_fold_asetf {A} t : forall (rs acc : list (nat * A)), NoDup (map fst rs) ->
  alookup t (fold_left asetf rs acc) = match alookup t rs with Some v => Some v | None => alookup t acc end.
Proof.
  induction rs as [|[k v] rs IH]; intros acc N; simpl; [reflexivity|].
  inversion N as [|x y N1 N2]; subst. rewrite IH by exact N2. unfold asetf; simpl.
  destruct (t =? k) eqn:E.
  - apply Nat.eqb_eq in E; subst t.
    destruct (alookup k rs) eqn:El; [exfalso; apply N1; apply alookup_in_keys; rewrite El; discriminate|].
    apply alookup_aset_eq.
  - destruct (alookup t rs); [reflexivity|]. apply alookup_aset_neq. intros ->. rewrite Nat.eqb_refl in E. discriminate.
Qed.
Lemma keys_fold_asetf {A} x : forall (rs acc : list (nat * A)),
  In x (map fst (fold_left asetf rs acc)) <-> In x (map fst rs) \/ In x (map fst acc).
Proof.
  induction rs as [|[k v] rs IH]; intros acc; simpl; [tauto|]. rewrite IH. unfold asetf; simpl. rewrite keys_aset. intuition.
Qed.
Lemma NoDup_fold_asetf {A} : forall (rs acc : list (nat * A)), NoDup (map fst acc) -> NoDup (map fst (fold_left asetf rs acc)).
Proof. induction rs as [|[k v] rs IH]; intros acc N; simpl; [exact N|]. apply IH. apply NoDup_keys_aset. exact N. Qed.

(* ------------------------------------------------------------------ evolution of processes *)
Definition failed (pr : proc) : Prop := exists e, p_res pr = Some (RErr e).
Definition evol (pr pr' : proc) : Prop :=
  (forall t v, alookup t (p_awaiting pr') = Some v -> exists v0, alookup t (p_awaiting pr) = Some v0 /\ (v = None -> v0 = None)) /\
  (failed pr -> failed pr').
Definition pstep (w w' : worker) : Prop :=
  pk w w' /\
  forall q pr', alookup q (w_procs w') = Some pr' ->
    (exists pr, alookup q (w_procs w) = Some pr /\ evol pr pr') \/
    (alookup q (w_procs w) = None /\ forall t, alookup t (p_awaiting pr') = None).

Lemma evol_refl pr : evol pr pr.
Proof. split; [|auto]. intros t v H. exists v. auto. Qed.
Lemma evol_trans a b c : evol a b -> evol b c -> evol a c.
Proof.
  intros (A1&A2) (B1&B2). split; [|auto]. intros t v H. destruct (B1 t v H) as (v1&H1&I1). destruct (A1 t v1 H1) as (v0&H0&I0).
  exists v0. split; [exact H0|]. intros E. apply I0, I1, E.
Qed.
Lemma evol_same pr pr' : p_awaiting pr' = p_awaiting pr -> (failed pr -> failed pr') -> evol pr pr'.
Proof. intros E F. split; [|exact F]. intros t v H. rewrite E in H. exists v. auto. Qed.

Lemma pstep_trans a b c : pstep a b -> pstep b c -> pstep a c.
Proof.
  intros (K1&H1) (K2&H2). split; [eapply pk_trans; eassumption|].
  intros q pr'' Hq. destruct (H2 q pr'' Hq) as [(pr'&Hb&E2)|(Hb&Hn)].
  - destruct (H1 q pr' Hb) as [(pr&Ha&E1)|(Ha&Hn)].
    + left. exists pr. split; [exact Ha|eapply evol_trans; eassumption].
    + right. split; [exact Ha|]. intros t. destruct (alookup t (p_awaiting pr'')) as [v|] eqn:El; [|reflexivity].
      destruct E2 as (E2&_). destruct (E2 t v El) as (v0&H0&_). rewrite Hn in H0. discriminate.
  - right. split; [|exact Hn]. destruct (alookup q (w_procs a)) as [pr|] eqn:Ea; [|reflexivity].
    exfalso. assert (Hh: has q a) by (unfold has; rewrite Ea; discriminate).
    apply K1 in Hh. apply Hh. exact Hb.
Qed.
Lemma pstep_same w w' : w_procs w' = w_procs w -> pstep w w'.
Proof. intros E. split; [apply pk_same; exact E|]. intros q pr' H. rewrite E in H. left. exists pr'. split; [exact H|apply evol_refl]. Qed.

Lemma pstep_upd_proc p f w : (forall pr, alookup p (w_procs w) = Some pr -> evol pr (f pr)) -> pstep w (upd_proc p f w).
Proof.
  intros Hf. split; [apply pk_upd_proc|]. intros q pr' H. left.
  destruct (Nat.eq_dec q p) as [->|Hne].
  - destruct (alookup p (w_procs w)) as [pr|] eqn:El.
    + rewrite (upd_proc_same p f w pr El) in H. inversion H; subst pr'. exists pr. split; [reflexivity|apply Hf; reflexivity].
    + unfold upd_proc in H. rewrite El in H. congruence.
  - rewrite upd_proc_other in H by exact Hne. exists pr'. split; [exact H|apply evol_refl].
Qed.
Lemma evol_aset_some pr b r : alookup b (p_awaiting pr) <> None -> evol pr (with_awaiting (aset b (Some r) (p_awaiting pr)) pr).
Proof.
  intros Hb. split; [|intros F; exact F]. intros t v H. simpl in H. rewrite alookup_aset in H.
  destruct (t =? b) eqn:E.
  - apply Nat.eqb_eq in E; subst t. inversion H; subst v. destruct (alookup b (p_awaiting pr)) as [v0|]; [|contradiction].
    exists v0. split; [reflexivity|discriminate].
  - exists v. auto.
Qed.
Lemma evol_err pr e : evol pr (with_res (Some (RErr e)) pr).
Proof. apply evol_same; [reflexivity|]. intros _. exists e. reflexivity. Qed.

Lemma awaits_spec a b w : awaits a b w = true -> exists pr, alookup a (w_procs w) = Some pr /\ alookup b (p_awaiting pr) <> None.
Proof.
  unfold awaits. destruct (alookup a (w_procs w)) as [pr|]; [|discriminate].
  destruct (alookup b (p_awaiting pr)) eqn:E; [|discriminate]. intros _. exists pr. split; [reflexivity|rewrite E; discriminate].
Qed.

Lemma pstep_closed : closed pstep.
Proof.
  split; [apply pstep_trans| | |].
  - intros w w' (Ep&_). apply pstep_same, Ep.
  - intros a b r w Ea. apply pstep_upd_proc. intros pr Hl.
    destruct (awaits_spec _ _ _ Ea) as (pr0&H0&Hb). rewrite Hl in H0. inversion H0; subst pr0. apply evol_aset_some, Hb.
  - intros a e w. apply pstep_upd_proc. intros pr _. apply evol_err.
Qed.

(* setting p's result must not turn a failed p into a successful one: the caller shows that it does not *)
Lemma pstep_finish p r h hint w w' :
  finish p r h hint w = Good w' ->
  (forall pr, alookup p (w_procs w) = Some pr -> failed pr -> exists e, r = RErr e) ->
  pstep w w'.
Proof.
  intros H Hc. apply (closed_finish _ pstep_closed) with (2 := H).
  apply pstep_upd_proc. intros pr Hl. apply evol_same; [reflexivity|].
  intros F. destruct (Hc pr Hl F) as (e&->). exists e. reflexivity.
Qed.

Lemma pstep_new_proc p pr0 w : alookup p (w_procs w) = None -> p_awaiting pr0 = [] -> pstep w (set_procs w (aset p pr0 (w_procs w))).
Proof.
  intros Hn He. split; [apply pk_set_procs_aset|]. intros q pr' H. simpl in H. rewrite alookup_aset in H.
  destruct (q =? p) eqn:E.
  - apply Nat.eqb_eq in E; subst q. inversion H; subst pr'. right. split; [exact Hn|]. intros t. rewrite He. reflexivity.
  - left. exists pr'. split; [exact H|apply evol_refl].
Qed.
Lemma pstep_set_proc p pr pr1 w : alookup p (w_procs w) = Some pr -> evol pr pr1 -> pstep w (set_procs w (aset p pr1 (w_procs w))).
Proof.
  intros Hl He. split; [apply pk_set_procs_aset|]. intros q pr' H. simpl in H. rewrite alookup_aset in H. left.
  destruct (q =? p) eqn:E.
  - apply Nat.eqb_eq in E; subst q. inversion H; subst pr'. exists pr. split; assumption.
  - exists pr'. split; [exact H|apply evol_refl].
Qed.

(* ------------------------------------------------------------------ Worker::query_and_await *)
Lemma completed_value_book w a b c t : completed_value (set_book w a b c) t = completed_value w t.
Proof. reflexivity. Qed.

Lemma query_one_spec a w rs t :
  let '(w', rs') := query_one a (w, rs) t in
  w_procs w' = w_procs w /\
  (forall t', In t' (w_awaited w) -> In t' (w_awaited w')) /\
  (forall x t', registered x t' w -> registered x t' w') /\
  (forall t' l', alookup t' (w_awaiters w') = Some l' -> (t' = t /\ In t' (w_awaited w')) \/ alookup t' (w_awaiters w) = Some l') /\
  ((registered a t w' /\ alookup t rs' = Some None) \/ exists r, completed_value w t = Some r /\ alookup t rs' = Some (Some r)) /\
  (forall t', t' <> t -> alookup t' rs' = alookup t' rs) /\
  (forall x, In x (map fst rs') <-> x = t \/ In x (map fst rs)) /\
  (NoDup (map fst rs) -> NoDup (map fst rs')) /\ rs' <> [].
Proof.
  unfold query_one. destruct (completed_value w t) as [r|] eqn:Ec.
  - repeat split; auto.
    + right. exists r. split; [reflexivity|apply alookup_aset_eq].
    + intros t' Hne. apply alookup_aset_neq. exact Hne.
    + apply keys_aset.
    + apply keys_aset.
    + apply NoDup_keys_aset.
    + apply aset_not_nil.
  - simpl. repeat split; auto.
    + intros t' Ht. unfold sadd. destruct (mem t (w_awaited w)); [exact Ht|apply in_or_app; left; exact Ht].
    + intros x t' (l&Hl&Hx). unfold registered. simpl. rewrite alookup_aset. destruct (t' =? t) eqn:E.
      * apply Nat.eqb_eq in E; subst t'. rewrite Hl. eexists. split; [reflexivity|apply in_or_app; left; exact Hx].
      * exists l. split; assumption.
    + intros t' l' Hl. rewrite alookup_aset in Hl. destruct (t' =? t) eqn:E; [|right; exact Hl].
      apply Nat.eqb_eq in E; subst t'. left. split; [reflexivity|].
      unfold sadd. destruct (mem t (w_awaited w)) eqn:Em; [apply mem_in; exact Em|apply in_or_app; right; left; reflexivity].
    + left. split; [|apply alookup_aset_eq]. unfold registered. simpl. rewrite alookup_aset_eq. eexists. split; [reflexivity|].
      apply in_or_app; right; left; reflexivity.
    + intros t' Hne. apply alookup_aset_neq. exact Hne.
    + apply keys_aset.
    + apply keys_aset.
    + apply NoDup_keys_aset.
    + apply aset_not_nil.
Qed.

Lemma completed_value_same w w' t :
  w_procs w' = w_procs w -> w_queue w' = w_queue w -> w_spawning w' = w_spawning w -> w_selecting w' = w_selecting w ->
  completed_value w' t = completed_value w t.
Proof. intros E1 E2 E3 E4. unfold completed_value. rewrite E1, E2, E3, E4. reflexivity. Qed.

Lemma query_fold_spec a : forall ts w rs w' rs', fold_left (query_one a) ts (w, rs) = (w', rs') ->
  w_procs w' = w_procs w /\
  (forall t', In t' (w_awaited w) -> In t' (w_awaited w')) /\
  (forall x t', registered x t' w -> registered x t' w') /\
  (forall t' l', alookup t' (w_awaiters w') = Some l' -> (In t' ts /\ In t' (w_awaited w')) \/ alookup t' (w_awaiters w) = Some l') /\
  (forall t, In t ts -> registered a t w' \/ exists r, alookup t rs' = Some (Some r)) /\
  (forall t', ~ In t' ts -> alookup t' rs' = alookup t' rs) /\
  (forall x, In x (map fst rs') <-> In x ts \/ In x (map fst rs)) /\
  (NoDup (map fst rs) -> NoDup (map fst rs')) /\ (ts <> [] -> rs' <> []).
Proof.
  induction ts as [|t ts IH]; intros w rs w' rs' H; cbn [fold_left] in H.
  - inversion H; subst. split; [reflexivity|].
    split; [auto|]. split; [auto|]. split; [intros t' l' Hl; right; exact Hl|]. split; [intros t []|].
    split; [reflexivity|]. split; [intros x; simpl; tauto|]. split; [auto|]. intros C; exfalso; apply C; reflexivity.
  - pose proof (query_one_spec a w rs t) as Q. destruct (query_one a (w, rs) t) as [w1 rs1].
    destruct Q as (Q1&Q5&Q6&Q7&Q8&Q9&Q10&Q11&Q12).
    destruct (IH w1 rs1 w' rs' H) as (I1&I5&I6&I7&I8&I9&I10&I11&I12).
    split; [congruence|].
    split; [intros t' Ht; apply I5, Q5, Ht|]. split; [intros x t' R; apply I6, Q6, R|].
    split; [|split; [|split; [|split; [|split]]]].
    + intros t' l' Hl. destruct (I7 t' l' Hl) as [(A&B)|Hl1]; [left; split; [right; exact A|exact B]|].
      destruct (Q7 t' l' Hl1) as [(->&B)|Hl0]; [left; split; [left; reflexivity|apply I5; exact B]|right; exact Hl0].
    + intros t0 [<-|Hin]; [|apply I8; exact Hin].
      destruct (in_dec Nat.eq_dec t ts) as [Hi|Hni]; [apply I8; exact Hi|].
      destruct Q8 as [(R&_)|(r&_&Hr)]; [left; apply I6; exact R|right; exists r; rewrite (I9 t Hni); exact Hr].
    + intros t' Hn. rewrite I9 by (intros Hi; apply Hn; right; exact Hi). apply Q9. intros ->. apply Hn. left; reflexivity.
    + intros x. rewrite I10, Q10. simpl. split; [intros [A|[->|A]]; auto|intros [[<-|A]|A]; auto].
    + intros N. apply I11, Q11, N.
    + intros _. destruct ts as [|t2 ts2]; [cbn in H; inversion H; subst; exact Q12|apply I12; discriminate].
Qed.

(* ------------------------------------------------------------------ Worker::handle_command on the process table *)
Lemma evol_with_mail pr a b c : evol pr (with_mail a b c pr).
Proof. apply evol_same; [reflexivity|auto]. Qed.

Lemma handle_cmd_pstep c w w' evs :
  (forall p, spawns c = Some p -> ~ has p w) -> handle_cmd c w = Good (w', evs) -> pstep w w'.
Proof.
  intros Hf H. pose proof pstep_closed as C.
  assert (New: forall p, spawns c = Some p -> alookup p (w_procs w) = None).
  { intros p Hp. specialize (Hf p Hp). unfold has in Hf. destruct (alookup p (w_procs w)); [exfalso; apply Hf; discriminate|reflexivity]. }
  destruct c; simpl in H.
  - inversion H; subst. apply (closed_refl _ C).
  - inversion H; subst. apply (closed_refl _ C).
  - destruct sleeping; inversion H; subst; clear H.
    + apply pstep_new_proc; [exact (New p eq_refl)|reflexivity].
    + eapply pstep_trans; [apply (pstep_new_proc p (new_proc true None) w (New p eq_refl) eq_refl)|apply pstep_same; reflexivity].
  - inversion H; subst; clear H.
    eapply pstep_trans; [apply (pstep_new_proc p (new_proc false None) w (New p eq_refl) eq_refl)|apply pstep_same; reflexivity].
  - destruct (alookup p (w_procs w)) as [pr|] eqn:El; [|discriminate].
    destruct (p_res pr) as [[v|e]|] eqn:Er; try discriminate. destruct (p_pers pr); [|discriminate]. inversion H; subst; clear H.
    eapply pstep_trans; [|apply pstep_same; reflexivity].
    apply pstep_upd_proc. intros pr0 Hl. rewrite El in Hl. inversion Hl; subst pr0.
    apply evol_same; [reflexivity|]. intros (e&He). rewrite Er in He. discriminate.
  - destruct (fold_left (query_one awaiter) targets (w, [])) as [w1 rs] eqn:E. inversion H; subst.
    apply pstep_same. apply (query_fold_spec _ _ _ _ _ _ E).
  - inversion H; subst. apply (closed_update_await _ C).
  - destruct (alookup target (w_procs w)); inversion H; subst; clear H.
    + eapply pstep_trans; [|apply (closed_wake _ C)].
      apply (pstep_trans _ (set_ghost w (w_nsent w) (w_sentlog w) (w_arrlog w ++ [(target, m)]) (w_dropped w))); [apply pstep_same; reflexivity|].
      apply pstep_upd_proc. intros pr _. apply evol_with_mail.
    + apply (pstep_trans _ (set_ghost w (w_nsent w) (w_sentlog w) (w_arrlog w ++ [(target, m)]) (w_dropped w ++ [(target, m)])));
        [apply pstep_same; reflexivity|apply (closed_wake _ C)].
  - destruct (mem p (w_spawning w)); inversion H; subst; [apply pstep_same; reflexivity|apply (closed_refl _ C)].
  - destruct (alookup p (w_procs w)) as [pr|]; [|discriminate].
    destruct (p_res pr); inversion H; subst; [apply (closed_refl _ C)|apply pstep_same; reflexivity].
Qed.

(* ------------------------------------------------------------------ Worker::update_await_results records *)
Definition recorded (a t : pid) (w : worker) : Prop :=
  exists pr, alookup a (w_procs w) = Some pr /\ (failed pr \/ exists r, alookup t (p_awaiting pr) = Some (Some r)).
Definition present (a t : pid) (w : worker) : Prop :=
  exists pr, alookup a (w_procs w) = Some pr /\ alookup t (p_awaiting pr) <> None.

Lemma recorded_same a t w w' : w_procs w' = w_procs w -> recorded a t w -> recorded a t w'.
Proof. intros E (pr&H&R). exists pr. rewrite E. auto. Qed.

Lemma recorded_upd a t f w :
  (forall pr, failed pr -> failed (f pr)) ->
  (forall pr r, alookup t (p_awaiting pr) = Some (Some r) -> exists r', alookup t (p_awaiting (f pr)) = Some (Some r')) ->
  recorded a t w -> recorded a t (upd_proc a f w).
Proof.
  intros F1 F2 (pr&H&R). exists (f pr). split; [apply upd_proc_same; exact H|].
  destruct R as [R|(r&R)]; [left; apply F1; exact R|right; apply (F2 pr r R)].
Qed.

Lemma recorded_worker_notify a t b r w : recorded a t w -> recorded a t (worker_notify a b r w).
Proof.
  intros R. unfold worker_notify. destruct r as [v|e].
  - unfold notify_result. destruct (awaits a b w); [|eapply recorded_same; [apply procs_wake|exact R]].
    eapply recorded_same; [apply procs_wake|]. apply recorded_upd; [auto| |exact R].
    intros pr r0 Hr. simpl. rewrite alookup_aset. destruct (t =? b); eauto.
  - destruct (awaits a b w); [|eapply recorded_same; [apply procs_wake|exact R]].
    apply recorded_upd; [intros pr _; exists e; reflexivity| |exact R]. intros pr r0 Hr. simpl. eauto.
Qed.

Lemma present_worker_notify a t b r w : present a t w -> present a t (worker_notify a b r w).
Proof.
  intros (pr&H&P).
  assert (S: forall w', w_procs w' = w_procs w -> present a t w') by (intros w' E; exists pr; rewrite E; auto).
  assert (U: forall f, (forall x, alookup t (p_awaiting x) <> None -> alookup t (p_awaiting (f x)) <> None) -> present a t (upd_proc a f w)).
  { intros f Hf. exists (f pr). split; [apply upd_proc_same; exact H|apply Hf; exact P]. }
  unfold worker_notify. destruct r as [v|e].
  - unfold notify_result. destruct (awaits a b w); [|apply S, procs_wake].
    destruct (U (fun x => with_awaiting (aset b (Some (ROk v)) (p_awaiting x)) x)) as (pr'&H'&P').
    + intros x Hx. simpl. rewrite alookup_aset. destruct (t =? b); [discriminate|exact Hx].
    + exists pr'. rewrite procs_wake. auto.
  - destruct (awaits a b w); [|apply S, procs_wake]. apply U. intros x Hx. exact Hx.
Qed.

Lemma worker_notify_records a t r w : present a t w -> recorded a t (worker_notify a t r w).
Proof.
  intros (pr&H&P). unfold worker_notify.
  assert (Aw: awaits a t w = true).
  { unfold awaits. rewrite H. destruct (alookup t (p_awaiting pr)); [reflexivity|contradiction]. }
  destruct r as [v|e].
  - unfold notify_result. rewrite Aw. eapply recorded_same; [apply procs_wake|].
    eexists. split; [apply upd_proc_same; exact H|]. right. exists (ROk v). simpl. apply alookup_aset_eq.
  - rewrite Aw. eexists. split; [apply upd_proc_same; exact H|]. left. exists e. reflexivity.
Qed.

Theorem update_await_records a rs w t r :
  present a t w -> In (t, Some r) rs -> recorded a t (update_await a rs w).
Proof.
  intros P Hin. unfold update_await.
  set (f := fun (w : worker) (e : pid * option res) => match snd e with Some r => worker_notify a (fst e) r w | None => w end).
  assert (Rk: forall l w0, recorded a t w0 -> recorded a t (fold_left f l w0)).
  { induction l as [|x l IH]; intros w0 R; simpl; [exact R|]. apply IH. unfold f. destruct (snd x); [apply recorded_worker_notify; exact R|exact R]. }
  assert (Main: forall l w0, present a t w0 -> In (t, Some r) l -> recorded a t (fold_left f l w0)).
  { induction l as [|x l IH]; intros w0 P0 Hl; simpl; [destruct Hl|].
    destruct Hl as [->|Hl].
    - apply Rk. unfold f. simpl. apply worker_notify_records. exact P0.
    - apply IH; [|exact Hl]. unfold f. destruct (snd x); [apply present_worker_notify; exact P0|exact P0]. }
  destruct (existsb _ rs); [apply Main; assumption|].
  eapply recorded_same; [apply procs_wake|apply Main; assumption].
Qed.

(* ------------------------------------------------------------------ the oracle premise *)
(* the process the next executor step of this worker runs a slice of, if any *)
Definition slice_proc (now : nat) (o : woracle) (w : worker) : option (pid * proc) :=
  match expire now (o_expired o) w with
  | Good w1 =>
    match w_queue w1 with
    | p :: _ =>
      match alookup p (w_procs w1) with
      | Some pr => match o_pid o with Some p' => if p =? p' then Some (p, pr) else None | None => None end
      | None => None
      end
    | [] => None
    end
  | Fault _ => None
  end.

Definition await_honestb (now : nat) (o : woracle) (w : worker) : bool :=
  match slice_proc now o w with
  | Some (p, pr) =>
    match p_res pr with None => true | Some _ => false end &&
    match d_act (o_did o) with
    | Some (AAwait ts) =>
      forallb (fun k => mem k ts) (map fst (fold_left (fun a t => aremove t a) (d_forget (o_did o)) (p_awaiting pr)))
    | _ => true
    end
  | None => true
  end.
(* the environment is not looked at; the argument is there because ProtoMicro.hon_label passes one *)
Definition await_honest : env -> nat -> woracle -> worker -> Prop := fun _ now o w => await_honestb now o w = true.

Theorem exec_step_effect i now o w w' evs :
  exec_step i now o w = Good (w', evs) -> await_honestb now o w = true ->
  (forall a ts, ~ In (EAwaitA a ts) evs) /\ pstep w w'
  \/ exists p ts, evs = [EAwaitA p ts] /\ has p w /\
       (forall q pr', q <> p -> alookup q (w_procs w') = Some pr' -> alookup q (w_procs w) = Some pr') /\
       (forall pr' t, alookup p (w_procs w') = Some pr' -> alookup t (p_awaiting pr') <> None -> In t ts).
Proof.
  intros H Hon. destruct (exec_step_shape _ _ _ _ _ _ H) as (w1&E&C).
  destruct (expire_same _ _ _ _ E) as (Ep&_).
  destruct C as [(_&->&->)|(p&q'&Eq&[(_&->&->)|(pr&Hl&[(Ho&R)|(e&Hr&F&->)])])].
  - left. split; [intros a ts []|apply pstep_same; exact Ep].
  - left. split; [intros a ts []|apply pstep_same; exact Ep].
  - (* a slice of p *)
    unfold await_honestb, slice_proc in Hon. rewrite E, Eq, Hl, Ho, Nat.eqb_refl in Hon.
    apply andb_true_iff in Hon. destruct Hon as (Hres&Hfor).
    assert (Hr: p_res pr = None) by (destruct (p_res pr); [discriminate|reflexivity]).
    pose proof (run_slice_did_ok _ _ _ _ _ _ _ _ R) as Hok.
    destruct (run_slice_shape _ _ _ _ _ _ _ _ R) as (taken&mail'&w2&_&Ha&Hf).
    set (w0 := set_sched w1 q' (w_spawning w1) (w_selecting w1)) in *.
    set (pr1 := slice_pr1 pr (o_did o) taken mail') in *.
    set (wa := set_procs w0 (aset p pr1 (w_procs w0))) in *.
    assert (Hl0: alookup p (w_procs w0) = Some pr) by exact Hl.
    assert (E1: evol pr pr1).
    { split; [|intros (e&He); rewrite Hr in He; discriminate].
      intros t v Hv. unfold pr1, slice_pr1 in Hv. simpl in Hv. rewrite alookup_aremove_fold in Hv.
      destruct (mem t (d_forget (o_did o))); [discriminate|]. exists v. auto. }
    assert (Pa: pstep w wa).
    { eapply pstep_trans; [apply (pstep_same w w0); exact Ep|]. apply (pstep_set_proc p pr pr1 w0 Hl0 E1). }
    assert (Hpa: alookup p (w_procs wa) = Some pr1) by (unfold wa; simpl; apply alookup_aset_eq).
    assert (Rest: w_procs w2 = w_procs wa -> pstep w w').
    { intros Ew2.
      assert (E3: w_procs (if d_park (o_did o) then mark_selecting p w2 else w2) = w_procs wa) by (destruct (d_park (o_did o)); exact Ew2).
      eapply pstep_trans; [exact Pa|]. destruct (d_fin (o_did o)) as [r|].
      - eapply pstep_trans; [apply pstep_same; exact E3|].
        eapply pstep_finish; [exact Hf|]. intros pr0 Hl1. rewrite E3, Hpa in Hl1. inversion Hl1; subst pr0.
        intros (e&He). unfold pr1, slice_pr1 in He. simpl in He. rewrite Hr in He. discriminate.
      - apply pstep_same. destruct Hf as [->| ->]; exact E3. }
    inversion Ha as [Hact Hw2 Hev|Hact Hw2 Hev|t Hact Hw2 Hev|ts Hact Hw2 Hev].
    + left. split; [intros a ts []|apply Rest; rewrite <- Hw2; reflexivity].
    + left. split; [intros a ts [C|[]]; discriminate|apply Rest; rewrite <- Hw2; reflexivity].
    + left. split; [intros a ts [C|[]]; discriminate|apply Rest; rewrite <- Hw2; reflexivity].
    + (* the Await action *)
      right. exists p, ts. split; [reflexivity|]. split; [unfold has; rewrite <- Ep, Hl; discriminate|].
      symmetry in Hact. rewrite (did_ok_await _ _ Hok Hact) in Hf.
      rewrite Hact in Hfor.
      set (g := fun q : proc => with_awaiting (fold_left (fun a t => aset t None a) ts (p_awaiting q)) q) in *.
      assert (Ep': w_procs w' = w_procs (upd_proc p g wa)).
      { destruct Hf as [->| ->]; destruct (d_park (o_did o)); rewrite <- Hw2; reflexivity. }
      split.
      * intros q pr' Hne Hq. rewrite Ep', upd_proc_other in Hq by exact Hne.
        unfold wa in Hq. simpl in Hq. rewrite alookup_aset_neq in Hq by exact Hne. rewrite <- Ep. exact Hq.
      * intros pr' t Hp' Ht. rewrite Ep', (upd_proc_same p g wa pr1 Hpa) in Hp'. inversion Hp'; subst pr'.
        unfold g in Ht. simpl in Ht. rewrite alookup_aset_fold_none in Ht.
        destruct (mem t ts) eqn:Em; [apply mem_in; exact Em|].
        apply alookup_in_keys in Ht. rewrite forallb_forall in Hfor. apply mem_in. apply Hfor.
        unfold pr1, slice_pr1 in Ht. simpl in Ht. exact Ht.
  - (* the completion path again for a process failed in place *)
    left. split; [intros a ts []|].
    eapply pstep_trans; [apply (pstep_same w (set_sched w1 q' (w_spawning w1) (w_selecting w1))); exact Ep|].
    eapply pstep_finish; [exact F|]. intros pr0 _ _. exists e. reflexivity.
Qed.

Definition client_answer (ev : event) : Prop := match ev with EInspect _ | EResultResp _ _ => True | _ => False end.
Lemma handle_cmd_other c w w' evs :
  handle_cmd c w = Good (w', evs) -> (forall a ts, c <> CQuery a ts) ->
  w_awaited w' = w_awaited w /\ w_awaiters w' = w_awaiters w /\ Forall client_answer evs.
Proof.
  intros H Hn.
  assert (B: forall w0, bk w0 = bk w -> w_awaited w0 = w_awaited w /\ w_awaiters w0 = w_awaiters w /\ Forall client_answer []).
  { intros w0 E. unfold bk in E. inversion E. repeat split; constructor. }
  destruct c; simpl in H.
  - inversion H; subst. apply B. reflexivity.
  - inversion H; subst. repeat split. constructor; [exact I|constructor].
  - destruct sleeping; inversion H; subst; apply B; reflexivity.
  - inversion H; subst. apply B. reflexivity.
  - destruct (alookup p (w_procs w)) as [pr|]; [|discriminate].
    destruct (p_res pr) as [[v|e]|]; try discriminate. destruct (p_pers pr); [|discriminate]. inversion H; subst.
    apply B, (bk_upd_proc p (with_res None) w).
  - exfalso. apply (Hn awaiter targets). reflexivity.
  - inversion H; subst. apply B, bk_update_await.
  - destruct (alookup target (w_procs w)); inversion H; subst; apply B; rewrite bk_wake; [rewrite bk_upd_proc|]; reflexivity.
  - destruct (mem p (w_spawning w)); inversion H; subst; apply B; reflexivity.
  - destruct (alookup p (w_procs w)) as [pr|]; [|discriminate].
    destruct (p_res pr); inversion H; subst; repeat split; constructor; [exact I|constructor].
Qed.
