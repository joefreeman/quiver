(* ProtoErrTok.v — C15 on M-Sys (sys/Proto.v): which error an awaiter ends with, for every schedule
   and every oracle (no premise):

     errors_originate_inv : in every state reachable by a schedule sigma, every error token anywhere —
       the result of a process, a stored `awaiting` value, a ProcessResults / ResultResponse event,
       an UpdateAwaitResults command, an answer stored in pending_awaits — is the error some time
       slice of sigma finished with (`origin_errs sigma`): the invariant TInv, kept by every
       micro-step.  The protocol never invents, alters or mixes errors: what an awaiter ends with is
       the error of SOME process that failed on its own.
     errors_originate, errors_in_flight_originate : its readings for process results and for the
       queued ProcessResults events / UpdateAwaitResults commands.
     single_failure_same_error : hence, when all failing slices of the schedule fail with the same
       error e0 (in particular: exactly one process fails on its own), EVERY process that ends
       failed ends with exactly e0 — each awaiter, each awaiter of an awaiter, on every worker.

   With several distinct failures an awaiter of two failing processes keeps the error that was
   written LAST (see the header of props/C15.v); which of the originated errors it is depends on
   the schedule. *)
From Quiver Require Import sys.Proto sys.ProtoMsg sys.ProtoFail sys.ProtoErrs sys.ProtoMicro sys.ProtoOps.

Section Tok.
  Variable errs : list nat.

  Definition res_ok (r : res) : Prop := match r with RErr e => In e errs | ROk _ => True end.
  Definition ores_ok (o : option res) : Prop := match o with Some r => res_ok r | None => True end.
  Definition rs_ok (rs : list (pid * option res)) : Prop := Forall (fun x => ores_ok (snd x)) rs.
  Definition proc_ok (pr : proc) : Prop := ores_ok (p_res pr) /\ rs_ok (p_awaiting pr).
  Definition worker_ok (w : worker) : Prop := forall p pr, alookup p (w_procs w) = Some pr -> proc_ok pr.
  Definition cmd_tok (c : cmd) : Prop := match c with CUpdate _ rs => rs_ok rs | _ => True end.
  Definition evt_tok (ev : event) : Prop :=
    match ev with EResults _ rs => rs_ok rs | EResultResp _ r => res_ok r | _ => True end.
  Definition node_tok (nd : node) : Prop := worker_ok (n_w nd) /\ Forall cmd_tok (n_cmd nd) /\ Forall evt_tok (n_evt nd).
  Definition pend_tok (e : env) : Prop :=
    forall p pa, alookup p (e_pending e) = Some pa -> forall w rs, In (w, rs) (pa_resp pa) -> rs_ok rs.
  Definition TInv (s : sys) : Prop :=
    (forall i nd, nth_error (s_nodes s) i = Some nd -> node_tok nd) /\ pend_tok (s_env s).

  (* the oracle premise: the error a slice finishes with is one of errs *)
  Definition origin_ok : env -> nat -> woracle -> worker -> Prop := fun _ _ o _ => ores_ok (d_fin (o_did o)).

  Lemma rs_ok_aset k v rs : ores_ok v -> rs_ok rs -> rs_ok (aset k v rs).
  Proof.
    intros Hv. induction rs as [|[k0 v0] rs IH]; intros H; simpl; [constructor; [exact Hv|constructor]|].
    inversion H as [|x y H1 H2]; subst. destruct (k =? k0); constructor; [exact Hv|exact H2|exact H1|apply IH; exact H2].
  Qed.
  Lemma rs_ok_aremove k rs : rs_ok rs -> rs_ok (aremove k rs).
  Proof. unfold rs_ok. intros H. unfold aremove. apply Forall_forall. intros x Hx. apply filter_In in Hx. rewrite Forall_forall in H. apply H, Hx. Qed.
  Lemma rs_ok_fold_aset : forall rs acc, rs_ok rs -> rs_ok acc -> rs_ok (fold_left (fun a x => aset (fst x) (snd x) a) rs acc).
  Proof.
    intros rs acc H. unfold rs_ok in H. rewrite Forall_forall in H.
    apply fold_left_inv. intros a x Hx Ha. apply rs_ok_aset; [exact (H x Hx)|exact Ha].
  Qed.
  Lemma rs_ok_merge resp : (forall w rs, In (w, rs) resp -> rs_ok rs) -> rs_ok (merge_resp resp).
  Proof.
    intros H. apply (fold_left_inv rs_ok); [|constructor].
    intros a [w rs] Hx Ha. apply rs_ok_fold_aset; [exact (H w rs Hx)|exact Ha].
  Qed.
  Lemma in_aset {A} k (v : A) l x : In x (aset k v l) -> x = (k, v) \/ In x l.
  Proof.
    induction l as [|[k0 v0] l IH]; simpl; [intros [H|[]]; left; symmetry; exact H|].
    destruct (k =? k0); simpl; [intros [H|H]; [left; symmetry; exact H|right; right; exact H]|].
    intros [H|H]; [right; left; exact H|]. destruct (IH H) as [H1|H1]; [left; exact H1|right; right; exact H1].
  Qed.

  Lemma wk_same w w' : w_procs w' = w_procs w -> worker_ok w -> worker_ok w'.
  Proof. intros Ep H p pr Hl. rewrite Ep in Hl. apply (H p pr Hl). Qed.
  Lemma wk_set_proc w p pr1 : worker_ok w -> proc_ok pr1 -> worker_ok (set_procs w (aset p pr1 (w_procs w))).
  Proof.
    intros H H1 q pr Hl. simpl in Hl. rewrite alookup_aset in Hl. destruct (q =? p); [inversion Hl; subst; exact H1|apply (H q pr Hl)].
  Qed.
  Lemma wk_upd_proc p f w : (forall pr, proc_ok pr -> proc_ok (f pr)) -> worker_ok w -> worker_ok (upd_proc p f w).
  Proof.
    intros Hf H. unfold upd_proc. destruct (alookup p (w_procs w)) as [pr|] eqn:El; [|exact H].
    apply wk_set_proc; [exact H|apply Hf, (H p pr El)].
  Qed.
  Lemma wk_set_res p r w : ores_ok r -> worker_ok w -> worker_ok (upd_proc p (with_res r) w).
  Proof. intros Hr. apply wk_upd_proc. intros pr (_&P2). split; [exact Hr|exact P2]. Qed.
  Lemma wk_wake p w : worker_ok w -> worker_ok (wake_selecting p w).
  Proof. apply wk_same. apply procs_wake. Qed.
  Lemma wk_notify_result a b r w : res_ok r -> worker_ok w -> worker_ok (notify_result a b r w).
  Proof.
    intros Hr H. unfold notify_result. destruct (awaits a b w); apply wk_wake; [|exact H].
    apply wk_upd_proc; [|exact H]. intros pr (P1&P2). split; [exact P1|]. simpl. apply rs_ok_aset; [exact Hr|exact P2].
  Qed.
  Lemma wk_worker_notify a b r w : res_ok r -> worker_ok w -> worker_ok (worker_notify a b r w).
  Proof.
    intros Hr H. unfold worker_notify. destruct r as [v|e]; [apply wk_notify_result; assumption|].
    destruct (awaits a b w); [apply wk_set_res; assumption|apply wk_wake; exact H].
  Qed.
  Lemma wk_update_await a rs w : rs_ok rs -> worker_ok w -> worker_ok (update_await a rs w).
  Proof.
    intros Hrs H. unfold update_await. unfold rs_ok in Hrs. rewrite Forall_forall in Hrs.
    assert (F: worker_ok (fold_left (fun w e => match snd e with Some r => worker_notify a (fst e) r w | None => w end) rs w)).
    { apply fold_left_inv; [|exact H]. intros w0 x Hx H0. specialize (Hrs x Hx).
      destruct (snd x) as [r|]; [apply wk_worker_notify; [exact Hrs|exact H0]|exact H0]. }
    destruct (existsb _ rs); [exact F|apply wk_wake, F].
  Qed.
  Lemma wk_notify_local p r h w q : res_ok r -> worker_ok w -> worker_ok (notify_local p r h w q).
  Proof.
    intros Hr H. unfold notify_local. destruct r as [v|e]; [destruct h; [exact H|apply wk_notify_result; assumption]|].
    apply wk_set_res; assumption.
  Qed.
  Lemma wk_finish p r h hint w w' : finish p r h hint w = Good w' -> res_ok r -> worker_ok w -> worker_ok w'.
  Proof.
    unfold finish. destruct (order_by hint _) as [o|]; [|discriminate]. intros H Hr Hw; inversion H; subst; clear H.
    apply fold_left_inv; [intros w0 x _ H0; apply wk_notify_local; assumption|apply wk_set_res; assumption].
  Qed.

  Lemma proc_ok_new b r : ores_ok r -> proc_ok (new_proc b r).
  Proof. intros H. split; [exact H|constructor]. Qed.

  (* QueryAndAwait answers with values only: Executor::get_status reports a failed process as not completed *)
  Lemma query_fold_tok a ts w rs : rs_ok rs -> rs_ok (snd (fold_left (query_one a) ts (w, rs))).
  Proof.
    intros H0. apply (fold_left_inv (fun acc => rs_ok (snd acc))); [|exact H0].
    intros [w0 rs0] t _ B. unfold query_one. destruct (completed_value w0 t) as [r|] eqn:Ec; apply rs_ok_aset; try exact B; [|exact I].
    unfold completed_value in Ec. destruct (alookup t (w_procs w0)) as [pr0|]; [|discriminate].
    destruct (_ || _); [discriminate|]. destruct (p_res pr0) as [[v|e]|]; inversion Ec. exact I.
  Qed.

  Lemma handle_cmd_tok c w w' evs :
    handle_cmd c w = Good (w', evs) -> cmd_tok c -> worker_ok w -> worker_ok w' /\ Forall evt_tok evs.
  Proof.
    (* worker_ok reads the process table only: where the command changes only the scheduling state or
       the ghost logs, Hw is used as it is *)
    intros H Hc Hw. destruct c; simpl in H.
    - inversion H; subst. split; [exact Hw|constructor].
    - inversion H; subst. split; [exact Hw|constructor; [exact I|constructor]].
    - destruct sleeping; inversion H; subst; clear H; (split; [|constructor]).
      + exact (wk_set_proc w p _ Hw (proc_ok_new true (Some (ROk 0)) I)).
      + exact (wk_set_proc w p _ Hw (proc_ok_new true None I)).
    - inversion H; subst; clear H. split; [|constructor]. exact (wk_set_proc w p _ Hw (proc_ok_new false None I)).
    - destruct (alookup p (w_procs w)) as [pr|]; [|discriminate].
      destruct (p_res pr) as [[v|e]|]; try discriminate. destruct (p_pers pr); [|discriminate]. inversion H; subst; clear H.
      split; [exact (wk_set_res p None w I Hw)|constructor].
    - pose proof (query_fold_tok awaiter targets w [] (Forall_nil _)) as F2.
      pose proof (proj1 (query_fold_book awaiter targets w [])) as F1.
      destruct (fold_left (query_one awaiter) targets (w, [])) as [w1 rs]. inversion H; subst w1 evs; clear H.
      split; [exact (wk_same _ _ F1 Hw)|repeat constructor; exact F2].
    - inversion H; subst. split; [apply wk_update_await; assumption|constructor].
    - destruct (alookup target (w_procs w)); inversion H; subst; clear H; (split; [|constructor]); apply wk_wake; [|exact Hw].
      apply wk_upd_proc; [intros pr P; exact P|exact Hw].
    - destruct (mem p (w_spawning w)); inversion H; subst; (split; [exact Hw|constructor]).
    - destruct (alookup p (w_procs w)) as [pr|] eqn:El; [|discriminate].
      destruct (p_res pr) as [r|] eqn:Er; inversion H; subst; clear H; (split; [exact Hw|]); [|constructor].
      repeat constructor. simpl. destruct (Hw p pr El) as (P1&_). rewrite Er in P1. exact P1.
  Qed.

  Lemma exec_step_tok i now o w w' evs :
    exec_step i now o w = Good (w', evs) -> ores_ok (d_fin (o_did o)) -> worker_ok w -> worker_ok w' /\ Forall evt_tok evs.
  Proof.
    intros H Hon Hw. split.
    - destruct (exec_step_shape _ _ _ _ _ _ H) as (w1&Ex&C). destruct (expire_same _ _ _ _ Ex) as (Ep&_).
      assert (H1: worker_ok w1) by exact (wk_same _ _ Ep Hw).
      destruct C as [(_&->&_)|(p&q'&_&[(_&->&_)|(pr&Hl&[(_&R)|(e&Hr&F&_)])])]; try exact H1.
      + (* a slice of p: keys are forgotten, awaited targets entered unanswered, the result is the oracle's *)
        destruct (run_slice_shape _ _ _ _ _ _ _ _ R) as (taken&mail'&w2&_&Ha&Hf). destruct (H1 p pr Hl) as (P1&P2).
        assert (H2: worker_ok w2).
        { set (w0 := set_sched w1 q' (w_spawning w1) (w_selecting w1)) in *.
          assert (Ha1: worker_ok (set_procs w0 (aset p (slice_pr1 pr (o_did o) taken mail') (w_procs w0)))).
          { apply wk_set_proc; [exact H1|]. split; [exact P1|]. apply (fold_left_inv rs_ok); [intros a k _; apply rs_ok_aremove|exact P2]. }
          (* the action changes the process table only for an Await; mark_selecting / enqueue never do *)
          inversion Ha; subst; try exact Ha1.
          refine (wk_upd_proc p _ _ _ Ha1). intros pr0 (Q1&Q2). split; [exact Q1|]. apply (fold_left_inv rs_ok); [intros a k _; apply rs_ok_aset; exact I|exact Q2]. }
        destruct (d_fin (o_did o)) as [r|]; [refine (wk_finish _ _ _ _ _ _ Hf Hon _)|destruct Hf as [->| ->]]; destruct (d_park (o_did o)); exact H2.
      + refine (wk_finish _ _ _ _ _ _ F _ H1). destruct (H1 p pr Hl) as (P1&_). rewrite Hr in P1. exact P1.
    - destruct (exec_step_events _ _ _ _ _ _ H) as [->|(p&_&_&[(_&->)|[(t&m&_&->)|(ts&_&->)]])]; repeat constructor.
  Qed.

  Lemma check_completed_tok hint w w' evs : check_completed hint w = Good (w', evs) -> worker_ok w -> worker_ok w' /\ Forall evt_tok evs.
  Proof.
    intros H Hw. destruct (check_completed_spec _ _ _ _ H) as (S1&_&_&_&_&_&_&_&S9). split; [eapply wk_same; [exact S1|exact Hw]|].
    apply Forall_forall. intros x Hx.
    assert (Rok: forall t r, result_of w t = Some r -> res_ok r).
    { intros t r Hr. unfold result_of in Hr. destruct (alookup t (w_procs w)) as [pr|] eqn:El; [|discriminate].
      destruct (Hw t pr El) as (P1&_). rewrite Hr in P1. exact P1. }
    destruct (S9 x Hx) as [(a&t&r&->&_&Hr)|(req&r&t&->&Hr)]; simpl.
    - constructor; [apply (Rok t r Hr)|constructor].
    - apply (Rok t r Hr).
  Qed.
End Tok.

Definition nodes_tok (errs : list nat) (ns : list node) : Prop := forall i nd, nth_error ns i = Some nd -> node_tok errs nd.

Lemma nodes_tok_push errs ns w c : nodes_tok errs ns -> cmd_tok errs c -> nodes_tok errs (push_cmd w c ns).
Proof.
  intros N Hc i x Hn. destruct (nth_push_inv _ _ _ _ _ Hn) as (nd&En&->). destruct (N i nd En) as (A&B&C).
  destruct (i =? w); [|split; [|split]; assumption]. split; [|split]; simpl; try assumption.
  apply Forall_app. split; [exact B|constructor; [exact Hc|constructor]].
Qed.
Lemma nodes_tok_set_node errs ns i nd' : nodes_tok errs ns -> node_tok errs nd' -> nodes_tok errs (set_node i nd' ns).
Proof. exact (set_node_all (fun _ => node_tok errs) i nd' ns). Qed.

Lemma pend_tok_aset errs e a pa : pend_tok errs e -> (forall w rs, In (w, rs) (pa_resp pa) -> rs_ok errs rs) ->
  pend_tok errs {| e_router := e_router e; e_next := e_next e; e_pending := aset a pa (e_pending e) |}.
Proof. intros P H p pa0 Hp. simpl in Hp. rewrite alookup_aset in Hp. destruct (p =? a); [inversion Hp; subst pa0; exact H|exact (P p pa0 Hp)]. Qed.

Lemma handle_event_tok errs nw ev e ns e' ns' :
  evt_tok errs ev -> nodes_tok errs ns -> pend_tok errs e ->
  handle_event nw ev (e, ns) = Good (e', ns') -> nodes_tok errs ns' /\ pend_tok errs e'.
Proof.
  intros Hev N P H. destruct ev; unfold handle_event in H; cbn -[Nat.modulo nodup] in H.
  - revert H. match goal with |- context [@alookup ?A caller ?l] => destruct (@alookup A caller l) as [cw|] end; intros H; [|discriminate].
    inversion H; subst e' ns'; clear H. split; [|exact P]. apply nodes_tok_push; [apply nodes_tok_push|exact I]; [exact N|exact I].
  - destruct (alookup target (e_router e)) as [w|]; [|discriminate]. inversion H; subst e' ns'.
    split; [apply nodes_tok_push; [exact N|exact I]|exact P].
  - revert H. match goal with |- context [forallb ?f targets] => destruct (forallb f targets) end; intros H; [|discriminate].
    inversion H; subst e' ns'; clear H. split; [|apply pend_tok_aset; [exact P|intros w rs []]].
    apply fold_left_inv; [|exact N]. intros ns0 w _ N0. apply nodes_tok_push; [exact N0|exact I].
  - simpl in Hev. destruct (alookup awaiter (e_pending e)) as [pa|] eqn:Epa.
    + destruct (match results with [] => None | (t, _) :: _ => alookup t (e_router e) end) as [w|]; [|inversion H; subst; split; assumption].
      (* the sender's answer is merged into what it answered before; the rest of pa_resp stays *)
      set (old := match alookup w (pa_resp pa) with Some l => l | None => [] end) in *.
      set (resp' := aset w (fold_left (fun a x => aset (fst x) (snd x) a) results old) (pa_resp pa)) in *.
      assert (Hresp: forall w0 rs0, In (w0, rs0) resp' -> rs_ok errs rs0).
      { intros w0 rs0 Hin. apply in_aset in Hin. destruct Hin as [Hin|Hin]; [|exact (P awaiter pa Epa w0 rs0 Hin)].
        inversion Hin; subst. apply rs_ok_fold_aset; [exact Hev|]. unfold old.
        destruct (alookup w (pa_resp pa)) as [l|] eqn:El; [|constructor]. exact (P awaiter pa Epa w l (alookup_in _ _ _ El)). }
      destruct (sremove w (pa_expected pa)).
      * destruct (alookup awaiter (e_router e)) as [aw|]; [|discriminate]. inversion H; subst e' ns'; clear H. split.
        -- apply nodes_tok_push; [exact N|]. exact (rs_ok_merge errs _ Hresp).
        -- intros p pa0 Hp. simpl in Hp. rewrite alookup_aremove in Hp. destruct (p =? awaiter); [discriminate|exact (P p pa0 Hp)].
      * inversion H; subst e' ns'; clear H. split; [exact N|apply pend_tok_aset; [exact P|exact Hresp]].
    + destruct (alookup awaiter (e_router e)) as [aw|]; [|discriminate]. inversion H; subst e' ns'; clear H.
      split; [apply nodes_tok_push; [exact N|exact Hev]|exact P].
  - inversion H; subst e' ns'. split; assumption.
  - inversion H; subst e' ns'. split; assumption.
Qed.

Lemma nodes_tok_worker errs ns i nd w' cs evs :
  nodes_tok errs ns -> nth_error ns i = Some nd -> worker_ok errs w' /\ Forall (evt_tok errs) evs -> Forall (cmd_tok errs) cs ->
  nodes_tok errs (set_node i (mk_node w' cs (n_evt nd ++ evs)) ns).
Proof.
  intros N Hn (A'&C') B'. apply nodes_tok_set_node; [exact N|]. destruct (N i nd Hn) as (_&_&C).
  split; [exact A'|]. split; [exact B'|apply Forall_app; split; assumption].
Qed.

Theorem TInv_mstep errs s l s' : TInv errs s -> mstep s l s' -> hon_label (origin_ok errs) s l -> TInv errs s'.
Proof.
  intros (N&P) M Hon.
  destruct M as [ns e clk i nd c rest w' evs Hn Hc Hh
                |ns e clk i nd o w' evs Hn Hx
                |ns e clk i nd hint w' evs Hn Hk
                |ns e clk i nd ev rest e' ns' Hn Hq He
                |ns e clk d
                |s c s' Hc]; simpl in *.
  - destruct (N i nd Hn) as (A&B&C). rewrite Hc in B. inversion B as [|x y B1 B2]; subst.
    split; [exact (nodes_tok_worker errs ns i nd w' rest evs N Hn (handle_cmd_tok errs c (n_w nd) w' evs Hh B1 A) B2)|exact P].
  - destruct (N i nd Hn) as (A&B&C).
    split; [exact (nodes_tok_worker errs ns i nd w' _ evs N Hn (exec_step_tok errs i clk o (n_w nd) w' evs Hx (Hon nd Hn) A) B)|exact P].
  - destruct (N i nd Hn) as (A&B&C).
    split; [exact (nodes_tok_worker errs ns i nd w' _ evs N Hn (check_completed_tok errs hint (n_w nd) w' evs Hk A) B)|exact P].
  - destruct (N i nd Hn) as (A&B&C). rewrite Hq in C. inversion C as [|x y C1 C2]; subst.
    apply (handle_event_tok errs (length ns) ev e (set_node i (mk_node (n_w nd) (n_cmd nd) rest) ns) e' ns' C1); [|exact P|exact He].
    apply nodes_tok_set_node; [exact N|]. split; [exact A|]. split; [exact B|exact C2].
  - split; assumption.
  - (* a client call pushes at most one command, never an UpdateAwaitResults *)
    unfold client_step in Hc.
    destruct c; try destruct (alookup p (e_router (s_env s))); inversion Hc; subst s'; simpl;
      (split; [|exact P]); try (apply nodes_tok_push; [|exact I]); exact N.
Qed.

Lemma TInv_init errs nw : TInv errs (init nw).
Proof.
  split; [|intros p pa H; discriminate]. intros i nd Hn. simpl in Hn. apply nth_error_In, repeat_spec in Hn. subst nd.
  split; [intros p pr H; discriminate|]. split; constructor.
Qed.

(* the errors the time slices of a schedule finish with *)
Definition origin_errs (sigma : list sched_action) : list nat :=
  flat_map (fun a => match a with W _ _ o => match d_fin (o_did o) with Some (RErr e) => [e] | _ => [] end | _ => [] end) sigma.

Lemma origin_hon errs : forall sigma s, incl (origin_errs sigma) errs -> hon_run (origin_ok errs) s sigma.
Proof.
  induction sigma as [|a sigma IH]; intros s Hi; simpl; [exact I|]. split.
  - destruct a as [i k o| | |]; simpl; auto.
    destruct (nth_error (s_nodes s) i) as [nd|]; [|exact I]. destruct (handle_cmds _ _) as [[w1 e1]|]; [|exact I].
    unfold origin_ok. destruct (d_fin (o_did o)) as [[v|e]|] eqn:Ef; simpl; auto.
    apply Hi. simpl. rewrite Ef. left; reflexivity.
  - destruct (sys_step s a) as [s'|]; [|exact I]. apply IH. intros x Hx. apply Hi. simpl. apply in_or_app. right; exact Hx.
Qed.

Theorem errors_originate_inv : forall nw sigma s, run (init nw) sigma = Good s -> TInv (origin_errs sigma) s.
Proof.
  intros nw sigma s H.
  eapply (micro_invariant (TInv (origin_errs sigma)) (origin_ok (origin_errs sigma)) (TInv_mstep (origin_errs sigma)));
    [apply TInv_init|apply origin_hon, incl_refl|exact H].
Qed.

(* C15: the error a process ends with is the error some time slice of the schedule finished with *)
Theorem errors_originate : forall nw sigma s,
  run (init nw) sigma = Good s ->
  forall i nd p pr e, nth_error (s_nodes s) i = Some nd -> alookup p (w_procs (n_w nd)) = Some pr ->
    p_res pr = Some (RErr e) -> In e (origin_errs sigma).
Proof.
  intros nw sigma s H i nd p pr e Hn Hl Hr. destruct (errors_originate_inv nw sigma s H) as (N&_).
  destruct (N i nd Hn) as (A&_). destruct (A p pr Hl) as (P1&_). rewrite Hr in P1. exact P1.
Qed.

(* ... and so is every error in flight *)
Theorem errors_in_flight_originate : forall nw sigma s,
  run (init nw) sigma = Good s ->
  forall i nd, nth_error (s_nodes s) i = Some nd ->
    (forall a rs t e, In (EResults a rs) (n_evt nd) -> In (t, Some (RErr e)) rs -> In e (origin_errs sigma)) /\
    (forall a rs t e, In (CUpdate a rs) (n_cmd nd) -> In (t, Some (RErr e)) rs -> In e (origin_errs sigma)).
Proof.
  intros nw sigma s H i nd Hn. destruct (errors_originate_inv nw sigma s H) as (N&_). destruct (N i nd Hn) as (_&B&C).
  rewrite Forall_forall in B, C.
  split; intros a rs t e Hin.
  - exact (proj1 (Forall_forall _ rs) (C _ Hin) (t, Some (RErr e))).
  - exact (proj1 (Forall_forall _ rs) (B _ Hin) (t, Some (RErr e))).
Qed.

(* C15 awaiters_get_same_error, global form: when every failing slice of the schedule fails with e0
   (in particular when exactly one process fails on its own), every failed process — every awaiter,
   transitively, on every worker — has exactly the error e0 *)
Theorem single_failure_same_error : forall nw sigma s e0,
  run (init nw) sigma = Good s -> (forall e, In e (origin_errs sigma) -> e = e0) ->
  forall i nd p pr e, nth_error (s_nodes s) i = Some nd -> alookup p (w_procs (n_w nd)) = Some pr ->
    p_res pr = Some (RErr e) -> e = e0.
Proof. intros nw sigma s e0 H Hs i nd p pr e Hn Hl Hr. apply Hs. eapply errors_originate; eassumption. Qed.

(* non-vacuity: process 1 (worker 1) fails with error 7 while process 0 (worker 0) awaits it; the
   failure travels check_completed -> environment -> Worker::notify_result and completes 0 *)
Definition err_schedule : list sched_action :=
  [ X (XStart false);
    W 0 None (orc (Some 0) (d_act_ ASpawn)); E [];
    W 1 None (orc (Some 1) {| d_taken := []; d_sel := Some (a_sel []); d_forget := []; d_act := None; d_park := true; d_fin := None; d_heapy := false |});
    W 0 None (orc (Some 0) (d_act_ (ADeliver 1)));
    W 0 None (orc (Some 0) {| d_taken := []; d_sel := Some (a_sel [1]); d_forget := []; d_act := Some (AAwait [1]); d_park := false; d_fin := None; d_heapy := false |});
    E [];
    W 1 None (orc (Some 1) {| d_taken := [0]; d_sel := None; d_forget := []; d_act := None; d_park := false; d_fin := Some (RErr 7); d_heapy := false |});
    E [];
    W 0 None (orc None idle_did) ].

Example single_failure_applies :
  origin_errs err_schedule = [7] /\
  exists s nd0 pr0 nd1 pr1, run (init 2) err_schedule = Good s /\
    nth_error (s_nodes s) 0 = Some nd0 /\ alookup 0 (w_procs (n_w nd0)) = Some pr0 /\ p_res pr0 = Some (RErr 7) /\
    nth_error (s_nodes s) 1 = Some nd1 /\ alookup 1 (w_procs (n_w nd1)) = Some pr1 /\ p_res pr1 = Some (RErr 7).
Proof. split; [reflexivity|]. vm_compute. do 5 eexists. repeat split. Qed.
