(* ProtoOps.v — shape lemmas for the worker operations of M-Sys (sys/Proto.v): what Executor::step,
   a time slice, the completion path and check_completed_processes do, stated once so that the
   invariant proofs (ProtoRouted, ProtoAwait, ProtoErrTok) need not unfold them again. *)
From Quiver Require Import sys.Proto sys.ProtoFail sys.ProtoMsg sys.ProtoDeliver.


Definition bk (w : worker) := (w_awaited w, w_awaiters w, w_pending w).
Lemma bk_upd_proc p f w : bk (upd_proc p f w) = bk w.
Proof. apply calm_upd_proc. Qed.
Lemma bk_wake p w : bk (wake_selecting p w) = bk w.
Proof. apply calm_wake. Qed.
Lemma bk_update_await a rs w : bk (update_await a rs w) = bk w.
Proof. apply calm_update_await. Qed.
Lemma expire_same now hint w w' : expire now hint w = Good w' -> w_procs w' = w_procs w /\ bk w' = bk w.
Proof. unfold expire. destruct (order_by hint _); [|discriminate]. intros H; inversion H; subst. split; reflexivity. Qed.

Lemma procs_wake p w : w_procs (wake_selecting p w) = w_procs w.
Proof. unfold wake_selecting. destruct (mem p (w_selecting w)); reflexivity. Qed.

Definition slice_pr1 (pr : proc) (d : did) (taken mail' : list msg) : proc :=
  let pr0 := with_sel (d_sel d) (with_mail mail' (p_arrived pr) (p_taken pr ++ taken) pr) in
  with_awaiting (fold_left (fun a t => aremove t a) (d_forget d) (p_awaiting pr0)) pr0.

Inductive slice_act (i : wid) (p : pid) (w1 : worker) : option act -> worker -> list event -> Prop :=
| sa_none : slice_act i p w1 None w1 []
| sa_spawn : slice_act i p w1 (Some ASpawn) (mark_spawning p w1) [ESpawnA p]
| sa_deliver t :
    slice_act i p w1 (Some (ADeliver t))
      (set_ghost w1 (S (w_nsent w1)) (w_sentlog w1 ++ [(t, mkMsg p i (w_nsent w1))]) (w_arrlog w1) (w_dropped w1))
      [EDeliverA t (mkMsg p i (w_nsent w1))]
| sa_await ts :
    slice_act i p w1 (Some (AAwait ts))
      (mark_selecting p (upd_proc p (fun q => with_awaiting (fold_left (fun a t => aset t None a) ts (p_awaiting q)) q) w1))
      [EAwaitA p ts].

Lemma run_slice_shape i p pr d hint w w' ev : run_slice i p pr d hint w = Good (w', ev) ->
  exists taken mail' w2,
    take_seq (d_taken d) (p_mail pr) = Some (taken, mail') /\
    slice_act i p (set_procs w (aset p (slice_pr1 pr d taken mail') (w_procs w))) (d_act d) w2 ev /\
    match d_fin d with
    | Some r => finish p r (d_heapy d) hint (if d_park d then mark_selecting p w2 else w2) = Good w'
    | None => w' = (if d_park d then mark_selecting p w2 else w2) \/ w' = enqueue p (if d_park d then mark_selecting p w2 else w2)
    end.
Proof.
  unfold run_slice. destruct (negb (did_ok d)); [discriminate|].
  destruct (take_seq (d_taken d) (p_mail pr)) as [[taken mail']|]; [|discriminate].
  fold (slice_pr1 pr d taken mail'). set (w1 := set_procs w _).
  assert (Tail: forall w2 ev2, slice_tail p d hint w2 ev2 = Good (w', ev) ->
            ev2 = ev /\
            match d_fin d with
            | Some r => finish p r (d_heapy d) hint (if d_park d then mark_selecting p w2 else w2) = Good w'
            | None => w' = (if d_park d then mark_selecting p w2 else w2) \/ w' = enqueue p (if d_park d then mark_selecting p w2 else w2)
            end).
  { unfold slice_tail. intros w2 ev2 H. destruct (d_fin d).
    - destruct (finish _ _ _ _ _) as [w4|] eqn:F; simpl in H; [|discriminate]. inversion H; subst. split; reflexivity.
    - destruct (_ || _); inversion H; subst; split; auto. }
  destruct (d_act d) as [[| t | ts]|]; intros H; apply Tail in H; destruct H as (<-&H);
    exists taken, mail'; eexists; (split; [reflexivity|]); (split; [|exact H]); constructor.
Qed.

Lemma exec_step_shape i now o w w' ev : exec_step i now o w = Good (w', ev) ->
  exists w1, expire now (o_expired o) w = Good w1 /\
   ((w_queue w1 = [] /\ w' = w1 /\ ev = []) \/
    exists p q', w_queue w1 = p :: q' /\
      ((alookup p (w_procs w1) = None /\ w' = set_sched w1 q' (w_spawning w1) (w_selecting w1) /\ ev = []) \/
       exists pr, alookup p (w_procs w1) = Some pr /\
         ((o_pid o = Some p /\ run_slice i p pr (o_did o) (o_awaiters o) (set_sched w1 q' (w_spawning w1) (w_selecting w1)) = Good (w', ev)) \/
          (exists e, p_res pr = Some (RErr e) /\
                     finish p (RErr e) false (o_awaiters o) (set_sched w1 q' (w_spawning w1) (w_selecting w1)) = Good w' /\ ev = [])))).
Proof.
  unfold exec_step. destruct (expire now (o_expired o) w) as [w1|] eqn:E; simpl; [|discriminate].
  intros H. exists w1. split; [reflexivity|].
  destruct (w_queue w1) as [|p q']; [left; inversion H; auto|]. right. exists p, q'. split; [reflexivity|].
  simpl in H. destruct (alookup p (w_procs w1)) as [pr|]; [|left; inversion H; auto].
  right. exists pr. split; [reflexivity|].
  destruct (o_pid o) as [p'|].
  - destruct (p =? p') eqn:Ep.
    + apply Nat.eqb_eq in Ep. subst p'. left. split; [reflexivity|exact H].
    + right. destruct (p_res pr) as [[v|e]|]; try discriminate.
      destruct (finish _ _ _ _ _) as [w3|] eqn:F; simpl in H; [|discriminate]. inversion H; subst. exists e. auto.
  - right. destruct (p_res pr) as [[v|e]|]; try discriminate.
    destruct (finish _ _ _ _ _) as [w3|] eqn:F; simpl in H; [|discriminate]. inversion H; subst. exists e. auto.
Qed.

Lemma bk_exec_step i now o w w' ev : exec_step i now o w = Good (w', ev) -> bk w' = bk w.
Proof. intros H. apply exec_step_frame in H. apply H. Qed.

(* the events of one Executor::step: at most one, about the executed process, which exists *)
Lemma exec_step_events i now o w w' ev : exec_step i now o w = Good (w', ev) ->
  ev = [] \/
  exists p, has p w /\ o_pid o = Some p /\
    ((d_act (o_did o) = Some ASpawn /\ ev = [ESpawnA p]) \/
     (exists t m, d_act (o_did o) = Some (ADeliver t) /\ ev = [EDeliverA t m]) \/
     (exists ts, d_act (o_did o) = Some (AAwait ts) /\ ev = [EAwaitA p ts])).
Proof.
  intros H. destruct (exec_step_shape _ _ _ _ _ _ H) as (w1&E&C). apply expire_same in E. destruct E as (Ep&_).
  destruct C as [(_&_&->)|(p&q'&_&[(_&_&->)|(pr&Hl&[(Ho&R)|(e&_&_&->)])])]; auto.
  destruct (run_slice_shape _ _ _ _ _ _ _ _ R) as (taken&mail'&w2&_&Ha&_).
  inversion Ha; subst; [left; reflexivity|right..]; exists p; (split; [unfold has; rewrite <- Ep, Hl; discriminate|]); (split; [exact Ho|]).
  - left. auto.
  - right; left. eauto.
  - right; right. eauto.
Qed.

Definition registered (a t : pid) (w : worker) : Prop := exists l, alookup t (w_awaiters w) = Some l /\ In a l.

(* the relation between the accumulator before and after some report_completed's *)
Definition RC (w : worker) (acc acc' : worker * list event) : Prop :=
  w_procs (fst acc') = w_procs (fst acc) /\
  (forall t l, alookup t (w_awaiters (fst acc')) = Some l -> alookup t (w_awaiters (fst acc)) = Some l) /\
  (forall t, In t (w_awaited (fst acc')) -> In t (w_awaited (fst acc))) /\
  (forall t, alookup t (w_awaiters (fst acc')) <> None -> In t (w_awaited (fst acc)) -> In t (w_awaited (fst acc'))) /\
  (forall a t, registered a t (fst acc) -> registered a t (fst acc') \/ exists r, result_of w t = Some r /\ In (EResults a [(t, Some r)]) (snd acc')) /\
  (forall x, In x (snd acc') -> In x (snd acc) \/ exists a t r, x = EResults a [(t, Some r)] /\ registered a t (fst acc) /\ result_of w t = Some r) /\
  (forall x, In x (snd acc) -> In x (snd acc')).

Lemma RC_refl w acc : RC w acc acc.
Proof. unfold RC. repeat split; auto. Qed.

Lemma RC_trans w a b c : RC w a b -> RC w b c -> RC w a c.
Proof.
  intros (A1&A2&A3&A4&A5&A6&A7) (B1&B2&B3&B4&B5&B6&B7).
  unfold RC. split; [congruence|].
  split; [intros t l H; apply A2, B2, H|]. split; [intros t H; apply A3, B3, H|].
  split.
  { intros t Hl Ht. apply B4; [exact Hl|]. apply A4; [|exact Ht].
    destruct (alookup t (w_awaiters (fst c))) as [l|] eqn:El; [|contradiction]. apply B2 in El. rewrite El. discriminate. }
  split.
  { intros x t R. destruct (A5 x t R) as [R1|(r&Hr&Hin)]; [|right; exists r; split; [exact Hr|apply B7; exact Hin]].
    apply B5. exact R1. }
  split.
  { intros x Hx. apply B6 in Hx. destruct Hx as [Hx|(p&t&r&Ex&(l&Hl&Hp)&Hr)]; [apply A6; exact Hx|].
    right. exists p, t, r. split; [exact Ex|]. split; [|exact Hr]. exists l. split; [apply A2; exact Hl|exact Hp]. }
  intros x Hx. apply B7, A7, Hx.
Qed.

Lemma RC_one w acc x : w_procs (fst acc) = w_procs w -> RC w acc (report_completed acc x).
Proof.
  destruct acc as [w0 ev0]. simpl. intros Hp.
  assert (Er: result_of w0 x = result_of w x) by (unfold result_of; rewrite Hp; reflexivity).
  unfold report_completed. rewrite Er.
  destruct (result_of w x) as [r|] eqn:Erx; [|apply RC_refl].
  unfold RC. simpl. split; [reflexivity|]. split; [|split; [|split; [|split; [|split]]]].
  - intros t l Hl. rewrite alookup_aremove in Hl. destruct (t =? x); [discriminate|exact Hl].
  - intros t Ht. unfold sremove in Ht. apply filter_In in Ht. apply Ht.
  - intros t Hl Ht. rewrite alookup_aremove in Hl. destruct (t =? x) eqn:Etx; [exfalso; apply Hl; reflexivity|].
    unfold sremove. apply filter_In. split; [exact Ht|]. rewrite Nat.eqb_sym, Etx. reflexivity.
  - intros a t (l&Hl&Ha). destruct (Nat.eq_dec t x) as [->|Hne].
    + right. exists r. split; [exact Erx|]. apply in_or_app. right. rewrite Hl. apply in_map_iff. exists a. split; [reflexivity|exact Ha].
    + left. exists l. split; [|exact Ha]. simpl. rewrite alookup_aremove. destruct (t =? x) eqn:E; [apply Nat.eqb_eq in E; contradiction|exact Hl].
  - intros y Hy. apply in_app_or in Hy. destruct Hy as [Hy|Hy]; [left; exact Hy|right].
    apply in_map_iff in Hy. destruct Hy as (a&<-&Ha). exists a, x, r. split; [reflexivity|]. split; [|exact Erx].
    destruct (alookup x (w_awaiters w0)) as [l|] eqn:El; [|contradiction]. exists l. split; [exact El|exact Ha].
  - intros y Hy. apply in_or_app. left; exact Hy.
Qed.

Lemma report_completed_fold_spec w : forall o acc,
  w_procs (fst acc) = w_procs w -> RC w acc (fold_left report_completed o acc).
Proof.
  induction o as [|x o IH]; intros acc Hp; simpl; [apply RC_refl|].
  pose proof (RC_one w acc x Hp) as R1.
  eapply RC_trans; [exact R1|]. apply IH. destruct R1 as (R1&_). congruence.
Qed.

Lemma report_pending_fold_spec w : forall l acc,
  w_procs (fst acc) = w_procs w ->
  let acc' := fold_left report_pending l acc in
  w_procs (fst acc') = w_procs w /\
  w_awaited (fst acc') = w_awaited (fst acc) /\ w_awaiters (fst acc') = w_awaiters (fst acc) /\
  (forall x, In x (snd acc') -> In x (snd acc) \/ exists req r t, x = EResultResp req r /\ result_of w t = Some r) /\
  (forall x, In x (snd acc) -> In x (snd acc')).
Proof.
  induction l as [|x l IH]; intros acc Hp; simpl; [repeat split; auto|].
  assert (Hp1: w_procs (fst (report_pending acc x)) = w_procs w).
  { destruct acc as [w0 ev0]. unfold report_pending. destruct (result_of w0 (fst x)); exact Hp. }
  specialize (IH (report_pending acc x) Hp1). simpl in IH. destruct IH as (I1&I2&I3&I4&I5).
  destruct acc as [w0 ev0]. simpl in Hp.
  assert (Er: result_of w0 (fst x) = result_of w (fst x)) by (unfold result_of; rewrite Hp; reflexivity).
  unfold report_pending in *. rewrite Er in *. destruct (result_of w (fst x)) as [r|] eqn:Erx; simpl in *; [|repeat split; auto].
  repeat split; auto.
  - intros y Hy. apply I4 in Hy. destruct Hy as [Hy|Hy]; [|right; exact Hy].
    apply in_app_or in Hy. destruct Hy as [Hy|Hy]; [left; exact Hy|right]. apply in_map_iff in Hy. destruct Hy as (req&<-&_).
    exists req, r, (fst x). split; [reflexivity|exact Erx].
  - intros y Hy. apply I5. apply in_or_app. left; exact Hy.
Qed.

Theorem check_completed_spec hint w w' ev : check_completed hint w = Good (w', ev) ->
  w_procs w' = w_procs w /\
  w_queue w' = w_queue w /\ w_spawning w' = w_spawning w /\ w_selecting w' = w_selecting w /\
  (forall t l, alookup t (w_awaiters w') = Some l -> alookup t (w_awaiters w) = Some l) /\
  (forall t, In t (w_awaited w') -> In t (w_awaited w)) /\
  (forall t, alookup t (w_awaiters w') <> None -> In t (w_awaited w) -> In t (w_awaited w')) /\
  (forall a t, registered a t w -> registered a t w' \/ exists r, result_of w t = Some r /\ In (EResults a [(t, Some r)]) ev) /\
  (forall x, In x ev -> (exists a t r, x = EResults a [(t, Some r)] /\ registered a t w /\ result_of w t = Some r) \/ (exists req r t, x = EResultResp req r /\ result_of w t = Some r)).
Proof.
  intros H. destruct (check_completed_book _ _ _ _ H) as ((P1&P2&P3&P4&_)&_). revert H.
  unfold check_completed. destruct (order_by hint _) as [o|]; [|discriminate].
  intros H; inversion H as [H1]; clear H.
  pose proof (report_completed_fold_spec w o (w, []) eq_refl) as A. unfold RC in A. simpl in A.
  destruct A as (A1&A2&A3&A4&A5&A6&A7).
  pose proof (report_pending_fold_spec w (w_pending (fst (fold_left report_completed o (w, [])))) (fold_left report_completed o (w, [])) A1) as B.
  rewrite H1 in B. simpl in B. destruct B as (_&B1&B2&B3&B4).
  split; [exact P1|]. split; [exact P2|]. split; [exact P3|]. split; [exact P4|].
  split; [intros t l Hl; rewrite B2 in Hl; apply A2; exact Hl|].
  split; [intros t Ht; rewrite B1 in Ht; apply A3; exact Ht|].
  split; [intros t Hl Ht; rewrite B1; rewrite B2 in Hl; apply A4; assumption|].
  split.
  - intros a t R. destruct (A5 a t R) as [(l&Hl&Ha)|(r&Hr&Hin)].
    + left. exists l. rewrite B2. split; assumption.
    + right. exists r. split; [exact Hr|apply B4; exact Hin].
  - intros x Hx. apply B3 in Hx. destruct Hx as [Hx|Hx]; [|right; exact Hx].
    apply A6 in Hx. destruct Hx as [[]|Hx]. left; exact Hx.
Qed.

Lemma run_slice_did_ok i p pr d hint w w' ev : run_slice i p pr d hint w = Good (w', ev) -> did_ok d = true.
Proof. unfold run_slice. destruct (did_ok d); [reflexivity|discriminate]. Qed.
Lemma did_ok_await d ts : did_ok d = true -> d_act d = Some (AAwait ts) -> d_fin d = None.
Proof. unfold did_ok. intros H E. rewrite E in H. destruct (d_fin d); [discriminate|reflexivity]. Qed.
