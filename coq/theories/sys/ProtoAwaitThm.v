(* ProtoAwaitThm.v — C04 no_lost_wakeup: the fourth clause of Inv_parked on M-Sys (sys/Proto.v), for
   every schedule and every oracle that is `await_honest`; and the refutation of the clause for
   arbitrary oracles (kernel-computed witnesses). *)
From Quiver Require Import sys.Proto sys.ProtoMsg sys.ProtoFifo sys.ProtoFail sys.ProtoWake sys.ProtoDeliver sys.ProtoWf
  sys.ProtoParked sys.ProtoCommute sys.ProtoRouted sys.ProtoMicro sys.ProtoMicroWf sys.ProtoOps sys.ProtoAwait sys.ProtoAwaitInv.

(* the answer to p's await of t is in flight: AwaitAction event | QueryAndAwait command |
   ProcessResults event with the result | result stored in p's pending_awaits entry |
   UpdateAwaitResults command with the result *)
Definition answer_in_flight (s : sys) (p t : pid) : Prop :=
  b_await (s_nodes s) p t \/ b_query (s_nodes s) p t \/ b_res (s_nodes s) p t \/ b_pend (s_env s) p t \/ b_upd (s_env s) (s_nodes s) p t.

(* every awaited entry that is still None is backed: the awaiter is registered on the target's own
   worker (and the target is in that worker's `awaited` set), or the question / answer is in flight —
   unless the awaiter has been completed by a failure *)
Theorem await_backed : forall nw sigma s,
  0 < nw -> await_honest_run (init nw) sigma -> run (init nw) sigma = Good s ->
  forall i nd p pr t, nth_error (s_nodes s) i = Some nd ->
    alookup p (w_procs (n_w nd)) = Some pr -> alookup t (p_awaiting pr) = Some None ->
    failed pr \/
    (exists j ndj, alookup t (e_router (s_env s)) = Some j /\ nth_error (s_nodes s) j = Some ndj /\
                   registered p t (n_w ndj) /\ In t (w_awaited (n_w ndj))) \/
    answer_in_flight s p t.
Proof.
  intros nw sigma s Hnw Hh H i nd p pr t Hn Hl Ht.
  destruct (await_invariant nw sigma s Hnw Hh H) as (_&(_&_&_&NI&IO)).
  destruct (IO i nd p pr t Hn Hl Ht) as [F|[(j&ndj&Hj&[(ts&B)|[(ts&B)|[R|[(rs&r&B)|(rs&r&Hw&B)]]]])|B]].
  - left; exact F.
  - right; right. left. exists j, ndj, ts. exact (conj Hj B).
  - right; right. right; left. exists j, ndj, ts. exact (conj Hj B).
  - right; left. destruct (NI j ndj Hj) as (_&A&_).
    pose proof R as (l&Hlk&Hin). destruct (A t l Hlk) as (A1&A2). exists j, ndj. auto.
  - right; right. right; right; left. exists j, ndj, rs, r. exact (conj Hj B).
  - right; right. right; right; right; right. exists j, ndj, rs, r. exact (conj Hw (conj Hj B)).
  - right; right. right; right; right; left. exact B.
Qed.

Lemma finished_await_in_flight nw sigma s :
  0 < nw -> await_honest_run (init nw) sigma -> run (init nw) sigma = Good s ->
  forall i nd p pr t j ndj r,
    nth_error (s_nodes s) i = Some nd ->
    alookup p (w_procs (n_w nd)) = Some pr -> alookup t (p_awaiting pr) = Some None ->
    nth_error (s_nodes s) j = Some ndj -> result_of (n_w ndj) t = Some r ->
    failed pr \/ answer_in_flight s p t.
Proof.
  intros Hnw Hh H i nd p pr t j ndj r Hn Hl Ht Hj Hr.
  destruct (await_backed nw sigma s Hnw Hh H i nd p pr t Hn Hl Ht) as [F|[(j'&nd'&Hw&Hj'&R&Haw)|B]]; [left; exact F| |right; exact B].
  (* a registration cannot be what backs the entry: t, finished, is no longer in `awaited` *)
  exfalso.
  pose proof (awaited_completion_never_unseen nw sigma s H j' nd' t Hj' Haw) as Hnone.
  destruct (scheduler_well_formed nw sigma s H j ndj Hj) as (_&Hrt).
  assert (Hh2: has t (n_w ndj)).
  { unfold has. unfold result_of in Hr. destruct (alookup t (w_procs (n_w ndj))); discriminate. }
  rewrite (Hrt t Hh2) in Hw. inversion Hw; subst j'. rewrite Hj in Hj'. inversion Hj'; subst nd'. congruence.
Qed.

(* C04 no_lost_wakeup, fourth clause of Inv_parked: p parked in a select, p awaits t (entry None),
   t has a result on its worker  ->  the answer is in flight, or p has been completed by a failure *)
Theorem parked_await_answer_in_flight : forall nw sigma s,
  0 < nw -> await_honest_run (init nw) sigma -> run (init nw) sigma = Good s ->
  forall i nd p pr t j ndj r,
    nth_error (s_nodes s) i = Some nd -> mem p (w_selecting (n_w nd)) = true ->
    alookup p (w_procs (n_w nd)) = Some pr -> alookup t (p_awaiting pr) = Some None ->
    nth_error (s_nodes s) j = Some ndj -> result_of (n_w ndj) t = Some r ->
    failed pr \/ answer_in_flight s p t.
Proof. intros nw sigma s Hnw Hh H i nd p pr t j ndj r Hn _. apply (finished_await_in_flight nw sigma s Hnw Hh H i nd p pr t j ndj r Hn). Qed.

(* the premise as a boolean on schedules *)
Definition await_honest_stepb (s : sys) (a : sched_action) : bool :=
  match a with
  | W i k o =>
    match nth_error (s_nodes s) i with
    | Some nd =>
      match handle_cmds (fst (split_at k (n_cmd nd))) (n_w nd) with
      | Good (w1, _) => await_honestb (s_clock s) o w1
      | Fault _ => true
      end
    | None => true
    end
  | _ => true
  end.
Fixpoint await_honest_runb (s : sys) (sigma : list sched_action) : bool :=
  match sigma with
  | [] => true
  | a :: t => await_honest_stepb s a && match sys_step s a with Good s' => await_honest_runb s' t | Fault _ => true end
  end.
Lemma await_honest_runb_sound : forall sigma s, await_honest_runb s sigma = true -> await_honest_run s sigma.
Proof.
  unfold await_honest_run. induction sigma as [|a sigma IH]; intros s H; simpl in *; [exact I|].
  apply andb_true_iff in H. destruct H as (Ha&Ht). split.
  - destruct a as [i k o| | |]; simpl in *; auto.
    destruct (nth_error (s_nodes s) i) as [nd|]; [|exact I].
    destruct (handle_cmds _ _) as [[w1 e1]|]; [exact Ha|exact I].
  - destruct (sys_step s a) as [s'|]; [apply IH; exact Ht|exact I].
Qed.

(* ------------------------------------------------------------------ witnesses *)
Definition dd (taken : list nat) (sl : option sel) (forget : list pid) (a : option act) (park : bool) (fin : option res) : did :=
  {| d_taken := taken; d_sel := sl; d_forget := forget; d_act := a; d_park := park; d_fin := fin; d_heapy := false |}.

(* process 0 (worker 0) awaits [1, 2] (1 on worker 1, finished; 2 on worker 0, parked); worker 1's
   answer {1: Ok 11} is stored in pending_awaits[0] while worker 0's is outstanding; a message wakes
   0, whose slice takes it and issues Await [2] WITHOUT forgetting key 1 (no real slice does that:
   complete_select removes the process sources of the completed select); the new AwaitAction
   overwrites the pending_awaits entry and the stored answer is gone *)
Definition stale_key_schedule : list sched_action :=
  [ X (XStart false);
    W 0 None (orc (Some 0) (d_act_ ASpawn)); E [];                                   (* pid 1 -> worker 1 *)
    W 0 None (orc (Some 0) (d_act_ ASpawn)); E [];                                   (* pid 2 -> worker 0 *)
    W 1 None (orc (Some 1) (dd [] None [] None false (Some (ROk 11))));              (* 1 finishes *)
    W 0 None (orc (Some 2) (d_act_ (ADeliver 0)));                                   (* 2 sends to 0 *)
    W 0 None (orc (Some 0) (dd [] (Some (a_sel [1; 2])) [] (Some (AAwait [1; 2])) false None));
    E [];                                                                            (* message and queries on their way *)
    W 1 None (orc None idle_did);                                                    (* worker 1 answers {1: Ok 11} *)
    E [0; 1];                                                                        (* ... stored, worker 0 still expected *)
    W 0 (Some 1) (orc (Some 2) (dd [] (Some (a_sel [])) [] None true None));         (* the message wakes 0; 2 parks *)
    W 0 (Some 0) (orc (Some 0) (dd [0] (Some (a_sel [2])) [] (Some (AAwait [2])) false None));   (* key 1 NOT forgotten *)
    E [];                                                                            (* pending_awaits[0] overwritten *)
    W 0 None (orc None idle_did); E [];
    W 0 None (orc (Some 0) (dd [] (Some (a_sel [2])) [] None true None)) ].

Definition quiescent (s : sys) : Prop :=
  forall i nd, nth_error (s_nodes s) i = Some nd -> n_cmd nd = [] /\ n_evt nd = [] /\ w_queue (n_w nd) = [].

(* with every command and event queue empty, only a stored answer can be in flight *)
Lemma flight_when_empty s p t :
  (forall i nd, nth_error (s_nodes s) i = Some nd -> n_cmd nd = [] /\ n_evt nd = []) ->
  answer_in_flight s p t -> b_pend (s_env s) p t.
Proof.
  intros Hq [B|[B|[B|[B|B]]]]; [exfalso..|exact B|exfalso].
  - destruct B as (j&nd&ts&Hj&Hin&_). destruct (Hq j nd Hj) as (_&E). rewrite E in Hin. destruct Hin.
  - destruct B as (j&nd&ts&Hj&Hin&_). destruct (Hq j nd Hj) as (E&_). rewrite E in Hin. destruct Hin.
  - destruct B as (j&nd&rs&r&Hj&Hin&_). destruct (Hq j nd Hj) as (_&E). rewrite E in Hin. destruct Hin.
  - destruct B as (j&nd&rs&r&_&Hj&Hin&_). destruct (Hq j nd Hj) as (E&_). rewrite E in Hin. destruct Hin.
Qed.
Lemma no_flight_when_empty s p t :
  (forall i nd, nth_error (s_nodes s) i = Some nd -> n_cmd nd = [] /\ n_evt nd = []) ->
  e_pending (s_env s) = [] -> ~ answer_in_flight s p t.
Proof. intros Hq Hp B. destruct (flight_when_empty s p t Hq B) as (pa&j&rs&r&Hl&_). rewrite Hp in Hl. discriminate. Qed.

(* REFUTED for arbitrary oracles: without the premise the clause is false on the model. After
   `stale_key_schedule` process 0 is parked, awaits 1 (entry None), has not failed, process 1 has
   finished with Ok 11 on worker 1 — and nothing is in flight: every queue is empty and there is no
   pending_awaits entry.  The schedule is NOT await_honest (its 13th action keeps a stale key). *)
Theorem parked_await_refuted_for_dishonest_oracle :
  exists s nd pr nd1,
    run (init 2) stale_key_schedule = Good s /\ await_honest_runb (init 2) stale_key_schedule = false /\
    nth_error (s_nodes s) 0 = Some nd /\ mem 0 (w_selecting (n_w nd)) = true /\
    alookup 0 (w_procs (n_w nd)) = Some pr /\ p_res pr = None /\ alookup 1 (p_awaiting pr) = Some None /\
    nth_error (s_nodes s) 1 = Some nd1 /\ result_of (n_w nd1) 1 = Some (ROk 11) /\
    quiescent s /\ ~ answer_in_flight s 0 1.
Proof.
  do 4 eexists. split; [vm_compute; reflexivity|]. split; [vm_compute; reflexivity|].
  do 7 (split; [reflexivity|]).
  split; [|apply no_flight_when_empty; [|reflexivity]]; intros [|[|[|i]]] nd H; simpl in H; inversion H; subst; repeat split.
Qed.

(* non-vacuity of the theorem: on an honest schedule (a prefix of ProtoRouted.routed_schedule) the
   premises hold — 0 parked awaiting 1, 1 finished on worker 1 — and the answer is in flight as an
   UpdateAwaitResults command *)
Definition await_schedule : list sched_action := firstn 9 routed_schedule.
Example parked_await_applies :
  await_honest_runb (init 2) await_schedule = true /\
  exists s nd pr nd1,
    run (init 2) await_schedule = Good s /\
    nth_error (s_nodes s) 0 = Some nd /\ mem 0 (w_selecting (n_w nd)) = true /\
    alookup 0 (w_procs (n_w nd)) = Some pr /\ p_res pr = None /\ alookup 1 (p_awaiting pr) = Some None /\
    nth_error (s_nodes s) 1 = Some nd1 /\ result_of (n_w nd1) 1 = Some (ROk 5) /\
    In (CUpdate 0 [(1, Some (ROk 5))]) (n_cmd nd).
Proof.
  split; [vm_compute; reflexivity|]. vm_compute. do 4 eexists.
  split; [reflexivity|]. split; [reflexivity|]. split; [reflexivity|]. split; [reflexivity|]. split; [reflexivity|].
  split; [reflexivity|]. split; [reflexivity|]. split; [reflexivity|]. right; left; reflexivity.
Qed.

(* the other half of the premise is needed too: process 0 awaits 1, 1 fails, the failure completes 0
   in place (Worker::notify_result) — then a slice is run FOR THE FAILED PROCESS and finishes Ok
   (in the code its frames are cleared: no slice executes), the client resumes the now "sleeping"
   process and it parks again with the stale None entry: nothing in flight, 1 finished *)
Definition resurrect_schedule : list sched_action :=
  [ X (XStart false);
    W 0 None (orc (Some 0) (d_act_ ASpawn)); E [];
    W 0 None (orc (Some 0) (dd [] (Some (a_sel [1])) [] (Some (AAwait [1])) false None));
    E [];
    W 1 None (orc (Some 1) (dd [] None [] None false (Some (RErr 7))));
    E [];
    W 0 None (orc (Some 0) (dd [] None [] None false (Some (ROk 5))));           (* a slice of a failed process *)
    X (XResume 0);
    W 0 None (orc (Some 0) (dd [] (Some (a_sel [])) [] None true None)) ].

Theorem parked_await_refuted_for_resurrecting_oracle :
  exists s nd pr nd1,
    run (init 2) resurrect_schedule = Good s /\
    await_honest_runb (init 2) resurrect_schedule = false /\ await_honest_runb (init 2) (firstn 7 resurrect_schedule) = true /\
    nth_error (s_nodes s) 0 = Some nd /\ mem 0 (w_selecting (n_w nd)) = true /\
    alookup 0 (w_procs (n_w nd)) = Some pr /\ p_res pr = None /\ alookup 1 (p_awaiting pr) = Some None /\
    nth_error (s_nodes s) 1 = Some nd1 /\ result_of (n_w nd1) 1 = Some (RErr 7) /\
    quiescent s /\ ~ answer_in_flight s 0 1.
Proof.
  do 4 eexists. split; [vm_compute; reflexivity|]. split; [vm_compute; reflexivity|]. split; [vm_compute; reflexivity|].
  do 7 (split; [reflexivity|]).
  split; [|apply no_flight_when_empty; [|reflexivity]]; intros [|[|[|i]]] nd H; simpl in H; inversion H; subst; repeat split.
Qed.
