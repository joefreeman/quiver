(* ProtoNoErr.v — C15 "workers never crash", the Worker::step half, on M-Sys (sys/Proto.v):
   for every schedule and oracle, the ONLY client call that can make a Worker::step return Err is
   resume_process.  request_result (GetResult) never fails: the environment sends it to the worker
   the process is routed to, and that worker has the process or has its Start/Spawn command queued
   AHEAD of the request.

     step_faults_only_bad_oracle : under pid_honest_run (ProtoRouted) and a schedule without
       XResume, every Fault of run (init nw) sigma is BadOracle — i.e. neither Worker::step nor
       Environment::step ever returns Err; the remaining Faults of the model say that the oracle
       does not describe a possible slice / iteration order, not that the code fails.
     step_faults_only_bad_oracle_resume : the same when the client DOES resume, honestly
       (`resume_honest_run`, a premise on the state in which resume_process is called): the process is
       routed, it is sleeping on its worker (finished Ok, persistent, awaiting nothing) or its
       StartProcess(sleeping) command is queued there, and no ResumeProcess for it is queued already.
       A sleeping process stays sleeping under every worker operation but its own resume
       (ProtoSleep.v), so the queued ResumeProcess finds it sleeping. *)
From Quiver Require Import sys.Proto sys.ProtoMsg sys.ProtoFail sys.ProtoDeliver sys.ProtoWf
  sys.ProtoErrs sys.ProtoMicro sys.ProtoMicroWf sys.ProtoRouted sys.ProtoSleep.

(* every GetResult in the queue finds its process: it exists (known) or is spawned by an earlier command *)
Fixpoint gr_ok (known : pid -> Prop) (cs : list cmd) : Prop :=
  match cs with
  | [] => True
  | c :: rest =>
    match c with CGetResult _ p => known p | _ => True end /\ gr_ok (fun q => known q \/ spawns c = Some q) rest
  end.

Lemma gr_ok_mono : forall cs (known known' : pid -> Prop), (forall q, known q -> known' q) -> gr_ok known cs -> gr_ok known' cs.
Proof.
  induction cs as [|c cs IH]; intros known known' M G; simpl in *; [exact I|]. destruct G as (G1&G2). split.
  - destruct c; auto.
  - apply (IH (fun q => known q \/ spawns c = Some q)); [|exact G2]. intros q [A|A]; [left; apply M; exact A|right; exact A].
Qed.

Lemma spawn_pids_cons c cs : spawn_pids (c :: cs) = match spawns c with Some p => [p] | None => [] end ++ spawn_pids cs.
Proof. reflexivity. Qed.

Lemma gr_ok_snoc : forall cs (known : pid -> Prop) c,
  gr_ok known cs -> match c with CGetResult _ p => known p \/ In p (spawn_pids cs) | _ => True end -> gr_ok known (cs ++ [c]).
Proof.
  induction cs as [|c0 cs IH]; intros known c G Hc; simpl.
  - split; [|exact I]. destruct c; auto. destruct Hc as [A|[]]. exact A.
  - destruct G as (G1&G2). split; [exact G1|]. apply IH; [exact G2|].
    destruct c; auto. rewrite spawn_pids_cons in Hc. destruct Hc as [A|A]; [left; left; exact A|].
    apply in_app_or in A. destruct A as [A|A]; [|right; exact A].
    left; right. destruct (spawns c0) as [x|]; [destruct A as [->|[]]; reflexivity|destruct A].
Qed.

(* every ResumeProcess in the queue finds its process sleeping (asleep), given what the earlier commands do *)
Definition resume_next (c : cmd) (asleep : pid -> Prop) : pid -> Prop :=
  fun q => match c with
           | CResume p => q <> p /\ asleep q
           | CStart p true => q = p \/ asleep q
           | _ => asleep q
           end.
Fixpoint resume_ok (asleep : pid -> Prop) (cs : list cmd) : Prop :=
  match cs with
  | [] => True
  | c :: rest => match c with CResume p => asleep p | _ => True end /\ resume_ok (resume_next c asleep) rest
  end.

Lemma resume_next_mono c (asleep asleep' : pid -> Prop) : (forall q, asleep q -> asleep' q) -> forall q, resume_next c asleep q -> resume_next c asleep' q.
Proof.
  intros M q. unfold resume_next. destruct c as [| |p0 sl| |p0| | | | |]; try apply M.
  - destruct sl; [intros [A|A]; [left; exact A|right; apply M; exact A]|apply M].
  - intros (A&B). split; [exact A|apply M; exact B].
Qed.
Lemma resume_ok_mono : forall cs (asleep asleep' : pid -> Prop), (forall q, asleep q -> asleep' q) -> resume_ok asleep cs -> resume_ok asleep' cs.
Proof.
  induction cs as [|c cs IH]; intros asleep asleep' M G; simpl in *; [exact I|]. destruct G as (G1&G2). split.
  - destruct c; auto.
  - apply (IH (resume_next c asleep)); [apply resume_next_mono; exact M|exact G2].
Qed.
Lemma resume_ok_snoc_other : forall cs (asleep : pid -> Prop) c, (forall p, c <> CResume p) -> resume_ok asleep cs -> resume_ok asleep (cs ++ [c]).
Proof.
  induction cs as [|c0 cs IH]; intros asleep c Hc G; simpl.
  - split; [|exact I]. destruct c; auto. exfalso. apply (Hc p). reflexivity.
  - destruct G as (G1&G2). split; [exact G1|apply IH; assumption].
Qed.
Lemma resume_ok_snoc_resume : forall cs (asleep : pid -> Prop) p,
  resume_ok asleep cs -> (asleep p \/ In (CStart p true) cs) -> (forall c, In c cs -> c <> CResume p) -> resume_ok asleep (cs ++ [CResume p]).
Proof.
  induction cs as [|c0 cs IH]; intros asleep p G Hs Hn; simpl.
  - split; [|exact I]. destruct Hs as [A|[]]. exact A.
  - destruct G as (G1&G2). split; [exact G1|]. apply IH; [exact G2| |intros c Hc; apply Hn; right; exact Hc].
    assert (N0: c0 <> CResume p) by (apply Hn; left; reflexivity).
    destruct Hs as [A|[A|A]].
    + left. unfold resume_next. destruct c0 as [| |p0 sl| |p0| | | | |]; try exact A.
      * destruct sl; [right; exact A|exact A].
      * split; [|exact A]. intros ->. apply N0. reflexivity.
    + subst c0. left. simpl. left; reflexivity.
    + right; exact A.
Qed.

Lemma resume_step c w w' ev :
  (forall p, spawns c = Some p -> ~ has p w) -> handle_cmd c w = Good (w', ev) ->
  forall q, resume_next c (fun x => sleeping x w) q -> sleeping q w'.
Proof.
  intros Hf H q Hq.
  assert (K: c <> CResume q -> sleeping q w -> sleeping q w') by (intros Hc; exact (sleeping_handle_cmd q c w w' ev Hf Hc H)).
  destruct c as [| |p0 [|]| |p0| | | | |]; simpl in Hq; try (apply K; [discriminate|exact Hq]).
  - destruct Hq as [->|Hq]; [eapply start_sleeping; exact H|apply K; [discriminate|exact Hq]].
  - destruct Hq as (Hne&Hq). apply K; [intros C; inversion C; subst; apply Hne; reflexivity|exact Hq].
Qed.

(* a process routed to worker j exists there or its Start / Spawn command is queued there (cf. the
   `ready` clause of ProtoDeliver, here without reference to a DeliverMessage) *)
Definition rd_ok (e : env) (j : wid) (nd : node) : Prop :=
  forall p, alookup p (e_router e) = Some j -> has p (n_w nd) \/ In p (spawn_pids (n_cmd nd)).
Definition c_node (e : env) (j : wid) (nd : node) : Prop :=
  gr_ok (fun q => has q (n_w nd)) (n_cmd nd) /\ resume_ok (fun q => sleeping q (n_w nd)) (n_cmd nd) /\ rd_ok e j nd.
Definition c_nodes (e : env) (ns : list node) : Prop := forall j nd, nth_error ns j = Some nd -> c_node e j nd.
Definition CInv (s : sys) : Prop := WF s /\ c_nodes (s_env s) (s_nodes s).

Lemma NInv_fresh e i w c rest p : NInv e i w (c :: rest) -> spawns c = Some p -> ~ has p w.
Proof. intros (_&_&_&U) Hp. apply U. unfold spawn_pids. simpl. rewrite Hp. left; reflexivity. Qed.

Lemma queue_ok_cmd c w w' ev rest :
  (forall p, spawns c = Some p -> ~ has p w) -> handle_cmd c w = Good (w', ev) ->
  gr_ok (fun q => has q w \/ spawns c = Some q) rest -> resume_ok (resume_next c (fun q => sleeping q w)) rest ->
  gr_ok (fun q => has q w') rest /\ resume_ok (fun q => sleeping q w') rest.
Proof.
  intros Hf H G R. destruct (handle_cmd_pk c w w' ev H) as (PK&Sp&_). split.
  - eapply gr_ok_mono; [|exact G]. intros q [A|A]; [apply PK; exact A|apply Sp; exact A].
  - eapply resume_ok_mono; [|exact R]. apply (resume_step c w w' ev Hf H).
Qed.

Lemma handle_cmds_no_fault e i : forall pre w rest,
  NInv e i w (pre ++ rest) ->
  gr_ok (fun q => has q w) (pre ++ rest) -> resume_ok (fun q => sleeping q w) (pre ++ rest) -> exists r, handle_cmds pre w = Good r.
Proof.
  induction pre as [|c pre IH]; intros w rest HI G R; simpl; [eexists; reflexivity|].
  pose proof (fun p => NInv_fresh e i w c (pre ++ rest) p HI) as Fresh.
  destruct (handle_cmd c w) as [[w1 e1]|f] eqn:E1.
  - cbn [rbind]. destruct (queue_ok_cmd c w w1 e1 _ Fresh E1 (proj2 G) (proj2 R)) as (G1&R1).
    destruct (IH w1 rest) as ([w2 e2]&E2); [|exact G1|exact R1|rewrite E2; eexists; reflexivity].
    exact (NInv_handle_cmd e i c w (pre ++ rest) w1 e1 HI E1).
  - (* a ResumeProcess finds its process sleeping, a GetResult finds its process *)
    exfalso. destruct G as (G1&_). destruct R as (R1&_).
    destruct (handle_cmd_errs_only_on_client_commands c w f E1) as [(p&->)|(r&p&->)]; simpl in E1.
    + destruct R1 as (pr&v&Hl&Hr&Hp&_). rewrite Hl, Hr, Hp in E1. discriminate.
    + unfold has in G1. destruct (alookup p (w_procs w)) as [pr|]; [|apply G1; reflexivity].
      destruct (p_res pr); discriminate.
Qed.

Lemma node_step_fault_oracle e i now k o nd f :
  NInv e i (n_w nd) (n_cmd nd) -> c_node e i nd -> node_step i now k o nd = Fault f -> is_oracle_fault f.
Proof.
  intros HI (G&R&_) H. unfold node_step in H. pose proof (split_at_app k (n_cmd nd)) as Hs.
  destruct (split_at k (n_cmd nd)) as [pre later]. simpl in Hs. rewrite <- Hs in G, R, HI.
  destruct (handle_cmds_no_fault e i pre (n_w nd) later HI G R) as ([w1 e1]&E1). rewrite E1 in H. cbn [rbind] in H.
  apply rbind_fault in H. destruct H as [H|([w2 e2]&_&H)]; [exact (exec_step_fault _ _ _ _ _ H)|].
  apply rbind_fault in H. destruct H as [H|([w3 e3]&_&H)]; [exact (check_completed_fault _ _ _ H)|discriminate].
Qed.

Lemma c_node_worker e j nd nd' :
  pk (n_w nd) (n_w nd') -> (forall q, sleeping q (n_w nd) -> sleeping q (n_w nd')) -> n_cmd nd' = n_cmd nd ->
  c_node e j nd -> c_node e j nd'.
Proof.
  intros PK Sl Ec (G&R&D). unfold c_node, rd_ok. rewrite Ec. split; [|split].
  - eapply gr_ok_mono; [|exact G]. exact PK.
  - eapply resume_ok_mono; [|exact R]. exact Sl.
  - intros p Hp. destruct (D p Hp) as [A|A]; [left; apply PK; exact A|right; exact A].
Qed.

Lemma c_node_cmd e j nd c rest w' evs evs' :
  (forall p, spawns c = Some p -> ~ has p (n_w nd)) -> n_cmd nd = c :: rest -> handle_cmd c (n_w nd) = Good (w', evs) ->
  c_node e j nd -> c_node e j (mk_node w' rest evs').
Proof.
  intros Hf Hc H (G&R&D). unfold c_node, rd_ok in *. rewrite Hc in G, R, D. simpl.
  destruct (queue_ok_cmd c _ _ _ rest Hf H (proj2 G) (proj2 R)) as (G'&R'). split; [exact G'|split; [exact R'|]].
  destruct (handle_cmd_pk _ _ _ _ H) as (PK&Sp&_).
  intros p Hp. destruct (D p Hp) as [A|A]; [left; apply PK; exact A|].
  rewrite spawn_pids_cons in A. apply in_app_or in A. destruct A as [A|A]; [left|right; exact A].
  destruct (spawns c) as [x|] eqn:Es; [destruct A as [->|[]]; apply Sp; reflexivity|destruct A].
Qed.

(* what node nd must satisfy for c to be appended to its queue; the ResumeProcess arm is the premise okc *)
Definition fits (c : cmd) (nd : node) : Prop :=
  match c with
  | CGetResult _ p => has p (n_w nd) \/ In p (spawn_pids (n_cmd nd))
  | CResume p => (sleeping p (n_w nd) \/ In (CStart p true) (n_cmd nd)) /\ forall c0, In c0 (n_cmd nd) -> c0 <> CResume p
  | _ => True
  end.

Lemma c_node_snoc e e' j nd c nd' :
  fits c nd -> n_w nd' = n_w nd -> n_cmd nd' = n_cmd nd ++ [c] ->
  (forall p, alookup p (e_router e') = Some j -> alookup p (e_router e) = Some j \/ spawns c = Some p) ->
  c_node e j nd -> c_node e' j nd'.
Proof.
  intros Hc Ew Ec Hr (G&R&D). unfold c_node, rd_ok. rewrite Ew, Ec. split; [|split].
  - apply gr_ok_snoc; [exact G|]. destruct c; try exact I. exact Hc.
  - destruct c; try (apply resume_ok_snoc_other; [discriminate|exact R]).
    destruct Hc as (Hs&Hn). apply resume_ok_snoc_resume; assumption.
  - intros p Hp. rewrite spawn_pids_snoc. destruct (Hr p Hp) as [A|A].
    + destruct (D p A) as [B|B]; [left; exact B|right; apply in_or_app; left; exact B].
    + right. apply in_or_app. right. rewrite A. left; reflexivity.
Qed.

Lemma c_nodes_set_node e i nd' ns : c_nodes e ns -> c_node e i nd' -> c_nodes e (set_node i nd' ns).
Proof. exact (set_node_all (c_node e) i nd' ns). Qed.

Lemma c_nodes_push e e' w c ns :
  (forall nd, nth_error ns w = Some nd -> fits c nd) ->
  (forall p j, alookup p (e_router e') = Some j -> alookup p (e_router e) = Some j \/ (j = w /\ spawns c = Some p)) ->
  c_nodes e ns -> c_nodes e' (push_cmd w c ns).
Proof.
  intros Hc Hr N j x Hj. destruct (nth_push_inv _ _ _ _ _ Hj) as (nd&Hn&->). destruct (j =? w) eqn:E.
  - apply Nat.eqb_eq in E. subst j. apply (c_node_snoc e e' w nd c); [apply Hc; exact Hn|reflexivity|reflexivity| |exact (N w nd Hn)].
    intros p Hp. destruct (Hr p w Hp) as [A|(_&A)]; [left; exact A|right; exact A].
  - destruct (N j nd Hn) as (G&R&D). split; [exact G|split; [exact R|]].
    intros p Hp. apply D. destruct (Hr p j Hp) as [A|(A&_)]; [exact A|]. subst j. rewrite Nat.eqb_refl in E. discriminate.
Qed.

Lemma c_nodes_push_same e w c ns :
  (forall nd, nth_error ns w = Some nd -> fits c nd) -> c_nodes e ns -> c_nodes e (push_cmd w c ns).
Proof. intros Hc. apply c_nodes_push; [exact Hc|intros p j Hp; left; exact Hp]. Qed.

Lemma c_nodes_alloc e w c ns :
  spawns c = Some (e_next e) -> c_nodes e ns ->
  c_nodes {| e_router := aset (e_next e) w (e_router e); e_next := S (e_next e); e_pending := e_pending e |} (push_cmd w c ns).
Proof.
  intros Hs. apply c_nodes_push; [intros nd _; destruct c; try exact I; discriminate|].
  intros p j Hp. simpl in Hp. rewrite alookup_aset in Hp. destruct (p =? e_next e) eqn:Ep; [right|left; exact Hp].
  apply Nat.eqb_eq in Ep. inversion Hp; subst. split; [reflexivity|exact Hs].
Qed.

(* the premise on a client call: an honest resume_process *)
Definition okc (s : sys) (c : client) : Prop :=
  match c with
  | XResume p =>
    match alookup p (e_router (s_env s)) with
    | Some w => match nth_error (s_nodes s) w with
                | Some nd => (sleeping p (n_w nd) \/ In (CStart p true) (n_cmd nd)) /\ forall c0, In c0 (n_cmd nd) -> c0 <> CResume p
                | None => True
                end
    | None => True
    end
  | _ => True
  end.

Theorem CInv_mstep s l s' : CInv s -> mstep s l s' -> hon_label2 (fun _ _ _ _ => True) okc s l -> CInv s'.
Proof.
  intros (W&N) M Hon. split; [eapply WF_mstep; eassumption|].
  destruct M as [ns e clk i nd c rest w' evs Hn Hc Hh
                |ns e clk i nd o w' evs Hn Hx
                |ns e clk i nd hint w' evs Hn Hk
                |ns e clk i nd ev rest e' ns' Hn Hq He
                |ns e clk d
                |s c s' Hc]; simpl in *.
  - apply c_nodes_set_node; [exact N|].
    apply (c_node_cmd e i nd c rest w' evs); [|exact Hc|exact Hh|exact (N i nd Hn)].
    intros p. apply (NInv_fresh e i (n_w nd) c rest). rewrite <- Hc. destruct W as (_&WN). exact (WN i nd Hn).
  - apply c_nodes_set_node; [exact N|].
    apply (c_node_worker e i nd); [exact (pk_exec_step _ _ _ _ _ _ Hx)| |reflexivity|exact (N i nd Hn)].
    intros q. eapply sleeping_exec_step; [|exact Hx]. destruct W as (_&WN). apply (WN i nd Hn).
  - apply c_nodes_set_node; [exact N|].
    apply (c_node_worker e i nd); [exact (pk_check_completed _ _ _ _ Hk)| |reflexivity|exact (N i nd Hn)].
    intros q. eapply sleeping_check_completed. exact Hk.
  - set (nsm := set_node i (mk_node (n_w nd) (n_cmd nd) rest) ns) in *.
    assert (Nm: c_nodes e nsm) by (apply c_nodes_set_node; [exact N|exact (N i nd Hn)]).
    destruct ev; unfold handle_event in He; cbn -[Nat.modulo nodup] in He.
    + (* SpawnAction: a new pid is routed and its Spawn command pushed *)
      revert He. match goal with |- context [@alookup ?A caller ?l] => destruct (@alookup A caller l) as [cw|] end; intros He; [|discriminate].
      inversion He; subst e' ns'; clear He.
      apply c_nodes_push_same; [intros; exact I|]. apply c_nodes_alloc; [reflexivity|exact Nm].
    + destruct (alookup target (e_router e)) as [w|]; [|discriminate]. inversion He; subst e' ns'; clear He.
      apply c_nodes_push_same; [intros; exact I|exact Nm].
    + revert He. match goal with |- context [forallb ?f targets] => destruct (forallb f targets) end; intros He; [|discriminate].
      inversion He; subst e' ns'; clear He.
      apply fold_left_inv; [|exact Nm]. intros ns0 w _ N0. apply c_nodes_push_same; [intros; exact I|exact N0].
    + destruct (alookup awaiter (e_pending e)) as [pa|].
      * destruct (match results with [] => None | (t, _) :: _ => alookup t (e_router e) end) as [w|]; [|inversion He; subst; exact Nm].
        destruct (sremove w (pa_expected pa)).
        -- destruct (alookup awaiter (e_router e)) as [aw|]; [|discriminate]. inversion He; subst e' ns'; clear He.
           apply c_nodes_push_same; [intros; exact I|exact Nm].
        -- inversion He; subst e' ns'; clear He. exact Nm.
      * destruct (alookup awaiter (e_router e)) as [aw|]; [|discriminate]. inversion He; subst e' ns'; clear He.
        apply c_nodes_push_same; [intros; exact I|exact Nm].
    + inversion He; subst e' ns'. exact Nm.
    + inversion He; subst e' ns'. exact Nm.
  - exact N.
  - unfold client_step in Hc.
    destruct c; simpl in Hon; try destruct (alookup p (e_router (s_env s))) as [w|] eqn:Er; inversion Hc; subst s'; clear Hc; simpl; try exact N.
    + apply c_nodes_alloc; [reflexivity|exact N].
    + apply c_nodes_push_same; [intros; exact I|exact N].
    + apply c_nodes_push_same; [intros; exact I|exact N].
    + (* resume_process, honestly *)
      apply c_nodes_push_same; [|exact N]. intros nd Hn. rewrite Hn in Hon. exact Hon.
    + (* request_result goes to the worker the process is routed to *)
      apply c_nodes_push_same; [|exact N]. intros nd Hn. destruct (N w nd Hn) as (_&_&D). exact (D p Er).
Qed.

Lemma CInv_init nw : CInv (init nw).
Proof.
  split; [apply WF_init|]. intros j nd Hn. simpl in Hn. apply nth_error_In, repeat_spec in Hn. subst nd.
  split; [exact I|]. split; [exact I|intros p Hp; discriminate].
Qed.

Definition resume_honest_run (s : sys) (sigma : list sched_action) : Prop := clients_ok okc s sigma.
Definition no_resume (sigma : list sched_action) : Prop := Forall (fun a => forall p, a <> X (XResume p)) sigma.

Lemma no_resume_honest : forall sigma s, no_resume sigma -> resume_honest_run s sigma.
Proof.
  induction sigma as [|a sigma IH]; intros s H; simpl; [exact I|]. inversion H as [|x y H1 H2]; subst. split.
  - destruct a as [| | |c]; auto. destruct c; simpl; auto. exfalso. apply (H1 p). reflexivity.
  - destruct (sys_step s a); [apply IH; exact H2|exact I].
Qed.

Lemma step_fault_oracle s a f : CInv s -> RInv s -> sys_step s a = Fault f -> is_oracle_fault f.
Proof.
  intros ((_&WN)&NC) HR Est. destruct a as [i k o|ks|d|c].
  - simpl in Est. destruct (nth_error (s_nodes s) i) as [nd|] eqn:Ei; [|discriminate].
    apply rbind_fault in Est. destruct Est as [Es|(nd'&_&Es)]; [|discriminate].
    eapply node_step_fault_oracle; [apply (WN i nd Ei)|apply (NC i nd Ei)|exact Es].
  - exfalso. apply (step_errs_only s (E ks) f Est). apply RInv_events_routed. exact HR.
  - exfalso. apply (step_errs_only s (T d) f Est).
  - exfalso. apply (step_errs_only s (X c) f Est).
Qed.

Lemma CInv_RInv_mstep s l s' : CInv s /\ RInv s -> mstep s l s' -> hon_label2 pids_honest okc s l -> CInv s' /\ RInv s'.
Proof.
  intros (C&R) M Hl. split.
  - apply (CInv_mstep s l s' C M). destruct l; simpl; auto.
  - apply (RInv_mstep s l s' R M). destruct l; simpl; auto.
Qed.

(* the only Faults of a run whose oracle names allocated pids and whose client resumes only honestly
   are BadOracle: no Worker::step and no Environment::step returns Err; C15 states it from `init` *)
Lemma faults_only_bad_oracle : forall sigma s f,
  CInv s -> RInv s -> pid_honest_run s sigma = true -> resume_honest_run s sigma -> run s sigma = Fault f -> is_oracle_fault f.
Proof.
  intros sigma s f HC HR Hh Hn H.
  destruct (run_fault_inv _ pids_honest okc CInv_RInv_mstep sigma s f (conj HC HR) (pid_honest_hon_run sigma s Hh) Hn H) as (s1&a&(C1&R1)&Est).
  exact (step_fault_oracle s1 a f C1 R1 Est).
Qed.

Theorem step_faults_only_bad_oracle_resume : forall nw sigma f,
  pid_honest_run (init nw) sigma = true -> resume_honest_run (init nw) sigma -> run (init nw) sigma = Fault f -> is_oracle_fault f.
Proof. intros nw sigma f Hh Hn H. eapply faults_only_bad_oracle; [apply CInv_init|apply RInv_init|exact Hh|exact Hn|exact H]. Qed.

Theorem step_faults_only_bad_oracle : forall nw sigma f,
  pid_honest_run (init nw) sigma = true -> no_resume sigma -> run (init nw) sigma = Fault f -> is_oracle_fault f.
Proof. intros nw sigma f Hh Hn. apply step_faults_only_bad_oracle_resume; [exact Hh|apply no_resume_honest; exact Hn]. Qed.

(* non-vacuity: two request_result calls, each issued BEFORE the Start / Spawn command of its target is
   handled; the second is answered from pending_result_requests when the target completes *)
Definition getresult_schedule : list sched_action :=
  [ X (XStart false);
    X (XGetResult 0 70);                                                          (* queued behind StartProcess *)
    W 0 None (orc (Some 0) (d_act_ ASpawn)); E [];
    X (XGetResult 1 71);                                                          (* pid 1: Spawn command still queued on worker 1 *)
    W 1 None (orc (Some 1) {| d_taken := []; d_sel := None; d_forget := []; d_act := None; d_park := false; d_fin := Some (ROk 5); d_heapy := false |});
    E [] ].

Example step_faults_only_bad_oracle_applies :
  pid_honest_run (init 2) getresult_schedule = true /\ no_resume getresult_schedule /\
  exists s, run (init 2) getresult_schedule = Good s.
Proof.
  split; [vm_compute; reflexivity|]. split.
  - unfold no_resume, getresult_schedule. repeat constructor; intros p C; discriminate.
  - vm_compute. eexists; reflexivity.
Qed.
