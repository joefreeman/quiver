(* ProtoAwaitInv.v — C04 no_lost_wakeup, the fourth clause of Inv_parked, on M-Sys (sys/Proto.v):
   an awaited entry that is still None is BACKED — its target is registered in awaiters_for_target
   on the target's worker, or the question / the answer is in flight:
     AwaitAction event queued  |  QueryAndAwait command queued  |  registered  |
     ProcessResults event queued carrying the result  |  result stored in the pending_awaits entry  |
     UpdateAwaitResults command queued carrying the result
   — or the awaiter has been completed by a failure.  An invariant of every run whose oracle is
   `await_honest` (ProtoAwait.v), proved per micro-step (ProtoMicro.v).  Side invariants:
   QueryAndAwait commands, registrations, ProcessResults events and stored answers sit at / come from
   the worker their targets are routed to (so that the per-worker answers merge disjointly);
   the keys of `awaiting` are among the targets of the LAST AwaitAction of that process still
   queued (so that an overwritten pending_awaits entry loses nothing that is still awaited); a
   "not yet" answer in an event queue is followed by the completion report or the registration is
   still there. *)
From Quiver Require Import sys.Proto sys.ProtoMsg sys.ProtoFifo sys.ProtoFail sys.ProtoWake sys.ProtoDeliver sys.ProtoWf
  sys.ProtoCommute sys.ProtoMicro sys.ProtoMicroWf sys.ProtoOps sys.ProtoParked sys.ProtoAwait.

Definition wrouted (e : env) (t : pid) (j : wid) : Prop := alookup t (e_router e) = Some j.

(* ------------------------------------------------------------------ what backs a None entry *)
Section Backed.
  Variables (e : env) (ns : list node) (p t : pid).
  Definition b_await : Prop := exists j nd ts, nth_error ns j = Some nd /\ In (EAwaitA p ts) (n_evt nd) /\ In t ts.
  Definition b_query : Prop := exists j nd ts, nth_error ns j = Some nd /\ In (CQuery p ts) (n_cmd nd) /\ In t ts.
  Definition b_res : Prop := exists j nd rs r, nth_error ns j = Some nd /\ In (EResults p rs) (n_evt nd) /\ alookup t rs = Some (Some r).
  Definition b_pend : Prop := exists pa j rs r, alookup p (e_pending e) = Some pa /\ wrouted e t j /\ alookup j (pa_resp pa) = Some rs /\ alookup t rs = Some (Some r).
  Definition b_upd : Prop := exists j nd rs r, wrouted e p j /\ nth_error ns j = Some nd /\ In (CUpdate p rs) (n_cmd nd) /\ In (t, Some r) rs.
  Definition backs (j : wid) (nd : node) : Prop :=
    (exists ts, In (EAwaitA p ts) (n_evt nd) /\ In t ts) \/
    (exists ts, In (CQuery p ts) (n_cmd nd) /\ In t ts) \/
    registered p t (n_w nd) \/
    (exists rs r, In (EResults p rs) (n_evt nd) /\ alookup t rs = Some (Some r)) \/
    (exists rs r, wrouted e p j /\ In (CUpdate p rs) (n_cmd nd) /\ In (t, Some r) rs).
  Definition backed : Prop := (exists j nd, nth_error ns j = Some nd /\ backs j nd) \/ b_pend.
End Backed.

(* ------------------------------------------------------------------ the last AwaitAction of p in a queue *)
Fixpoint last_await (p : pid) (evs : list event) : option (list pid) :=
  match evs with
  | [] => None
  | ev :: rest =>
    match last_await p rest with
    | Some ts => Some ts
    | None => match ev with EAwaitA a ts => if a =? p then Some ts else None | _ => None end
    end
  end.
Lemma last_await_app p : forall a b, last_await p (a ++ b) = match last_await p b with Some ts => Some ts | None => last_await p a end.
Proof.
  induction a as [|ev a IH]; intros b; simpl; [destruct (last_await p b); reflexivity|].
  rewrite IH. destruct (last_await p b); reflexivity.
Qed.
Lemma last_await_in p : forall evs ts, last_await p evs = Some ts -> In (EAwaitA p ts) evs.
Proof.
  induction evs as [|ev evs IH]; intros ts H; simpl in H; [discriminate|].
  destruct (last_await p evs) as [ts'|]; [inversion H; subst; right; apply IH; reflexivity|].
  destruct ev; try discriminate. destruct (awaiter =? p) eqn:E; [|discriminate]. apply Nat.eqb_eq in E. subst. inversion H; subst. left; reflexivity.
Qed.
Lemma last_await_no_await p evs : (forall ts, ~ In (EAwaitA p ts) evs) -> last_await p evs = None.
Proof.
  intros H. destruct (last_await p evs) as [ts|] eqn:E; [|reflexivity]. exfalso. apply (H ts). apply last_await_in. exact E.
Qed.

(* ------------------------------------------------------------------ "not yet" answers in an event queue *)
Fixpoint nb_list (w : worker) (evs : list event) : Prop :=
  match evs with
  | [] => True
  | ev :: rest =>
    match ev with
    | EResults p rs => forall t, alookup t rs = Some None ->
        registered p t w \/ exists rs' r, In (EResults p rs') rest /\ alookup t rs' = Some (Some r)
    | _ => True
    end /\ nb_list w rest
  end.

Lemma nb_list_step w w' b : forall a,
  (forall p t, registered p t w -> registered p t w' \/ exists rs' r, In (EResults p rs') b /\ alookup t rs' = Some (Some r)) ->
  nb_list w a -> nb_list w' b -> nb_list w' (a ++ b).
Proof.
  induction a as [|ev a IH]; intros Hr Ha Hb; simpl; [exact Hb|].
  destruct Ha as (H1&H2). split; [|apply IH; assumption].
  destruct ev; auto. intros t Ht. destruct (H1 t Ht) as [R|(rs'&r&Hin&Hl)].
  - destruct (Hr _ _ R) as [R'|(rs'&r&Hin&Hl)]; [left; exact R'|right; exists rs', r; split; [apply in_or_app; right; exact Hin|exact Hl]].
  - right. exists rs', r. split; [apply in_or_app; left; exact Hin|exact Hl].
Qed.
Lemma nb_list_forall w : forall b,
  (forall ev, In ev b -> match ev with EResults p rs => forall t, alookup t rs <> Some None | _ => True end) -> nb_list w b.
Proof.
  induction b as [|ev b IH]; intros H; simpl; [exact I|]. split; [|apply IH; intros x Hx; apply H; right; exact Hx].
  pose proof (H ev (or_introl eq_refl)) as H0. destruct ev; auto. intros t Ht. exfalso. apply (H0 t Ht).
Qed.

Lemma nb_list_noresults w b : (forall a rs, ~ In (EResults a rs) b) -> nb_list w b.
Proof. intros H. apply nb_list_forall. intros ev Hin. destruct ev; auto. destruct (H _ _ Hin). Qed.

(* ------------------------------------------------------------------ the invariant *)
(* per node j:  q_ok  a queued QueryAndAwait has targets, all routed to j (so the per-worker answers
   have disjoint keys);  a_ok  a registration is for a target routed to j that is in `awaited` (so
   check_completed_processes will report it);  ev_wf  a queued ProcessResults is non-empty, has
   distinct keys, all routed to j;  eh_ok  the awaiter of a queued AwaitAction lives on j;  j_ok  the
   keys of `awaiting` are among the targets of the process's last queued AwaitAction (an
   overwritten pending_awaits entry loses nothing still awaited);  nb_list  a queued "not yet" is
   followed by the report, or the registration is still there.
   environment:  rb_ok  the router names existing workers;  pr_ok  the answers stored in
   pending_awaits have distinct keys, each under the worker its targets are routed to.
   i_ok  the clause itself: a None entry of an unfailed process is backed. *)
Definition q_ok (e : env) (j : wid) (nd : node) : Prop :=
  forall a ts, In (CQuery a ts) (n_cmd nd) -> ts <> [] /\ forall t, In t ts -> wrouted e t j.
Definition a_ok (e : env) (j : wid) (nd : node) : Prop :=
  forall t l, alookup t (w_awaiters (n_w nd)) = Some l -> wrouted e t j /\ In t (w_awaited (n_w nd)).
Definition ev_wf (e : env) (j : wid) (nd : node) : Prop :=
  forall a rs, In (EResults a rs) (n_evt nd) -> rs <> [] /\ NoDup (map fst rs) /\ forall t, In t (map fst rs) -> wrouted e t j.
Definition eh_ok (nd : node) : Prop := forall a ts, In (EAwaitA a ts) (n_evt nd) -> has a (n_w nd).
Definition j_ok (nd : node) : Prop :=
  forall p pr ts, alookup p (w_procs (n_w nd)) = Some pr -> last_await p (n_evt nd) = Some ts ->
    forall t, alookup t (p_awaiting pr) <> None -> In t ts.
Definition node_inv (e : env) (j : wid) (nd : node) : Prop :=
  q_ok e j nd /\ a_ok e j nd /\ ev_wf e j nd /\ eh_ok nd /\ j_ok nd /\ nb_list (n_w nd) (n_evt nd).

Definition resp_ok (e : env) (resp : list (wid * list (pid * option res))) : Prop :=
  NoDup (map fst resp) /\
  forall j rs, alookup j resp = Some rs -> NoDup (map fst rs) /\ forall t, In t (map fst rs) -> wrouted e t j.
Definition pr_ok (e : env) : Prop := forall p pa, alookup p (e_pending e) = Some pa -> resp_ok e (pa_resp pa).
Definition rb_ok (e : env) (ns : list node) : Prop := forall t j, wrouted e t j -> j < length ns.
Definition i_ok (e : env) (ns : list node) : Prop :=
  forall i nd p pr t, nth_error ns i = Some nd -> alookup p (w_procs (n_w nd)) = Some pr ->
    alookup t (p_awaiting pr) = Some None -> failed pr \/ backed e ns p t.

Definition AInv (s : sys) : Prop :=
  WF s /\ rb_ok (s_env s) (s_nodes s) /\ pr_ok (s_env s) /\
  (forall j nd, nth_error (s_nodes s) j = Some nd -> node_inv (s_env s) j nd) /\
  i_ok (s_env s) (s_nodes s).

(* ------------------------------------------------------------------ Worker micro-steps: one node changes *)
Lemma nth_set_cases {ns : list node} {i j nd ndj} nd' :
  nth_error ns i = Some nd -> nth_error ns j = Some ndj ->
  (j = i /\ ndj = nd /\ nth_error (set_node i nd' ns) j = Some nd') \/ (j <> i /\ nth_error (set_node i nd' ns) j = Some ndj).
Proof.
  intros Hi Hj. destruct (Nat.eq_dec j i) as [->|Hne].
  - left. rewrite Hi in Hj. inversion Hj; subst. split; [reflexivity|]. split; [reflexivity|]. apply (nth_set_node_same _ _ _ _ Hi).
  - right. split; [exact Hne|]. rewrite nth_set_node_other by exact Hne. exact Hj.
Qed.

Lemma classic_failed pr : failed pr \/ ~ failed pr.
Proof.
  unfold failed. destruct (p_res pr) as [[v|e]|]; [right; intros (e&H); discriminate|left; exists e; reflexivity|right; intros (e&H); discriminate].
Qed.

Lemma backed_wstep e ns i nd nd' popped p t :
  nth_error ns i = Some nd ->
  (forall ev, In ev (n_evt nd) -> In ev (n_evt nd')) ->
  (forall a x, registered a x (n_w nd) -> registered a x (n_w nd') \/ exists r, In (EResults a [(x, Some r)]) (n_evt nd')) ->
  (forall c, In c (n_cmd nd) -> In c (n_cmd nd') \/ Some c = popped) ->
  backed e ns p t ->
  backed e (set_node i nd' ns) p t \/
  (exists ts, popped = Some (CQuery p ts) /\ In t ts) \/
  (exists rs r, popped = Some (CUpdate p rs) /\ In (t, Some r) rs /\ wrouted e p i).
Proof.
  intros Hi T1 T2 T3 [(j&ndj&Hj&B)|B]; [|left; right; exact B].
  destruct (nth_set_cases nd' Hi Hj) as [(->&->&Hn)|(_&Hn)]; [|left; left; exists j, ndj; auto].
  assert (Here: forall X, backs e p t i nd' -> backed e (set_node i nd' ns) p t \/ X) by (intros X H; left; left; exists i, nd'; auto).
  destruct B as [(ts&Hin&Ht)|[(ts&Hin&Ht)|[R|[(rs&r&Hin&Hl)|(rs&r&Hw&Hin&Hr)]]]].
  - apply Here. left. exists ts. auto.
  - destruct (T3 _ Hin) as [Hin'|Hp]; [apply Here; right; left; exists ts; auto|].
    right; left. exists ts. split; [symmetry; exact Hp|exact Ht].
  - apply Here. destruct (T2 _ _ R) as [R'|(r&Hin)]; [right; right; left; exact R'|].
    right; right; right; left. exists [(t, Some r)], r. split; [exact Hin|]. simpl. rewrite Nat.eqb_refl. reflexivity.
  - apply Here. right; right; right; left. exists rs, r. auto.
  - destruct (T3 _ Hin) as [Hin'|Hp]; [apply Here; right; right; right; right; exists rs, r; auto|].
    right; right. exists rs, r. split; [symmetry; exact Hp|]. split; [exact Hr|exact Hw].
Qed.

Lemma registered_same a t w w' : w_awaiters w' = w_awaiters w -> registered a t w -> registered a t w'.
Proof. intros E (l&H&I). exists l. rewrite E. auto. Qed.

(* a worker micro-step on node i.  Premises, in order: the invariant before; WF after; the node;
   commands are only popped (`popped`), none added; no process disappears; a_ok of w'; ev_wf of the
   new events; a registration is kept or answered by a new event; nb_list of the new events; the
   conclusion of ProtoAwait.exec_step_effect (no AwaitAction and the tables evolve by pstep, or
   the one Await slice); a popped QueryAndAwait is backed afterwards; a popped UpdateAwaitResults
   that carries a result leaves no None entry on an unfailed awaiter. *)
Lemma AInv_worker ns e clk i nd w' cs' evs popped :
  AInv (mk_sys ns e clk) -> WF (mk_sys (set_node i (mk_node w' cs' (n_evt nd ++ evs)) ns) e clk) ->
  nth_error ns i = Some nd ->
  (forall c, In c (n_cmd nd) -> In c cs' \/ Some c = popped) -> (forall c, In c cs' -> In c (n_cmd nd)) ->
  pk (n_w nd) w' ->
  (forall t l, alookup t (w_awaiters w') = Some l -> wrouted e t i /\ In t (w_awaited w')) ->
  (forall a rs, In (EResults a rs) evs -> rs <> [] /\ NoDup (map fst rs) /\ forall t, In t (map fst rs) -> wrouted e t i) ->
  (forall a x, registered a x (n_w nd) -> registered a x w' \/ exists r, In (EResults a [(x, Some r)]) evs) ->
  nb_list w' evs ->
  ((forall a ts, ~ In (EAwaitA a ts) evs) /\ pstep (n_w nd) w' \/
   exists p ts, evs = [EAwaitA p ts] /\ has p (n_w nd) /\
     (forall q pr', q <> p -> alookup q (w_procs w') = Some pr' -> alookup q (w_procs (n_w nd)) = Some pr') /\
     (forall pr' t, alookup p (w_procs w') = Some pr' -> alookup t (p_awaiting pr') <> None -> In t ts)) ->
  (forall q t ts, popped = Some (CQuery q ts) -> In t ts -> backed e (set_node i (mk_node w' cs' (n_evt nd ++ evs)) ns) q t) ->
  (forall q t rs r pr pr', popped = Some (CUpdate q rs) -> In (t, Some r) rs ->
     alookup q (w_procs (n_w nd)) = Some pr -> alookup t (p_awaiting pr) = Some None ->
     alookup q (w_procs w') = Some pr' -> alookup t (p_awaiting pr') = Some None -> failed pr') ->
  AInv (mk_sys (set_node i (mk_node w' cs' (n_evt nd ++ evs)) ns) e clk).
Proof.
  intros HA W' Hi C1 C2 PK A' EV' Reg NB' Eff Hq Hu.
  pose proof HA as (W&RB&PR&NI&IO). simpl in RB, PR, NI, IO.
  destruct (NI i nd Hi) as (Q&A&EV&EH&J&NB).
  set (nd' := mk_node w' cs' (n_evt nd ++ evs)) in *.
  assert (T1: forall ev, In ev (n_evt nd) -> In ev (n_evt nd')) by (intros ev Hin; apply in_or_app; left; exact Hin).
  assert (T2: forall a x, registered a x (n_w nd) -> registered a x (n_w nd') \/ exists r, In (EResults a [(x, Some r)]) (n_evt nd')).
  { intros a x R. destruct (Reg a x R) as [R'|(r&Hin)]; [left; exact R'|right]. exists r. apply in_or_app. right; exact Hin. }
  split; [exact W'|]. simpl. split; [|split; [exact PR|split]].
  - intros t j Hw. rewrite set_node_length. apply (RB t j Hw).
  - intros j ndj Hj. destruct (Nat.eq_dec j i) as [->|Hne]; [|rewrite nth_set_node_other in Hj by exact Hne; apply (NI j ndj Hj)].
    rewrite (nth_set_node_same _ _ _ _ Hi) in Hj. inversion Hj; subst ndj.
    split; [|split; [|split; [|split; [|split]]]]; simpl.
    + intros a ts Hin. apply (Q a ts), C2, Hin.
    + exact A'.
    + intros a rs Hin. apply in_app_or in Hin. destruct Hin as [Hin|Hin]; [apply (EV a rs Hin)|apply (EV' a rs Hin)].
    + intros a ts Hin. apply in_app_or in Hin. destruct Hin as [Hin|Hin]; [apply PK, (EH a ts Hin)|].
      destruct Eff as [(NoA&_)|(p0&ts0&->&Hp0&_)]; [exfalso; apply (NoA a ts Hin)|].
      destruct Hin as [C|[]]. inversion C; subst a ts. apply PK, Hp0.
    + intros p pr' ts Hl Hla t Ht. simpl in Hl, Hla. rewrite last_await_app in Hla.
      destruct Eff as [(NoA&(_&PS))|(p0&ts0&->&Hp0&Oth&Keys)].
      * rewrite (last_await_no_await p evs) in Hla by (intros ts1 Hin; apply (NoA p ts1 Hin)).
        destruct (PS p pr' Hl) as [(pr&Hlo&(Ev&_))|(_&Hn)]; [|rewrite Hn in Ht; contradiction].
        apply (J p pr ts Hlo Hla t). destruct (alookup t (p_awaiting pr')) as [v|] eqn:Ev'; [|contradiction].
        destruct (Ev t v Ev') as (v0&H0&_). rewrite H0. discriminate.
      * simpl in Hla. destruct (p0 =? p) eqn:Ep.
        -- apply Nat.eqb_eq in Ep. subst p0. inversion Hla; subst ts0. apply (Keys pr' t Hl Ht).
        -- apply Nat.eqb_neq in Ep. apply (J p pr' ts); [apply (Oth p pr'); [congruence|exact Hl]|exact Hla|exact Ht].
    + apply (nb_list_step (n_w nd) w' evs); [|exact NB|exact NB'].
      intros p t R. destruct (Reg p t R) as [R'|(r&Hin)]; [left; exact R'|right].
      exists [(t, Some r)], r. split; [exact Hin|]. simpl. rewrite Nat.eqb_refl. reflexivity.
  - intros j ndj q pr' t Hj Hl Ht.
    destruct (classic_failed pr') as [F|NF]; [left; exact F|right].
    assert (Old: forall pr ndo, nth_error ns j = Some ndo -> alookup q (w_procs (n_w ndo)) = Some pr -> alookup t (p_awaiting pr) = Some None -> ~ failed pr ->
                 backed e (set_node i nd' ns) q t).
    { intros pr ndo Hjo Hlo Hto NFo.
      destruct (IO j ndo q pr t Hjo Hlo Hto) as [F|B]; [contradiction|].
      destruct (backed_wstep e ns i nd nd' popped q t Hi T1 T2 C1 B) as [B'|[(ts&Hp&Hin)|(rs&r&Hp&Hin&Hw)]]; [exact B'|eapply Hq; eassumption|].
      exfalso. destruct W as (_&WN). simpl in WN. destruct (WN j ndo Hjo) as (_&Hr&_).
      assert (Hh: has q (n_w ndo)) by (unfold has; rewrite Hlo; discriminate).
      apply Hr in Hh. unfold wrouted in Hw. rewrite Hh in Hw. inversion Hw; subst j.
      rewrite Hi in Hjo. inversion Hjo; subst ndo.
      rewrite (nth_set_node_same _ _ _ _ Hi) in Hj. inversion Hj; subst ndj.
      apply NF. eapply (Hu q t rs r pr pr'); eassumption. }
    destruct (Nat.eq_dec j i) as [->|Hne]; [|rewrite nth_set_node_other in Hj by exact Hne; apply (Old pr' ndj Hj Hl Ht NF)].
    rewrite (nth_set_node_same _ _ _ _ Hi) in Hj. inversion Hj; subst ndj. simpl in Hl.
    destruct Eff as [(_&(_&PS))|(p0&ts0&->&Hp0&Oth&Keys)].
    + destruct (PS q pr' Hl) as [(pr&Hlo&(Ev&Fm))|(_&Hn)]; [|rewrite Hn in Ht; discriminate].
      destruct (Ev t None Ht) as (v0&H0&Hv). rewrite (Hv eq_refl) in H0.
      apply (Old pr nd Hi Hlo H0). intros F. apply NF, Fm, F.
    + destruct (Nat.eq_dec q p0) as [->|Hne]; [|apply (Old pr' nd Hi (Oth q pr' Hne Hl) Ht NF)].
      left. exists i, nd'. split; [apply (nth_set_node_same _ _ _ _ Hi)|]. left. exists ts0.
      split; [simpl; apply in_or_app; right; left; reflexivity|]. apply (Keys pr' t Hl). rewrite Ht. discriminate.
Qed.

Lemma AInv_cmd ns e clk i nd c rest w' evs :
  AInv (mk_sys ns e clk) -> nth_error ns i = Some nd -> n_cmd nd = c :: rest ->
  handle_cmd c (n_w nd) = Good (w', evs) ->
  AInv (mk_sys (set_node i (mk_node w' rest (n_evt nd ++ evs)) ns) e clk).
Proof.
  intros HA Hi Hc Hh.
  assert (W': WF (mk_sys (set_node i (mk_node w' rest (n_evt nd ++ evs)) ns) e clk)).
  { destruct HA as (W&_). eapply WF_mstep; [exact W|]. eapply ms_cmd; eassumption. }
  pose proof HA as (W&_&_&NI&_). simpl in NI. destruct (NI i nd Hi) as (Q&A&_).
  assert (Fresh: forall p, spawns c = Some p -> ~ has p (n_w nd)).
  { intros p Hp. destruct W as (_&WN). simpl in WN. destruct (WN i nd Hi) as (_&_&_&U). apply U.
    rewrite Hc. unfold spawn_pids. simpl. rewrite Hp. left; reflexivity. }
  pose proof (handle_cmd_pstep c (n_w nd) w' evs Fresh Hh) as PS.
  (* the part that depends on the kind of command *)
  assert (Kind:
    (forall a x, registered a x (n_w nd) -> registered a x w') /\
    (forall t l, alookup t (w_awaiters w') = Some l -> wrouted e t i /\ In t (w_awaited w')) /\
    (forall a ts, ~ In (EAwaitA a ts) evs) /\
    (forall a rs, In (EResults a rs) evs -> rs <> [] /\ NoDup (map fst rs) /\ forall t, In t (map fst rs) -> wrouted e t i) /\
    nb_list w' evs /\
    (forall q t ts, c = CQuery q ts -> In t ts ->
       registered q t w' \/ exists rs r, In (EResults q rs) evs /\ alookup t rs = Some (Some r))).
  { destruct (match c with CQuery _ _ => true | _ => false end) eqn:Ek.
    - destruct c; try discriminate. simpl in Hh.
      destruct (fold_left (query_one awaiter) targets (n_w nd, [])) as [w1 rs] eqn:Ef. inversion Hh; subst w1 evs; clear Hh.
      destruct (query_fold_spec _ _ _ _ _ _ Ef) as (_&S5&S6&S7&S8&_&S10&S11&S12).
      destruct (Q awaiter targets) as (Qn&Qr); [rewrite Hc; left; reflexivity|].
      split; [exact S6|]. split; [|split; [|split; [|split]]].
      + intros t l Hl. destruct (S7 t l Hl) as [(Hin&Haw)|Hl0]; [split; [apply Qr; exact Hin|exact Haw]|].
        destruct (A t l Hl0) as (A1&A2). split; [exact A1|apply S5; exact A2].
      + intros a ts [C|[]]. discriminate.
      + intros a rs0 [C|[]]. inversion C; subst a rs0. split; [apply S12; exact Qn|]. split; [apply S11; constructor|].
        intros t Ht. apply S10 in Ht. destruct Ht as [Ht|[]]. apply Qr; exact Ht.
      + simpl. split; [|exact I]. intros t Ht.
        assert (Hin: In t targets).
        { assert (Hk: In t (map fst rs)) by (apply alookup_in_keys; rewrite Ht; discriminate). apply S10 in Hk. destruct Hk as [Hk|[]]. exact Hk. }
        destruct (S8 t Hin) as [R|(r&Hr)]; [left; exact R|]. rewrite Ht in Hr. discriminate.
      + intros q t ts E Hin. inversion E; subst q ts. destruct (S8 t Hin) as [R|(r&Hr)]; [left; exact R|].
        right. exists rs, r. split; [left; reflexivity|exact Hr].
    - assert (Hn: forall a ts, c <> CQuery a ts) by (intros a ts ->; discriminate).
      destruct (handle_cmd_other _ _ _ _ Hh Hn) as (O1&O2&Oe). rewrite Forall_forall in Oe.
      assert (O3: forall a rs, ~ In (EResults a rs) evs) by (intros a rs Hin; apply (Oe _ Hin)).
      assert (O4: forall a ts, ~ In (EAwaitA a ts) evs) by (intros a ts Hin; apply (Oe _ Hin)).
      split; [intros a x R; eapply registered_same; [exact O2|exact R]|].
      split; [intros t l Hl; rewrite O2 in Hl; rewrite O1; apply (A t l Hl)|].
      split; [exact O4|]. split; [intros a rs Hin; exfalso; apply (O3 a rs Hin)|].
      split; [apply nb_list_noresults; exact O3|]. intros q t ts E. exfalso. apply (Hn q ts E). }
  destruct Kind as (K1&K2&K3&K4&K5&K6).
  apply (AInv_worker ns e clk i nd w' rest evs (Some c) HA W' Hi).
  - intros c0 Hin. rewrite Hc in Hin. destruct Hin as [->|Hin]; [right; reflexivity|left; exact Hin].
  - intros c0 Hin. rewrite Hc. right; exact Hin.
  - apply PS.
  - exact K2.
  - exact K4.
  - intros a x R. left. apply K1, R.
  - exact K5.
  - left. split; [exact K3|exact PS].
  - intros q t ts E Hin. inversion E; subst c.
    destruct (K6 q t ts eq_refl Hin) as [R|(rs&r&Hev&Hr)]; left; exists i, (mk_node w' rest (n_evt nd ++ evs)); (split; [apply (nth_set_node_same _ _ _ _ Hi)|]).
    + right; right; left; exact R.
    + right; right; right; left. exists rs, r. split; [simpl; apply in_or_app; right; exact Hev|exact Hr].
  - intros q t rs r pr pr' E Hin Hlo Hto Hl Ht. inversion E; subst c. simpl in Hh. inversion Hh; subst w' evs.
    destruct (update_await_records q rs (n_w nd) t r) as (pr2&Hl2&R2); [exists pr; split; [exact Hlo|rewrite Hto; discriminate]|exact Hin|].
    rewrite Hl in Hl2. inversion Hl2; subst pr2. destruct R2 as [F|(r'&Hr')]; [exact F|]. rewrite Ht in Hr'. discriminate.
Qed.

Lemma exec_step_no_results i now o w w' evs : exec_step i now o w = Good (w', evs) -> forall a rs, ~ In (EResults a rs) evs.
Proof.
  intros H a rs Hin. destruct (exec_step_events _ _ _ _ _ _ H) as [->|(p&_&_&[(_&->)|[(t&m&_&->)|(ts&_&->)]])];
    [destruct Hin|destruct Hin as [C|[]]; discriminate..].
Qed.

Lemma AInv_exec ns e clk i nd o w' evs :
  AInv (mk_sys ns e clk) -> nth_error ns i = Some nd ->
  exec_step i clk o (n_w nd) = Good (w', evs) -> await_honestb clk o (n_w nd) = true ->
  AInv (mk_sys (set_node i (mk_node w' (n_cmd nd) (n_evt nd ++ evs)) ns) e clk).
Proof.
  intros HA Hi Hx Hon.
  assert (W': WF (mk_sys (set_node i (mk_node w' (n_cmd nd) (n_evt nd ++ evs)) ns) e clk)).
  { destruct HA as (W&_). eapply WF_mstep; [exact W|]. eapply ms_exec; eassumption. }
  pose proof HA as (_&_&_&NI&_). simpl in NI. destruct (NI i nd Hi) as (_&A&_).
  pose proof (bk_exec_step _ _ _ _ _ _ Hx) as Bk. unfold bk in Bk. inversion Bk as [[B1 B2 B3]]; clear Bk.
  pose proof (exec_step_no_results _ _ _ _ _ _ Hx) as NoR.
  apply (AInv_worker ns e clk i nd w' (n_cmd nd) evs None HA W' Hi).
  - intros c Hin. left; exact Hin.
  - auto.
  - apply (pk_exec_step _ _ _ _ _ _ Hx).
  - intros t l Hl. rewrite B2 in Hl. rewrite B1. apply (A t l Hl).
  - intros a rs Hin. exfalso. apply (NoR a rs Hin).
  - intros a x R. left. eapply registered_same; [exact B2|exact R].
  - apply nb_list_noresults, NoR.
  - apply (exec_step_effect _ _ _ _ _ _ Hx Hon).
  - intros q t ts E. discriminate.
  - intros q t rs r pr pr' E. discriminate.
Qed.

Lemma AInv_chk ns e clk i nd hint w' evs :
  AInv (mk_sys ns e clk) -> nth_error ns i = Some nd ->
  check_completed hint (n_w nd) = Good (w', evs) ->
  AInv (mk_sys (set_node i (mk_node w' (n_cmd nd) (n_evt nd ++ evs)) ns) e clk).
Proof.
  intros HA Hi Hk.
  assert (W': WF (mk_sys (set_node i (mk_node w' (n_cmd nd) (n_evt nd ++ evs)) ns) e clk)).
  { destruct HA as (W&_). eapply WF_mstep; [exact W|]. eapply ms_chk; eassumption. }
  pose proof HA as (_&_&_&NI&_). simpl in NI. destruct (NI i nd Hi) as (_&A&_).
  destruct (check_completed_spec _ _ _ _ Hk) as (S1&_&_&_&S5&S6&S7&S8&S9).
  apply (AInv_worker ns e clk i nd w' (n_cmd nd) evs None HA W' Hi).
  - intros c Hin. left; exact Hin.
  - auto.
  - apply pk_same, S1.
  - intros t l Hl. destruct (A t l (S5 t l Hl)) as (A1&A2). split; [exact A1|]. apply S7; [rewrite Hl; discriminate|exact A2].
  - intros a rs Hin. destruct (S9 _ Hin) as [(a0&t&r&C&(l&Hl&_)&_)|(req&r&t0&C&_)]; [|discriminate]. inversion C; subst a rs.
    split; [discriminate|]. split; [constructor; [intros []|constructor]|]. intros t0 [<-|[]]. apply (A t l Hl).
  - intros a x R. destruct (S8 a x R) as [R'|(r&_&Hin)]; [left; exact R'|right; exists r; exact Hin].
  - apply nb_list_forall. intros ev Hin. destruct (S9 _ Hin) as [(a0&t&r&->&_)|(req&r&t1&->&_)]; [|exact I].
    intros t0 C. simpl in C. destruct (t0 =? t); discriminate.
  - left. split; [|apply pstep_same, S1]. intros a ts Hin. destruct (S9 _ Hin) as [(a0&t&r&C&_)|(req&r&t0&C&_)]; discriminate.
  - intros q t ts E. discriminate.
  - intros q t rs r pr pr' E. discriminate.
Qed.

(* ------------------------------------------------------------------ Environment micro-steps: pushes *)
(* ns' is ns with commands appended; the appended commands at node j satisfy P j *)
Definition ext (P : wid -> cmd -> Prop) (ns ns' : list node) : Prop :=
  length ns' = length ns /\
  forall j nd, nth_error ns j = Some nd ->
    exists extra, nth_error ns' j = Some (mk_node (n_w nd) (n_cmd nd ++ extra) (n_evt nd)) /\ Forall (P j) extra.

Lemma ext_refl P ns : ext P ns ns.
Proof. split; [reflexivity|]. intros j nd H. exists []. rewrite app_nil_r. split; [|constructor]. destruct nd; exact H. Qed.
Lemma ext_trans P a b c : ext P a b -> ext P b c -> ext P a c.
Proof.
  intros (L1&H1) (L2&H2). split; [congruence|]. intros j nd Hj.
  destruct (H1 j nd Hj) as (x1&N1&F1). destruct (H2 j _ N1) as (x2&N2&F2). simpl in N2.
  exists (x1 ++ x2). rewrite app_assoc. split; [exact N2|apply Forall_app; split; assumption].
Qed.
Lemma ext_push (P : wid -> cmd -> Prop) ns w c : P w c -> ext P ns (push_cmd w c ns).
Proof.
  intros Hp. split; [apply push_cmd_length|]. intros j nd Hj. rewrite nth_error_push, Hj.
  destruct (j =? w) eqn:E.
  - apply Nat.eqb_eq in E. subst j. exists [c]. split; [reflexivity|constructor; [exact Hp|constructor]].
  - exists []. rewrite app_nil_r. split; [destruct nd; reflexivity|constructor].
Qed.
Lemma ext_fold_push {A} (P : wid -> cmd -> Prop) (mk : A -> cmd) (wof : A -> wid) l :
  (forall a, In a l -> P (wof a) (mk a)) -> forall ns, ext P ns (fold_left (fun ns a => push_cmd (wof a) (mk a) ns) l ns).
Proof.
  induction l as [|a l IH]; intros Hp ns; simpl; [apply ext_refl|].
  eapply ext_trans; [apply ext_push; apply Hp; left; reflexivity|]. apply IH. intros x Hx. apply Hp. right; exact Hx.
Qed.
Lemma ext_back P ns ns' j nd' : ext P ns ns' -> nth_error ns' j = Some nd' ->
  exists nd extra, nth_error ns j = Some nd /\ nd' = mk_node (n_w nd) (n_cmd nd ++ extra) (n_evt nd) /\ Forall (P j) extra.
Proof.
  intros (L&H) Hj. destruct (nth_error ns j) as [nd|] eqn:En.
  - destruct (H j nd En) as (extra&N&F). rewrite Hj in N. inversion N; subst nd'. exists nd, extra. auto.
  - apply nth_error_None in En. rewrite <- L in En. apply nth_error_None in En. congruence.
Qed.

Lemma fold_push_in {A} (mk : A -> cmd) (wof : A -> wid) : forall l ns x, In x l -> wof x < length ns ->
  exists nd', nth_error (fold_left (fun ns a => push_cmd (wof a) (mk a) ns) l ns) (wof x) = Some nd' /\ In (mk x) (n_cmd nd').
Proof.
  induction l as [|a l IH]; intros ns x Hin Hlt; [destruct Hin|]. simpl. destruct Hin as [->|Hin].
  - destruct (nth_error ns (wof x)) as [nd|] eqn:En; [|apply nth_error_None in En; lia].
    assert (E1: nth_error (push_cmd (wof x) (mk x) ns) (wof x) = Some (mk_node (n_w nd) (n_cmd nd ++ [mk x]) (n_evt nd))).
    { rewrite nth_error_push, En, Nat.eqb_refl. reflexivity. }
    destruct (ext_fold_push (fun _ _ => True) mk wof l (fun _ _ => I) (push_cmd (wof x) (mk x) ns)) as (_&H).
    destruct (H _ _ E1) as (extra&N&_). eexists. split; [exact N|]. simpl. apply in_or_app. left. apply in_or_app. right. left; reflexivity.
  - apply IH; [exact Hin|rewrite push_cmd_length; exact Hlt].
Qed.
Lemma push_in w c ns : w < length ns -> exists nd', nth_error (push_cmd w c ns) w = Some nd' /\ In c (n_cmd nd').
Proof.
  intros Hlt. destruct (nth_error ns w) as [nd|] eqn:En; [|apply nth_error_None in En; lia].
  rewrite nth_error_push, En, Nat.eqb_refl. eexists. split; [reflexivity|]. simpl. apply in_or_app. right. left; reflexivity.
Qed.

Definition env_le (e e' : env) : Prop := forall t j, wrouted e t j -> wrouted e' t j.
Definition qP (e : env) (j : wid) (c : cmd) : Prop :=
  match c with CQuery a ts => ts <> [] /\ forall t, In t ts -> wrouted e t j | _ => True end.

Lemma node_inv_ext e e' j nd extra :
  node_inv e j nd -> env_le e e' -> Forall (qP e' j) extra ->
  node_inv e' j (mk_node (n_w nd) (n_cmd nd ++ extra) (n_evt nd)).
Proof.
  intros (Q&A&EV&EH&J&NB) Le F. split; [|split; [|split; [|split; [|split]]]]; simpl.
  - intros a ts Hin. simpl in Hin. apply in_app_or in Hin. destruct Hin as [Hin|Hin].
    + destruct (Q a ts Hin) as (Q1&Q2). split; [exact Q1|]. intros t Ht. apply Le, Q2, Ht.
    + rewrite Forall_forall in F. apply (F _ Hin).
  - intros t l Hl. simpl in Hl |- *. destruct (A t l Hl) as (A1&A2). split; [apply Le; exact A1|exact A2].
  - intros a rs Hin. simpl in Hin. destruct (EV a rs Hin) as (E1&E2&E3). split; [exact E1|]. split; [exact E2|]. intros t Ht. apply Le, E3, Ht.
  - exact EH.
  - exact J.
  - exact NB.
Qed.

(* node j of the state in the middle of an environment micro-step: the head event may be gone *)
Definition tail_of (nd ndm : node) : Prop :=
  n_w ndm = n_w nd /\ n_cmd ndm = n_cmd nd /\ (n_evt nd = n_evt ndm \/ exists ev, n_evt nd = ev :: n_evt ndm).

Lemma node_inv_tail e j nd ndm : tail_of nd ndm -> node_inv e j nd -> node_inv e j ndm.
Proof.
  intros (Ew&Ec&Ee) (Q&A&EV&EH&J&NB).
  assert (Sub: forall ev, In ev (n_evt ndm) -> In ev (n_evt nd)).
  { intros ev Hin. destruct Ee as [Ee|(ev0&Ee)]; rewrite Ee; [exact Hin|right; exact Hin]. }
  split; [|split; [|split; [|split; [|split]]]].
  - intros a ts Hin. rewrite Ec in Hin. apply (Q a ts Hin).
  - intros t l Hl. rewrite Ew in Hl |- *. apply (A t l Hl).
  - intros a rs Hin. apply (EV a rs (Sub _ Hin)).
  - intros a ts Hin. unfold has. rewrite Ew. apply (EH a ts (Sub _ Hin)).
  - intros p pr ts Hl Hla t Ht. rewrite Ew in Hl. apply (J p pr ts Hl); [|exact Ht].
    destruct Ee as [Ee|(ev0&Ee)]; rewrite Ee; [exact Hla|]. simpl. rewrite Hla. reflexivity.
  - rewrite Ew. destruct Ee as [Ee|(ev0&E0)]; [rewrite <- Ee; exact NB|]. rewrite E0 in NB. simpl in NB. apply NB.
Qed.

Definition needs (ns : list node) (q t : pid) : Prop :=
  exists j nd pr, nth_error ns j = Some nd /\ alookup q (w_procs (n_w nd)) = Some pr /\
    alookup t (p_awaiting pr) = Some None.

Lemma AInv_env_generic ns e clk nsm e' ns' :
  AInv (mk_sys ns e clk) -> WF (mk_sys ns' e' clk) ->
  length nsm = length ns ->
  (forall j ndm, nth_error nsm j = Some ndm -> exists nd, nth_error ns j = Some nd /\ tail_of nd ndm) ->
  ext (qP e') nsm ns' -> env_le e e' -> rb_ok e' ns -> pr_ok e' ->
  (forall q t, needs ns q t -> backed e ns q t -> backed e' ns' q t) ->
  AInv (mk_sys ns' e' clk).
Proof.
  intros (W&RB&PR&NI&IO) W' Lm Hm Hx Le RB' PR' Hb. simpl in *.
  split; [exact W'|]. simpl. split; [intros t j Hw; rewrite (proj1 Hx), Lm; apply (RB' t j Hw)|]. split; [exact PR'|]. split.
  - intros j nd' Hj. destruct (ext_back _ _ _ _ _ Hx Hj) as (ndm&extra&Hjm&->&F).
    destruct (Hm j ndm Hjm) as (nd&Hjn&T). apply (node_inv_ext e e'); [|exact Le|exact F].
    eapply node_inv_tail; [exact T|apply (NI j nd Hjn)].
  - intros j nd' q pr t Hj Hl Ht.
    destruct (ext_back _ _ _ _ _ Hx Hj) as (ndm&extra&Hjm&->&_). simpl in Hl.
    destruct (Hm j ndm Hjm) as (nd&Hjn&(Ew&_&_)). rewrite Ew in Hl.
    destruct (IO j nd q pr t Hjn Hl Ht) as [F|B]; [left; exact F|right; apply Hb; [exists j, nd, pr; auto|exact B]].
Qed.

(* backed is monotone under pushes and growth of the router, as long as the pending_awaits entry
   of the awaiter is kept (the caller treats the stored-answer case when it is not) *)
Lemma backed_mono P e e' ns ns' q t :
  ext P ns ns' -> env_le e e' ->
  (b_pend e q t -> backed e' ns' q t) ->
  backed e ns q t -> backed e' ns' q t.
Proof.
  intros (_&Hx) Le Hp [(j&nd&Hj&B)|B]; [|apply Hp, B].
  destruct (Hx j nd Hj) as (extra&N&_). left. exists j, (mk_node (n_w nd) (n_cmd nd ++ extra) (n_evt nd)). split; [exact N|].
  destruct B as [B|[(ts&Hin&Ht)|[B|[B|(rs&r&Hw&Hin&Hr)]]]].
  - left; exact B.
  - right; left. exists ts. split; [simpl; apply in_or_app; left; exact Hin|exact Ht].
  - right; right; left; exact B.
  - right; right; right; left; exact B.
  - right; right; right; right. exists rs, r. split; [apply Le; exact Hw|]. split; [simpl; apply in_or_app; left; exact Hin|exact Hr].
Qed.

Lemma b_pend_same e e' q t : env_le e e' -> alookup q (e_pending e') = alookup q (e_pending e) -> b_pend e q t -> b_pend e' q t.
Proof. intros Le Ep (pa&j&rs&r&H1&H2&H3&H4). exists pa, j, rs, r. rewrite Ep. split; [exact H1|]. split; [apply Le; exact H2|]. auto. Qed.

Lemma backed_pop e ns i nd ev rest q t :
  nth_error ns i = Some nd -> n_evt nd = ev :: rest ->
  backed e ns q t ->
  backed e (set_node i (mk_node (n_w nd) (n_cmd nd) rest) ns) q t \/
  (exists ts, ev = EAwaitA q ts /\ In t ts) \/ (exists rs r, ev = EResults q rs /\ alookup t rs = Some (Some r)).
Proof.
  intros Hi He [(j&ndj&Hj&B)|B]; [|left; right; exact B].
  destruct (nth_set_cases (mk_node (n_w nd) (n_cmd nd) rest) Hi Hj) as [(->&->&Hn)|(_&Hn)]; [|left; left; exists j, ndj; auto].
  assert (Here: forall X, backs e q t i (mk_node (n_w nd) (n_cmd nd) rest) -> backed e (set_node i (mk_node (n_w nd) (n_cmd nd) rest) ns) q t \/ X).
  { intros X H. left; left. exists i, (mk_node (n_w nd) (n_cmd nd) rest). auto. }
  destruct B as [(ts&Hin&Ht)|[B|[B|[(rs&r&Hin&Hl)|B]]]].
  - rewrite He in Hin. destruct Hin as [->|Hin]; [right; left; exists ts; auto|]. apply Here. left. exists ts. auto.
  - apply Here. right; left; exact B.
  - apply Here. right; right; left; exact B.
  - rewrite He in Hin. destruct Hin as [->|Hin]; [right; right; exists rs, r; auto|]. apply Here. right; right; right; left. exists rs, r. auto.
  - apply Here. right; right; right; right; exact B.
Qed.

Lemma pop_tail ns i nd ev rest :
  nth_error ns i = Some nd -> n_evt nd = ev :: rest ->
  length (set_node i (mk_node (n_w nd) (n_cmd nd) rest) ns) = length ns /\
  forall j ndm, nth_error (set_node i (mk_node (n_w nd) (n_cmd nd) rest) ns) j = Some ndm -> exists nd0, nth_error ns j = Some nd0 /\ tail_of nd0 ndm.
Proof.
  intros Hi He. split; [apply set_node_length|]. intros j ndm Hj. destruct (Nat.eq_dec j i) as [->|Hne].
  - rewrite (nth_set_node_same _ _ _ _ Hi) in Hj. inversion Hj; subst ndm. exists nd. split; [exact Hi|].
    split; [reflexivity|]. split; [reflexivity|]. right. exists ev. exact He.
  - rewrite nth_set_node_other in Hj by exact Hne. exists ndm. split; [exact Hj|]. split; [reflexivity|]. split; [reflexivity|]. left; reflexivity.
Qed.

(* ------------------------------------------------------------------ merging the per-worker answers *)
Lemma alookup_fold_asetf_notin {A} t : forall (rs acc : list (nat * A)), ~ In t (map fst rs) -> alookup t (fold_left asetf rs acc) = alookup t acc.
Proof.
  induction rs as [|[k v] rs IH]; intros acc Hn; simpl; [reflexivity|].
  rewrite IH by (intros Hin; apply Hn; right; exact Hin). unfold asetf; simpl.
  apply alookup_aset_neq. intros ->. apply Hn. left; reflexivity.
Qed.

Lemma merge_resp_eq resp : merge_resp resp = fold_left (fun acc x => fold_left asetf (snd x) acc) resp [].
Proof. reflexivity. Qed.

Lemma merge_skip {A} t : forall (resp : list (wid * list (nat * A))) acc,
  (forall j' rs', In (j', rs') resp -> ~ In t (map fst rs')) ->
  alookup t (fold_left (fun acc x => fold_left asetf (snd x) acc) resp acc) = alookup t acc.
Proof.
  induction resp as [|[j1 rs1] resp IH]; intros acc H; simpl; [reflexivity|].
  rewrite IH by (intros j' rs' Hin; apply (H j' rs'); right; exact Hin).
  apply alookup_fold_asetf_notin. apply (H j1 rs1). left; reflexivity.
Qed.

Lemma in_alookup_keys {A} k (a : A) l : NoDup (map fst l) -> In (k, a) l -> alookup k l = Some a.
Proof. apply in_alookup. Qed.

Lemma merge_lookup e t j : forall resp acc rs0 v,
  resp_ok e resp -> wrouted e t j -> In (j, rs0) resp -> alookup t rs0 = Some v ->
  alookup t (fold_left (fun acc x => fold_left asetf (snd x) acc) resp acc) = Some v.
Proof.
  induction resp as [|[j1 rs1] resp IH]; intros acc rs0 v (ND&RO) Hw Hin Hl; [destruct Hin|].
  simpl in ND. inversion ND as [|x y ND1 ND2]; subst.
  assert (RO': resp_ok e resp).
  { split; [exact ND2|]. intros j' rs' Hl'. apply RO. simpl. destruct (j' =? j1) eqn:E; [|exact Hl'].
    apply Nat.eqb_eq in E. subst j'. exfalso. apply ND1. apply alookup_in_keys. rewrite Hl'. discriminate. }
  simpl. destruct Hin as [Hin|Hin].
  - inversion Hin; subst j1 rs1. rewrite merge_skip.
    + destruct (RO j rs0) as (N0&_); [simpl; rewrite Nat.eqb_refl; reflexivity|]. rewrite (alookup_fold_asetf t rs0 acc N0), Hl. reflexivity.
    + intros j' rs' Hin' Hk. apply ND1.
      assert (Hl': alookup j' resp = Some rs') by (apply in_alookup; assumption).
      destruct RO' as (_&RO'). destruct (RO' j' rs' Hl') as (_&Hr). specialize (Hr t Hk).
      unfold wrouted in *. rewrite Hw in Hr. inversion Hr; subst j'. apply alookup_in_keys. rewrite Hl'. discriminate.
  - apply (IH _ rs0 v RO' Hw Hin Hl).
Qed.

Lemma ext_node P nsm ns' j ndm : ext P nsm ns' -> nth_error nsm j = Some ndm ->
  exists nd', nth_error ns' j = Some nd' /\ n_w nd' = n_w ndm /\ n_evt nd' = n_evt ndm /\ forall c, In c (n_cmd ndm) -> In c (n_cmd nd').
Proof.
  intros (_&H) Hj. destruct (H j ndm Hj) as (extra&N&_). eexists. split; [exact N|]. simpl.
  split; [reflexivity|]. split; [reflexivity|]. intros c Hc. apply in_or_app. left; exact Hc.
Qed.

Lemma env_le_refl e : env_le e e. Proof. intros t j H; exact H. Qed.
Lemma env_le_router e e' : e_router e' = e_router e -> env_le e e'.
Proof. intros E t j H. unfold wrouted in *. rewrite E. exact H. Qed.

Lemma AInv_results ns e clk i nd a rs rest e' ns' :
  AInv (mk_sys ns e clk) -> nth_error ns i = Some nd -> n_evt nd = EResults a rs :: rest ->
  handle_event (length ns) (EResults a rs) (e, set_node i (mk_node (n_w nd) (n_cmd nd) rest) ns) = Good (e', ns') ->
  WF (mk_sys ns' e' clk) -> AInv (mk_sys ns' e' clk).
Proof.
  intros HA Hi He H W'.
  pose proof HA as (W&RB&PR&NI&IO). simpl in RB, PR, NI, IO.
  destruct (NI i nd Hi) as (Q&A&EV&EH&J&NB).
  destruct (EV a rs) as (Rn&Rd&Rr); [rewrite He; left; reflexivity|].
  rewrite He in NB. simpl in NB. destruct NB as (NBh&_).
  set (nsm := set_node i (mk_node (n_w nd) (n_cmd nd) rest) ns) in *.
  destruct (pop_tail ns i nd _ rest Hi He) as (Lm&Hm). fold nsm in Lm, Hm.
  assert (Him: nth_error nsm i = Some (mk_node (n_w nd) (n_cmd nd) rest)) by apply (nth_set_node_same _ _ _ _ Hi).
  (* the sender is worker i *)
  assert (Hs: match rs with [] => None | (t, _) :: _ => alookup t (e_router e) end = Some i).
  { destruct rs as [|[t0 v0] rs1]; [contradiction|]. apply Rr. left; reflexivity. }
  (* what the non-popped, non-stored backings become under an extension that keeps the environment's router *)
  assert (Other: forall P e2 ns2 q t, ext P nsm ns2 -> env_le e e2 ->
            (q <> a -> alookup q (e_pending e2) = alookup q (e_pending e)) ->
            (forall r, alookup t rs = Some (Some r) -> backed e2 ns2 a t) ->
            (b_pend e a t -> backed e2 ns2 a t) ->
            backed e ns q t -> backed e2 ns2 q t).
  { intros P e2 ns2 q t Hx Le Hpe Hpop Hst B.
    destruct (backed_pop e ns i nd _ rest q t Hi He B) as [Bm|[(ts&C&_)|(rs0&r&C&Hr)]]; [|discriminate|].
    - apply (backed_mono P e e2 nsm ns2 q t Hx Le); [|exact Bm]. intros Bp.
      destruct (Nat.eq_dec q a) as [->|Hne]; [apply Hst; exact Bp|].
      right. apply (b_pend_same e e2 q t Le (Hpe Hne) Bp).
    - inversion C; subst q rs0. apply (Hpop r Hr). }
  (* a "not yet" answer at the head of the queue *)
  assert (Renew: forall P e2 ns2 t, ext P nsm ns2 -> alookup t rs = Some None -> backed e2 ns2 a t).
  { intros P e2 ns2 t Hx Hn. destruct (ext_node _ _ _ _ _ Hx Him) as (nd2&N2&Ew2&Ee2&_). simpl in Ew2, Ee2.
    destruct (NBh t Hn) as [R|(rs'&r&Hin&Hl)].
    - left. exists i, nd2. split; [exact N2|]. right; right; left. rewrite Ew2; exact R.
    - left. exists i, nd2. split; [exact N2|]. right; right; right; left. exists rs', r. split; [rewrite Ee2; exact Hin|exact Hl]. }
  unfold handle_event in H. rewrite Hs in H.
  destruct (alookup a (e_pending e)) as [pa|] eqn:Epa.
  - (* a pending_awaits entry *)
    destruct (PR a pa Epa) as (PaN&PaR).
    set (old := match alookup i (pa_resp pa) with Some l => l | None => [] end) in *.
    set (rsi := fold_left (fun a0 x => aset (fst x) (snd x) a0) rs old) in *.
    set (resp' := aset i rsi (pa_resp pa)) in *.
    assert (OldOk: NoDup (map fst old) /\ forall t, In t (map fst old) -> wrouted e t i).
    { unfold old. destruct (alookup i (pa_resp pa)) as [l|] eqn:El; [apply (PaR i l El)|split; [constructor|intros t []]]. }
    assert (F3: forall t, alookup t rsi = match alookup t rs with Some v => Some v | None => alookup t old end).
    { intros t. apply (alookup_fold_asetf t rs old Rd). }
    assert (RespOk: resp_ok e resp').
    { split; [apply NoDup_keys_aset; exact PaN|]. intros j rsj Hl. unfold resp' in Hl. rewrite alookup_aset in Hl.
      destruct (j =? i) eqn:E; [|apply (PaR j rsj Hl)]. apply Nat.eqb_eq in E. subst j. inversion Hl; subst rsj.
      split; [apply (NoDup_fold_asetf rs old); apply OldOk|]. intros t Ht. apply keys_fold_asetf in Ht. destruct Ht as [Ht|Ht]; [apply Rr; exact Ht|apply OldOk; exact Ht]. }
    (* what is stored after the merge *)
    assert (Stored: forall t, (exists r, alookup t rs = Some (Some r)) \/ b_pend e a t ->
              (exists j rsj r, wrouted e t j /\ alookup j resp' = Some rsj /\ alookup t rsj = Some (Some r)) \/ alookup t rs = Some None).
    { intros t [(r&Hr)|(pa0&j&rs0&r&Hp0&Hw&Hl0&Hr0)].
      - left. exists i, rsi, r. split; [apply Rr; apply alookup_in_keys; rewrite Hr; discriminate|]. split; [apply alookup_aset_eq|]. rewrite F3, Hr. reflexivity.
      - rewrite Epa in Hp0. inversion Hp0; subst pa0. destruct (Nat.eq_dec j i) as [->|Hne].
        + assert (Eo: old = rs0) by (unfold old; rewrite Hl0; reflexivity).
          destruct (alookup t rs) as [[r'|]|] eqn:Er; [left|right; reflexivity|left].
          * exists i, rsi, r'. split; [exact Hw|]. split; [apply alookup_aset_eq|]. rewrite F3, Er. reflexivity.
          * exists i, rsi, r. split; [exact Hw|]. split; [apply alookup_aset_eq|]. rewrite F3, Er, Eo. exact Hr0.
        + left. exists j, rs0, r. split; [exact Hw|]. split; [|exact Hr0]. unfold resp'. rewrite alookup_aset_neq by exact Hne. exact Hl0. }
    (* both continuations keep the router and the other pending_awaits entries; they differ in where
       a stored result ends up *)
    assert (Fin: forall P e2 ns2, ext P nsm ns2 -> e_router e2 = e_router e ->
              (forall q, q <> a -> alookup q (e_pending e2) = alookup q (e_pending e)) ->
              (forall t j rsj r, wrouted e t j -> alookup j resp' = Some rsj -> alookup t rsj = Some (Some r) -> backed e2 ns2 a t) ->
              forall q t, backed e ns q t -> backed e2 ns2 q t).
    { intros P e2 ns2 Hx Er Hpe St q t B.
      apply (Other P e2 ns2 q t Hx (env_le_router e e2 Er) (Hpe q)); [| |exact B].
      - intros r Hr. destruct (Stored t (or_introl (ex_intro _ r Hr))) as [(j&rsj&r'&S1&S2&S3)|C]; [apply (St t j rsj r' S1 S2 S3)|rewrite Hr in C; discriminate].
      - intros Bp. destruct (Stored t (or_intror Bp)) as [(j&rsj&r'&S1&S2&S3)|C]; [apply (St t j rsj r' S1 S2 S3)|apply (Renew _ _ _ t Hx C)]. }
    destruct (sremove i (pa_expected pa)) as [|x xs] eqn:Ex.
    + (* the last answer: UpdateAwaitResults *)
      destruct (alookup a (e_router e)) as [aw|] eqn:Eaw; [|discriminate]. inversion H; subst e' ns'; clear H.
      set (e2 := {| e_router := e_router e; e_next := e_next e; e_pending := aremove a (e_pending e) |}) in *.
      assert (Hx: ext (qP e2) nsm
                      (push_cmd aw (CUpdate a (merge_resp resp')) nsm)) by (apply ext_push; exact I).
      assert (Law: aw < length nsm) by (rewrite Lm; apply (RB a aw Eaw)).
      apply (AInv_env_generic ns e clk nsm _ _ HA W' Lm Hm Hx).
      * apply env_le_router; reflexivity.
      * exact RB.
      * intros p pa0 Hp. unfold e2 in Hp. simpl in Hp. rewrite alookup_aremove in Hp. destruct (p =? a); [discriminate|]. apply (PR p pa0 Hp).
      * intros q t _. apply (Fin _ e2 _ Hx eq_refl).
        -- intros q0 Hne. unfold e2. simpl. rewrite alookup_aremove. destruct (q0 =? a) eqn:E; [apply Nat.eqb_eq in E; contradiction|reflexivity].
        -- intros t0 j rsj r Hw Hlj Hrj. destruct (push_in aw (CUpdate a (merge_resp resp')) nsm Law) as (nd2&N2&Hc2).
           left. exists aw, nd2. split; [exact N2|]. right; right; right; right. exists (merge_resp resp'), r. split; [exact Eaw|]. split; [exact Hc2|].
           apply alookup_in. rewrite merge_resp_eq. apply (merge_lookup e t0 j resp' [] rsj (Some r) RespOk Hw); [|exact Hrj].
           apply alookup_in. exact Hlj.
    + (* more answers expected: the entry is updated *)
      inversion H; subst e' ns'; clear H.
      set (e2 := {| e_router := e_router e; e_next := e_next e;
                    e_pending := aset a {| pa_expected := x :: xs; pa_resp := resp' |} (e_pending e) |}) in *.
      assert (Hx: ext (qP e2) nsm nsm) by apply ext_refl.
      apply (AInv_env_generic ns e clk nsm _ _ HA W' Lm Hm Hx).
      * apply env_le_router; reflexivity.
      * exact RB.
      * intros p pa0 Hp. unfold e2 in Hp. simpl in Hp. rewrite alookup_aset in Hp. destruct (p =? a); [inversion Hp; subst pa0; exact RespOk|apply (PR p pa0 Hp)].
      * intros q t _. apply (Fin _ e2 _ Hx eq_refl).
        -- intros q0 Hne. apply alookup_aset_neq, Hne.
        -- intros t0 j rsj r Hw Hlj Hrj. right.
           exists {| pa_expected := x :: xs; pa_resp := resp' |}, j, rsj, r. split; [unfold e2; simpl; apply alookup_aset_eq|]. auto.
  - (* no entry: forwarded as it is *)
    destruct (alookup a (e_router e)) as [aw|] eqn:Eaw; [|discriminate]. inversion H; subst e' ns'; clear H.
    assert (Hx: ext (qP e) nsm (push_cmd aw (CUpdate a rs) nsm)) by (apply ext_push; exact I).
    assert (Law: aw < length nsm) by (rewrite Lm; apply (RB a aw Eaw)).
    apply (AInv_env_generic ns e clk nsm _ _ HA W' Lm Hm Hx).
    + apply env_le_router; reflexivity.
    + exact RB.
    + exact PR.
    + intros q t _ B. apply (Other _ e _ q t Hx (env_le_refl e)); [reflexivity| | |exact B].
      * intros r Hr. destruct (push_in aw (CUpdate a rs) nsm Law) as (nd2&N2&Hc2).
        left. exists aw, nd2. split; [exact N2|]. right; right; right; right. exists rs, r. split; [exact Eaw|]. split; [exact Hc2|apply alookup_in; exact Hr].
      * intros (pa0&j&rs0&r&Hp0&_). rewrite Epa in Hp0. discriminate.
Qed.

Lemma AInv_await ns e clk i nd a ts rest e' ns' :
  AInv (mk_sys ns e clk) -> nth_error ns i = Some nd -> n_evt nd = EAwaitA a ts :: rest ->
  handle_event (length ns) (EAwaitA a ts) (e, set_node i (mk_node (n_w nd) (n_cmd nd) rest) ns) = Good (e', ns') ->
  WF (mk_sys ns' e' clk) -> AInv (mk_sys ns' e' clk).
Proof.
  intros HA Hi He H W'.
  pose proof HA as (W&RB&PR&NI&IO). simpl in RB, PR, NI, IO.
  destruct (NI i nd Hi) as (Q&A&EV&EH&J&NB).
  set (nsm := set_node i (mk_node (n_w nd) (n_cmd nd) rest) ns) in *.
  destruct (pop_tail ns i nd _ rest Hi He) as (Lm&Hm). fold nsm in Lm, Hm.
  assert (Him: nth_error nsm i = Some (mk_node (n_w nd) (n_cmd nd) rest)) by apply (nth_set_node_same _ _ _ _ Hi).
  unfold handle_event in H. cbn -[nodup] in H.
  destruct (forallb (fun t => match alookup t (e_router e) with Some _ => true | None => false end) ts) eqn:Ef; [|discriminate].
  inversion H; subst e' ns'; clear H.
  set (wof := fun t => match alookup t (e_router e) with Some w => w | None => 0 end) in *.
  set (ws := nodup Nat.eq_dec (map wof ts)) in *.
  set (e2 := {| e_router := e_router e; e_next := e_next e; e_pending := aset a {| pa_expected := ws; pa_resp := [] |} (e_pending e) |}) in *.
  set (mkq := fun w => CQuery a (filter (fun t => wof t =? w) ts)) in *.
  assert (Rt: forall t, In t ts -> wrouted e t (wof t)).
  { intros t Ht. rewrite forallb_forall in Ef. specialize (Ef t Ht). unfold wrouted, wof. destruct (alookup t (e_router e)); [reflexivity|discriminate]. }
  assert (Hx: ext (qP e2) nsm (fold_left (fun ns0 w => push_cmd w (mkq w) ns0) ws nsm)).
  { apply (ext_fold_push (qP e2) mkq (fun w => w)). intros w Hw. unfold mkq. simpl.
    apply nodup_In, in_map_iff in Hw. destruct Hw as (t&Et&Ht). split.
    - intros C. assert (Hin: In t (filter (fun t0 => wof t0 =? w) ts)) by (apply filter_In; split; [exact Ht|apply Nat.eqb_eq; exact Et]).
      rewrite C in Hin. destruct Hin.
    - intros t0 Ht0. apply filter_In in Ht0. destruct Ht0 as (Ht0&E0). apply Nat.eqb_eq in E0. subst w. rewrite <- E0. apply (Rt t0 Ht0). }
  apply (AInv_env_generic ns e clk nsm _ _ HA W' Lm Hm Hx).
  - apply env_le_router; reflexivity.
  - exact RB.
  - intros p pa0 Hp. unfold e2 in Hp. simpl in Hp. rewrite alookup_aset in Hp. destruct (p =? a); [|apply (PR p pa0 Hp)].
    inversion Hp; subst pa0. simpl. split; [constructor|]. intros j rs C. discriminate.
  - intros q t (j&ndj&pr&Hj&Hl&Ht) B.
    destruct (Nat.eq_dec q a) as [->|Hne].
    + (* the awaiter itself: every key is among the targets of its last queued AwaitAction *)
      assert (Hha: has a (n_w nd)) by (apply (EH a ts); rewrite He; left; reflexivity).
      assert (Eji: j = i).
      { destruct W as (_&WN). simpl in WN. destruct (WN i nd Hi) as (_&Hr1&_). destruct (WN j ndj Hj) as (_&Hr2&_).
        assert (Hh2: has a (n_w ndj)) by (unfold has; rewrite Hl; discriminate).
        specialize (Hr2 a Hh2). rewrite (Hr1 a Hha) in Hr2. inversion Hr2. reflexivity. }
      subst j. rewrite Hi in Hj. inversion Hj; subst ndj.
      assert (Hk: alookup t (p_awaiting pr) <> None) by (rewrite Ht; discriminate).
      destruct (last_await a rest) as [ts'|] eqn:El.
      * assert (Hla: last_await a (n_evt nd) = Some ts') by (rewrite He; simpl; rewrite El; reflexivity).
        pose proof (J a pr ts' Hl Hla t Hk) as Hin.
        destruct (ext_node _ _ _ _ _ Hx Him) as (nd2&N2&_&Ee2&_). simpl in Ee2.
        left. exists i, nd2. split; [exact N2|]. left. exists ts'. split; [rewrite Ee2; apply last_await_in; exact El|exact Hin].
      * assert (Hla: last_await a (n_evt nd) = Some ts) by (rewrite He; simpl; rewrite El, Nat.eqb_refl; reflexivity).
        pose proof (J a pr ts Hl Hla t Hk) as Hin.
        assert (Hw: In (wof t) ws) by (apply nodup_In, in_map; exact Hin).
        assert (Lw: wof t < length nsm) by (rewrite Lm; apply (RB t (wof t)); apply Rt; exact Hin).
        destruct (fold_push_in mkq (fun w => w) ws nsm (wof t) Hw Lw) as (nd2&N2&Hc2).
        left. exists (wof t), nd2. split; [exact N2|]. right; left. exists (filter (fun t0 => wof t0 =? wof t) ts). split; [exact Hc2|].
        apply filter_In. split; [exact Hin|apply Nat.eqb_refl].
    + destruct (backed_pop e ns i nd _ rest q t Hi He B) as [Bm|[(ts0&C&_)|(rs0&r&C&_)]]; [|inversion C; subst; contradiction|discriminate].
      apply (backed_mono _ e e2 nsm _ q t Hx (env_le_router e e2 eq_refl)); [|exact Bm].
      intros Bp. right. apply (b_pend_same e e2 q t (env_le_router e e2 eq_refl)); [|exact Bp].
      unfold e2. simpl. apply alookup_aset_neq. exact Hne.
Qed.

(* ------------------------------------------------------------------ steps that keep pending_awaits *)
Lemma resp_ok_mono e e' resp : env_le e e' -> resp_ok e resp -> resp_ok e' resp.
Proof.
  intros Le (N&R). split; [exact N|]. intros j rs Hl. destruct (R j rs Hl) as (R1&R2). split; [exact R1|]. intros t Ht. apply Le, R2, Ht.
Qed.

Lemma AInv_simple ns e clk nsm e' ns' :
  AInv (mk_sys ns e clk) -> WF (mk_sys ns' e' clk) ->
  length nsm = length ns ->
  (forall j ndm, nth_error nsm j = Some ndm -> exists nd, nth_error ns j = Some nd /\ tail_of nd ndm) ->
  ext (qP e') nsm ns' -> env_le e e' -> e_pending e' = e_pending e -> rb_ok e' ns ->
  (forall q t, backed e ns q t -> backed e nsm q t) ->
  AInv (mk_sys ns' e' clk).
Proof.
  intros HA W' Lm Hm Hx Le Ep RB' Hpop.
  pose proof HA as (W&RB&PR&NI&IO). simpl in RB, PR, NI, IO.
  apply (AInv_env_generic ns e clk nsm _ _ HA W' Lm Hm Hx Le RB').
  - intros p pa Hp. rewrite Ep in Hp. eapply resp_ok_mono; [exact Le|apply (PR p pa Hp)].
  - intros q t _ B. apply (backed_mono _ e e' nsm ns' q t Hx Le); [|apply Hpop; exact B].
    intros Bp. right. apply (b_pend_same e e' q t Le); [rewrite Ep; reflexivity|exact Bp].
Qed.

Lemma env_le_alloc e w : (forall p x, alookup p (e_router e) = Some x -> p < e_next e) ->
  env_le e {| e_router := aset (e_next e) w (e_router e); e_next := S (e_next e); e_pending := e_pending e |}.
Proof.
  intros B t j H. unfold wrouted in *. simpl. rewrite alookup_aset. destruct (t =? e_next e) eqn:E; [|exact H].
  apply Nat.eqb_eq in E. subst t. apply B in H. lia.
Qed.
Lemma rb_alloc e ns : 0 < length ns -> rb_ok e ns ->
  rb_ok {| e_router := aset (e_next e) (e_next e mod length ns) (e_router e); e_next := S (e_next e); e_pending := e_pending e |} ns.
Proof.
  intros Lp RB t j H. unfold wrouted in H. simpl in H. rewrite alookup_aset in H.
  destruct (t =? e_next e); [inversion H; subst j; apply Nat.mod_upper_bound; lia|apply (RB t j H)].
Qed.

Lemma tail_same ns : forall j ndm, nth_error ns j = Some ndm -> exists nd, nth_error ns j = Some nd /\ tail_of nd ndm.
Proof. intros j ndm H. exists ndm. split; [exact H|]. split; [reflexivity|]. split; [reflexivity|left; reflexivity]. Qed.

Lemma AInv_evt ns e clk i nd ev rest e' ns' :
  AInv (mk_sys ns e clk) -> nth_error ns i = Some nd -> n_evt nd = ev :: rest ->
  handle_event (length ns) ev (e, set_node i (mk_node (n_w nd) (n_cmd nd) rest) ns) = Good (e', ns') ->
  AInv (mk_sys ns' e' clk).
Proof.
  intros HA Hi He H.
  assert (W': WF (mk_sys ns' e' clk)).
  { destruct HA as (W&_). eapply WF_mstep; [exact W|]. eapply ms_evt; eassumption. }
  pose proof HA as (W&RB&PR&NI&IO). simpl in RB, PR, NI, IO.
  set (nsm := set_node i (mk_node (n_w nd) (n_cmd nd) rest) ns) in *.
  destruct (pop_tail ns i nd ev rest Hi He) as (Lm&Hm). fold nsm in Lm, Hm.
  assert (Lp: 0 < length ns).
  { assert (Hlt: i < length ns) by (apply nth_error_Some; rewrite Hi; discriminate). lia. }
  assert (Pop: (forall a ts, ev <> EAwaitA a ts) -> (forall a rs, ev <> EResults a rs) -> forall q t, backed e ns q t -> backed e nsm q t).
  { intros N1 N2 q t B. destruct (backed_pop e ns i nd ev rest q t Hi He B) as [Bm|[(ts0&C&_)|(rs0&r&C&_)]]; [exact Bm|exfalso; apply (N1 _ _ C)|exfalso; apply (N2 _ _ C)]. }
  destruct ev.
  - (* SpawnAction *)
    destruct (handle_event_shape _ _ _ _ _ _ H) as (l&Hl&->&cw&->). specialize (Hl nsm). rewrite H in Hl. inversion Hl; subst ns'. simpl.
    eapply (AInv_simple ns e clk nsm); [exact HA|exact W'|exact Lm|exact Hm| | |reflexivity| |apply Pop; intros; discriminate].
    + apply (ext_trans _ _ (push_cmd (e_next e mod length ns) (CSpawn (e_next e)) nsm)); apply ext_push; exact I.
    + apply env_le_alloc. destruct W as (B&_). exact B.
    + apply (rb_alloc e ns Lp RB).
  - (* DeliverAction *)
    unfold handle_event in H. destruct (alookup target (e_router e)) as [w|]; [|discriminate]. inversion H; subst e' ns'; clear H.
    eapply (AInv_simple ns e clk nsm); [exact HA|exact W'|exact Lm|exact Hm| | |reflexivity| |apply Pop; intros; discriminate].
    + apply ext_push; exact I.
    + apply env_le_refl.
    + exact RB.
  - eapply AInv_await; eassumption.
  - eapply AInv_results; eassumption.
  - unfold handle_event in H. inversion H; subst e' ns'; clear H.
    eapply (AInv_simple ns e clk nsm); [exact HA|exact W'|exact Lm|exact Hm|apply ext_refl|apply env_le_refl|reflexivity|exact RB|apply Pop; intros; discriminate].
  - unfold handle_event in H. inversion H; subst e' ns'; clear H.
    eapply (AInv_simple ns e clk nsm); [exact HA|exact W'|exact Lm|exact Hm|apply ext_refl|apply env_le_refl|reflexivity|exact RB|apply Pop; intros; discriminate].
Qed.

(* ------------------------------------------------------------------ client calls, time; all micro-steps *)
Lemma AInv_client s c s' : 0 < length (s_nodes s) -> AInv s -> client_step c s = Good s' -> AInv s'.
Proof.
  intros Lp HA H. destruct s as [ns e clk]. simpl in Lp.
  assert (W': WF s') by (destruct HA as (W&_); apply (WF_step _ (X c) s' W); exact H).
  pose proof HA as (W&RB&PR&NI&IO). simpl in RB, PR, NI, IO.
  destruct (client_step_shape _ _ _ H) as [->|(w&c0&e'&Hc0&->&He')]; [exact HA|]. simpl in *.
  assert (Hx: forall e2, ext (qP e2) ns (push_cmd w c0 ns)) by (intros e2; apply ext_push; destruct c0; try exact I; contradiction).
  destruct He' as [->| ->].
  - eapply (AInv_simple ns e clk ns); [exact HA|exact W'|reflexivity|apply tail_same|apply Hx|apply env_le_refl|reflexivity|exact RB|auto].
  - eapply (AInv_simple ns e clk ns); [exact HA|exact W'|reflexivity|apply tail_same|apply Hx| |reflexivity|apply (rb_alloc e ns Lp RB)|auto].
    apply env_le_alloc. destruct W as (B&_). exact B.
Qed.

Lemma mstep_length s l s' : mstep s l s' -> length (s_nodes s') = length (s_nodes s).
Proof.
  intros M.
  destruct M as [ns e clk i nd c rest w' evs Hn Hc Hh
                |ns e clk i nd o w' evs Hn Hx
                |ns e clk i nd hint w' evs Hn Hk
                |ns e clk i nd ev rest e' ns' Hn Hq He
                |ns e clk d
                |s c s' Hc]; simpl; try apply set_node_length; try reflexivity.
  - apply handle_event_nw in He. rewrite <- (map_length n_w ns'), He, map_length. apply set_node_length.
  - destruct (client_step_shape _ _ _ Hc) as [->|(w&c0&e'&_&->&_)]; [reflexivity|apply push_cmd_length].
Qed.

Definition AI (s : sys) : Prop := 0 < length (s_nodes s) /\ AInv s.

Theorem AI_mstep s l s' : AI s -> mstep s l s' -> hon_label await_honest s l -> AI s'.
Proof.
  intros (Lp&HA) M Hon. split; [rewrite (mstep_length _ _ _ M); exact Lp|].
  destruct M as [ns e clk i nd c rest w' evs Hn Hc Hh
                |ns e clk i nd o w' evs Hn Hx
                |ns e clk i nd hint w' evs Hn Hk
                |ns e clk i nd ev rest e' ns' Hn Hq He
                |ns e clk d
                |s c s' Hc].
  - eapply AInv_cmd; eassumption.
  - eapply AInv_exec; [exact HA|exact Hn|exact Hx|]. apply (Hon nd Hn).
  - eapply AInv_chk; eassumption.
  - eapply AInv_evt; eassumption.
  - exact HA.
  - eapply AInv_client; eassumption.
Qed.

Lemma AI_init nw : 0 < nw -> AI (init nw).
Proof.
  intros Hnw. split; [simpl; rewrite repeat_length; exact Hnw|].
  split; [apply WF_init|]. simpl. split; [intros t j H; discriminate|]. split; [intros p pa H; discriminate|]. split.
  - intros j nd Hn. apply nth_error_In, repeat_spec in Hn. subst nd.
    split; [intros a ts []|]. split; [intros t l H; discriminate|]. split; [intros a rs []|]. split; [intros a ts []|].
    split; [intros p pr ts H; discriminate|exact I].
  - intros i nd p pr t Hn Hl. apply nth_error_In, repeat_spec in Hn. subst nd. discriminate.
Qed.

Definition await_honest_run (s : sys) (sigma : list sched_action) : Prop := hon_run await_honest s sigma.

Theorem await_invariant : forall nw sigma s,
  0 < nw -> await_honest_run (init nw) sigma -> run (init nw) sigma = Good s -> AI s.
Proof.
  intros nw sigma s Hnw Hh H. eapply (micro_invariant AI await_honest AI_mstep); [apply AI_init; exact Hnw|exact Hh|exact H].
Qed.
