(* ProtoSleep.v — a sleeping process (finished Ok, persistent, awaiting nothing) stays exactly so
   under every worker operation of M-Sys (sys/Proto.v) except its own ResumeProcess: the frame
   lemmas behind "an honest resume_process never fails" (ProtoNoErr.v). *)
From Quiver Require Import sys.Proto sys.ProtoMsg sys.ProtoFail sys.ProtoDeliver sys.ProtoWf sys.ProtoOps sys.ProtoErrs.

Definition sleeping (q : pid) (w : worker) : Prop :=
  exists pr v, alookup q (w_procs w) = Some pr /\ p_res pr = Some (ROk v) /\ p_pers pr = true /\ forall t, alookup t (p_awaiting pr) = None.

Lemma sleeping_same q w w' : w_procs w' = w_procs w -> sleeping q w -> sleeping q w'.
Proof. intros E (pr&v&H). exists pr, v. rewrite E. exact H. Qed.

Lemma sleeping_upd_other q a f w : a <> q -> sleeping q w -> sleeping q (upd_proc a f w).
Proof. intros Hne (pr&v&Hl&H). exists pr, v. rewrite upd_proc_other by (intros E; apply Hne; symmetry; exact E). split; assumption. Qed.

Lemma sleeping_upd_frame q a f w :
  (forall pr, p_res (f pr) = p_res pr /\ p_pers (f pr) = p_pers pr /\ p_awaiting (f pr) = p_awaiting pr) ->
  sleeping q w -> sleeping q (upd_proc a f w).
Proof.
  intros Hf S. destruct (Nat.eq_dec a q) as [->|Hne]; [|apply sleeping_upd_other; assumption].
  destruct S as (pr&v&Hl&H1&H2&H3). exists (f pr), v. destruct (Hf pr) as (F1&F2&F3).
  split; [apply upd_proc_same; exact Hl|]. rewrite F1, F2, F3. auto.
Qed.

Lemma sleeping_wake q p w : sleeping q w -> sleeping q (wake_selecting p w).
Proof. apply sleeping_same. apply procs_wake. Qed.

Lemma sleeping_upd_awaiter q a b f w : awaits a b w = true -> sleeping q w -> sleeping q (upd_proc a f w).
Proof.
  intros Ea S. apply sleeping_upd_other; [|exact S]. intros ->.
  destruct S as (pr&v&Hl&_&_&Hk). unfold awaits in Ea. rewrite Hl, (Hk b) in Ea. discriminate.
Qed.

Lemma sleeping_notify_result q a b r w : sleeping q w -> sleeping q (notify_result a b r w).
Proof.
  intros S. unfold notify_result. destruct (awaits a b w) eqn:Ea; apply sleeping_wake; [|exact S].
  exact (sleeping_upd_awaiter q a b _ w Ea S).
Qed.
Lemma sleeping_worker_notify q a b r w : sleeping q w -> sleeping q (worker_notify a b r w).
Proof.
  intros S. unfold worker_notify. destruct r as [v|e]; [apply sleeping_notify_result; exact S|].
  destruct (awaits a b w) eqn:Ea; [exact (sleeping_upd_awaiter q a b _ w Ea S)|apply sleeping_wake; exact S].
Qed.
Lemma sleeping_update_await q a rs w : sleeping q w -> sleeping q (update_await a rs w).
Proof.
  intros S. unfold update_await.
  assert (F: sleeping q (fold_left (fun w e => match snd e with Some r => worker_notify a (fst e) r w | None => w end) rs w)).
  { apply fold_left_inv; [|exact S]. intros w0 x _ S0. destruct (snd x); [apply sleeping_worker_notify; exact S0|exact S0]. }
  destruct (existsb _ rs); [exact F|apply sleeping_wake, F].
Qed.


(* the completion path of another process: the local awaiters all have a key, a sleeping process has none *)
Lemma sleeping_finish q p r h hint w w' :
  NoDup (map fst (w_procs w)) -> p <> q -> finish p r h hint w = Good w' -> sleeping q w -> sleeping q w'.
Proof.
  intros ND Hne. unfold finish. set (w1 := upd_proc p (with_res (Some r)) w).
  destruct (order_by hint (local_awaiters p w1)) as [o|] eqn:Eo; [|discriminate]. intros H S; inversion H; subst; clear H.
  assert (S1: sleeping q w1) by (apply sleeping_upd_other; assumption).
  assert (Hq: ~ In q o).
  { intros Hin. apply (order_by_sub _ _ _ Eo), mem_in in Hin. unfold local_awaiters in Hin. apply in_map_iff in Hin.
    destruct Hin as ([q0 pr0]&Eq&Hf). simpl in Eq. subst q0. apply filter_In in Hf. destruct Hf as (Hin&Hc). simpl in Hc.
    apply in_alookup in Hin; [|unfold w1; rewrite (proj1 (calm_upd_proc _ _ _)); exact ND].
    destruct S1 as (pr&v&Hl&_&_&Hk). rewrite Hl in Hin. inversion Hin; subst pr0. rewrite (Hk p) in Hc. discriminate. }
  apply fold_left_inv; [|exact S1]. intros w0 x Hx S0.
  unfold notify_local. destruct r as [v|e]; [destruct h; [exact S0|apply sleeping_notify_result; exact S0]|].
  apply sleeping_upd_other; [|exact S0]. intros ->. exact (Hq Hx).
Qed.

Lemma sleeping_run_slice q i p pr d hint w w' ev :
  NoDup (map fst (w_procs w)) -> alookup p (w_procs w) = Some pr -> p <> q ->
  run_slice i p pr d hint w = Good (w', ev) -> sleeping q w -> sleeping q w'.
Proof.
  intros ND Hl Hne R S. destruct (run_slice_shape _ _ _ _ _ _ _ _ R) as (taken&mail'&w2&_&Ha&Hf).
  set (wa := set_procs w (aset p (slice_pr1 pr d taken mail') (w_procs w))) in *.
  assert (Sa: sleeping q wa).
  { destruct S as (prq&v&Hq&H). exists prq, v. split; [|exact H]. simpl. rewrite alookup_aset_neq by (intros E; apply Hne; symmetry; exact E). exact Hq. }
  assert (NDa: NoDup (map fst (w_procs wa))) by (simpl; rewrite (keys_aset_same _ _ _ _ Hl); exact ND).
  (* the action leaves q alone and the process ids as they are; so does parking *)
  assert (S2: sleeping q w2 /\ NoDup (map fst (w_procs w2))).
  { inversion Ha; subst; try (split; [exact Sa|exact NDa]).
    split; [exact (sleeping_upd_other q p _ wa Hne Sa)|]. simpl. rewrite (proj1 (calm_upd_proc _ _ _)). exact NDa. }
  destruct (d_fin d) as [r|].
  - eapply sleeping_finish; [|exact Hne|exact Hf|]; destruct (d_park d); apply S2.
  - destruct Hf as [->| ->]; destruct (d_park d); apply S2.
Qed.

Lemma sleeping_exec_step q i now o w w' ev : SW w -> exec_step i now o w = Good (w', ev) -> sleeping q w -> sleeping q w'.
Proof.
  intros HS H S. destruct (exec_step_shape _ _ _ _ _ _ H) as (w1&E&C).
  pose proof (SW_expire _ _ _ _ E HS) as HS1. destruct (expire_same _ _ _ _ E) as (Ep&_).
  assert (S1: sleeping q w1) by (eapply sleeping_same; [exact Ep|exact S]).
  destruct C as [(_&->&_)|(p&q'&Eq&[(_&->&_)|(pr&Hl&C)])]; [exact S1|exact S1|].
  (* the process at the head of the run queue has no Ok result, the sleeping one has *)
  assert (Hne: p <> q).
  { intros ->. destruct S1 as (prq&v&Hq&Hr&_). refine (sw_res _ HS1 q (or_introl _) prq v Hq Hr). rewrite Eq. left; reflexivity. }
  pose proof (sw_keys _ HS1) as ND1.
  destruct C as [(_&R)|(e&_&F&_)].
  - eapply sleeping_run_slice; [| |exact Hne|exact R|]; assumption.
  - eapply sleeping_finish; [|exact Hne|exact F|]; assumption.
Qed.

Lemma sleeping_check_completed q hint w w' ev : check_completed hint w = Good (w', ev) -> sleeping q w -> sleeping q w'.
Proof. intros H. apply sleeping_same. apply (check_completed_spec _ _ _ _ H). Qed.


Lemma sleeping_handle_cmd q c w w' ev :
  (forall p, spawns c = Some p -> ~ has p w) -> c <> CResume q ->
  handle_cmd c w = Good (w', ev) -> sleeping q w -> sleeping q w'.
Proof.
  intros Hf Hc H S.
  assert (New: forall p pr0, spawns c = Some p -> sleeping q (set_procs w (aset p pr0 (w_procs w)))).
  { intros p pr0 Hp. destruct S as (prq&v&Hq&Hr). exists prq, v. split; [|exact Hr]. simpl. rewrite alookup_aset_neq; [exact Hq|].
    intros ->. apply (Hf p Hp). unfold has. rewrite Hq. discriminate. }
  (* `sleeping` reads the process table only: where the command changes nothing else of the worker, S is used as it is *)
  destruct c as [|req|p sl|p|p|awaiter targets|awaiter results|target m|p spawned|req p]; simpl in H.
  - inversion H; subst; exact S.
  - inversion H; subst; exact S.
  - destruct sl; inversion H; subst; exact (New p _ eq_refl).
  - inversion H; subst. exact (New p _ eq_refl).
  - destruct (alookup p (w_procs w)) as [pr|]; [|discriminate].
    destruct (p_res pr) as [[v|e]|]; try discriminate. destruct (p_pers pr); [|discriminate]. inversion H; subst.
    refine (sleeping_upd_other q p (with_res None) w _ S). intros ->. apply Hc. reflexivity.
  - destruct (fold_left (query_one awaiter) targets (w, [])) as [w1 rs] eqn:E. inversion H; subst.
    refine (sleeping_same q w _ _ S). rewrite <- (proj1 (query_fold_book awaiter targets w [])), E. reflexivity.
  - inversion H; subst. apply sleeping_update_await. exact S.
  - destruct (alookup target (w_procs w)); inversion H; subst; apply sleeping_wake; [|exact S].
    apply sleeping_upd_frame; [intros pr; repeat split|exact S].
  - destruct (mem p (w_spawning w)); inversion H; subst; exact S.
  - destruct (alookup p (w_procs w)) as [pr|]; [|discriminate]. destruct (p_res pr); inversion H; subst; exact S.
Qed.

Lemma start_sleeping p w w' ev : handle_cmd (CStart p true) w = Good (w', ev) -> sleeping p w'.
Proof.
  simpl. intros H; inversion H; subst. exists (new_proc true (Some (ROk 0))), 0. simpl. rewrite alookup_aset_eq. repeat split.
Qed.
