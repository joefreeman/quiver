(* ProtoErrs.v — C15 step_errs_only on M-Sys (sys/Proto.v), for every state, action and oracle: which
   steps of the model can return Err at all, and why.
     Worker.step      Err  only  from a ResumeProcess / GetResult command (client calls) among the
                                 commands it handles; every other Fault of the model's worker step is
                                 BadOracle (the oracle does not describe a possible slice)
     Environment.step Err  only  when a collected event names a process id that is not routed
     client calls / time          never. *)
From Quiver Require Import sys.Proto sys.ProtoMsg sys.ProtoFail.

Definition client_cmd (c : cmd) : bool := match c with CResume _ | CGetResult _ _ => true | _ => false end.
Definition is_oracle_fault (f : fault) : Prop := exists n, f = BadOracle n.
Definition is_worker_err (f : fault) : Prop := exists n, f = WorkerErr n.

Lemma fold_left_inv {A B} (P : A -> Prop) (f : A -> B -> A) : forall l a,
  (forall a b, In b l -> P a -> P (f a b)) -> P a -> P (fold_left f l a).
Proof.
  induction l as [|b l IH]; intros a Hf Ha; simpl; [exact Ha|].
  apply IH; [intros a0 b0 Hb; apply Hf; right; exact Hb|apply Hf; [left; reflexivity|exact Ha]].
Qed.

Lemma rbind_fault {A B} (r : result A) (k : A -> result B) f :
  rbind r k = Fault f -> r = Fault f \/ exists a, r = Good a /\ k a = Fault f.
Proof. destruct r as [a|f0]; simpl; intros H; [right; exists a; split; [reflexivity|exact H]|left; inversion H; reflexivity]. Qed.

Lemma handle_cmd_fault c w f : handle_cmd c w = Fault f -> is_worker_err f /\ client_cmd c = true.
Proof.
  intros H. destruct (handle_cmd_errs_only_on_client_commands c w f H) as [(p&->)|(r&p&->)]; (split; [|reflexivity]); simpl in H;
    (destruct (alookup p (w_procs w)) as [pr|]; [|inversion H; eexists; reflexivity]).
  - destruct (p_res pr) as [[v|e]|]; [destruct (p_pers pr)| |]; inversion H; eexists; reflexivity.
  - destruct (p_res pr); discriminate.
Qed.

Lemma handle_cmds_fault : forall cs w f, handle_cmds cs w = Fault f -> is_worker_err f /\ existsb client_cmd cs = true.
Proof.
  induction cs as [|c cs IH]; intros w f H; simpl in H; [discriminate|].
  apply rbind_fault in H. destruct H as [H|([w1 e1]&_&H)].
  - destruct (handle_cmd_fault _ _ _ H) as (A&B). split; [exact A|]. simpl. rewrite B. reflexivity.
  - apply rbind_fault in H. destruct H as [H|([w2 e2]&_&H)]; [|discriminate].
    destruct (IH _ _ H) as (A&B). split; [exact A|]. simpl. rewrite B. apply orb_true_r.
Qed.

Lemma finish_fault p r h hint w f : finish p r h hint w = Fault f -> is_oracle_fault f.
Proof. unfold finish. destruct (order_by hint _); [discriminate|]. intros H; inversion H. eexists; reflexivity. Qed.

Lemma run_slice_fault i p pr d hint w f : run_slice i p pr d hint w = Fault f -> is_oracle_fault f.
Proof.
  unfold run_slice. destruct (negb (did_ok d)); [intros H; inversion H; eexists; reflexivity|].
  destruct (take_seq (d_taken d) (p_mail pr)) as [[taken mail']|]; [|intros H; inversion H; eexists; reflexivity].
  match goal with |- context [let '(a, b) := ?X in _] => destruct X as [w2 ev] end.
  destruct (d_fin d); [|destruct (_ || _); discriminate].
  intros H. apply rbind_fault in H. destruct H as [H|(w4&_&H)]; [exact (finish_fault _ _ _ _ _ _ H)|discriminate].
Qed.

Lemma exec_step_fault i now o w f : exec_step i now o w = Fault f -> is_oracle_fault f.
Proof.
  unfold exec_step. intros H. apply rbind_fault in H. destruct H as [H|(w1&_&H)].
  - unfold expire in H. destruct (order_by _ _); [discriminate|]. inversion H. eexists; reflexivity.
  - destruct (w_queue w1) as [|p q']; [discriminate|].
    destruct (alookup p _) as [pr|]; [|discriminate].
    destruct (match o_pid o with Some p' => p =? p' | None => false end); [exact (run_slice_fault _ _ _ _ _ _ _ H)|].
    destruct (p_res pr) as [[v|e]|]; try (inversion H; eexists; reflexivity).
    apply rbind_fault in H. destruct H as [H|(w3&_&H)]; [exact (finish_fault _ _ _ _ _ _ H)|discriminate].
Qed.

Lemma check_completed_fault hint w f : check_completed hint w = Fault f -> is_oracle_fault f.
Proof. unfold check_completed. destruct (order_by hint _); [discriminate|]. intros H; inversion H. eexists; reflexivity. Qed.

Theorem worker_step_errs_only_on_client_commands : forall i now k o nd f,
  node_step i now k o nd = Fault f ->
  is_oracle_fault f \/ (is_worker_err f /\ existsb client_cmd (fst (split_at k (n_cmd nd))) = true).
Proof.
  intros i now k o nd f H. unfold node_step in H. destruct (split_at k (n_cmd nd)) as [pre later]. simpl.
  apply rbind_fault in H. destruct H as [H|([w1 e1]&_&H)]; [right; exact (handle_cmds_fault _ _ _ H)|left].
  apply rbind_fault in H. destruct H as [H|([w2 e2]&_&H)]; [exact (exec_step_fault _ _ _ _ _ H)|].
  apply rbind_fault in H. destruct H as [H|([w3 e3]&_&H)]; [exact (check_completed_fault _ _ _ H)|discriminate].
Qed.

Lemma routes_kept nw ev e ns e' ns' : handle_event nw ev (e, ns) = Good (e', ns') ->
  forall p, alookup p (e_router e) <> None -> alookup p (e_router e') <> None.
Proof.
  intros H p Hp. destruct (handle_event_shape _ _ _ _ _ _ H) as (l&_&K).
  destruct ev; try (destruct K as (->&_); exact Hp).
  (* a SpawnAction routes the next process id, which is not p *)
  destruct K as (->&_). cbn -[Nat.modulo]. rewrite alookup_aset. destruct (p =? e_next e); [discriminate|exact Hp].
Qed.

Lemma event_routed_mono e e' ev : (forall p, alookup p (e_router e) <> None -> alookup p (e_router e') <> None) ->
  event_routed e ev -> event_routed e' ev.
Proof.
  intros M H. destruct ev; simpl in *; auto. rewrite Forall_forall in *. intros t Ht. apply M, H, Ht.
Qed.

Lemma handle_events_never_err nw : forall evs e ns,
  Forall (event_routed e) evs -> exists st, handle_events nw evs (e, ns) = Good st.
Proof.
  induction evs as [|ev evs IH]; intros e ns H; cbn [handle_events]; [eexists; reflexivity|].
  inversion H as [|x l H1 H2]; subst.
  destruct (handle_event_never_errs nw ev e ns H1) as ([e1 ns1]&E1). rewrite E1. cbn [rbind].
  apply IH. rewrite Forall_forall in *. intros x Hx. eapply event_routed_mono; [eapply routes_kept; exact E1|apply H2, Hx].
Qed.

Lemma collect_in : forall ns ks ev, In ev (fst (collect ks ns)) -> exists i nd, nth_error ns i = Some nd /\ In ev (n_evt nd).
Proof.
  induction ns as [|nd ns IH]; intros ks ev H; simpl in H; [contradiction|].
  set (k := match ks with [] => None | k0 :: _ => Some k0 end) in *.
  pose proof (split_at_app k (n_evt nd)) as Hs.
  destruct (split_at k (n_evt nd)) as [now_evs later]. simpl in Hs.
  specialize (IH (tl ks) ev). destruct (collect (tl ks) ns) as [evs t']. simpl in *.
  apply in_app_or in H. destruct H as [H|H].
  - exists 0, nd. split; [reflexivity|]. rewrite <- Hs. apply in_or_app. left; exact H.
  - destruct (IH H) as (i&x&Hi&Hx). exists (S i), x. split; assumption.
Qed.

Definition events_routed (s : sys) : Prop :=
  forall i nd ev, nth_error (s_nodes s) i = Some nd -> In ev (n_evt nd) -> event_routed (s_env s) ev.

Theorem env_step_never_errs_on_routed_ids : forall s ks,
  events_routed s -> exists s', sys_step s (E ks) = Good s'.
Proof.
  intros s ks H. simpl. pose proof (collect_in (s_nodes s) ks) as C.
  destruct (collect ks (s_nodes s)) as [evs ns]. simpl in C.
  destruct (handle_events_never_err (length (s_nodes s)) evs (s_env s) ns) as ([e' ns']&E1).
  - rewrite Forall_forall. intros ev Hev. destruct (C ev Hev) as (i&nd&Hi&Hin). eapply H; eassumption.
  - rewrite E1. cbn [rbind]. eexists; reflexivity.
Qed.

(* the whole step function: the only Faults that are possible *)
Theorem step_errs_only : forall s a f, sys_step s a = Fault f ->
  match a with
  | W i k o => exists nd, nth_error (s_nodes s) i = Some nd /\
                 (is_oracle_fault f \/ (is_worker_err f /\ existsb client_cmd (fst (split_at k (n_cmd nd))) = true))
  | E ks => ~ events_routed s
  | T _ | X _ => False
  end.
Proof.
  intros s a f H. destruct a as [i k o|ks|d|c].
  - simpl in H. destruct (nth_error (s_nodes s) i) as [nd|] eqn:Ei; [|discriminate].
    exists nd. split; [reflexivity|]. apply rbind_fault in H. destruct H as [H|(nd'&_&H)]; [|discriminate].
    exact (worker_step_errs_only_on_client_commands _ _ _ _ _ _ H).
  - intros R. destruct (env_step_never_errs_on_routed_ids s ks R) as (s'&E1). rewrite E1 in H. discriminate.
  - simpl in H. discriminate.
  - simpl in H. unfold client_step in H. destruct c; try discriminate;
      destruct (alookup p (e_router (s_env s))); discriminate.
Qed.

(* non-vacuity: both error classes exist in the model *)
Example worker_err_on_client_misuse :
  node_step 0 0 None (orc None idle_did) {| n_w := new_worker; n_cmd := [CResume 5]; n_evt := [] |} = Fault (WorkerErr 1).
Proof. reflexivity. Qed.
Example env_err_on_unrouted_id :
  sys_step {| s_nodes := [{| n_w := new_worker; n_cmd := []; n_evt := [EDeliverA 7 (mkMsg 0 0 0)] |}];
              s_env := {| e_router := []; e_next := 0; e_pending := [] |}; s_clock := 0 |} (E []) = Fault (EnvErr 1).
Proof. reflexivity. Qed.
