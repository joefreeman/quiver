(* ProtoArrive.v — C04: the identity "arrival log of t = p_arrived of t" on M-Sys (sys/Proto.v), for
   every schedule and every oracle: on every worker, the DeliverMessages handled for target t (the
   ghost arrival log restricted to t) are — as a list — the messages dropped for t (none, by
   no_message_dropped) followed by everything ever appended to the mailbox of t (p_arrived).
   Needs "a process record is never replaced" (scheduler well-formedness, sys/ProtoWf.v). *)
From Quiver Require Import sys.Proto sys.ProtoMsg sys.ProtoFifo sys.ProtoFail sys.ProtoDeliver sys.ProtoWf sys.ProtoOps sys.ProtoClosed sys.ProtoParked.

Definition arr (t : pid) (w : worker) : list msg := match alookup t (w_procs w) with Some pr => p_arrived pr | None => [] end.
Definition ae (w w' : worker) : Prop :=
  (forall t, arr t w' = arr t w) /\ w_arrlog w' = w_arrlog w /\ w_dropped w' = w_dropped w.
Lemma ae_trans a b c : ae a b -> ae b c -> ae a c.
Proof. intros (A1&A2&A3) (B1&B2&B3). split; [intros t; rewrite B1; apply A1|split; congruence]. Qed.
Lemma ae_same w w' : w_procs w' = w_procs w /\ w_arrlog w' = w_arrlog w /\ w_dropped w' = w_dropped w -> ae w w'.
Proof. intros (A&B&C). split; [intros t; unfold arr; rewrite A; reflexivity|split; assumption]. Qed.
Lemma ae_set_proc p pr1 w : p_arrived pr1 = arr p w -> ae w (set_procs w (aset p pr1 (w_procs w))).
Proof.
  intros Hp. split; [|split; reflexivity]. intros t. unfold arr at 1. simpl. rewrite alookup_aset.
  destruct (t =? p) eqn:E; [|reflexivity]. apply Nat.eqb_eq in E. subst t. exact Hp.
Qed.
Lemma ae_upd_proc p f w : (forall pr, p_arrived (f pr) = p_arrived pr) -> ae w (upd_proc p f w).
Proof.
  intros Hf. unfold upd_proc. destruct (alookup p (w_procs w)) as [pr|] eqn:E; [|apply ae_same; repeat split].
  apply ae_set_proc. unfold arr. rewrite E. apply Hf.
Qed.
Lemma ae_closed : closed ae.
Proof.
  split; [apply ae_trans| | |].
  - intros w w' (Ep&_&_&Ea&Ed). apply ae_same. auto.
  - intros a b r w _. apply ae_upd_proc. reflexivity.
  - intros a e w. apply ae_upd_proc. reflexivity.
Qed.

Lemma ae_exec_step i now o w w' ev : exec_step i now o w = Good (w', ev) -> ae w w'.
Proof.
  intros H. destruct (exec_step_shape _ _ _ _ _ _ H) as (w1&E&Sh). pose proof ae_closed as C.
  apply (ae_trans _ w1); [apply (closed_expire _ C _ _ _ _ E)|].
  assert (Pop: forall q', ae w1 (set_sched w1 q' (w_spawning w1) (w_selecting w1))) by (intros; apply ae_same; repeat split).
  destruct Sh as [(_&->&_)|(p&q'&_&[(_&->&_)|(pr&El&[(_&R)|(e&_&F&_)])])];
    [apply (closed_refl _ C)|apply Pop|eapply ae_trans; [apply Pop|]..].
  - eapply (closed_run_slice _ C p); [| | | |exact R].
    + intros w0 w2 (Ep&Ea&Ed&_). apply ae_same. auto.
    + intros ts w0. apply ae_upd_proc. reflexivity.
    + intros r w0. apply ae_upd_proc. reflexivity.
    + intros taken mail'. apply ae_set_proc. unfold arr. simpl. rewrite El. reflexivity.
  - eapply (closed_finish _ C); [apply ae_upd_proc; reflexivity|exact F].
Qed.

(* ---- the identity *)
Definition tgt (t : pid) (l : list (pid * msg)) : list msg := map snd (ft t l).
Lemma tgt_app t a b : tgt t (a ++ b) = tgt t a ++ tgt t b.
Proof. unfold tgt. rewrite ft_app, map_app. reflexivity. Qed.
Lemma tgt_one t t' m : tgt t [(t', m)] = if t' =? t then [m] else [].
Proof. unfold tgt, ft. simpl. destruct (t' =? t); reflexivity. Qed.

Definition AL (w : worker) : Prop := forall t, tgt t (w_arrlog w) = tgt t (w_dropped w) ++ arr t w.

Lemma AL_ae w w' : ae w w' -> AL w -> AL w'.
Proof. intros (A&B&C) H t. rewrite A, B, C. apply H. Qed.

Lemma ae_handle_cmd c w w' ev : handle_cmd c w = Good (w', ev) ->
  (forall p, spawns c = Some p -> ~ has p w) -> AL w -> AL w'.
Proof.
  intros H Hf HA. pose proof ae_closed as C.
  assert (New: forall p, spawns c = Some p -> [] = arr p w).
  { intros p Hp. specialize (Hf p Hp). unfold arr, has in *. destruct (alookup p (w_procs w)); [exfalso; apply Hf; discriminate|reflexivity]. }
  assert (Sched: forall w0 q sp se, ae w0 (set_sched w0 q sp se)) by (intros; apply ae_same; repeat split).
  destruct c; simpl in H.
  - inversion H; subst. exact HA.
  - inversion H; subst. exact HA.
  - destruct sleeping; inversion H; subst; (eapply AL_ae; [|exact HA]); [|eapply ae_trans; [|apply Sched]]; apply ae_set_proc, (New p eq_refl).
  - inversion H; subst. eapply AL_ae; [|exact HA]. eapply ae_trans; [|apply Sched]. apply ae_set_proc, (New p eq_refl).
  - destruct (alookup p (w_procs w)) as [pr|]; [|discriminate].
    destruct (p_res pr) as [[v|e]|]; try discriminate. destruct (p_pers pr); [|discriminate]. inversion H; subst.
    eapply AL_ae; [|exact HA]. eapply ae_trans; [|apply Sched]. apply ae_upd_proc; intros; reflexivity.
  - destruct (fold_left (query_one awaiter) targets (w, [])) as [w1 rs] eqn:E. inversion H; subst.
    eapply AL_ae; [|exact HA]. pose proof (closed_query_fold _ C awaiter targets w []) as Q. rewrite E in Q. exact Q.
  - inversion H; subst. eapply AL_ae; [apply (closed_update_await _ C)|exact HA].
  - (* the one command that extends both sides *)
    destruct (alookup target (w_procs w)) as [pr|] eqn:El; inversion H; subst; clear H.
    + eapply AL_ae; [apply (closed_wake _ C)|]. intros t. unfold upd_proc. simpl. rewrite El. simpl.
      rewrite tgt_app, tgt_one, (HA t). unfold arr. simpl. rewrite alookup_aset. rewrite (Nat.eqb_sym t target).
      destruct (target =? t) eqn:Et.
      * apply Nat.eqb_eq in Et. subst t. rewrite El. simpl. rewrite app_assoc. reflexivity.
      * rewrite app_nil_r. reflexivity.
    + eapply AL_ae; [apply (closed_wake _ C)|]. intros t. simpl. rewrite !tgt_app, tgt_one, (HA t). unfold arr. simpl.
      destruct (target =? t) eqn:Et.
      * apply Nat.eqb_eq in Et. subst t. rewrite El. rewrite !app_nil_r. reflexivity.
      * rewrite !app_nil_r. reflexivity.
  - destruct (mem p (w_spawning w)); inversion H; subst; [eapply AL_ae; [apply Sched|exact HA]|exact HA].
  - destruct (alookup p (w_procs w)) as [pr|]; [|discriminate].
    destruct (p_res pr); inversion H; subst; [exact HA|eapply AL_ae; [apply ae_same; repeat split|exact HA]].
Qed.

Lemma AL_node_step e i now k o nd nd' :
  NInv e i (n_w nd) (n_cmd nd) -> node_step i now k o nd = Good nd' -> AL (n_w nd) -> AL (n_w nd').
Proof.
  intros HI H HA. destruct (node_step_shape _ _ _ _ _ _ H) as (pre&w1&e1&w2&e2&e3&Hs&E1&E2&E3&_). rewrite Hs in HI.
  eapply AL_ae; [apply (closed_check_completed _ ae_closed _ _ _ _ E3)|]. eapply AL_ae; [eapply ae_exec_step; exact E2|].
  apply (handle_cmds_inv e i AL) with (2 := HI) (3 := E1) (4 := HA). intros c w w' ev _ Hf Hc. apply (ae_handle_cmd c w w' ev Hc Hf).
Qed.

(* C04: the arrival log of a worker restricted to a target IS the p_arrived of that process (every
   handled DeliverMessage was appended to the mailbox of its target, in order, nothing else was) *)
Theorem arrival_log_is_mailbox_history : forall nw sigma s,
  0 < nw -> run (init nw) sigma = Good s ->
  forall i nd t, nth_error (s_nodes s) i = Some nd ->
    tgt t (w_arrlog (n_w nd)) = arr t (n_w nd).
Proof.
  intros nw sigma s Hnw H i nd t Hn.
  pose proof (worker_invariant AL (fun _ => eq_refl) AL_node_step nw sigma s H i nd Hn t) as P.
  destruct (no_message_dropped nw sigma s Hnw H) as (D&_). rewrite (D i nd Hn) in P. exact P.
Qed.

(* non-vacuity: in the fan-in run (ProtoExamples) one message has arrived at process 1 on worker 1 *)
From Quiver Require Import sys.ProtoExamples.
Example arrival_history_nonempty : exists s nd,
  run (init 2) fanin_schedule = Good s /\ nth_error (s_nodes s) 1 = Some nd /\
  tgt 1 (w_arrlog (n_w nd)) = [mkMsg 2 0 0] /\ arr 1 (n_w nd) = [mkMsg 2 0 0].
Proof. eexists. eexists. split; [vm_compute; reflexivity|]. split; [reflexivity|]. split; reflexivity. Qed.
