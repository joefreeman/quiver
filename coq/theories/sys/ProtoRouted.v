(* ProtoRouted.v — C15 step_never_errs on M-Sys (sys/Proto.v), for every schedule and oracle:
   Environment::step never returns Err(ProcessNotFound).

   By ProtoErrs.step_errs_only the environment step fails only when a queued event names a process
   id that is not in process_router.  Here: `events_routed` is an invariant of every run from
   `init nw`, under ONE premise on the oracle: a Send / Await action of a time slice names
   ALLOCATED process ids (below next_process_id at the time of the slice) — the VM obtains pids only
   from spawn / self / messages, all allocated.  No premise on client calls is needed for this
   (a client's misuse surfaces as WorkerErr, never as EnvErr).

   The invariant (RInv): WF (ProtoWf) and
     - every pid below next_process_id is routed;
     - every queued event is routed, INCLUDING the awaiter of an AwaitAction (it becomes the
       awaiter of QueryAndAwait commands, of awaiters_for_target entries and of ProcessResults
       events, which the environment routes back);
     - the awaiter of every queued QueryAndAwait command is routed;
     - every awaiter recorded in a worker's awaiters_for_target is routed.
   It is proved per micro-step (ProtoMicro). *)
From Quiver Require Import sys.Proto sys.ProtoMsg sys.ProtoFifo sys.ProtoFail sys.ProtoWake sys.ProtoDeliver sys.ProtoWf
  sys.ProtoErrs sys.ProtoCommute sys.ProtoMicro sys.ProtoMicroWf sys.ProtoOps sys.ProtoParked sys.ProtoAwait.

Definition routed (e : env) (p : pid) : Prop := alookup p (e_router e) <> None.

Definition ev_ok (e : env) (ev : event) : Prop :=
  match ev with
  | ESpawnA c => routed e c
  | EDeliverA t _ => routed e t
  | EAwaitA a ts => routed e a /\ Forall (routed e) ts
  | EResults a _ => routed e a
  | _ => True
  end.
Definition cmd_ok (e : env) (c : cmd) : Prop := match c with CQuery a _ => routed e a | _ => True end.
Definition aw_ok (e : env) (w : worker) : Prop := forall t l a, alookup t (w_awaiters w) = Some l -> In a l -> routed e a.
Definition node_ok (e : env) (nd : node) : Prop :=
  Forall (cmd_ok e) (n_cmd nd) /\ Forall (ev_ok e) (n_evt nd) /\ aw_ok e (n_w nd).
Definition nodes_ok (e : env) (ns : list node) : Prop := forall i nd, nth_error ns i = Some nd -> node_ok e nd.
Definition dom_ok (e : env) : Prop := forall p, p < e_next e -> routed e p.

Definition RInv (s : sys) : Prop := WF s /\ dom_ok (s_env s) /\ nodes_ok (s_env s) (s_nodes s).

Lemma ev_ok_event_routed e ev : ev_ok e ev -> event_routed e ev.
Proof. destruct ev; simpl; auto. intros (_&H); exact H. Qed.

Lemma RInv_events_routed s : RInv s -> events_routed s.
Proof.
  intros (_&_&N) i nd ev Hn Hin. apply ev_ok_event_routed. destruct (N i nd Hn) as (_&E&_).
  rewrite Forall_forall in E. apply E, Hin.
Qed.

(* ------------------------------------------------------------------ the oracle premise *)
Definition act_allocatedb (next : pid) (a : option act) : bool :=
  match a with
  | Some (ADeliver t) => t <? next
  | Some (AAwait ts) => forallb (fun t => t <? next) ts
  | _ => true
  end.
(* as a premise of an executor micro-step / of a Worker::step *)
Definition pids_honest : env -> nat -> woracle -> worker -> Prop :=
  fun e _ o _ => act_allocatedb (e_next e) (d_act (o_did o)) = true.
(* as a boolean on schedules: every Worker::step's oracle names allocated pids only *)
Definition pid_honest_action (s : sys) (a : sched_action) : bool :=
  match a with W _ _ o => act_allocatedb (e_next (s_env s)) (d_act (o_did o)) | _ => true end.
Fixpoint pid_honest_run (s : sys) (sigma : list sched_action) : bool :=
  match sigma with
  | [] => true
  | a :: t => pid_honest_action s a && match sys_step s a with Good s' => pid_honest_run s' t | Fault _ => true end
  end.

Lemma pid_honest_hon_run : forall sigma s, pid_honest_run s sigma = true -> hon_run pids_honest s sigma.
Proof.
  induction sigma as [|a sigma IH]; intros s H; simpl in *; [exact I|].
  apply andb_true_iff in H. destruct H as (Ha&Ht). split.
  - destruct a as [i k o| | |]; simpl; auto.
    destruct (nth_error (s_nodes s) i) as [nd|]; [|exact I].
    destruct (handle_cmds _ _) as [[w1 e1]|]; [exact Ha|exact I].
  - destruct (sys_step s a) as [s'|]; [apply IH; exact Ht|exact I].
Qed.

(* ------------------------------------------------------------------ monotonicity, pushes *)
Lemma node_ok_mono e e' nd : (forall p, routed e p -> routed e' p) -> node_ok e nd -> node_ok e' nd.
Proof.
  intros M (C&E&A). split; [|split].
  - eapply Forall_impl; [|exact C]. intros c Hc. destruct c; simpl in *; auto.
  - eapply Forall_impl; [|exact E]. intros ev Hev. destruct ev; simpl in *; auto.
    destruct Hev as (H1&H2). split; [auto|]. eapply Forall_impl; [|exact H2]. auto.
  - intros t l a Hl Ha. apply M. apply (A t l a Hl Ha).
Qed.
Lemma nodes_ok_mono e e' ns : (forall p, routed e p -> routed e' p) -> nodes_ok e ns -> nodes_ok e' ns.
Proof. intros M N i nd Hn. eapply node_ok_mono; [exact M|apply (N i nd Hn)]. Qed.

Lemma nodes_ok_push e ns w c : nodes_ok e ns -> cmd_ok e c -> nodes_ok e (push_cmd w c ns).
Proof.
  intros N Hc i nd Hn. rewrite nth_error_push in Hn. destruct (nth_error ns i) as [nd0|] eqn:En; [|discriminate].
  inversion Hn; subst nd; clear Hn. destruct (N i nd0 En) as (C&E&A).
  destruct (i =? w); [|split; [|split]; assumption]. split; [|split]; simpl; try assumption.
  apply Forall_app. split; [exact C|constructor; [exact Hc|constructor]].
Qed.
Lemma nodes_ok_fold_push {A} (mk : A -> cmd) (wof : A -> wid) e l : (forall a, cmd_ok e (mk a)) -> forall ns,
  nodes_ok e ns -> nodes_ok e (fold_left (fun ns a => push_cmd (wof a) (mk a) ns) l ns).
Proof. intros Hm. induction l as [|a l IH]; intros ns H; simpl; [exact H|]. apply IH. apply nodes_ok_push; [exact H|apply Hm]. Qed.

Lemma nodes_ok_set_node e ns i nd' : nodes_ok e ns -> node_ok e nd' -> nodes_ok e (set_node i nd' ns).
Proof.
  intros N H j x Hx. destruct (Nat.eq_dec j i) as [->|Hne].
  - destruct (nth_error ns i) as [nd|] eqn:Ei.
    + rewrite (nth_set_node_same _ _ _ _ Ei) in Hx. inversion Hx; subst x. exact H.
    + unfold set_node in Hx. rewrite (update_nth_none _ _ _ Ei) in Hx. congruence.
  - rewrite nth_set_node_other in Hx by exact Hne. apply (N j x Hx).
Qed.

Lemma routed_alloc e w p : routed e p -> routed {| e_router := aset (e_next e) w (e_router e); e_next := S (e_next e); e_pending := e_pending e |} p.
Proof. unfold routed. simpl. rewrite alookup_aset. destruct (p =? e_next e); [discriminate|auto]. Qed.
Lemma dom_alloc e w : dom_ok e -> dom_ok {| e_router := aset (e_next e) w (e_router e); e_next := S (e_next e); e_pending := e_pending e |}.
Proof.
  intros D p Hp. simpl in Hp. destruct (Nat.eq_dec p (e_next e)) as [->|Hne].
  - unfold routed. simpl. rewrite alookup_aset_eq. discriminate.
  - apply routed_alloc. apply D. lia.
Qed.

(* ------------------------------------------------------------------ Worker::handle_command *)
Lemma bk_awaiters w w' : bk w' = bk w -> w_awaiters w' = w_awaiters w.
Proof. unfold bk. intros H. inversion H. reflexivity. Qed.

Lemma aw_ok_same e w w' : w_awaiters w' = w_awaiters w -> aw_ok e w -> aw_ok e w'.
Proof. intros E A t l a. rewrite E. apply A. Qed.

Lemma query_fold_routed e a : routed e a -> forall ts w rs, aw_ok e w -> aw_ok e (fst (fold_left (query_one a) ts (w, rs))).
Proof.
  intros Ha. induction ts as [|t ts IH]; intros w rs A; cbn [fold_left]; [exact A|].
  assert (Q: aw_ok e (fst (query_one a (w, rs) t))).
  { unfold query_one. destruct (completed_value w t); simpl; [exact A|].
    intros t' l x Hl Hx. simpl in Hl. rewrite alookup_aset in Hl. destruct (t' =? t) eqn:Et.
    - inversion Hl; subst l. apply in_app_or in Hx. destruct Hx as [Hx|[<-|[]]]; [|exact Ha].
      destruct (alookup t (w_awaiters w)) as [l0|] eqn:El; [apply (A t l0 x El Hx)|contradiction].
    - apply (A t' l x Hl Hx). }
  destruct (query_one a (w, rs) t) as [w1 rs1]. simpl in Q. apply IH. exact Q.
Qed.

Lemma handle_cmd_routed e c w w' evs :
  cmd_ok e c -> aw_ok e w -> handle_cmd c w = Good (w', evs) -> aw_ok e w' /\ Forall (ev_ok e) evs.
Proof.
  intros Hc A H.
  assert (D: (exists a ts, c = CQuery a ts) \/ forall a ts, c <> CQuery a ts) by (destruct c; try (right; intros; discriminate); left; eauto).
  destruct D as [(a&ts&->)|Hn].
  - simpl in H. destruct (fold_left (query_one a) ts (w, [])) as [w1 rs] eqn:E. inversion H; subst.
    split; [|constructor; [exact Hc|constructor]].
    pose proof (query_fold_routed e a Hc ts w [] A) as Q. rewrite E in Q. exact Q.
  - destruct (handle_cmd_other _ _ _ _ H Hn) as (_&O2&Oe). split; [eapply aw_ok_same; eassumption|].
    eapply Forall_impl; [|exact Oe]. intros ev. destruct ev; simpl; tauto.
Qed.

(* ------------------------------------------------------------------ Environment::handle_event *)
Lemma routed_pending e pend p : routed {| e_router := e_router e; e_next := e_next e; e_pending := pend |} p <-> routed e p.
Proof. unfold routed. simpl. reflexivity. Qed.

Lemma handle_event_routed nw ev e ns e' ns' :
  ev_ok e ev -> nodes_ok e ns -> dom_ok e ->
  handle_event nw ev (e, ns) = Good (e', ns') -> nodes_ok e' ns' /\ dom_ok e'.
Proof.
  intros Hev N D H. destruct ev; [|unfold handle_event in H; cbn -[Nat.modulo nodup] in H..].
  - (* SpawnAction *)
    destruct (handle_event_shape _ _ _ _ _ _ H) as (l&Hl&->&cw&->). specialize (Hl ns). rewrite H in Hl. inversion Hl; subst ns'.
    unfold alloc. simpl. split; [|apply dom_alloc; exact D].
    apply nodes_ok_push; [apply nodes_ok_push|exact I]; [|exact I].
    eapply nodes_ok_mono; [|exact N]. intros p. apply routed_alloc.
  - destruct (alookup target (e_router e)) as [w|]; [|discriminate]. inversion H; subst e' ns'.
    split; [apply nodes_ok_push; [exact N|exact I]|exact D].
  - (* AwaitAction *)
    revert H. match goal with |- context [forallb ?f targets] => destruct (forallb f targets) end; intros H; [|discriminate].
    inversion H; subst e' ns'; clear H. destruct Hev as (Ha&_). split; [|exact D].
    set (wof := fun t => match alookup t (e_router e) with Some w => w | None => 0 end).
    apply (nodes_ok_fold_push (fun w => CQuery awaiter (filter (fun t => wof t =? w) targets)) (fun w => w)); [intros w; exact Ha|exact N].
  - (* ProcessResults *)
    destruct (alookup awaiter (e_pending e)) as [pa|].
    + destruct (match results with [] => None | (t, _) :: _ => alookup t (e_router e) end) as [w|].
      * destruct (sremove w (pa_expected pa)).
        -- destruct (alookup awaiter (e_router e)) as [aw|]; [|discriminate]. inversion H; subst e' ns'.
           split; [apply nodes_ok_push; [exact N|exact I]|exact D].
        -- inversion H; subst e' ns'. split; [exact N|exact D].
      * inversion H; subst e' ns'. split; assumption.
    + destruct (alookup awaiter (e_router e)) as [aw|]; [|discriminate]. inversion H; subst e' ns'.
      split; [apply nodes_ok_push; [exact N|exact I]|exact D].
  - inversion H; subst e' ns'. split; assumption.
  - inversion H; subst e' ns'. split; assumption.
Qed.

(* ------------------------------------------------------------------ every micro-step *)
Theorem RInv_mstep s l s' : RInv s -> mstep s l s' -> hon_label pids_honest s l -> RInv s'.
Proof.
  intros (W&D&N) M Hon. split; [eapply WF_mstep; eassumption|].
  destruct M as [ns e clk i nd c rest w' evs Hn Hc Hh
                |ns e clk i nd o w' evs Hn Hx
                |ns e clk i nd hint w' evs Hn Hk
                |ns e clk i nd ev rest e' ns' Hn Hq He
                |ns e clk d
                |s c s' Hc]; simpl in *.
  - (* command *)
    split; [exact D|]. destruct (N i nd Hn) as (C&E&A). rewrite Hc in C.
    destruct (handle_cmd_routed e c (n_w nd) w' evs) as (A'&E'); [inversion C; assumption|exact A|exact Hh|].
    apply nodes_ok_set_node; [exact N|]. split; [|split]; simpl; [apply (Forall_inv_tail C)|apply Forall_app; split; assumption|exact A'].
  - (* executor step *)
    split; [exact D|]. destruct (N i nd Hn) as (C&E&A).
    apply nodes_ok_set_node; [exact N|]. split; [|split]; simpl; [exact C| |].
    + apply Forall_app. split; [exact E|].
      destruct W as (_&NI). simpl in NI. destruct (NI i nd Hn) as (_&Hr&_).
      specialize (Hon nd Hn). unfold pids_honest in Hon.
      destruct (exec_step_events _ _ _ _ _ _ Hx) as [->|(p&Hp&_&Hev)]; [constructor|].
      assert (Rp: routed e p) by (unfold routed; rewrite (Hr p Hp); discriminate).
      destruct Hev as [(_&->)|[(t&m&Ha&->)|(ts&Ha&->)]]; (constructor; [|constructor]); simpl.
      * exact Rp.
      * rewrite Ha in Hon. simpl in Hon. apply D. apply Nat.ltb_lt. exact Hon.
      * split; [exact Rp|]. rewrite Ha in Hon. simpl in Hon. rewrite forallb_forall in Hon.
        apply Forall_forall. intros t Ht. apply D. apply Nat.ltb_lt. apply Hon, Ht.
    + eapply aw_ok_same; [|exact A]. apply bk_awaiters. eapply bk_exec_step; exact Hx.
  - (* check_completed *)
    split; [exact D|]. destruct (N i nd Hn) as (C&E&A).
    destruct (check_completed_spec _ _ _ _ Hk) as (_&_&_&_&S5&_&_&_&S9).
    apply nodes_ok_set_node; [exact N|]. split; [|split]; simpl; [exact C| |].
    + apply Forall_app. split; [exact E|]. apply Forall_forall. intros x Hx.
      destruct (S9 x Hx) as [(a&t&r&->&(l&Hl&Ha)&_)|(req&r&t0&->&_)]; simpl; [apply (A t l a Hl Ha)|exact I].
    + intros t l a Hl Ha. apply (A t l a (S5 t l Hl) Ha).
  - (* event *)
    destruct (N i nd Hn) as (C&E&A). rewrite Hq in E.
    assert (Hev: ev_ok e ev) by (inversion E; assumption).
    destruct (handle_event_routed _ _ _ _ _ _ Hev (nodes_ok_set_node e ns i (mk_node (n_w nd) (n_cmd nd) rest) N
                (conj C (conj (Forall_inv_tail E) A))) D He) as (N'&D').
    split; assumption.
  - split; assumption.
  - destruct (client_step_shape _ _ _ Hc) as [->|(w&c0&e'&Hc0&->&He')]; [split; assumption|]. simpl.
    assert (Ok: forall e2, cmd_ok e2 c0) by (intros e2; destruct c0; try exact I; contradiction).
    destruct He' as [->| ->]; [split; [exact D|apply nodes_ok_push; [exact N|apply Ok]]|].
    split; [apply dom_alloc; exact D|]. apply nodes_ok_push; [|apply Ok]. eapply nodes_ok_mono; [|exact N]. intros p. apply routed_alloc.
Qed.

Lemma RInv_init nw : RInv (init nw).
Proof.
  split; [apply WF_init|]. split; [intros p Hp; simpl in Hp; lia|].
  intros i nd Hn. simpl in Hn. apply nth_error_In, repeat_spec in Hn. subst nd.
  split; [constructor|]. split; [constructor|]. intros t l a Hl. discriminate.
Qed.

(* C15: in every state reachable from init under the oracle premise, every queued event is routed *)
Theorem events_always_routed : forall nw sigma s,
  pid_honest_run (init nw) sigma = true -> run (init nw) sigma = Good s -> events_routed s.
Proof.
  intros nw sigma s Hh H. apply RInv_events_routed.
  eapply (micro_invariant RInv pids_honest RInv_mstep); [apply RInv_init|apply pid_honest_hon_run; exact Hh|exact H].
Qed.

Lemma never_env_err : forall sigma s, RInv s -> pid_honest_run s sigma = true -> forall n, run s sigma <> Fault (EnvErr n).
Proof.
  induction sigma as [|a sigma IH]; intros s HI Hh n H; simpl in *; [discriminate|].
  apply andb_true_iff in Hh. destruct Hh as (Ha&Ht).
  destruct (sys_step s a) as [s1|f] eqn:E; cbn [rbind] in H.
  - apply (IH s1) with (n := n); [|exact Ht|exact H].
    eapply (step_inv RInv pids_honest RInv_mstep); [exact HI| |exact E].
    assert (Hr: hon_run pids_honest s [a]) by (apply pid_honest_hon_run; simpl; rewrite Ha, E; reflexivity).
    apply Hr.
  - inversion H; subst f. pose proof (step_errs_only s a _ E) as C. destruct a as [i k o|ks|d|c]; simpl in C.
    + destruct C as (nd&_&[(m&Hm)|((m&Hm)&_)]); discriminate.
    + apply C. apply RInv_events_routed. exact HI.
    + exact C.
    + exact C.
Qed.

(* C15 step_never_errs: for every schedule and every oracle that names allocated pids only, no
   step of a run from init fails with an environment error *)
Theorem step_never_errs : forall nw sigma,
  pid_honest_run (init nw) sigma = true -> forall n, run (init nw) sigma <> Fault (EnvErr n).
Proof. intros nw sigma Hh. apply never_env_err; [apply RInv_init|exact Hh]. Qed.

(* non-vacuity: a two-worker schedule with a spawn, a send across workers, an await across workers,
   the completion report and the update — 11 actions, the premise holds, the run is Good and ends
   with the awaiter knowing the result *)
Definition routed_schedule : list sched_action :=
  [ X (XStart false);                                                            (* pid 0 on worker 0 *)
    W 0 None (orc (Some 0) (d_act_ ASpawn));                                     (* 0: spawn *)
    E [];                                                                        (* pid 1 -> worker 1; NotifySpawn -> worker 0 *)
    W 1 None (orc (Some 1) {| d_taken := []; d_sel := Some (a_sel []); d_forget := []; d_act := None; d_park := true; d_fin := None; d_heapy := false |});
    W 0 None (orc (Some 0) (d_act_ (ADeliver 1)));                               (* 0: send to 1 *)
    W 0 None (orc (Some 0) {| d_taken := []; d_sel := Some (a_sel [1]); d_forget := []; d_act := Some (AAwait [1]); d_park := false; d_fin := None; d_heapy := false |});
    E [];                                                                        (* DeliverMessage, QueryAndAwait -> worker 1 *)
    W 1 None (orc (Some 1) {| d_taken := [0]; d_sel := None; d_forget := []; d_act := None; d_park := false; d_fin := Some (ROk 5); d_heapy := false |});
    E [];                                                                        (* the answers of worker 1 *)
    (* UpdateAwaitResults wakes 0, which completes its select and finishes *)
    W 0 None (orc (Some 0) {| d_taken := []; d_sel := None; d_forget := [1]; d_act := None; d_park := false; d_fin := Some (ROk 6); d_heapy := false |});
    E [] ].

Example step_never_errs_applies :
  pid_honest_run (init 2) routed_schedule = true /\
  exists s nd pr, run (init 2) routed_schedule = Good s /\ nth_error (s_nodes s) 0 = Some nd /\
    alookup 0 (w_procs (n_w nd)) = Some pr /\ p_res pr = Some (ROk 6) /\ e_next (s_env s) = 2.
Proof.
  split; [vm_compute; reflexivity|]. vm_compute. do 3 eexists. repeat split.
Qed.
