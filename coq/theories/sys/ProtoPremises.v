(* ProtoPremises.v — the oracle premises of the global theorems of C04/C15 as BOOLEAN functions
   of (state, scheduler action), so that the trace-replay driver (coq/driver/proto_main.ml) can
   evaluate them on every action of a real qv_sim trace:
     pid_honest_action   (ProtoRouted)   Send / Await name allocated pids          C15 step_never_errs
     await_honest_stepb  (ProtoAwaitThm) no slice for a finished process; an Await leaves no stale key
                                                                                   C04 await_backed, quiescent_no_ready
     park_honest_stepb   (here)          = honest_step (ProtoParked)               C04 parked_has_no_unseen_message
     time_honest_stepb   (here)          = time_honest (ProtoParked)               C04 no_timeout_due_at_last_check
     resume_honest_stepb (here)          = okc (ProtoNoErr): an honest resume_process     C15 step_faults_only_bad_oracle_resume
   The soundness lemmas here (park_honest_runb_sound, resume_honest_runb_sound; time_honestb_sound for
   one slice) say that a schedule on which the boolean holds at every action satisfies the Prop
   premise of the theorem; those for pid_honest / await_honest stand with their definitions. *)
From Quiver Require Import sys.Proto sys.ProtoFail sys.ProtoParked sys.ProtoRouted sys.ProtoAwaitThm sys.ProtoSleep sys.ProtoNoErr.

Definition time_honestb (now : nat) (d : did) : bool :=
  if d_park d || match d_act d with Some (AAwait _) => true | _ => false end then
    match d_sel d with
    | Some s => match sl_start s with
                | Some t0 => forallb (fun dl => negb (dl <=? now - t0)) (sl_timeouts s)
                | None => true end
    | None => true
    end
  else true.
Lemma time_honestb_sound now d : time_honestb now d = true -> time_honest now d.
Proof.
  unfold time_honestb, time_honest. intros H Hr s Hs.
  assert (Hb: d_park d || match d_act d with Some (AAwait _) => true | _ => false end = true).
  { destruct Hr as [->|(ts&->)]; [reflexivity|apply orb_true_r]. }
  rewrite Hb, Hs in H. destruct (sl_start s); [exact H|exact I].
Qed.
(* a slice that ends runnable inside a select whose timeout is already due is NOT a violation *)
Example time_honest_ignores_runnable_slices :
  time_honestb 0 {| d_taken := []; d_sel := Some {| sl_targets := []; sl_cursors := []; sl_timeouts := [0]; sl_start := Some 0 |};
                    d_forget := []; d_act := None; d_park := false; d_fin := None; d_heapy := false |} = true /\
  time_honestb 0 {| d_taken := []; d_sel := Some {| sl_targets := []; sl_cursors := []; sl_timeouts := [0]; sl_start := Some 0 |};
                    d_forget := []; d_act := None; d_park := true; d_fin := None; d_heapy := false |} = false.
Proof. split; reflexivity. Qed.

Definition park_honestb (d : did) (mail' : list msg) : bool :=
  (if d_park d then match d_sel d with
                    | Some s => match sl_start s with Some _ => forallb (fun c => c =? length mail') (sl_cursors s) | None => true end
                    | None => true end else true) &&
  match d_act d with
  | Some (AAwait _) => match d_sel d with Some s => match sl_start s with None => true | Some _ => false end | None => true end
  | _ => true
  end.
Lemma park_honestb_sound d mail' : park_honestb d mail' = true -> park_honest d mail'.
Proof.
  unfold park_honestb, park_honest. intros H. apply andb_true_iff in H. destruct H as (H1&H2). split.
  - intros Hp s Hs Hn. rewrite Hp, Hs in H1. destruct (sl_start s); [|exfalso; apply Hn; reflexivity].
    apply Forall_forall. intros c Hc. rewrite forallb_forall in H1. apply Nat.eqb_eq. apply H1, Hc.
  - intros ts Ha s Hs. rewrite Ha, Hs in H2. destruct (sl_start s); [discriminate|reflexivity].
Qed.

(* a select woken before all its awaited targets are reported parks again without scanning (F72): start unset, cursor not at the end of the mailbox — not a violation; with the start set it is *)
Example park_honest_ignores_unstarted_selects :
  park_honestb {| d_taken := []; d_sel := Some {| sl_targets := [1; 2]; sl_cursors := [0]; sl_timeouts := []; sl_start := None |};
                  d_forget := []; d_act := None; d_park := true; d_fin := None; d_heapy := false |} [mkMsg 3 0 0] = true /\
  park_honestb {| d_taken := []; d_sel := Some {| sl_targets := [1; 2]; sl_cursors := [0]; sl_timeouts := []; sl_start := Some 0 |};
                  d_forget := []; d_act := None; d_park := true; d_fin := None; d_heapy := false |} [mkMsg 3 0 0] = false.
Proof. split; reflexivity. Qed.

Definition park_honest_stepb (s : sys) (a : sched_action) : bool :=
  match a with
  | W i k o => match nth_error (s_nodes s) i with
               | Some nd => match slice_input i (s_clock s) k o nd with
                            | Some (_, _, mail') => park_honestb (o_did o) mail'
                            | None => true end
               | None => true end
  | _ => true
  end.
Lemma park_honest_stepb_sound s a : park_honest_stepb s a = true -> honest_step s a.
Proof.
  destruct a as [i k o| | |]; simpl; auto. destruct (nth_error (s_nodes s) i) as [nd|]; [|auto].
  destruct (slice_input i (s_clock s) k o nd) as [[[p pr] mail']|]; [apply park_honestb_sound|auto].
Qed.
Fixpoint park_honest_runb (s : sys) (sigma : list sched_action) : bool :=
  match sigma with
  | [] => true
  | a :: t => park_honest_stepb s a && match sys_step s a with Good s' => park_honest_runb s' t | Fault _ => true end
  end.
Lemma park_honest_runb_sound : forall sigma s, park_honest_runb s sigma = true -> honest_run s sigma.
Proof.
  induction sigma as [|a sigma IH]; intros s H; simpl in *; [exact I|].
  apply andb_true_iff in H. destruct H as (Ha&Ht). split; [apply park_honest_stepb_sound; exact Ha|].
  destruct (sys_step s a); [apply IH; exact Ht|exact I].
Qed.

Definition time_honest_stepb (s : sys) (a : sched_action) : bool :=
  match a with W _ _ o => time_honestb (s_clock s) (o_did o) | _ => true end.

Definition sleepingb (q : pid) (w : worker) : bool :=
  match alookup q (w_procs w) with
  | Some pr => match p_res pr with
               | Some (ROk _) => p_pers pr && match p_awaiting pr with [] => true | _ => false end
               | _ => false end
  | None => false
  end.
Lemma sleepingb_sound q w : sleepingb q w = true -> sleeping q w.
Proof.
  unfold sleepingb, sleeping. destruct (alookup q (w_procs w)) as [pr|]; [|discriminate].
  destruct (p_res pr) as [[v|e]|] eqn:Er; try discriminate. intros H. apply andb_true_iff in H. destruct H as (H1&H2).
  exists pr, v. split; [reflexivity|]. split; [exact Er|]. split; [exact H1|]. destruct (p_awaiting pr); [reflexivity|discriminate].
Qed.
Definition resume_honest_stepb (s : sys) (a : sched_action) : bool :=
  match a with
  | X (XResume p) =>
    match alookup p (e_router (s_env s)) with
    | Some w => match nth_error (s_nodes s) w with
                | Some nd =>
                  (sleepingb p (n_w nd) || existsb (fun c => match c with CStart p' true => p' =? p | _ => false end) (n_cmd nd)) &&
                  forallb (fun c => match c with CResume p' => negb (p' =? p) | _ => true end) (n_cmd nd)
                | None => true end
    | None => true end
  | _ => true
  end.
Lemma resume_honest_stepb_sound s a : resume_honest_stepb s a = true -> match a with X c => okc s c | _ => True end.
Proof.
  destruct a as [| | |c]; simpl; auto. destruct c; simpl; auto.
  destruct (alookup p (e_router (s_env s))) as [w|]; [|auto]. destruct (nth_error (s_nodes s) w) as [nd|]; [|auto].
  intros H. apply andb_true_iff in H. destruct H as (H1&H2). split.
  - apply orb_true_iff in H1. destruct H1 as [H1|H1]; [left; apply sleepingb_sound; exact H1|right].
    apply existsb_exists in H1. destruct H1 as (c&Hc&Hm). destruct c as [| |p0 sl| | | | | | |]; try discriminate. destruct sl; [|discriminate].
    apply Nat.eqb_eq in Hm. subst. exact Hc.
  - intros c0 Hc0 ->. rewrite forallb_forall in H2. specialize (H2 _ Hc0). simpl in H2. rewrite Nat.eqb_refl in H2. discriminate.
Qed.
Fixpoint resume_honest_runb (s : sys) (sigma : list sched_action) : bool :=
  match sigma with
  | [] => true
  | a :: t => resume_honest_stepb s a && match sys_step s a with Good s' => resume_honest_runb s' t | Fault _ => true end
  end.
Lemma resume_honest_runb_sound : forall sigma s, resume_honest_runb s sigma = true -> resume_honest_run s sigma.
Proof.
  unfold resume_honest_run. induction sigma as [|a sigma IH]; intros s H; simpl in *; [exact I|].
  apply andb_true_iff in H. destruct H as (Ha&Ht). split; [apply resume_honest_stepb_sound; exact Ha|].
  destruct (sys_step s a); [apply IH; exact Ht|exact I].
Qed.

(* non-vacuity of step_faults_only_bad_oracle_resume: a process started sleeping, resumed before its
   StartProcess is handled, run to completion, and resumed again *)
Definition resume_schedule : list sched_action :=
  [ X (XStart true); X (XResume 0);
    W 0 None (orc (Some 0) {| d_taken := []; d_sel := None; d_forget := []; d_act := None; d_park := false; d_fin := Some (ROk 9); d_heapy := false |});
    X (XResume 0);
    W 0 None (orc (Some 0) {| d_taken := []; d_sel := None; d_forget := []; d_act := None; d_park := false; d_fin := Some (ROk 10); d_heapy := false |}) ].
Example honest_resumes_apply :
  pid_honest_run (init 1) resume_schedule = true /\ resume_honest_run (init 1) resume_schedule /\
  exists s nd pr, run (init 1) resume_schedule = Good s /\ nth_error (s_nodes s) 0 = Some nd /\
    alookup 0 (w_procs (n_w nd)) = Some pr /\ p_res pr = Some (ROk 10).
Proof.
  split; [vm_compute; reflexivity|]. split; [apply resume_honest_runb_sound; vm_compute; reflexivity|].
  vm_compute. do 3 eexists. repeat split.
Qed.
(* ... and a dishonest one (resume of a running process) is flagged and does fail *)
Example dishonest_resume_flagged :
  resume_honest_runb (init 1) [X (XStart false); X (XResume 0)] = false /\
  run (init 1) [X (XStart false); X (XResume 0); W 0 None (orc None idle_did)] = Fault (WorkerErr 3).
Proof. split; vm_compute; reflexivity. Qed.

(* the first four, for the driver: (pid_honest, await_honest, park_honest, time_honest); it calls
   resume_honest_stepb beside *)
Definition premises_step (s : sys) (a : sched_action) : (bool * bool) * (bool * bool) :=
  ((pid_honest_action s a, await_honest_stepb s a), (park_honest_stepb s a, time_honest_stepb s a)).

(* negative control: a Send to a pid that was never allocated is flagged *)
Example pid_honest_flags_unallocated_send :
  exists s, sys_step (init 1) (X (XStart false)) = Good s /\
    pid_honest_action s (W 0 None (orc (Some 0) (d_act_ (ADeliver 7)))) = false /\
    pid_honest_action s (W 0 None (orc (Some 0) (d_act_ (ADeliver 0)))) = true.
Proof. eexists. split; [reflexivity|]. split; reflexivity. Qed.
