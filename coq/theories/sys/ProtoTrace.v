(* ProtoTrace.v — C03: from the local commutation lemmas (ProtoCommute, ProtoDiamond) to
   schedules, Mazurkiewicz-trace style.

   Independence of two adjacent scheduler actions, as seen from the state they start in:
     W i .. / W j ..                 with i <> j                               (always)
     W i (Some n) o / E ks           when worker i handles only commands already queued
                                     (n <= |command queue|) and the environment collects from
                                     worker i only events already queued (ks[i] <= |event queue|)
     T d / E ks, T d / T d', T d / X c  (always: only Worker::step reads the clock)
     T d / W i ..                    when no process of worker i has a timeout that is due at the
                                     later clock (clock + d), in a well-formed state: the worker step
                                     is then the same at both clocks
   `trace_equiv s` is the congruence generated by swapping adjacent independent actions (the
   state in which independence is judged is the one reached by the common prefix).
   `trace_equiv_sound`: equivalent schedules that run from s end in the SAME state — not just the
   same results.  The relation is symmetric (`trace_equiv_sym`), so the statement is an iff.

   What is still missing for the global schedule_independence of props/C03.v: (1) a clock tick is commuted
   with a worker step only when no timeout of that worker is due (otherwise the order matters: that
   is the semantics of timeouts); client calls are not commuted with worker / environment steps (a
   client call commutes with a bounded worker step like an environment step does, not proved); a Worker::step
   that drains its whole queue (k = None) is not independent of an Environment::step; (2) the
   oracle is part of the action: for a PROGRAM the slices are a function of what the process has
   seen, so a statement about programs needs the VM (C05/C07) to say that commuted steps produce
   the same slices; (3) equal results across different worker counts / quanta (placement changes
   pids' workers and stamps: placement_only_stamps is the local ingredient). *)
From Quiver Require Import sys.Proto sys.ProtoFail sys.ProtoMsg sys.ProtoCommute sys.ProtoWf sys.ProtoParked sys.ProtoDiamond.

Definition no_timeout_due (s : sys) (i : wid) (d : nat) : Prop :=
  WF s /\ forall nd, nth_error (s_nodes s) i = Some nd -> forall p, timed_out (s_clock s + d) (n_w nd) p = false.

Definition indep_at (s : sys) (a b : sched_action) : Prop :=
  match a, b with
  | W i None _, W j _ _ | W i (Some _) _, W j _ _ => i <> j
  | W i (Some n) _, E ks | E ks, W i (Some n) _ =>
      exists nd m, nth_error (s_nodes s) i = Some nd /\ n <= length (n_cmd nd) /\ nth_error ks i = Some m /\ m <= length (n_evt nd)
  | T _, E _ | E _, T _ | T _, T _ | T _, X _ | X _, T _ => True
  | T d, W i _ _ | W i _ _, T d => no_timeout_due s i d
  | _, _ => False
  end.

Lemma indep_at_sym s a b : indep_at s a b -> indep_at s b a.
Proof.
  destruct a as [i [n|] o|ks|d|c], b as [j [n'|] o'|ks'|d'|c']; simpl; try (intros H; exact H);
    intros H E; apply H; symmetry; exact E.
Qed.

Lemma timed_out_mono n1 n2 w p : n1 <= n2 -> timed_out n1 w p = true -> timed_out n2 w p = true.
Proof.
  intros L. unfold timed_out. destruct (alookup p (w_procs w)) as [pr|]; [|auto]. destruct (p_sel pr) as [sl|]; [|auto].
  destruct (sl_start sl) as [t0|]; [|auto]. intros H. apply existsb_exists in H. destruct H as (x&Hx&Hl).
  apply existsb_exists. exists x. split; [exact Hx|]. apply Nat.leb_le in Hl. apply Nat.leb_le. lia.
Qed.

Lemma expire_clock n1 n2 hint w :
  (forall p, mem p (w_selecting w) = true -> timed_out n1 w p = false /\ timed_out n2 w p = false) ->
  expire n1 hint w = expire n2 hint w.
Proof.
  intros H. unfold expire.
  assert (E: forall (f : pid -> bool) l, (forall x, In x l -> f x = false) -> filter f l = []).
  { intros f l. induction l as [|x l IH]; intros Hf; simpl; [reflexivity|]. rewrite (Hf x (or_introl eq_refl)). apply IH. intros y Hy. apply Hf. right; exact Hy. }
  rewrite (E (timed_out n1 w)), (E (timed_out n2 w)); [reflexivity| |]; intros p Hp; apply (H p); apply mem_in; exact Hp.
Qed.

Lemma node_step_clock e i n1 n2 k o nd :
  NInv e i (n_w nd) (n_cmd nd) -> n1 <= n2 -> (forall p, timed_out n2 (n_w nd) p = false) ->
  node_step i n1 k o nd = node_step i n2 k o nd.
Proof.
  intros HI L H. unfold node_step. pose proof (split_at_app k (n_cmd nd)) as Hs.
  destruct (split_at k (n_cmd nd)) as [pre later]. simpl in Hs. rewrite <- Hs in HI.
  destruct (handle_cmds pre (n_w nd)) as [[w1 e1]|] eqn:E1; cbn [rbind]; [|reflexivity].
  pose proof (par_handle_cmds e i pre (n_w nd) later w1 e1 HI E1) as P.
  assert (Ex: expire n1 (o_expired o) w1 = expire n2 (o_expired o) w1).
  { apply expire_clock. intros p Hp.
    assert (Hd: Some p <> None) by discriminate. destruct (P p Hd Hp) as (_&M).
    assert (T2: timed_out n2 w1 p = false).
    { specialize (H p). unfold timed_out in *. destruct (alookup p (w_procs w1)) as [a|], (alookup p (w_procs (n_w nd))) as [b|]; try contradiction; [|reflexivity].
      destruct M as (_&Ms). rewrite Ms. exact H. }
    split; [|exact T2]. destruct (timed_out n1 w1 p) eqn:T1; [|reflexivity].
    rewrite (timed_out_mono n1 n2 w1 p L T1) in T2. discriminate. }
  unfold exec_step. rewrite Ex. reflexivity.
Qed.

Definition tick (d : nat) (s : sys) : sys := {| s_nodes := s_nodes s; s_env := s_env s; s_clock := s_clock s + d |}.

Lemma step_tick s a d :
  match a with W i _ _ => no_timeout_due s i d | _ => True end ->
  sys_step (tick d s) a = match sys_step s a with Good s' => Good (tick d s') | Fault f => Fault f end.
Proof.
  destruct a as [i k o|ks|d'|c]; intros C; simpl.
  - destruct C as (Wf&H). destruct (nth_error (s_nodes s) i) as [nd|] eqn:Ei; [|reflexivity].
    destruct Wf as (_&N). rewrite <- (node_step_clock (s_env s) i (s_clock s) (s_clock s + d) k o nd (N i nd Ei)); [|lia|apply (H nd eq_refl)].
    destruct (node_step i (s_clock s) k o nd); reflexivity.
  - destruct (collect ks (s_nodes s)) as [evs ns]. destruct (handle_events (length (s_nodes s)) evs (s_env s, ns)) as [[e' ns']|]; reflexivity.
  - unfold tick. simpl. do 2 f_equal. lia.
  - unfold client_step. destruct c; try reflexivity; simpl; destruct (alookup p (e_router (s_env s))); reflexivity.
Qed.

(* the environment step from the state before a bounded worker step succeeds if it succeeds after it *)
Lemma env_step_backwards s i n o ks nd m s1 s2 :
  nth_error (s_nodes s) i = Some nd -> n <= length (n_cmd nd) -> nth_error ks i = Some m -> m <= length (n_evt nd) ->
  sys_step s (W i (Some n) o) = Good s1 -> sys_step s1 (E ks) = Good s2 ->
  exists s1', sys_step s (E ks) = Good s1'.
Proof.
  intros Hi Hn Hk Hm HW HE. simpl in HW. rewrite Hi in HW.
  destruct (node_step i (s_clock s) (Some n) o nd) as [nd'|] eqn:Es; cbn [rbind] in HW; [|discriminate].
  inversion HW; subst s1; clear HW.
  destruct (node_step_local _ _ _ _ _ _ Es) as (new&Ef&_).
  assert (U1: update_nth i (fun _ => nd') (s_nodes s) = update_nth i (wfun (n_w nd') n new) (s_nodes s)) by (eapply update_nth_at; [exact Hi|exact Ef]).
  simpl in HE. rewrite U1, (collect_wfun (n_w nd') n new (s_nodes s) ks i nd m Hi Hk Hm), update_nth_length in HE.
  simpl. destruct (collect ks (s_nodes s)) as [evs ns1]. simpl in HE.
  destruct (handle_events (length (s_nodes s)) evs (s_env s, update_nth i (wfun (n_w nd') n new) ns1)) as [[e' ns2]|] eqn:Eh; cbn [rbind] in HE; [|discriminate].
  destruct (handle_events_plan _ _ _ _ _ _ Eh) as (l&Pl). rewrite (Pl ns1). cbn [rbind]. eexists; reflexivity.
Qed.

(* the bounded worker step from the state before an environment step succeeds if it succeeds after it *)
Lemma worker_step_backwards s i n o ks nd m s1 s2 :
  nth_error (s_nodes s) i = Some nd -> n <= length (n_cmd nd) -> nth_error ks i = Some m -> m <= length (n_evt nd) ->
  sys_step s (E ks) = Good s1 -> sys_step s1 (W i (Some n) o) = Good s2 ->
  exists s1', sys_step s (W i (Some n) o) = Good s1'.
Proof.
  intros Hi Hn Hk Hm HE HW. simpl in HE.
  destruct (collect_node ks (s_nodes s) i nd Hi) as (nd1&Hn1&Hw1&Hc1).
  destruct (collect ks (s_nodes s)) as [evs ns1] eqn:Ec. simpl in Hn1.
  destruct (handle_events (length (s_nodes s)) evs (s_env s, ns1)) as [[e' ns2]|] eqn:Eh; cbn [rbind] in HE; [|discriminate].
  inversion HE; subst s1; clear HE.
  destruct (handle_events_plan _ _ _ _ _ _ Eh) as (l&Pl).
  assert (N2: ns2 = pushes l ns1) by (specialize (Pl ns1); rewrite Eh in Pl; inversion Pl; reflexivity).
  destruct (pushes_node i l ns1 nd1 Hn1) as (extra&Hn2). rewrite <- N2 in Hn2.
  simpl in HW. rewrite Hn2 in HW.
  destruct (node_step i (s_clock s) (Some n) o {| n_w := n_w nd1; n_cmd := n_cmd nd1 ++ extra; n_evt := n_evt nd1 |}) as [ndx|] eqn:Es; cbn [rbind] in HW; [|discriminate].
  destruct (node_step_local _ _ _ _ _ _ Es) as (new&_&Loc).
  simpl. rewrite Hi, (Loc nd). { cbn [rbind]. eexists; reflexivity. }
  - simpl. symmetry. exact Hw1.
  - simpl. rewrite Hc1, firstn_app. replace (n - length (n_cmd nd)) with 0 by lia. simpl. rewrite app_nil_r. reflexivity.
Qed.

(* swapping two adjacent independent actions *)
Theorem swap_independent s a b s1 s2 :
  indep_at s a b -> sys_step s a = Good s1 -> sys_step s1 b = Good s2 ->
  exists s1', sys_step s b = Good s1' /\ sys_step s1' a = Good s2.
Proof.
  intros Hin Ha Hb.
  assert (TickL: forall d, a = T d -> match b with W i _ _ => no_timeout_due s i d | _ => True end ->
            exists s1', sys_step s b = Good s1' /\ sys_step s1' a = Good s2).
  { intros d -> C. inversion Ha; subst s1. change (sys_step (tick d s) b = Good s2) in Hb. rewrite (step_tick _ _ _ C) in Hb.
    destruct (sys_step s b) as [s'|]; inversion Hb. exists s'. split; reflexivity. }
  assert (TickR: forall d, b = T d -> match a with W i _ _ => no_timeout_due s i d | _ => True end ->
            exists s1', sys_step s b = Good s1' /\ sys_step s1' a = Good s2).
  { intros d -> C. inversion Hb; subst s2. exists (tick d s). split; [reflexivity|]. rewrite (step_tick _ _ _ C), Ha. reflexivity. }
  (* two worker steps: worker_steps_commute; a pair with a clock tick: TickL / TickR; what is left are
     the two orders of a bounded worker step and an environment step *)
  destruct a as [i [n|] o|ks|d|c], b as [j [n'|] o'|ks'|d'|c']; simpl in Hin; try contradiction;
    try (eapply worker_steps_commute; eassumption); try (eapply TickL; [reflexivity|exact Hin]); try (eapply TickR; [reflexivity|exact Hin]).
  - destruct Hin as (nd&m&Hi&Hn&Hk&Hm).
    destruct (env_step_backwards s i n o ks' nd m s1 s2 Hi Hn Hk Hm Ha Hb) as (s1'&He).
    destruct (worker_env_diamond s i n o ks' nd m s1 s1' Hi Hn Hk Hm Ha He) as (s'&D1&D2).
    exists s1'. split; [exact He|]. rewrite Hb in D1. inversion D1; subst s'. exact D2.
  - destruct Hin as (nd&m&Hi&Hn&Hk&Hm).
    destruct (worker_step_backwards s j n' o' ks nd m s1 s2 Hi Hn Hk Hm Ha Hb) as (s1'&Hw).
    destruct (worker_env_diamond s j n' o' ks nd m s1' s1 Hi Hn Hk Hm Hw Ha) as (s'&D1&D2).
    exists s1'. split; [exact Hw|]. rewrite Hb in D2. inversion D2; subst s'. exact D1.
Qed.

Inductive trace_equiv : sys -> list sched_action -> list sched_action -> Prop :=
| te_refl s l : trace_equiv s l l
| te_swap s a b t : indep_at s a b -> trace_equiv s (a :: b :: t) (b :: a :: t)
| te_cons s a s' t t' : sys_step s a = Good s' -> trace_equiv s' t t' -> trace_equiv s (a :: t) (a :: t')
| te_stuck s a t t' f : sys_step s a = Fault f -> trace_equiv s (a :: t) (a :: t')   (* neither schedule runs: soundness speaks of Good runs only *)
| te_trans s l1 l2 l3 : trace_equiv s l1 l2 -> trace_equiv s l2 l3 -> trace_equiv s l1 l3.

Lemma trace_equiv_forward s l1 l2 : trace_equiv s l1 l2 -> forall s', run s l1 = Good s' -> run s l2 = Good s'.
Proof.
  intros H. induction H as [s l|s a b t Hin|s a s1 t t' Hs Ht IH|s a t t' f Hs|s l1 l2 l3 H1 IH1 H2 IH2]; intros s' Hr.
  - exact Hr.
  - simpl in Hr |- *. destruct (sys_step s a) as [sa|] eqn:Ea; cbn [rbind] in Hr; [|discriminate].
    destruct (sys_step sa b) as [sb|] eqn:Eb; cbn [rbind] in Hr; [|discriminate].
    destruct (swap_independent s a b sa sb Hin Ea Eb) as (s1'&E1&E2). rewrite E1. cbn [rbind]. rewrite E2. exact Hr.
  - simpl in Hr |- *. rewrite Hs in *. cbn [rbind] in *. apply IH. exact Hr.
  - simpl in Hr. rewrite Hs in Hr. discriminate.
  - apply IH2, IH1, Hr.
Qed.

Lemma trace_equiv_sym s l1 l2 : trace_equiv s l1 l2 -> trace_equiv s l2 l1.
Proof.
  intros H. induction H as [s l|s a b t Hin|s a s1 t t' Hs Ht IH|s a t t' f Hs|s l1 l2 l3 H1 IH1 H2 IH2].
  - apply te_refl.
  - apply te_swap. apply indep_at_sym. exact Hin.
  - eapply te_cons; eassumption.
  - eapply te_stuck; exact Hs.
  - eapply te_trans; eassumption.
Qed.

(* C03: schedules that differ by permuting adjacent independent actions reach the same state *)
Theorem trace_equiv_sound : forall s l1 l2, trace_equiv s l1 l2 -> forall s', run s l1 = Good s' <-> run s l2 = Good s'.
Proof.
  intros s l1 l2 H s'. split; [apply trace_equiv_forward; exact H|apply trace_equiv_forward, trace_equiv_sym; exact H].
Qed.

(* a special case that needs no state: any two interleavings of per-worker step sequences of
   DIFFERENT workers are equivalent when they differ by adjacent swaps *)
Lemma swap_workers s i j ki kj oi oj t : i <> j -> trace_equiv s (W i ki oi :: W j kj oj :: t) (W j kj oj :: W i ki oi :: t).
Proof. intros H. apply te_swap. destruct ki, kj; exact H. Qed.

(* non-vacuity: the two orders of ProtoDiamond.diamond_instance are trace-equivalent from the state
   after the client call, hence end in the same state *)
Example trace_equiv_instance :
  exists s0, sys_step (init 2) (X (XStart false)) = Good s0 /\
    trace_equiv s0 [W 0 (Some 1) (orc (Some 0) (d_act_ ASpawn)); E [0]] [E [0]; W 0 (Some 1) (orc (Some 0) (d_act_ ASpawn))] /\
    exists s', run s0 [W 0 (Some 1) (orc (Some 0) (d_act_ ASpawn)); E [0]] = Good s' /\
               run s0 [E [0]; W 0 (Some 1) (orc (Some 0) (d_act_ ASpawn))] = Good s'.
Proof.
  eexists. split; [reflexivity|]. split.
  - apply te_swap. simpl. eexists. exists 0. split; [reflexivity|]. split; [simpl; lia|]. split; [reflexivity|simpl; lia].
  - eexists. split; vm_compute; reflexivity.
Qed.

(* For schedules of Worker::step actions the independence "different workers" does not depend on
   the state, and Mazurkiewicz's characterisation holds: two schedules with the same per-worker
   subsequences are equivalent, hence reach the same state. *)
Definition is_W (a : sched_action) : Prop := match a with W _ _ _ => True | _ => False end.
Definition on_worker (i : wid) (a : sched_action) : bool := match a with W j _ _ => j =? i | _ => false end.
Definition proj (i : wid) (l : list sched_action) : list sched_action := filter (on_worker i) l.

Inductive wperm : list sched_action -> list sched_action -> Prop :=
| wp_refl l : wperm l l
| wp_swap i j ki kj oi oj t : i <> j -> wperm (W i ki oi :: W j kj oj :: t) (W j kj oj :: W i ki oi :: t)
| wp_cons a t t' : wperm t t' -> wperm (a :: t) (a :: t')
| wp_trans l1 l2 l3 : wperm l1 l2 -> wperm l2 l3 -> wperm l1 l3.

Lemma wperm_trace_equiv l1 l2 : wperm l1 l2 -> forall s, trace_equiv s l1 l2.
Proof.
  intros H. induction H as [l|i j ki kj oi oj t Hne|a t t' H IH|l1 l2 l3 H1 IH1 H2 IH2]; intros s.
  - apply te_refl.
  - apply swap_workers. exact Hne.
  - destruct (sys_step s a) as [s'|f] eqn:E; [eapply te_cons; [exact E|apply IH]|eapply te_stuck; exact E].
  - eapply te_trans; [apply IH1|apply IH2].
Qed.

Lemma proj_app i a b : proj i (a ++ b) = proj i a ++ proj i b.
Proof. apply filter_app. Qed.

Lemma split_first i k o : forall l r, Forall is_W l -> proj i l = W i k o :: r ->
  exists pre post, l = pre ++ W i k o :: post /\ proj i pre = [] /\ proj i post = r.
Proof.
  induction l as [|a l IH]; intros r F H; simpl in H; [discriminate|].
  inversion F as [|x y Fa Fl]; subst. destruct a as [j kj oj| | |]; try contradiction. simpl in H.
  destruct (j =? i) eqn:E.
  - apply Nat.eqb_eq in E. subst j. inversion H; subst. exists [], l. split; [reflexivity|]. split; reflexivity.
  - destruct (IH r Fl H) as (pre&post&E1&E2&E3). exists (W j kj oj :: pre), post. split; [simpl; rewrite E1; reflexivity|].
    split; [simpl; rewrite E; exact E2|exact E3].
Qed.

Lemma bubble i k o post : forall pre, Forall is_W pre -> proj i pre = [] -> wperm (W i k o :: pre ++ post) (pre ++ W i k o :: post).
Proof.
  induction pre as [|a pre IH]; intros F H; simpl; [apply wp_refl|].
  inversion F as [|x y Fa Fl]; subst. destruct a as [j kj oj| | |]; try contradiction. simpl in H.
  destruct (j =? i) eqn:E; [discriminate|]. apply Nat.eqb_neq in E.
  eapply wp_trans; [apply wp_swap; congruence|]. apply wp_cons, IH; assumption.
Qed.

Theorem same_projections_wperm : forall l1 l2,
  Forall is_W l1 -> Forall is_W l2 -> (forall i, proj i l1 = proj i l2) -> wperm l1 l2.
Proof.
  induction l1 as [|a l1 IH]; intros l2 F1 F2 H.
  - destruct l2 as [|b l2]; [apply wp_refl|]. exfalso. inversion F2 as [|x y Fb Fl]; subst.
    destruct b as [j kj oj| | |]; try contradiction. specialize (H j). simpl in H. rewrite Nat.eqb_refl in H. discriminate.
  - inversion F1 as [|x y Fa Fl]; subst. destruct a as [i k o| | |]; try contradiction.
    pose proof (H i) as Hi. simpl in Hi. rewrite Nat.eqb_refl in Hi. symmetry in Hi.
    destruct (split_first i k o l2 _ F2 Hi) as (pre&post&E1&E2&E3). subst l2.
    assert (Fpre: Forall is_W pre) by (apply Forall_app in F2; apply F2).
    assert (Fpost: Forall is_W post) by (apply Forall_app in F2; destruct F2 as (_&F2'); inversion F2'; assumption).
    eapply wp_trans; [|apply bubble; assumption].
    apply wp_cons. apply IH; [exact Fl|apply Forall_app; split; assumption|].
    intros j. rewrite proj_app. destruct (Nat.eq_dec j i) as [->|Hne].
    + rewrite E2, E3. reflexivity.
    + specialize (H j). simpl in H. rewrite proj_app in H. simpl in H.
      assert (Ej: (i =? j) = false) by (apply Nat.eqb_neq; intros C; apply Hne; symmetry; exact C).
      rewrite Ej in H. exact H.
Qed.

(* C03: worker steps may be scheduled in ANY order that keeps each worker's own order — the state
   reached is the same *)
Theorem worker_interleavings_agree : forall l1 l2 s s',
  Forall is_W l1 -> Forall is_W l2 -> (forall i, proj i l1 = proj i l2) ->
  (run s l1 = Good s' <-> run s l2 = Good s').
Proof.
  intros l1 l2 s s' F1 F2 H. apply trace_equiv_sound, wperm_trace_equiv, same_projections_wperm; assumption.
Qed.

(* non-vacuity: three workers; worker 0's two steps around the steps of workers 1 and 2 *)
Example worker_interleavings_instance :
  let a := W 0 None (orc None idle_did) in let b := W 1 None (orc None idle_did) in let c := W 2 None (orc None idle_did) in
  (forall i, proj i [a; b; c; a] = proj i [c; a; a; b]) /\
  exists s', run (init 3) [a; b; c; a] = Good s' /\ run (init 3) [c; a; a; b] = Good s'.
Proof.
  split; [intros [|[|[|i]]]; reflexivity|]. eexists. split; vm_compute; reflexivity.
Qed.

(* non-vacuity of the clock case: a tick and a worker step of a worker without timeouts, both orders *)
Example clock_swap_instance :
  exists s0, sys_step (init 2) (X (XStart false)) = Good s0 /\
    trace_equiv s0 [T 5; W 0 None (orc (Some 0) (d_act_ ASpawn))] [W 0 None (orc (Some 0) (d_act_ ASpawn)); T 5] /\
    exists s', run s0 [T 5; W 0 None (orc (Some 0) (d_act_ ASpawn))] = Good s' /\
               run s0 [W 0 None (orc (Some 0) (d_act_ ASpawn)); T 5] = Good s' /\ s_clock s' = 5.
Proof.
  eexists. split; [reflexivity|]. split.
  - apply te_swap. simpl. split.
    + apply (WF_step (init 2) (X (XStart false))); [apply WF_init|reflexivity].
    + intros nd Hn p. simpl in Hn. inversion Hn; subst nd. reflexivity.
  - eexists. split; [vm_compute; reflexivity|]. split; vm_compute; reflexivity.
Qed.
