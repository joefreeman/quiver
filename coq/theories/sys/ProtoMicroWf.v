(* ProtoMicroWf.v — the well-formedness invariant WF of ProtoWf.v is preserved by every micro-step
   (ProtoMicro.v), so it is available at the intermediate states of a Worker::step /
   Environment::step. *)
From Quiver Require Import sys.Proto sys.ProtoWf sys.ProtoMicro.

Lemma WFe_set_node e ns i nd' :
  WFe e ns -> NInv e i (n_w nd') (n_cmd nd') -> WFe e (set_node i nd' ns).
Proof. intros (B&N) H. split; [exact B|]. apply (set_node_all (fun j x => NInv e j (n_w x) (n_cmd x))); assumption. Qed.

Lemma NInv_handle_cmd e i c w rest w' ev : NInv e i w (c :: rest) -> handle_cmd c w = Good (w', ev) -> NInv e i w' rest.
Proof. intros HI H. apply (NInv_handle_cmds e i [c] w rest w' (ev ++ [])); [exact HI|]. simpl. rewrite H. reflexivity. Qed.

Theorem WF_mstep s l s' : WF s -> mstep s l s' -> WF s'.
Proof.
  intros W M.
  destruct M as [ns e clk i nd c rest w' evs Hn Hc Hh
                |ns e clk i nd o w' evs Hn Hx
                |ns e clk i nd hint w' evs Hn Hk
                |ns e clk i nd ev rest e' ns' Hn Hq He
                |ns e clk d
                |s c s' Hc]; unfold WF in *; simpl in *.
  - apply WFe_set_node; [exact W|]. simpl. destruct W as (_&N). specialize (N i nd Hn).
    apply (NInv_handle_cmd e i c (n_w nd) rest w' evs); [rewrite <- Hc; exact N|exact Hh].
  - apply WFe_set_node; [exact W|]. simpl. destruct W as (_&N). specialize (N i nd Hn).
    eapply NInv_ke; [eapply ke_exec_step; exact Hx|eapply SW_exec_step; [exact Hx|apply N]|exact N].
  - apply WFe_set_node; [exact W|]. simpl. destruct W as (_&N). specialize (N i nd Hn).
    eapply NInv_ke; [eapply ke_check_completed; exact Hk|eapply SW_check_completed; [exact Hk|apply N]|exact N].
  - eapply handle_event_WFe; [exact He|]. apply WFe_set_node; [exact W|]. simpl. destruct W as (_&N). apply (N i nd Hn).
  - exact W.
  - (* a client call is one micro-step and one big step *)
    apply (WF_step s (X c) s' W). exact Hc.
Qed.
