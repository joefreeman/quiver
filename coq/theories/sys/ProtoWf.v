(* ProtoWf.v — well-formedness of the executor's scheduling state in M-Sys (sys/Proto.v), an
   invariant of every run: process ids are unique, the run queue has no duplicates, the run queue
   and the parked sets `spawning` / `selecting` are pairwise disjoint and only hold existing
   processes, and a process that has completed successfully is in none of them. *)
From Quiver Require Import sys.Proto sys.ProtoFail sys.ProtoMsg sys.ProtoFifo sys.ProtoDeliver.

Definition okres (w : worker) (p : pid) : Prop :=
  forall pr v, alookup p (w_procs w) = Some pr -> p_res pr <> Some (ROk v).

Record SW (w : worker) : Prop := {
  sw_keys : NoDup (map fst (w_procs w));
  sw_nq : NoDup (w_queue w);
  sw_sp : forall p, mem p (w_spawning w) = true -> ~ In p (w_queue w) /\ mem p (w_selecting w) = false;
  sw_se : forall p, mem p (w_selecting w) = true -> ~ In p (w_queue w);
  sw_has : forall p, In p (w_queue w) \/ mem p (w_spawning w) = true \/ mem p (w_selecting w) = true -> has p w;
  sw_res : forall p, In p (w_queue w) \/ mem p (w_spawning w) = true \/ mem p (w_selecting w) = true -> okres w p;
}.

Lemma mem_false_in x l : mem x l = false <-> ~ In x l.
Proof.
  rewrite <- mem_in. destruct (mem x l); split; intros H; try discriminate; auto;
    try (exfalso; apply H; reflexivity); try (intros E; discriminate).
Qed.
Definition sched (p : pid) (w : worker) : Prop :=
  In p (w_queue w) \/ mem p (w_spawning w) = true \/ mem p (w_selecting w) = true.

Lemma SW_live w p : SW w -> sched p w -> has p w /\ okres w p.
Proof. intros S Hp. split; [apply (sw_has w S)|apply (sw_res w S)]; exact Hp. Qed.

Lemma SW_intro w :
  NoDup (map fst (w_procs w)) -> NoDup (w_queue w) ->
  (forall p, mem p (w_spawning w) = true -> ~ In p (w_queue w) /\ mem p (w_selecting w) = false) ->
  (forall p, mem p (w_selecting w) = true -> ~ In p (w_queue w)) ->
  (forall p, sched p w -> has p w /\ okres w p) -> SW w.
Proof. intros K N S1 S2 L. constructor; auto; intros p Hp; apply (L p Hp). Qed.

Lemma SW_same_sched w w' :
  w_procs w' = w_procs w -> w_queue w' = w_queue w -> w_spawning w' = w_spawning w -> w_selecting w' = w_selecting w ->
  SW w -> SW w'.
Proof.
  intros E1 E2 E3 E4 [K N S1 S2 H R].
  constructor; unfold has, okres in *; rewrite ?E1, ?E2, ?E3, ?E4; auto.
Qed.

Lemma SW_set_ghost w n a b c : SW w -> SW (set_ghost w n a b c).
Proof. apply SW_same_sched; reflexivity. Qed.


Lemma SW_set_proc p pr1 w :
  (sched p w -> forall v, p_res pr1 <> Some (ROk v)) -> SW w -> SW (set_procs w (aset p pr1 (w_procs w))).
Proof.
  intros Hp [K N S1 S2 H R]. constructor; simpl; auto.
  - rewrite keys_aset_sadd. apply NoDup_sadd, K.
  - intros q Hq. unfold has. simpl. rewrite alookup_aset. destruct (q =? p); [discriminate|apply (H q Hq)].
  - intros q Hq pr' v. simpl. rewrite alookup_aset. destruct (q =? p) eqn:E; [|apply (R q Hq)].
    apply Nat.eqb_eq in E; subst q. intros E1; inversion E1; subst pr'. apply (Hp Hq).
Qed.

(* updating an existing process with a function that never creates an Ok result *)
Definition no_ok (f : proc -> proc) : Prop := forall pr v, p_res (f pr) = Some (ROk v) -> p_res pr = Some (ROk v).

Lemma SW_upd_proc p f w : no_ok f -> SW w -> SW (upd_proc p f w).
Proof.
  intros Hf S. unfold upd_proc. destruct (alookup p (w_procs w)) as [pr|] eqn:El; [|exact S].
  apply SW_set_proc; [|exact S]. intros Hq v E. apply Hf in E. exact (sw_res w S p Hq pr v El E).
Qed.

Lemma no_ok_with_awaiting a : no_ok (fun pr => with_awaiting a pr). Proof. intros pr v H; exact H. Qed.
Lemma no_ok_with_awaiting_f (g : proc -> list (pid * option res)) : no_ok (fun pr => with_awaiting (g pr) pr).
Proof. intros pr v H; exact H. Qed.
Lemma no_ok_with_mail (g1 g2 g3 : proc -> list msg) : no_ok (fun pr => with_mail (g1 pr) (g2 pr) (g3 pr) pr).
Proof. intros pr v H; exact H. Qed.
Lemma no_ok_err e : no_ok (with_res (Some (RErr e))). Proof. intros pr v H; discriminate. Qed.
Lemma no_ok_none : no_ok (with_res None). Proof. intros pr v H; discriminate. Qed.

(* a brand-new process *)
Lemma SW_new_proc p pr0 w : ~ has p w -> SW w -> SW (set_procs w (aset p pr0 (w_procs w))).
Proof. intros Hn S. apply SW_set_proc; [|exact S]. intros Hq. exfalso. apply Hn, (sw_has w S p Hq). Qed.

Lemma SW_wake p w : SW w -> SW (wake_selecting p w).
Proof.
  intros S. unfold wake_selecting. destruct (mem p (w_selecting w)) eqn:Ep; [|exact S].
  pose proof (fun q => SW_live w q S) as L. destruct S as [K N S1 S2 _ _]. apply SW_intro; unfold sched; simpl; auto.
  - apply NoDup_app_one; [exact N|apply S2; exact Ep].
  - intros q Hq. destruct (S1 q Hq) as (A&B). split.
    + intros Hin. apply in_app_or in Hin. destruct Hin as [Hin|[->|[]]]; [contradiction|]. congruence.
    + rewrite mem_sremove, B. reflexivity.
  - intros q Hq. rewrite mem_sremove in Hq. apply andb_true_iff in Hq. destruct Hq as (A&B).
    intros Hin. apply in_app_or in Hin. destruct Hin as [Hin|[->|[]]]; [apply (S2 q A); exact Hin|].
    rewrite Nat.eqb_refl in B. discriminate.
  - intros q [Hq|[Hq|Hq]]; apply L.
    + apply in_app_or in Hq. destruct Hq as [Hq|[->|[]]]; [left; exact Hq|right; right; exact Ep].
    + right; left; exact Hq.
    + rewrite mem_sremove in Hq. apply andb_true_iff in Hq. right; right; apply Hq.
Qed.

(* push a process that is in no set yet *)
Lemma SW_enqueue p w :
  has p w -> okres w p -> ~ In p (w_queue w) -> mem p (w_spawning w) = false -> mem p (w_selecting w) = false ->
  SW w -> SW (enqueue p w).
Proof.
  intros Hh Ho Hq Hs1 Hs2 S. pose proof (fun q => SW_live w q S) as L. destruct S as [K N S1 S2 _ _].
  apply SW_intro; unfold sched; simpl; auto.
  - apply NoDup_app_one; assumption.
  - intros q Hq'. destruct (S1 q Hq') as (A&B). split; [|exact B].
    intros Hin. apply in_app_or in Hin. destruct Hin as [Hin|[->|[]]]; [contradiction|congruence].
  - intros q Hq' Hin. apply in_app_or in Hin. destruct Hin as [Hin|[->|[]]]; [apply (S2 q Hq'); exact Hin|congruence].
  - intros q [Hq'|Hq']; [apply in_app_or in Hq'; destruct Hq' as [Hq'|[->|[]]]; [apply L; left; exact Hq'|split; assumption]|apply L; right; exact Hq'].
Qed.

Lemma SW_mark_selecting p w :
  has p w -> okres w p -> mem p (w_spawning w) = false -> SW w -> SW (mark_selecting p w).
Proof.
  intros Hh Ho Hs1 S. pose proof (fun q => SW_live w q S) as L. destruct S as [K N S1 S2 _ _].
  apply SW_intro; unfold sched; simpl; auto.
  - apply NoDup_filter; exact N.
  - intros q Hq. destruct (S1 q Hq) as (A&B). split.
    + intros Hin. apply in_sremove in Hin. apply A, Hin.
    + rewrite mem_sadd, B. simpl. apply Nat.eqb_neq. intros ->. congruence.
  - intros q Hq Hin. apply in_sremove in Hin. destruct Hin as (Hin&Hne).
    rewrite mem_sadd in Hq. apply orb_true_iff in Hq. destruct Hq as [Hq|Hq]; [apply (S2 q Hq); exact Hin|].
    apply Nat.eqb_eq in Hq. contradiction.
  - intros q [Hq|[Hq|Hq]].
    + apply in_sremove in Hq. apply L; left; apply Hq.
    + apply L; right; left; exact Hq.
    + rewrite mem_sadd in Hq. apply orb_true_iff in Hq.
      destruct Hq as [Hq|Hq]; [apply L; right; right; exact Hq|apply Nat.eqb_eq in Hq; subst; split; assumption].
Qed.

Lemma SW_mark_spawning p w :
  has p w -> okres w p -> mem p (w_selecting w) = false -> SW w -> SW (mark_spawning p w).
Proof.
  intros Hh Ho Hs2 S. pose proof (fun q => SW_live w q S) as L. destruct S as [K N S1 S2 _ _].
  apply SW_intro; unfold sched; simpl; auto.
  - apply NoDup_filter; exact N.
  - intros q Hq. rewrite mem_sadd in Hq. apply orb_true_iff in Hq. destruct Hq as [Hq|Hq].
    + destruct (S1 q Hq) as (A&B). split; [|exact B]. intros Hin. apply in_sremove in Hin. apply A, Hin.
    + apply Nat.eqb_eq in Hq; subst q. split; [|exact Hs2]. intros Hin. apply in_sremove in Hin. destruct Hin as (_&Hne). congruence.
  - intros q Hq Hin. apply in_sremove in Hin. apply (S2 q Hq), Hin.
  - intros q [Hq|[Hq|Hq]].
    + apply in_sremove in Hq. apply L; left; apply Hq.
    + rewrite mem_sadd in Hq. apply orb_true_iff in Hq.
      destruct Hq as [Hq|Hq]; [apply L; right; left; exact Hq|apply Nat.eqb_eq in Hq; subst; split; assumption].
    + apply L; right; right; exact Hq.
Qed.

(* pop the head of the run queue *)
Lemma SW_pop p q' w : w_queue w = p :: q' -> SW w ->
  SW (set_sched w q' (w_spawning w) (w_selecting w)) /\ ~ In p q' /\ mem p (w_spawning w) = false /\ mem p (w_selecting w) = false
  /\ has p w /\ okres w p.
Proof.
  intros Eq S. pose proof (fun q => SW_live w q S) as L. destruct S as [K N S1 S2 _ _]. unfold sched in L. rewrite Eq in *. inversion N; subst.
  assert (Hsp: mem p (w_spawning w) = false).
  { destruct (mem p (w_spawning w)) eqn:E; [|reflexivity]. destruct (S1 p E) as (A&_). exfalso. apply A. left; reflexivity. }
  assert (Hse: mem p (w_selecting w) = false).
  { destruct (mem p (w_selecting w)) eqn:E; [|reflexivity]. exfalso. apply (S2 p E). left; reflexivity. }
  split; [|repeat split; auto; apply L; left; left; reflexivity].
  apply SW_intro; unfold sched; simpl; auto.
  - intros q Hq. destruct (S1 q Hq) as (A&B). split; [|exact B]. intros Hin. apply A. right; exact Hin.
  - intros q Hq Hin. apply (S2 q Hq). right; exact Hin.
  - intros q [Hq|Hq]; apply L; [left; right; exact Hq|right; exact Hq].
Qed.

Lemma SW_notify_result a b r w : SW w -> SW (notify_result a b r w).
Proof.
  intros H. unfold notify_result. destruct (awaits a b w); [|apply SW_wake; exact H].
  apply SW_wake. apply SW_upd_proc; [apply (no_ok_with_awaiting_f (fun pr => aset b (Some r) (p_awaiting pr)))|exact H].
Qed.
Lemma SW_worker_notify a b r w : SW w -> SW (worker_notify a b r w).
Proof.
  intros H. unfold worker_notify. destruct r as [v|e]; [apply SW_notify_result; exact H|].
  destruct (awaits a b w); [apply SW_upd_proc; [apply no_ok_err|exact H]|apply SW_wake; exact H].
Qed.
Lemma SW_fold {A} (f : worker -> A -> worker) l : (forall w x, SW w -> SW (f w x)) -> forall w, SW w -> SW (fold_left f l w).
Proof. intros Hf. induction l as [|x l IH]; intros w H; simpl; [exact H|]. apply IH, Hf, H. Qed.
Lemma SW_update_await a rs w : SW w -> SW (update_await a rs w).
Proof.
  intros H. unfold update_await. set (w1 := fold_left _ rs w).
  assert (H1: SW w1).
  { apply SW_fold; [|exact H]. intros w0 x H0. destruct (snd x); [apply SW_worker_notify; exact H0|exact H0]. }
  destruct (existsb _ rs); [exact H1|apply SW_wake; exact H1].
Qed.
Lemma SW_book_only w w' : book_only w w' -> SW w -> SW w'.
Proof. intros (A&B&C&D&_). apply SW_same_sched; assumption. Qed.

Lemma okres_none_has p w : has p w -> (forall pr, alookup p (w_procs w) = Some pr -> p_res pr = None) -> okres w p.
Proof. intros _ H pr v Hl E. rewrite (H pr Hl) in E. discriminate. Qed.

Definition free (p : pid) (w : worker) : Prop :=
  ~ In p (w_queue w) /\ mem p (w_spawning w) = false /\ mem p (w_selecting w) = false.

Lemma free_unsched p w : ~ sched p w -> free p w.
Proof.
  intros H. repeat split.
  - intros X. apply H. left; exact X.
  - destruct (mem p (w_spawning w)) eqn:E; [exfalso; apply H; right; left; exact E|reflexivity].
  - destruct (mem p (w_selecting w)) eqn:E; [exfalso; apply H; right; right; exact E|reflexivity].
Qed.
Lemma not_in_sets_of_nohas p w : SW w -> ~ has p w -> free p w.
Proof. intros S Hn. apply free_unsched. intros Hs. apply Hn, (SW_live w p S Hs). Qed.
Lemma not_in_sets_of_ok p w pr v : SW w -> alookup p (w_procs w) = Some pr -> p_res pr = Some (ROk v) -> free p w.
Proof. intros S Hl Hr. apply free_unsched. intros Hs. exact (proj2 (SW_live w p S Hs) pr v Hl Hr). Qed.

Lemma SW_birth p pr0 w :
  ~ has p w -> p_res pr0 = None -> SW w -> SW (enqueue p (set_procs w (aset p pr0 (w_procs w)))).
Proof.
  intros Hn Hr HS. destruct (not_in_sets_of_nohas p w HS Hn) as (A&B&C).
  apply SW_enqueue; simpl; try assumption.
  - unfold has. simpl. rewrite alookup_aset_eq. discriminate.
  - intros pr v. simpl. rewrite alookup_aset_eq. intros E; inversion E; subst. congruence.
  - apply SW_new_proc; assumption.
Qed.

(* Worker::handle_command, given that a spawn command names a process that does not exist yet *)
Lemma SW_handle_cmd c w w' ev :
  (forall p, spawns c = Some p -> ~ has p w) ->
  handle_cmd c w = Good (w', ev) -> SW w -> SW w'.
Proof.
  intros Hfresh H HS. destruct c; simpl in H.
  - inversion H; subst; exact HS.
  - inversion H; subst; exact HS.
  - destruct sleeping; inversion H; subst; [apply SW_new_proc|apply SW_birth]; auto.
  - inversion H; subst. apply SW_birth; auto.
  - (* resume *)
    destruct (alookup p (w_procs w)) as [pr|] eqn:El; [|discriminate].
    destruct (p_res pr) as [[v|e]|] eqn:Er; try discriminate. destruct (p_pers pr); [|discriminate].
    inversion H; subst; clear H.
    destruct (not_in_sets_of_ok p w pr v HS El Er) as (A&B&C).
    destruct (upd_proc_sched p (with_res None) w) as (S1&S2&S3).
    apply SW_enqueue; rewrite ?S1, ?S2, ?S3; try assumption.
    + unfold has. rewrite (upd_proc_same p (with_res None) w pr El). discriminate.
    + intros pr' v'. rewrite (upd_proc_same p (with_res None) w pr El). intros E; inversion E; subst. discriminate.
    + apply SW_upd_proc; [apply no_ok_none|exact HS].
  - destruct (fold_left (query_one awaiter) targets (w, [])) as [w1 rs] eqn:E. inversion H; subst.
    pose proof (query_fold_book awaiter targets w []) as Q. rewrite E in Q. exact (SW_book_only _ _ Q HS).
  - inversion H; subst. apply SW_update_await; exact HS.
  - destruct (alookup target (w_procs w)) as [pr|]; inversion H; subst; clear H.
    + apply SW_wake. apply SW_upd_proc.
      * apply (no_ok_with_mail (fun pr0 => p_mail pr0 ++ [m]) (fun pr0 => p_arrived pr0 ++ [m]) (fun pr0 => p_taken pr0)).
      * apply SW_set_ghost, HS.
    + apply SW_wake, SW_set_ghost, HS.
  - (* notify spawn *)
    destruct (mem p (w_spawning w)) eqn:Ep; inversion H; subst; clear H; [|exact HS].
    pose proof (fun q => SW_live w q HS) as L. destruct HS as [K N S1 S2 _ _]. destruct (S1 p Ep) as (A&B).
    destruct (L p) as (Hp&_); [right; left; exact Ep|].
    unfold has in Hp. destruct (alookup p (w_procs w)) as [pr|] eqn:El; [|contradiction].
    apply SW_intro; unfold sched; simpl; auto.
    + apply NoDup_app_one; assumption.
    + intros q Hq. rewrite mem_sremove in Hq. apply andb_true_iff in Hq. destruct Hq as (Hq&Hne).
      destruct (S1 q Hq) as (A1&B1). split; [|exact B1].
      intros Hin. apply in_app_or in Hin. destruct Hin as [Hin|[->|[]]]; [contradiction|]. rewrite Nat.eqb_refl in Hne. discriminate.
    + intros q Hq Hin. apply in_app_or in Hin. destruct Hin as [Hin|[->|[]]]; [apply (S2 q Hq); exact Hin|congruence].
    + intros q [Hq|[Hq|Hq]]; apply L.
      * apply in_app_or in Hq. destruct Hq as [Hq|[->|[]]]; [left; exact Hq|right; left; exact Ep].
      * rewrite mem_sremove in Hq. apply andb_true_iff in Hq. right; left; apply Hq.
      * right; right; exact Hq.
  - destruct (alookup p (w_procs w)) as [pr|]; [|discriminate].
    destruct (p_res pr); inversion H; subst; [exact HS|]. eapply SW_same_sched; [| | | |exact HS]; reflexivity.
Qed.

Lemma order_by_nodup hint set o : order_by hint set = Some o -> NoDup o.
Proof.
  unfold order_by. destruct (_ && _); [|discriminate]. intros H; inversion H; subst.
  apply NoDup_filter. apply NoDup_nodup.
Qed.

Lemma NoDup_snoc_inv {A} (l : list A) a : NoDup (l ++ [a]) -> NoDup l /\ ~ In a l.
Proof. intros H. apply NoDup_remove in H. rewrite app_nil_r in H. exact H. Qed.

Lemma SW_expire now hint w w' : expire now hint w = Good w' -> SW w -> SW w'.
Proof.
  unfold expire. set (ex := filter (timed_out now w) (w_selecting w)).
  destruct (order_by hint ex) as [o|] eqn:Eo; [|discriminate]. intros H; inversion H; subst w'; clear H.
  intros HS. pose proof (fun q => SW_live w q HS) as L. destruct HS as [K N S1 S2 _ _].
  assert (Osub: forall x, In x o -> mem x (w_selecting w) = true /\ mem x ex = true).
  { intros x Hx. pose proof (order_by_sub _ _ _ Eo x Hx) as Hm. split; [|exact Hm].
    apply mem_in in Hm. unfold ex in Hm. apply filter_In in Hm. apply mem_in. apply Hm. }
  assert (Sel': forall q, mem q (filter (fun p => negb (mem p ex)) (w_selecting w)) = true -> mem q (w_selecting w) = true /\ mem q ex = false).
  { intros q Hq. apply mem_in, filter_In in Hq. destruct Hq as (A&B). split; [apply mem_in; exact A|]. apply Bool.negb_true_iff in B. exact B. }
  apply SW_intro; unfold sched; simpl; auto.
  - (* NoDup (queue ++ o) *)
    clear -N S2 Osub Eo. pose proof (order_by_nodup _ _ _ Eo) as No.
    revert No Osub. generalize o. intros l. induction l as [|a l IH] using rev_ind; intros No Osub; [rewrite app_nil_r; exact N|].
    destruct (NoDup_snoc_inv _ _ No) as (No1&No2).
    rewrite app_assoc. apply NoDup_app_one.
    + apply IH; [exact No1|]. intros x Hx. apply Osub. apply in_or_app; left; exact Hx.
    + intros Hin. apply in_app_or in Hin. destruct Hin as [Hin|Hin]; [|contradiction].
      destruct (Osub a) as (A&_); [apply in_or_app; right; left; reflexivity|]. apply (S2 a A). exact Hin.
  - intros q Hq. destruct (S1 q Hq) as (A&B). split.
    + intros Hin. apply in_app_or in Hin. destruct Hin as [Hin|Hin]; [contradiction|]. destruct (Osub q Hin) as (C&_). congruence.
    + destruct (mem q (filter (fun p => negb (mem p ex)) (w_selecting w))) eqn:E; [|reflexivity]. destruct (Sel' q E) as (C&_). congruence.
  - intros q Hq Hin. destruct (Sel' q Hq) as (A&B). apply in_app_or in Hin. destruct Hin as [Hin|Hin]; [apply (S2 q A); exact Hin|].
    destruct (Osub q Hin) as (_&C). congruence.
  - intros q [Hq|[Hq|Hq]]; apply L.
    + apply in_app_or in Hq. destruct Hq as [Hq|Hq]; [left; exact Hq|right; right; apply (Osub q Hq)].
    + right; left; exact Hq.
    + right; right; apply (Sel' q Hq).
Qed.

Lemma SW_notify_local p r h w q : SW w -> SW (notify_local p r h w q).
Proof.
  intros H. unfold notify_local. destruct r as [v|e]; [destruct h; [exact H|apply SW_notify_result; exact H]|].
  apply SW_upd_proc; [apply no_ok_err|exact H].
Qed.

Lemma SW_finish p r h hint w w' : finish p r h hint w = Good w' -> free p w -> SW w -> SW w'.
Proof.
  unfold finish. destruct (order_by hint _) as [o|]; [|discriminate]. intros H; inversion H; subst; clear H.
  intros (F1&F2&F3) HS. apply SW_fold; [intros; apply SW_notify_local; assumption|].
  unfold upd_proc. destruct (alookup p (w_procs w)) as [pr|]; [|exact HS].
  apply SW_set_proc; [|exact HS]. intros [A|[A|A]]; [contradiction|congruence|congruence].
Qed.

Lemma SW_check_completed hint w w' ev : check_completed hint w = Good (w', ev) -> SW w -> SW w'.
Proof. intros H. apply SW_book_only. apply check_completed_book in H. apply H. Qed.

(* one time slice of a process that has just been popped from the run queue *)
Lemma SW_run_slice i p pr d hint w w' ev :
  run_slice i p pr d hint w = Good (w', ev) ->
  alookup p (w_procs w) = Some pr -> free p w -> okres w p -> SW w -> SW w'.
Proof.
  unfold run_slice. destruct (did_ok d) eqn:Edid; simpl; [|discriminate].
  destruct (take_seq (d_taken d) (p_mail pr)) as [[taken mail']|]; [|discriminate].
  set (pr1 := with_awaiting _ _). set (w1 := set_procs w (aset p pr1 (w_procs w))).
  intros H Hl (F1&F2&F3) Ho HS.
  assert (Hh: has p w) by (unfold has; rewrite Hl; discriminate).
  assert (HS1: SW w1) by (apply SW_set_proc; [intros [A|[A|A]]; [contradiction|congruence|congruence]|exact HS]).
  assert (Hh1: has p w1) by (unfold has, w1; simpl; rewrite alookup_aset_eq; discriminate).
  assert (Ho1: okres w1 p).
  { intros pr' v. simpl. rewrite alookup_aset_eq. intros E; inversion E; subst pr'. exact (Ho pr v Hl). }
  unfold did_ok in Edid.
  destruct (d_act d) as [[| t | ts]|]; destruct (d_fin d) as [r|]; destruct (d_park d); simpl in Edid; try discriminate; simpl in H.
  - (* spawn, running on *)
    assert (HS2: SW (mark_spawning p w1)) by (apply SW_mark_spawning; assumption).
    simpl in H. rewrite mem_sadd_same in H. simpl in H. inversion H; subst. exact HS2.
  - (* deliver + finish *)
    set (w2 := set_ghost w1 _ _ _ _) in H.
    assert (HS2: SW w2) by apply SW_set_ghost, HS1.
    destruct (finish p r (d_heapy d) hint w2) as [w4|] eqn:F; simpl in H; [|discriminate]. inversion H; subst.
    eapply SW_finish; [exact F|repeat split; assumption|exact HS2].
  - (* deliver + park *)
    set (w2 := set_ghost w1 _ _ _ _) in H.
    assert (HS2: SW w2) by apply SW_set_ghost, HS1.
    assert (HS3: SW (mark_selecting p w2)) by (apply SW_mark_selecting; assumption).
    simpl in H. rewrite mem_sadd_same, ?orb_true_r in H. inversion H; subst. exact HS3.
  - (* deliver, running on *)
    set (w2 := set_ghost w1 _ _ _ _) in H.
    assert (HS2: SW w2) by apply SW_set_ghost, HS1.
    simpl in H. rewrite F2, F3 in H. simpl in H. inversion H; subst.
    apply SW_enqueue; try assumption.
  - (* await *)
    set (w2 := upd_proc p _ w1) in H.
    assert (HS2: SW w2) by (apply SW_upd_proc; [apply (no_ok_with_awaiting_f (fun q => fold_left (fun a t => aset t None a) ts (p_awaiting q)))|exact HS1]).
    destruct (upd_proc_sched p (fun q => with_awaiting (fold_left (fun a t => aset t None a) ts (p_awaiting q)) q) w1) as (S1&S2&S3). fold w2 in S1, S2, S3.
    assert (Hh2: has p w2) by (apply (pk_upd_proc p _ w1); exact Hh1).
    assert (Ho2: okres w2 p).
    { intros pr' v. unfold w2. rewrite (upd_proc_same p _ w1 pr1); [|unfold w1; simpl; apply alookup_aset_eq].
      intros E; inversion E; subst pr'. simpl. apply (Ho pr v Hl). }
    assert (HS3: SW (mark_selecting p w2)) by (apply SW_mark_selecting; [exact Hh2|exact Ho2|rewrite S2; exact F2|exact HS2]).
    simpl in H. rewrite mem_sadd_same, ?orb_true_r in H. inversion H; subst. exact HS3.
  - (* finish *)
    destruct (finish p r (d_heapy d) hint w1) as [w4|] eqn:F; simpl in H; [|discriminate]. inversion H; subst.
    eapply SW_finish; [exact F|repeat split; assumption|exact HS1].
  - (* park *)
    assert (HS3: SW (mark_selecting p w1)) by (apply SW_mark_selecting; assumption).
    simpl in H. rewrite mem_sadd_same, ?orb_true_r in H. inversion H; subst. exact HS3.
  - (* running on *)
    simpl in H. rewrite F2, F3 in H. simpl in H. inversion H; subst. apply SW_enqueue; assumption.
Qed.

Theorem SW_exec_step i now o w w' ev : exec_step i now o w = Good (w', ev) -> SW w -> SW w'.
Proof.
  unfold exec_step. destruct (expire now (o_expired o) w) as [w1|] eqn:E; simpl; [|discriminate].
  intros H HS. pose proof (SW_expire _ _ _ _ E HS) as HS1.
  destruct (w_queue w1) as [|p q'] eqn:Eq; [inversion H; subst; exact HS1|].
  destruct (SW_pop p q' w1 Eq HS1) as (HS2&P1&P2&P3&P4&P5).
  set (w2 := set_sched w1 q' (w_spawning w1) (w_selecting w1)) in *.
  simpl in H. destruct (alookup p (w_procs w1)) as [pr|] eqn:El; [|inversion H; subst; exact HS2].
  destruct (match o_pid o with Some p' => p =? p' | None => false end).
  - eapply SW_run_slice; [exact H|exact El|repeat split; assumption|exact P5|exact HS2].
  - destruct (p_res pr) as [[v|e]|]; try discriminate.
    destruct (finish p (RErr e) false (o_awaiters o) w2) as [w3|] eqn:F; simpl in H; [|discriminate]. inversion H; subst.
    eapply SW_finish; [exact F|repeat split; assumption|exact HS2].
Qed.

Definition keys (w : worker) : list pid := map fst (w_procs w).
Lemma has_keys p w : has p w <-> In p (keys w).
Proof. apply has_in. Qed.

Definition ke (w w' : worker) : Prop := keys w' = keys w.
Lemma ke_trans a b c : ke a b -> ke b c -> ke a c. Proof. unfold ke; congruence. Qed.

(* a command adds exactly the process it spawns (if that is new) *)
Lemma handle_cmd_keys c w w' ev : handle_cmd c w = Good (w', ev) ->
  (forall p, spawns c = Some p -> ~ has p w) ->
  keys w' = keys w ++ match spawns c with Some p => [p] | None => [] end.
Proof.
  intros H Hf. destruct (handle_cmd_frame _ _ _ _ H) as (K&_). unfold keys. rewrite K.
  assert (New: forall p, ~ has p w -> sadd p (map fst (w_procs w)) = map fst (w_procs w) ++ [p]).
  { intros p Hn. unfold sadd. rewrite alookup_mem. unfold has in Hn.
    destruct (alookup p (w_procs w)); [exfalso; apply Hn; discriminate|reflexivity]. }
  destruct c; simpl; try (symmetry; apply app_nil_r); apply New, Hf; reflexivity.
Qed.

Lemma ke_exec_step i now o w w' ev : exec_step i now o w = Good (w', ev) -> ke w w'.
Proof. intros H. apply exec_step_frame in H. apply H. Qed.

Lemma ke_check_completed hint w w' ev : check_completed hint w = Good (w', ev) -> ke w w'.
Proof. intros H. apply check_completed_book in H. destruct H as ((P&_)&_). unfold ke, keys. rewrite P. reflexivity. Qed.

Lemma NoDup_app_tail {A} (a b : list A) : NoDup (a ++ b) -> NoDup b.
Proof. induction a as [|x a IH]; simpl; intros H; [exact H|]. inversion H; subst. apply IH. assumption. Qed.

Definition spawn_pids (cs : list cmd) : list pid :=
  flat_map (fun c => match spawns c with Some p => [p] | None => [] end) cs.
Lemma spawn_pids_app a b : spawn_pids (a ++ b) = spawn_pids a ++ spawn_pids b.
Proof. apply flat_map_app. Qed.

Lemma spawn_pids_snoc cs c : spawn_pids (cs ++ [c]) = spawn_pids cs ++ match spawns c with Some p => [p] | None => [] end.
Proof. rewrite spawn_pids_app. unfold spawn_pids at 2. simpl. rewrite app_nil_r. reflexivity. Qed.

(* a worker with its command queue, as seen from the router: scheduling state well-formed, every
   process it has is routed to it, the spawn commands queued for it name distinct, new, routed pids *)
Definition NInv (e : env) (i : wid) (w : worker) (cs : list cmd) : Prop :=
  SW w /\
  (forall p, has p w -> alookup p (e_router e) = Some i) /\
  NoDup (spawn_pids cs) /\
  (forall p, In p (spawn_pids cs) -> ~ has p w /\ alookup p (e_router e) = Some i).

Lemma NInv_handle_cmds e i : forall pre w rest w' ev,
  NInv e i w (pre ++ rest) -> handle_cmds pre w = Good (w', ev) -> NInv e i w' rest.
Proof.
  induction pre as [|c pre IH]; intros w rest w' ev HI H; simpl in H.
  - inversion H; subst. exact HI.
  - destruct (handle_cmd c w) as [[w1 e1]|] eqn:E1; simpl in H; [|discriminate].
    destruct (handle_cmds pre w1) as [[w2 e2]|] eqn:E2; simpl in H; [|discriminate].
    inversion H; subst w' ev; clear H.
    destruct HI as (HS&L&N&U).
    change (spawn_pids ((c :: pre) ++ rest)) with (match spawns c with Some p => [p] | None => [] end ++ spawn_pids (pre ++ rest)) in N, U.
    assert (Hhead: forall p, spawns c = Some p -> ~ has p w /\ alookup p (e_router e) = Some i).
    { intros p Hp. apply U. rewrite Hp. left; reflexivity. }
    assert (Htail: forall p, In p (spawn_pids (pre ++ rest)) -> ~ has p w /\ alookup p (e_router e) = Some i).
    { intros p Hp. apply U. apply in_or_app. right; exact Hp. }
    assert (Hfresh: forall p, spawns c = Some p -> ~ has p w) by (intros p Hp; apply (Hhead p Hp)).
    pose proof (SW_handle_cmd _ _ _ _ Hfresh E1 HS) as HS1.
    pose proof (handle_cmd_keys _ _ _ _ E1 Hfresh) as K1.
    apply (IH w1 rest w2 e2); [|exact E2]. split; [exact HS1|]. split; [|split].
    + intros p Hp. apply has_keys in Hp. rewrite K1 in Hp. apply in_app_or in Hp. destruct Hp as [Hp|Hp].
      * apply L. apply has_keys. exact Hp.
      * destruct (spawns c) as [p0|] eqn:Es; [|destruct Hp]. destruct Hp as [<-|[]]. apply (Hhead p0 eq_refl).
    + apply NoDup_app_tail in N. exact N.
    + intros p Hp. destruct (Htail p Hp) as (U1&U2). split; [|exact U2].
      intros Hh. apply has_keys in Hh. rewrite K1 in Hh. apply in_app_or in Hh. destruct Hh as [Hh|Hh].
      * apply U1. apply has_keys. exact Hh.
      * destruct (spawns c) as [p0|] eqn:Es; [|destruct Hh]. destruct Hh as [<-|[]].
        simpl in N. inversion N; subst. contradiction.
Qed.

Lemma NInv_ke e i w w' cs : ke w w' -> SW w' -> NInv e i w cs -> NInv e i w' cs.
Proof.
  intros K HS (_&L&N&U). split; [exact HS|]. split; [|split; [exact N|]].
  - intros p Hp. apply L. apply has_keys. apply has_keys in Hp. rewrite K in Hp. exact Hp.
  - intros p Hp. destruct (U p Hp) as (U1&U2). split; [|exact U2]. intros Hh. apply U1.
    apply has_keys. apply has_keys in Hh. rewrite K in Hh. exact Hh.
Qed.

Lemma NInv_node_step e i now k o nd nd' :
  node_step i now k o nd = Good nd' -> NInv e i (n_w nd) (n_cmd nd) -> NInv e i (n_w nd') (n_cmd nd').
Proof.
  intros H HI. destruct (node_step_shape _ _ _ _ _ _ H) as (pre&w1&e1&w2&e2&e3&Hs&E1&E2&E3&_). rewrite Hs in HI.
  pose proof (NInv_handle_cmds e i pre (n_w nd) (n_cmd nd') w1 e1 HI E1) as H1.
  assert (S2: SW w2) by (eapply SW_exec_step; [exact E2|apply H1]).
  assert (S3: SW (n_w nd')) by (eapply SW_check_completed; [exact E3|exact S2]).
  eapply NInv_ke; [|exact S3|exact H1].
  eapply ke_trans; [eapply ke_exec_step; exact E2|eapply ke_check_completed; exact E3].
Qed.

(* the router only knows allocated pids, and every worker with its command queue satisfies NInv *)
Definition WFe (e : env) (ns : list node) : Prop :=
  (forall p w, alookup p (e_router e) = Some w -> p < e_next e) /\
  (forall i nd, nth_error ns i = Some nd -> NInv e i (n_w nd) (n_cmd nd)).

Lemma WFe_push_nospawn e ns w c : spawns c = None -> WFe e ns -> WFe e (push_cmd w c ns).
Proof.
  intros Hc (B&N). split; [exact B|]. intros i nd Hn. rewrite nth_error_push in Hn.
  destruct (nth_error ns i) as [nd0|] eqn:En; [|discriminate]. inversion Hn; subst nd; clear Hn.
  destruct (i =? w); simpl; [|apply (N i nd0 En)].
  destruct (N i nd0 En) as (A1&A2&A3&A4). unfold NInv. simpl. rewrite spawn_pids_snoc, Hc, app_nil_r. auto.
Qed.
(* allocating the next pid and queueing its spawn command on worker w *)
Lemma WFe_alloc e ns w c :
  spawns c = Some (e_next e) -> WFe e ns -> WFe (alloc e w) (push_cmd w c ns).
Proof.
  intros Hc (B&N).
  assert (Hfresh: alookup (e_next e) (e_router e) = None).
  { destruct (alookup (e_next e) (e_router e)) eqn:E; [|reflexivity]. apply B in E. lia. }
  assert (Old: forall p x, alookup p (e_router e) = Some x -> alookup p (aset (e_next e) w (e_router e)) = Some x).
  { intros p x Hp. rewrite alookup_aset. destruct (p =? e_next e) eqn:E; [|exact Hp].
    apply Nat.eqb_eq in E. subst. apply B in Hp. lia. }
  split.
  - intros p x Hp. simpl in *. rewrite alookup_aset in Hp. destruct (p =? e_next e) eqn:E; [apply Nat.eqb_eq in E; lia|].
    apply B in Hp. lia.
  - intros i nd Hn. rewrite nth_error_push in Hn.
    destruct (nth_error ns i) as [nd0|] eqn:En; [|discriminate]. inversion Hn; subst nd; clear Hn.
    destruct (N i nd0 En) as (A1&A2&A3&A4).
    destruct (i =? w) eqn:Eiw; simpl.
    + apply Nat.eqb_eq in Eiw. subst i. unfold NInv. simpl. rewrite spawn_pids_snoc, Hc.
      split; [exact A1|]. split; [intros p Hp; apply Old, A2, Hp|]. split.
      * apply NoDup_app_one; [exact A3|]. intros Hin. destruct (A4 _ Hin) as (_&R). rewrite Hfresh in R. discriminate.
      * intros p Hp. apply in_app_or in Hp. destruct Hp as [Hp|[<-|[]]].
        -- destruct (A4 p Hp) as (U1&U2). split; [exact U1|apply Old; exact U2].
        -- split; [|apply alookup_aset_eq]. intros Hh. apply A2 in Hh. rewrite Hfresh in Hh. discriminate.
    + unfold NInv. simpl. split; [exact A1|]. split; [intros p Hp; apply Old, A2, Hp|]. split; [exact A3|].
      intros p Hp. destruct (A4 p Hp) as (U1&U2). split; [exact U1|apply Old; exact U2].
Qed.

Lemma WFe_stable nw : env_stable nw (fun e ns _ => WFe e ns).
Proof.
  split; [|split; [|split; [|split]]].
  - intros e pe ns evs W. exact W.
  - intros e ns evs w c Hc. apply WFe_push_nospawn. destruct c; try discriminate; reflexivity.
  - intros e ns ev evs _ W. exact W.
  - intros e ns evs t m j _. apply WFe_push_nospawn. reflexivity.
  - intros e ns evs c Hc. apply WFe_alloc. destruct Hc as [->|(b&->)]; reflexivity.
Qed.

Lemma handle_event_WFe nw ev e ns e' ns' :
  handle_event nw ev (e, ns) = Good (e', ns') -> WFe e ns -> WFe e' ns'.
Proof. apply (inv_handle_event nw _ (WFe_stable nw) ev []). Qed.

Lemma WFe_collect e ns ks : WFe e ns -> WFe e (snd (collect ks ns)).
Proof.
  intros (B&N). split; [exact B|]. intros i nd' Hn.
  destruct (collect_nth _ _ _ _ Hn) as (nd&En&Hm1&Hm2). rewrite Hm1, Hm2. apply (N i nd En).
Qed.

Definition WF (s : sys) : Prop := WFe (s_env s) (s_nodes s).

Lemma SW_new : SW new_worker.
Proof.
  constructor; simpl.
  - constructor.
  - constructor.
  - intros p H; discriminate.
  - intros p H; discriminate.
  - intros p [[]|[H|H]]; discriminate.
  - intros p [[]|[H|H]]; discriminate.
Qed.

Lemma WF_init nw : WF (init nw).
Proof.
  split; [intros p w H; discriminate|]. intros i nd Hn. simpl in Hn. apply nth_error_In, repeat_spec in Hn. subst nd. simpl.
  split; [exact SW_new|]. split; [intros p H; exfalso; apply H; reflexivity|]. split; [constructor|intros p []].
Qed.

Lemma WF_step s a s' : WF s -> sys_step s a = Good s' -> WF s'.
Proof.
  intros W H. refine (inv_step _ _ (WFe_stable _) _ _ s a s' eq_refl H W); clear.
  - intros e ns i nd nd' now k o Ei Es (B&N). split; [exact B|]. intros j x Hx.
    destruct (Nat.eq_dec j i) as [->|Hne].
    + rewrite (nth_error_update_same _ _ _ _ Ei) in Hx. inversion Hx; subst x. eapply NInv_node_step; [exact Es|apply (N i nd Ei)].
    + rewrite nth_error_update_other in Hx by exact Hne. apply (N j x Hx).
  - intros e ns ks. apply WFe_collect.
Qed.

Lemma WF_run sigma : forall s s', WF s -> run s sigma = Good s' -> WF s'.
Proof. apply run_invariant. exact WF_step. Qed.

(* C04/C15: for every schedule and every oracle the scheduling state of every worker is well-formed *)
Theorem scheduler_well_formed : forall nw sigma s,
  run (init nw) sigma = Good s ->
  forall i nd, nth_error (s_nodes s) i = Some nd ->
    SW (n_w nd) /\ (forall p, has p (n_w nd) -> alookup p (e_router (s_env s)) = Some i).
Proof.
  intros nw sigma s H i nd Hn. destruct (WF_run sigma _ _ (WF_init nw) H) as (_&N).
  destruct (N i nd Hn) as (A&B&_). split; assumption.
Qed.
