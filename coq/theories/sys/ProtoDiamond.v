(* ProtoDiamond.v — C03: the diamond property for a worker step and an environment step of M-Sys
   (sys/Proto.v) that do not touch each other's part of the queues: Worker i consumes a prefix of its
   command queue that is already there, the environment collects from worker i a prefix of its event
   queue that is already there.  Then W;E and E;W end in the same state. *)
From Quiver Require Import sys.Proto sys.ProtoFail sys.ProtoMsg sys.ProtoFifo sys.ProtoCommute.

(* a node after a Worker::step bounded to n commands: new worker, n commands consumed, events appended *)
Definition wfun (w3 : worker) (n : nat) (new : list event) (nd : node) : node :=
  {| n_w := w3; n_cmd := skipn n (n_cmd nd); n_evt := n_evt nd ++ new |}.

(* Worker::step with a bound on the commands: a function of the worker and the first n commands *)
Lemma node_step_local i now n o nd nd' :
  node_step i now (Some n) o nd = Good nd' ->
  exists new, nd' = wfun (n_w nd') n new nd /\
    forall nd2, n_w nd2 = n_w nd -> firstn n (n_cmd nd2) = firstn n (n_cmd nd) ->
      node_step i now (Some n) o nd2 = Good (wfun (n_w nd') n new nd2).
Proof.
  unfold node_step. cbn [split_at].
  destruct (handle_cmds (firstn n (n_cmd nd)) (n_w nd)) as [[w1 e1]|] eqn:E1; cbn [rbind]; [|discriminate].
  destruct (exec_step i now o w1) as [[w2 e2]|] eqn:E2; cbn [rbind]; [|discriminate].
  destruct (check_completed (o_completed o) w2) as [[w3 e3]|] eqn:E3; cbn [rbind]; [|discriminate].
  intros H; inversion H; subst nd'; clear H. exists (e1 ++ e2 ++ e3). split; [reflexivity|].
  intros nd2 Hw Hc. rewrite Hw, Hc, E1. cbn [rbind]. rewrite E2. cbn [rbind]. rewrite E3. reflexivity.
Qed.

Lemma update_nth_at {A} (f g : A -> A) : forall l i a, nth_error l i = Some a -> f a = g a -> update_nth i f l = update_nth i g l.
Proof. induction l as [|b l IH]; intros [|i] a H E; simpl in *; try discriminate; [inversion H; subst; rewrite E; reflexivity|f_equal; eapply IH; eassumption]. Qed.

(* Environment::handle_event as a plan: the new environment and a list of pushes, both independent of the nodes *)
Definition pushes (l : list (wid * cmd)) (ns : list node) : list node := fold_left (fun ns x => push_cmd (fst x) (snd x) ns) l ns.
Lemma pushes_app a b ns : pushes (a ++ b) ns = pushes b (pushes a ns). Proof. apply fold_left_app. Qed.

Lemma handle_event_plan nw ev e ns e' ns' : handle_event nw ev (e, ns) = Good (e', ns') ->
  exists l, forall ns0, handle_event nw ev (e, ns0) = Good (e', pushes l ns0).
Proof. intros H. destruct (handle_event_shape _ _ _ _ _ _ H) as (l&P&_). exists l. exact P. Qed.

Lemma handle_events_plan nw evs : forall e ns e' ns', handle_events nw evs (e, ns) = Good (e', ns') ->
  exists l, forall ns0, handle_events nw evs (e, ns0) = Good (e', pushes l ns0).
Proof.
  induction evs as [|ev evs IH]; intros e ns e' ns' H; cbn [handle_events] in *.
  - inversion H; subst. exists []. intros; reflexivity.
  - destruct (handle_event nw ev (e, ns)) as [[e1 ns1]|] eqn:E1; cbn [rbind] in H; [|discriminate].
    destruct (handle_event_plan _ _ _ _ _ _ E1) as (l1&P1). destruct (IH _ _ _ _ H) as (l2&P2).
    exists (l1 ++ l2). intros ns0. rewrite P1. cbn [rbind]. rewrite P2, pushes_app. reflexivity.
Qed.

(* a push commutes with the worker step's node function when the bound is within the queue *)
Lemma push_wfun w3 n new w c : forall ns i nd, nth_error ns i = Some nd -> n <= length (n_cmd nd) ->
  push_cmd w c (update_nth i (wfun w3 n new) ns) = update_nth i (wfun w3 n new) (push_cmd w c ns).
Proof.
  unfold push_cmd. intros ns. revert w. induction ns as [|a ns IH]; intros [|w] [|i] nd H L; simpl in *; try discriminate; try reflexivity.
  - inversion H; subst a. unfold wfun. simpl. f_equal. f_equal. rewrite skipn_app.
    replace (n - length (n_cmd nd)) with 0 by lia. reflexivity.
  - f_equal. eapply IH; eassumption.
Qed.

Definition long_enough (i n : nat) (ns : list node) : Prop := exists nd, nth_error ns i = Some nd /\ n <= length (n_cmd nd).
Lemma long_enough_push i n w c ns : long_enough i n ns -> long_enough i n (push_cmd w c ns).
Proof.
  intros (nd&H&L). unfold long_enough. rewrite nth_error_push, H.
  destruct (i =? w); eexists; (split; [reflexivity|]); simpl; [rewrite app_length; lia|exact L].
Qed.

Lemma pushes_wfun w3 n new i : forall l ns, long_enough i n ns ->
  pushes l (update_nth i (wfun w3 n new) ns) = update_nth i (wfun w3 n new) (pushes l ns).
Proof.
  induction l as [|[w c] l IH]; intros ns L; simpl; [reflexivity|].
  destruct L as (nd&H&Ln). rewrite (push_wfun w3 n new w c ns i nd H Ln).
  apply IH. apply long_enough_push. exists nd. split; assumption.
Qed.

Lemma pushes_node i : forall l ns nd, nth_error ns i = Some nd ->
  exists extra, nth_error (pushes l ns) i = Some {| n_w := n_w nd; n_cmd := n_cmd nd ++ extra; n_evt := n_evt nd |}.
Proof.
  induction l as [|[w c] l IH]; intros ns nd H; simpl.
  - exists []. rewrite app_nil_r. destruct nd; exact H.
  - assert (H1: nth_error (push_cmd w c ns) i = Some (if i =? w then {| n_w := n_w nd; n_cmd := n_cmd nd ++ [c]; n_evt := n_evt nd |} else nd))
      by (rewrite nth_error_push, H; reflexivity).
    destruct (IH _ _ H1) as (extra&E). destruct (i =? w); simpl in E.
    + exists ([c] ++ extra). rewrite app_assoc. exact E.
    + exists extra. exact E.
Qed.
Lemma pushes_length l : forall ns, length (pushes l ns) = length ns.
Proof. induction l as [|[w c] l IH]; intros ns; simpl; [reflexivity|]. rewrite IH. apply push_cmd_length. Qed.

(* the collect phase commutes with it when the bound is within the event queue *)
Lemma collect_wfun w3 n new : forall ns ks i nd m,
  nth_error ns i = Some nd -> nth_error ks i = Some m -> m <= length (n_evt nd) ->
  collect ks (update_nth i (wfun w3 n new) ns) = (fst (collect ks ns), update_nth i (wfun w3 n new) (snd (collect ks ns))).
Proof.
  induction ns as [|a ns IH]; intros ks [|i] nd m H K L; simpl in H; try discriminate.
  - inversion H; subst a. destruct ks as [|k0 ks]; [discriminate|]. simpl in K. inversion K; subst k0.
    cbn [update_nth collect tl]. cbn [split_at wfun n_evt n_w n_cmd].
    destruct (collect ks ns) as [evs t']. cbn [fst snd update_nth].
    rewrite firstn_app, skipn_app. replace (m - length (n_evt nd)) with 0 by lia. simpl. rewrite app_nil_r.
    unfold wfun. simpl. reflexivity.
  - destruct ks as [|k0 ks]; [discriminate|]. simpl in K.
    cbn [update_nth collect tl]. rewrite (IH ks i nd m H K L).
    destruct (split_at (Some k0) (n_evt a)) as [x y]. destruct (collect ks ns) as [evs t']. reflexivity.
Qed.

Lemma collect_node ks ns i nd : nth_error ns i = Some nd ->
  exists nd1, nth_error (snd (collect ks ns)) i = Some nd1 /\ n_w nd1 = n_w nd /\ n_cmd nd1 = n_cmd nd.
Proof.
  intros H. pose proof (collect_wc ks ns) as M.
  assert (Hm: nth_error (map (fun nd => (n_w nd, n_cmd nd)) ns) i = Some (n_w nd, n_cmd nd)) by (rewrite nth_error_map, H; reflexivity).
  rewrite <- M, nth_error_map in Hm. destruct (nth_error (snd (collect ks ns)) i) as [nd1|]; [|discriminate].
  simpl in Hm. injection Hm as A B. exists nd1. repeat split; assumption.
Qed.

(* C03: the diamond for independent W / E actions *)
Theorem worker_env_diamond : forall s i n o ks nd m s1 s2,
  nth_error (s_nodes s) i = Some nd ->
  n <= length (n_cmd nd) ->                       (* the worker handles only commands that are already queued *)
  nth_error ks i = Some m -> m <= length (n_evt nd) ->   (* the environment collects from i only events already queued *)
  sys_step s (W i (Some n) o) = Good s1 -> sys_step s (E ks) = Good s2 ->
  exists s', sys_step s1 (E ks) = Good s' /\ sys_step s2 (W i (Some n) o) = Good s'.
Proof.
  intros s i n o ks nd m s1 s2 Hi Hn Hk Hm HW HE. simpl in HW. rewrite Hi in HW.
  destruct (node_step i (s_clock s) (Some n) o nd) as [nd'|] eqn:Es; cbn [rbind] in HW; [|discriminate].
  inversion HW; subst s1; clear HW.
  destruct (node_step_local _ _ _ _ _ _ Es) as (new&Ef&Loc).
  set (F := wfun (n_w nd') n new) in *.
  assert (U1: update_nth i (fun _ => nd') (s_nodes s) = update_nth i F (s_nodes s)) by (eapply update_nth_at; [exact Hi|exact Ef]).
  simpl in HE. pose proof (collect_wfun (n_w nd') n new (s_nodes s) ks i nd m Hi Hk Hm) as CW. fold F in CW.
  destruct (collect_node ks (s_nodes s) i nd Hi) as (nd1&Hn1&Hw1&Hc1).
  destruct (collect ks (s_nodes s)) as [evs ns1] eqn:Ec. simpl in CW, Hn1.
  destruct (handle_events (length (s_nodes s)) evs (s_env s, ns1)) as [[e' ns2]|] eqn:Eh; cbn [rbind] in HE; [|discriminate].
  inversion HE; subst s2; clear HE.
  destruct (handle_events_plan _ _ _ _ _ _ Eh) as (l&Pl).
  assert (N2: ns2 = pushes l ns1) by (specialize (Pl ns1); rewrite Eh in Pl; inversion Pl; reflexivity).
  destruct (pushes_node i l ns1 nd1 Hn1) as (extra&Hn2). rewrite <- N2 in Hn2.
  assert (L1: long_enough i n ns1) by (exists nd1; split; [exact Hn1|rewrite Hc1; exact Hn]).
  exists {| s_nodes := update_nth i F ns2; s_env := e'; s_clock := s_clock s |}. subst F. split.
  - simpl. rewrite U1, CW, update_nth_length, Pl. cbn [rbind].
    rewrite (pushes_wfun _ _ _ _ l ns1 L1), <- N2. reflexivity.
  - simpl. rewrite Hn2.
    rewrite (Loc {| n_w := n_w nd1; n_cmd := n_cmd nd1 ++ extra; n_evt := n_evt nd1 |}).
    + cbn [rbind]. f_equal. f_equal. eapply update_nth_at; [exact Hn2|reflexivity].
    + simpl. exact Hw1.
    + simpl. rewrite Hc1, firstn_app. replace (n - length (n_cmd nd)) with 0 by lia. simpl. apply app_nil_r.
Qed.

(* non-vacuity: an instance (worker 0 handles the queued Start and spawns; the environment collects
   nothing from worker 0), computed by the kernel in both orders *)
Example diamond_instance : exists s',
  run (init 2) [X (XStart false); W 0 (Some 1) (orc (Some 0) (d_act_ ASpawn)); E [0]] = Good s' /\
  run (init 2) [X (XStart false); E [0]; W 0 (Some 1) (orc (Some 0) (d_act_ ASpawn))] = Good s' /\
  total (fun nd => length (n_evt nd)) (s_nodes s') = 1.
Proof. eexists. split; [vm_compute; reflexivity|]. split; [vm_compute; reflexivity|reflexivity]. Qed.
