(* ProtoCommute.v — C03 ingredients on M-Sys (sys/Proto.v): steps of different workers commute;
   a time slice does not depend on the worker it runs on except for the ghost stamp. *)
From Quiver Require Import sys.Proto.

Lemma nth_error_update_nth_neq {A} (f : A -> A) l i j :
  i <> j -> nth_error (update_nth i f l) j = nth_error l j.
Proof.
  revert i j. induction l as [|a l IH]; intros i j Hij; destruct i, j; simpl; auto; try congruence.
Qed.

Lemma nth_error_update_nth_eq {A} (f : A -> A) l i a :
  nth_error l i = Some a -> nth_error (update_nth i f l) i = Some (f a).
Proof.
  revert i. induction l as [|b l IH]; intros i H; destruct i; simpl in *; try discriminate.
  - inversion H; reflexivity.
  - apply IH; exact H.
Qed.

Lemma update_nth_comm {A} (f g : A -> A) l i j :
  i <> j -> update_nth i f (update_nth j g l) = update_nth j g (update_nth i f l).
Proof.
  revert i j. induction l as [|a l IH]; intros i j Hij; destruct i, j; simpl; auto; try congruence.
  f_equal. apply IH. congruence.
Qed.

Lemma update_nth_none {A} (f : A -> A) l i : nth_error l i = None -> update_nth i f l = l.
Proof.
  revert i. induction l as [|a l IH]; intros i H; destruct i; simpl in *; auto; try discriminate.
  f_equal. apply IH; exact H.
Qed.

(* executor.rs / worker.rs: workers own disjoint state and disjoint queue ends, and Worker::step
   reads nothing else but the clock. *)
Theorem worker_steps_commute : forall s i j ki kj oi oj s1 s2,
  i <> j ->
  sys_step s (W i ki oi) = Good s1 -> sys_step s1 (W j kj oj) = Good s2 ->
  exists s1', sys_step s (W j kj oj) = Good s1' /\ sys_step s1' (W i ki oi) = Good s2.
Proof.
  intros s i j ki kj oi oj s1 s2 Hij H1 H2. unfold sys_step in *.
  destruct (nth_error (s_nodes s) i) as [ndi|] eqn:Ei.
  - destruct (node_step i (s_clock s) ki oi ndi) as [ndi'|f] eqn:Si; simpl in H1; [|discriminate].
    inversion H1; subst s1; clear H1. simpl in H2.
    rewrite nth_error_update_nth_neq in H2 by exact Hij.
    destruct (nth_error (s_nodes s) j) as [ndj|] eqn:Ej.
    + destruct (node_step j (s_clock s) kj oj ndj) as [ndj'|f] eqn:Sj; simpl in H2; [|discriminate].
      inversion H2; subst s2; clear H2.
      eexists; split; [reflexivity|]. simpl.
      rewrite nth_error_update_nth_neq by congruence. rewrite Ei, Si. simpl.
      f_equal. f_equal. apply update_nth_comm. exact Hij.
    + inversion H2; subst s2; clear H2.
      eexists; split; [reflexivity|]. rewrite Ei, Si. reflexivity.
  - inversion H1; subst s1; clear H1.
    destruct (nth_error (s_nodes s) j) as [ndj|] eqn:Ej.
    + destruct (node_step j (s_clock s) kj oj ndj) as [ndj'|f] eqn:Sj; simpl in H2; [|discriminate].
      inversion H2; subst s2; clear H2.
      eexists; split; [reflexivity|]. simpl.
      rewrite nth_error_update_nth_neq by congruence. rewrite Ei. reflexivity.
    + inversion H2; subst s2. eexists; split; [reflexivity|]. rewrite Ei. reflexivity.
Qed.

(* The worker id enters a time slice only through the ghost stamp of an emitted message
   (in the code: only through create_ref, C13). *)
Definition restamp (i : wid) (m : msg) : msg := mkMsg (m_from m) i (m_seq m).
Definition restamp_event (i : wid) (e : event) : event :=
  match e with EDeliverA t m => EDeliverA t (restamp i m) | _ => e end.

Definition is_deliver (d : did) : bool := match d_act d with Some (ADeliver _) => true | _ => false end.

Theorem placement_irrelevant_local : forall i i' p pr d hint w,
  is_deliver d = false ->
  run_slice i p pr d hint w = run_slice i' p pr d hint w.
Proof.
  intros i i' p pr d hint w Hd. unfold run_slice, is_deliver in *.
  destruct (negb (did_ok d)); [reflexivity|].
  destruct (take_seq (d_taken d) (p_mail pr)) as [[taken mail']|]; [|reflexivity].
  destruct (d_act d) as [[| t | ts]|]; try reflexivity. discriminate.
Qed.

(* with a Deliver the two slices differ exactly by the stamp: same events up to restamping, and the
   same worker up to its ghost send log *)
Definition forget_log (w : worker) : worker := set_ghost w (w_nsent w) [] (w_arrlog w) (w_dropped w).

Lemma forget_log_set_procs w ps : forget_log (set_procs w ps) = set_procs (forget_log w) ps.
Proof. reflexivity. Qed.

Theorem placement_only_stamps : forall i i' p pr d hint w w1 ev,
  d_fin d = None ->
  run_slice i p pr d hint w = Good (w1, ev) ->
  exists w2, run_slice i' p pr d hint w = Good (w2, map (restamp_event i') ev)
             /\ forget_log w2 = forget_log w1.
Proof.
  intros i i' p pr d hint w w1 ev Hfin H. unfold run_slice in *.
  destruct (negb (did_ok d)); [discriminate|].
  destruct (take_seq (d_taken d) (p_mail pr)) as [[taken mail']|]; [|discriminate].
  rewrite Hfin in *.
  destruct (d_act d) as [[| t | ts]|]; simpl in *.
  - eexists; split; [|reflexivity].
    destruct (d_park d); simpl in *;
      match goal with |- context [if ?c then _ else _] => destruct c end; inversion H; subst; reflexivity.
  - destruct (d_park d); simpl in *.
    + match type of H with context [if ?c then _ else _] => destruct c eqn:Ec end;
        inversion H; subst; clear H; eexists; (split; [simpl; rewrite ?Ec; reflexivity|reflexivity]).
    + match type of H with context [if ?c then _ else _] => destruct c eqn:Ec end;
        inversion H; subst; clear H; eexists; (split; [simpl; rewrite ?Ec; reflexivity|reflexivity]).
  - eexists; split; [|reflexivity].
    destruct (d_park d); simpl in *;
      match goal with |- context [if ?c then _ else _] => destruct c end; inversion H; subst; reflexivity.
  - eexists; split; [|reflexivity].
    destruct (d_park d); simpl in *;
      match goal with |- context [if ?c then _ else _] => destruct c end; inversion H; subst; reflexivity.
Qed.
