(* ProtoFail.v — C15 on M-Sys (sys/Proto.v): a failure changes only the failed process and its
   awaiters; the error an awaiter ends with is the error of the awaited process at every hop of
   the protocol; Worker::step / Environment::step fail only on a client's misuse; and two schedules
   computed by the kernel: the one of F71 (the spawner stays parked) and the one of F72 (a snapshot is
   overtaken). The file starts with the facts about association lists, the executor's sets and
   upd_proc that all of sys/ uses. *)
From Quiver Require Import sys.Proto.

Lemma alookup_aset {A} k k' (a : A) l :
  alookup k (aset k' a l) = if k =? k' then Some a else alookup k l.
Proof.
  induction l as [|[k0 a0] l IH]; simpl; [destruct (k =? k'); reflexivity|].
  destruct (k' =? k0) eqn:E0; simpl; [|rewrite IH; destruct (k =? k0) eqn:E1; [|reflexivity]].
  - apply Nat.eqb_eq in E0; subst k0. destruct (k =? k'); reflexivity.
  - apply Nat.eqb_eq in E1; subst k0. rewrite Nat.eqb_sym, E0. reflexivity.
Qed.
Lemma alookup_aset_eq {A} k (a : A) l : alookup k (aset k a l) = Some a.
Proof. rewrite alookup_aset, Nat.eqb_refl. reflexivity. Qed.
Lemma alookup_aset_neq {A} k k' (a : A) l : k <> k' -> alookup k (aset k' a l) = alookup k l.
Proof. intros Hk. apply Nat.eqb_neq in Hk. rewrite alookup_aset, Hk. reflexivity. Qed.

Lemma mem_in x l : mem x l = true <-> In x l.
Proof.
  unfold mem. rewrite existsb_exists. split.
  - intros (y&Hy&E). apply Nat.eqb_eq in E; subst; exact Hy.
  - intros H. exists x. split; [exact H|apply Nat.eqb_refl].
Qed.

Lemma keys_aset_sadd {A} k (a : A) l : map fst (aset k a l) = sadd k (map fst l).
Proof.
  unfold sadd. induction l as [|[k0 a0] l IH]; simpl; [reflexivity|].
  destruct (k =? k0) eqn:E; simpl; [apply Nat.eqb_eq in E; subst; reflexivity|].
  rewrite IH. destruct (mem k (map fst l)); reflexivity.
Qed.
Lemma alookup_mem {A} k (l : list (nat * A)) : mem k (map fst l) = match alookup k l with Some _ => true | None => false end.
Proof. induction l as [|[k0 a0] l IH]; simpl; [reflexivity|]. destruct (k =? k0); [reflexivity|exact IH]. Qed.
Lemma keys_aset_same {A} k (a b : A) l : alookup k l = Some b -> map fst (aset k a l) = map fst l.
Proof. intros H. rewrite keys_aset_sadd. unfold sadd. rewrite alookup_mem, H. reflexivity. Qed.
Lemma keys_aset_new {A} k (a : A) l : alookup k l = None -> map fst (aset k a l) = map fst l ++ [k].
Proof. intros H. rewrite keys_aset_sadd. unfold sadd. rewrite alookup_mem, H. reflexivity. Qed.

(* the sets of the executor (sadd / sremove on lists) and HashMap::remove *)
Lemma mem_sremove x y l : mem x (sremove y l) = mem x l && negb (y =? x).
Proof.
  unfold mem, sremove. induction l as [|a l IH]; simpl; [reflexivity|].
  destruct (y =? a) eqn:E; simpl.
  - rewrite IH. apply Nat.eqb_eq in E. subst a. destruct (x =? y) eqn:E2; simpl.
    + apply Nat.eqb_eq in E2. subst. rewrite Nat.eqb_refl. rewrite andb_false_r. reflexivity.
    + reflexivity.
  - rewrite IH. destruct (x =? a) eqn:E2; simpl; [|reflexivity].
    apply Nat.eqb_eq in E2. subst a. rewrite E. reflexivity.
Qed.
Lemma mem_sadd x y l : mem x (sadd y l) = mem x l || (x =? y).
Proof.
  unfold sadd. destruct (mem y l) eqn:E.
  - destruct (x =? y) eqn:E2; [apply Nat.eqb_eq in E2; subst; rewrite E; reflexivity|rewrite orb_false_r; reflexivity].
  - unfold mem. rewrite existsb_app. simpl. rewrite orb_false_r. reflexivity.
Qed.
Lemma mem_sadd_same x l : mem x (sadd x l) = true.
Proof. rewrite mem_sadd, Nat.eqb_refl. apply orb_true_r. Qed.
Lemma in_sadd x y l : In x (sadd y l) <-> In x l \/ x = y.
Proof.
  unfold sadd. destruct (mem y l) eqn:E; [|rewrite in_app_iff; simpl; intuition].
  apply mem_in in E. split; [auto|intros [H| ->]; assumption].
Qed.
Lemma in_sremove x y l : In x (sremove y l) <-> In x l /\ x <> y.
Proof.
  unfold sremove. rewrite filter_In. split; intros (A&B); split; auto.
  - intros ->. rewrite Nat.eqb_refl in B. discriminate.
  - apply Bool.negb_true_iff. apply Nat.eqb_neq. auto.
Qed.
Lemma sremove_notin x l : mem x l = false -> sremove x l = l.
Proof.
  unfold mem, sremove. induction l as [|a l IH]; simpl; [reflexivity|]. intros H.
  apply orb_false_iff in H. destruct H as (H1&H2). rewrite H1, IH by exact H2. reflexivity.
Qed.
Lemma NoDup_app_one {A} (l : list A) x : NoDup l -> ~ In x l -> NoDup (l ++ [x]).
Proof.
  intros N H. induction l as [|a l IH]; simpl.
  - constructor; [intros []|constructor].
  - inversion N; subst. constructor.
    + intros Hin. apply in_app_or in Hin. destruct Hin as [Hin|[Hin|[]]]; [contradiction|subst; apply H; left; reflexivity].
    + apply IH; [assumption|]. intros Hin; apply H; right; exact Hin.
Qed.
Lemma NoDup_sadd x l : NoDup l -> NoDup (sadd x l).
Proof.
  intros N. unfold sadd. destruct (mem x l) eqn:E; [exact N|].
  apply NoDup_app_one; [exact N|]. rewrite <- mem_in, E. discriminate.
Qed.
Lemma alookup_aremove {A} k k' (l : list (nat * A)) : alookup k (aremove k' l) = if k =? k' then None else alookup k l.
Proof.
  induction l as [|[k0 a0] l IH]; simpl; [destruct (k =? k'); reflexivity|].
  destruct (k' =? k0) eqn:E0; simpl.
  - apply Nat.eqb_eq in E0; subst k0. rewrite IH. destruct (k =? k'); reflexivity.
  - rewrite IH. destruct (k =? k0) eqn:E1; [|reflexivity].
    apply Nat.eqb_eq in E1; subst k0. destruct (k =? k') eqn:E2; [|reflexivity].
    apply Nat.eqb_eq in E2; subst. rewrite Nat.eqb_refl in E0. discriminate.
Qed.
Lemma alookup_aremove_fold {A} t : forall ks (l : list (nat * A)),
  alookup t (fold_left (fun a k => aremove k a) ks l) = if mem t ks then None else alookup t l.
Proof.
  induction ks as [|k ks IH]; intros l; simpl; [reflexivity|].
  rewrite IH, alookup_aremove. destruct (t =? k); simpl; [destruct (mem t ks); reflexivity|reflexivity].
Qed.
Lemma alookup_aset_fold_none t : forall ts (l : list (nat * option res)),
  alookup t (fold_left (fun a k => aset k None a) ts l) = if mem t ts then Some None else alookup t l.
Proof.
  induction ts as [|k ts IH]; intros l; simpl; [reflexivity|].
  rewrite IH, alookup_aset. destruct (t =? k); simpl; [destruct (mem t ts); reflexivity|reflexivity].
Qed.

Lemma upd_proc_other p f w q : q <> p -> alookup q (w_procs (upd_proc p f w)) = alookup q (w_procs w).
Proof.
  intros H. unfold upd_proc. destruct (alookup p (w_procs w)); [|reflexivity].
  simpl. apply alookup_aset_neq. exact H.
Qed.
Lemma upd_proc_same p f w pr : alookup p (w_procs w) = Some pr -> alookup p (w_procs (upd_proc p f w)) = Some (f pr).
Proof. intros H. unfold upd_proc. rewrite H. simpl. apply alookup_aset_eq. Qed.
Lemma upd_proc_sched p f w :
  w_queue (upd_proc p f w) = w_queue w /\ w_spawning (upd_proc p f w) = w_spawning w /\ w_selecting (upd_proc p f w) = w_selecting w.
Proof. unfold upd_proc. destruct (alookup p (w_procs w)); repeat split. Qed.

(* the awaiters loop with an error: exactly the listed processes are completed with it *)
Lemma fold_err p e h : forall o w,
  let w' := fold_left (notify_local p (RErr e) h) o w in
  (forall q, ~ In q o -> alookup q (w_procs w') = alookup q (w_procs w)) /\
  (forall q pr, In q o -> alookup q (w_procs w) = Some pr ->
       exists pr', alookup q (w_procs w') = Some pr' /\ p_res pr' = Some (RErr e)
                   /\ p_mail pr' = p_mail pr /\ p_awaiting pr' = p_awaiting pr /\ p_sel pr' = p_sel pr) /\
  w_queue w' = w_queue w /\ w_spawning w' = w_spawning w /\ w_selecting w' = w_selecting w.
Proof.
  induction o as [|a o IH]; intros w; simpl.
  - repeat split; auto. intros q pr [].
  - specialize (IH (upd_proc a (with_res (Some (RErr e))) w)). simpl in IH.
    destruct IH as (I1&I2&I3&I4&I5).
    destruct (upd_proc_sched a (with_res (Some (RErr e))) w) as (S1&S2&S3).
    repeat split; try congruence.
    + intros q Hq. rewrite I1 by (intros Hin; apply Hq; right; exact Hin).
      apply upd_proc_other. intros ->. apply Hq. left; reflexivity.
    + intros q pr Hin Hl.
      destruct (Nat.eq_dec q a) as [->|Hne].
      * pose proof (upd_proc_same a (with_res (Some (RErr e))) w pr Hl) as Hu.
        destruct (in_dec Nat.eq_dec a o) as [Hio|Hno].
        -- destruct (I2 a _ Hio Hu) as (pr'&A&B&C&D&E). exists pr'. repeat split; assumption.
        -- exists (with_res (Some (RErr e)) pr). rewrite I1 by exact Hno. repeat split; assumption.
      * destruct Hin as [->|Hin]; [contradiction|].
        apply (I2 q pr Hin). rewrite upd_proc_other by exact Hne. exact Hl.
Qed.

Lemma order_by_sub hint set o : order_by hint set = Some o -> forall x, In x o -> mem x set = true.
Proof.
  unfold order_by. destruct (_ && _); [|discriminate]. intros H; inversion H; subst.
  intros x Hx. apply filter_In in Hx. apply Hx.
Qed.
Lemma order_by_all hint set o : order_by hint set = Some o -> forall x, mem x set = true -> In x o.
Proof.
  unfold order_by. destruct (forallb _ set) eqn:F; simpl; [|discriminate].
  destruct (_ =? _); [|discriminate]. intros H; inversion H; subst. intros x Hx.
  rewrite forallb_forall in F. unfold mem in Hx. apply existsb_exists in Hx. destruct Hx as (y&Hy&E).
  apply Nat.eqb_eq in E; subst y. specialize (F x Hy). unfold mem in F. apply existsb_exists in F.
  destruct F as (z&Hz&E). apply Nat.eqb_eq in E; subst z. exact Hz.
Qed.

Lemma alookup_in {A} k (a : A) l : alookup k l = Some a -> In (k, a) l.
Proof.
  induction l as [|[k0 a0] l IH]; simpl; [discriminate|].
  destruct (k =? k0) eqn:E; [apply Nat.eqb_eq in E; subst; intros H; inversion H; left; reflexivity|].
  intros H; right; apply IH; exact H.
Qed.
Lemma in_alookup {A} k (a : A) l : NoDup (map fst l) -> In (k, a) l -> alookup k l = Some a.
Proof.
  induction l as [|[k0 a0] l IH]; simpl; intros N H; [contradiction|].
  inversion N; subst. destruct H as [H|H].
  - inversion H; subst. rewrite Nat.eqb_refl. reflexivity.
  - destruct (k =? k0) eqn:E.
    + apply Nat.eqb_eq in E; subst. exfalso. apply H2. apply in_map_iff. exists (k0, a). split; [reflexivity|exact H].
    + apply IH; assumption.
Qed.

(* C15 failure_local (executor.rs:1146-1149, 1244-1280): when the slice of p ends with an error,
   the completion changes ONLY p (result := Err e) and the processes that have p in their
   `awaiting` map (result := Err e, nothing else of them); the run queue and the parked sets are
   not touched; every other process is exactly as before. *)
Theorem failure_local : forall p e h hint w w',
  NoDup (map fst (w_procs w)) ->
  finish p (RErr e) h hint w = Good w' ->
  w_queue w' = w_queue w /\ w_spawning w' = w_spawning w /\ w_selecting w' = w_selecting w /\
  (forall q pr, q <> p -> alookup q (w_procs w) = Some pr -> alookup p (p_awaiting pr) = None ->
      alookup q (w_procs w') = Some pr) /\
  (forall q pr, q <> p -> alookup q (w_procs w) = Some pr -> alookup p (p_awaiting pr) <> None ->
      exists pr', alookup q (w_procs w') = Some pr' /\ p_res pr' = Some (RErr e) /\
                  p_mail pr' = p_mail pr /\ p_awaiting pr' = p_awaiting pr /\ p_sel pr' = p_sel pr).
Proof.
  intros p e h hint w w' ND H. unfold finish in H.
  set (w1 := upd_proc p (with_res (Some (RErr e))) w) in *.
  destruct (order_by hint (local_awaiters p w1)) as [o|] eqn:Eo; [|discriminate].
  inversion H; subst w'; clear H.
  destruct (fold_err p e h o w1) as (F1&F2&F3&F4&F5).
  destruct (upd_proc_sched p (with_res (Some (RErr e))) w) as (S1&S2&S3). fold w1 in S1, S2, S3.
  assert (ND1: NoDup (map fst (w_procs w1))).
  { unfold w1, upd_proc. destruct (alookup p (w_procs w)) as [pr0|] eqn:E0; [|exact ND].
    simpl. rewrite (keys_aset_same _ _ _ _ E0). exact ND. }
  repeat split; try congruence.
  - intros q pr Hq Hl Hno.
    rewrite F1; [unfold w1; rewrite upd_proc_other by exact Hq; exact Hl|].
    intros Hin. apply (order_by_sub _ _ _ Eo), mem_in in Hin.
    unfold local_awaiters in Hin. apply in_map_iff in Hin. destruct Hin as ([q0 pr0]&Eq&Hf). simpl in Eq; subst q0.
    apply filter_In in Hf. destruct Hf as (Hin&Hc). simpl in Hc.
    apply (in_alookup _ _ _ ND1) in Hin. unfold w1 in Hin. rewrite upd_proc_other in Hin by exact Hq.
    rewrite Hl in Hin. inversion Hin; subst pr0. rewrite Hno in Hc. discriminate.
  - intros q pr Hq Hl Hyes.
    apply (F2 q pr).
    + apply (order_by_all _ _ _ Eo), mem_in. unfold local_awaiters. apply in_map_iff. exists (q, pr). split; [reflexivity|].
      apply filter_In. split.
      * apply alookup_in. unfold w1. rewrite upd_proc_other by exact Hq. exact Hl.
      * simpl. destruct (alookup p (p_awaiting pr)); [reflexivity|contradiction].
    + unfold w1. rewrite upd_proc_other by exact Hq. exact Hl.
Qed.

(* same worker: see failure_local. Other worker, hop 1: check_completed_processes reports the
   target's own result to every registered awaiter *)
Lemma report_completed_same_error w ev t r :
  result_of w t = Some r ->
  snd (report_completed (w, ev) t) =
  ev ++ map (fun a => EResults a [(t, Some r)]) (match alookup t (w_awaiters w) with Some l => l | None => [] end).
Proof. intros H. unfold report_completed. rewrite H. reflexivity. Qed.

(* hop 2: the environment forwards a later completion verbatim (environment.rs:1157-1167) *)
Lemma env_forwards_results nw e ns awaiter results aw :
  alookup awaiter (e_pending e) = None -> alookup awaiter (e_router e) = Some aw ->
  handle_event nw (EResults awaiter results) (e, ns) = Good (e, push_cmd aw (CUpdate awaiter results) ns).
Proof. intros H1 H2. unfold handle_event. rewrite H1, H2. reflexivity. Qed.

(* hop 3: Worker::notify_result with an error completes the awaiter with that very error
   (worker.rs:576-582) *)
Lemma worker_notify_same_error awaiter awaited e w pr :
  alookup awaiter (w_procs w) = Some pr -> alookup awaited (p_awaiting pr) <> None ->
  exists pr', alookup awaiter (w_procs (worker_notify awaiter awaited (RErr e) w)) = Some pr' /\ p_res pr' = Some (RErr e).
Proof.
  intros H Ha. simpl. unfold awaits. rewrite H. destruct (alookup awaited (p_awaiting pr)); [|contradiction].
  exists (with_res (Some (RErr e)) pr). split; [apply upd_proc_same; exact H|reflexivity].
Qed.

(* ... and a failure of a process that is no longer awaited (its select has completed) does NOT
   fail the former awaiter: it is only woken (the repair of F45) *)
Lemma stale_failure_is_harmless awaiter awaited e w pr :
  alookup awaiter (w_procs w) = Some pr -> alookup awaited (p_awaiting pr) = None ->
  w_procs (worker_notify awaiter awaited (RErr e) w) = w_procs w.
Proof.
  intros H Ha. simpl. unfold awaits. rewrite H, Ha. unfold wake_selecting. destruct (mem awaiter (w_selecting w)); reflexivity.
Qed.

(* a query that finds the target failed registers the awaiter (status Failed is not "completed",
   worker.rs:492-495), so the answer comes through hop 1 in the same Worker::step *)
Lemma query_failed_registers awaiter t w rs pr e :
  alookup t (w_procs w) = Some pr -> p_res pr = Some (RErr e) ->
  let '(w', rs') := query_one awaiter (w, rs) t in
  In t (w_awaited w') /\ (exists l, alookup t (w_awaiters w') = Some (l ++ [awaiter])) /\ alookup t rs' = Some None.
Proof.
  intros Hl Hr. unfold query_one, completed_value. rewrite Hl, Hr.
  (* a failed target counts as not completed whether it is scheduled or not *)
  destruct (mem t (w_queue w) || mem t (w_spawning w) || mem t (w_selecting w)); simpl; repeat split;
    try apply alookup_aset_eq; try (eexists; apply alookup_aset_eq); apply in_sadd; right; reflexivity.
Qed.

(* Worker::handle_command returns Err only for a ResumeProcess / GetResult that names a process the
   worker does not have (or that is not sleeping): commands only a client issues *)
Theorem handle_cmd_errs_only_on_client_commands : forall c w f,
  handle_cmd c w = Fault f -> (exists p, c = CResume p) \/ (exists r p, c = CGetResult r p).
Proof.
  intros c w f H. destruct c; simpl in H; try discriminate.
  - destruct sleeping; discriminate.
  - left; eexists; reflexivity.
  - destruct (fold_left (query_one awaiter) targets (w, [])); discriminate.
  - destruct (alookup target (w_procs w)); discriminate.
  - destruct (mem p (w_spawning w)); discriminate.
  - right; eexists; eexists; reflexivity.
Qed.

(* Environment::handle_event returns Err only when a process id in the event is not routed *)
Definition event_routed (e : env) (ev : event) : Prop :=
  match ev with
  | ESpawnA c => alookup c (e_router e) <> None
  | EDeliverA t _ => alookup t (e_router e) <> None
  | EAwaitA a ts => Forall (fun t => alookup t (e_router e) <> None) ts
  | EResults a _ => alookup a (e_router e) <> None
  | _ => True
  end.

Theorem handle_event_never_errs : forall nw ev e ns,
  event_routed e ev -> exists st, handle_event nw ev (e, ns) = Good st.
Proof.
  intros nw ev e ns H. destruct ev; unfold handle_event; cbn -[Nat.modulo nodup]; simpl in H.
  - match goal with |- context [@alookup ?A caller ?l] => destruct (@alookup A caller l) eqn:E end; [eexists; reflexivity|].
    exfalso. destruct (Nat.eq_dec caller (e_next e)) as [->|Hne].
    + rewrite alookup_aset_eq in E. discriminate.
    + rewrite alookup_aset_neq in E by exact Hne. contradiction.
  - destruct (alookup target (e_router e)); [eexists; reflexivity|contradiction].
  - match goal with |- context [forallb ?f targets] => destruct (forallb f targets) eqn:F end; [eexists; reflexivity|].
    exfalso. apply Bool.not_true_iff_false in F. apply F. apply forallb_forall. intros t Ht.
    rewrite Forall_forall in H. specialize (H t Ht). destruct (alookup t (e_router e)); [reflexivity|contradiction].
  - destruct (alookup awaiter (e_pending e)) as [pa|].
    + destruct (match results with [] => None | (t, _) :: _ => alookup t (e_router e) end) as [w|]; [|eexists; reflexivity].
      destruct (sremove w (pa_expected pa)); [|eexists; reflexivity].
      destruct (alookup awaiter (e_router e)); [eexists; reflexivity|contradiction].
    + destruct (alookup awaiter (e_router e)); [eexists; reflexivity|contradiction].
  - eexists; reflexivity.
  - eexists; reflexivity.
Qed.

Definition idle_did : did := {| d_taken := []; d_sel := None; d_forget := []; d_act := None; d_park := false; d_fin := None; d_heapy := false |}.
(* the priority lists cover the pids 0..2, all that the example schedules use *)
Definition orc (p : option pid) (d : did) : woracle :=
  {| o_pid := p; o_did := d; o_expired := [0; 1; 2]; o_awaiters := [0; 1; 2]; o_completed := [0; 1; 2] |}.
Definition d_act_ (a : act) : did := {| d_taken := []; d_sel := None; d_forget := []; d_act := Some a; d_park := false; d_fin := None; d_heapy := false |}.
Definition a_sel (ts : list pid) : sel := {| sl_targets := ts; sl_cursors := [0]; sl_timeouts := []; sl_start := None |}.

(* F71 (corpus/sim_c03.txt): `a = @#{ !#'int }, 5 a, !a =x, b = @#{ 2 }, [x, !b]` on
   one worker. The snapshot of the await on `a` (answer: not completed yet) is forwarded by the
   environment after the same-worker direct notification has already let the awaiter run on to its
   next Spawn. update_await_results finds no result in it and calls wake_selecting, which leaves a
   process parked in `spawning` alone (mark_active would re-queue it, to re-execute Spawn on an empty
   stack). *)
Definition f71_schedule : list sched_action :=
  [ X (XStart false);
    W 0 None (orc (Some 0) (d_act_ ASpawn));                                     (* 0: a = @... *)
    E [];
    W 0 None (orc (Some 1) {| d_taken := []; d_sel := Some (a_sel []); d_forget := []; d_act := None; d_park := true; d_fin := None; d_heapy := false |});
    W 0 None (orc (Some 0) (d_act_ (ADeliver 1)));                               (* 0: 5 a *)
    W 0 None (orc (Some 0) {| d_taken := []; d_sel := Some (a_sel [1]); d_forget := []; d_act := Some (AAwait [1]); d_park := false; d_fin := None; d_heapy := false |});
    E [];
    W 0 None (orc (Some 1) {| d_taken := [0]; d_sel := None; d_forget := []; d_act := None; d_park := false; d_fin := Some (ROk 5); d_heapy := false |});
    W 0 None (orc (Some 0) {| d_taken := []; d_sel := None; d_forget := [1]; d_act := Some ASpawn; d_park := false; d_fin := None; d_heapy := false |});  (* 0: b = @... *)
    E [1];                                                                       (* only the stale snapshot *)
    W 0 None (orc None idle_did) ].                                              (* the stale update is handled *)

(* spawner_gets_pid, invariant form (DESIGN §5 C04): a process is in `spawning` iff exactly one
   of {SpawnAction queued, NotifySpawn queued} holds for it *)
Definition pending_spawn (c : pid) (nd : node) : nat :=
  length (filter (fun e => match e with ESpawnA c' => c =? c' | _ => false end) (n_evt nd)) +
  length (filter (fun x => match x with CNotifySpawn c' _ => c =? c' | _ => false end) (n_cmd nd)).
Definition spawner_ok (c : pid) (s : sys) : bool :=
  let pend := fold_right (fun nd acc => pending_spawn c nd + acc) 0 (s_nodes s) in
  let spawning := existsb (fun nd => mem c (w_spawning (n_w nd))) (s_nodes s) in
  if spawning then pend =? 1 else pend =? 0.

(* regression witness: after the F71 schedule the spawner is still parked, its SpawnAction still
   queued, the run queue empty *)
Theorem f71_schedule_repaired :
  exists s, run (init 1) f71_schedule = Good s /\ spawner_ok 0 s = true /\
            w_queue (n_w (nth 0 (s_nodes s) {| n_w := new_worker; n_cmd := []; n_evt := [] |})) = [].
Proof. vm_compute. eexists. split; [reflexivity|]. split; reflexivity. Qed.

(* F72 (corpus/sim_c03.txt): `p1 = @#{ 11 }, p3 = @#{ !#'int, 33 }, !p1 =first, 1 p3, [first, ! [p1, p3]]`
   on one worker. When the awaiter issues `! [p1, p3]`, p1 finished long ago — but its result is
   only learnt from the worker's answer to the QueryAndAwait, which travels through the
   environment, whereas the completion of p3 on the same worker notifies the awaiter directly
   (executor.rs:1244-1280) and re-queues it: the awaiter is runnable with awaiting = {p1: None,
   p3: Some 33} while the snapshot {p1: Some 11} is still in the worker's event queue, and a
   Worker::step scheduled before the next Environment::step completes the select with 33. *)
Definition f72_schedule : list sched_action :=
  [ X (XStart false);
    W 0 None (orc (Some 0) (d_act_ ASpawn)); E [];                               (* 0: p1 = @... *)
    W 0 None (orc (Some 1) {| d_taken := []; d_sel := None; d_forget := []; d_act := None; d_park := false; d_fin := Some (ROk 11); d_heapy := false |});
    W 0 None (orc (Some 0) (d_act_ ASpawn)); E [];                               (* 0: p3 = @... *)
    W 0 None (orc (Some 2) {| d_taken := []; d_sel := Some (a_sel []); d_forget := []; d_act := None; d_park := true; d_fin := None; d_heapy := false |});
    W 0 None (orc (Some 0) {| d_taken := []; d_sel := Some (a_sel [1]); d_forget := []; d_act := Some (AAwait [1]); d_park := false; d_fin := None; d_heapy := false |});
    E []; W 0 None (orc None idle_did); E [];                                    (* !p1: query, answer, update *)
    W 0 None (orc (Some 0) {| d_taken := []; d_sel := None; d_forget := [1]; d_act := Some (ADeliver 2); d_park := false; d_fin := None; d_heapy := false |});
    E [];                                                                        (* 1 p3 on its way *)
    W 0 (Some 0) (orc (Some 0) {| d_taken := []; d_sel := Some (a_sel [1; 2]); d_forget := []; d_act := Some (AAwait [1; 2]); d_park := false; d_fin := None; d_heapy := false |});
    E [];                                                                        (* ! [p1, p3]: the query is sent *)
    W 0 None (orc (Some 2) {| d_taken := [0]; d_sel := None; d_forget := []; d_act := None; d_park := false; d_fin := Some (ROk 33); d_heapy := false |}) ].

Theorem snapshot_overtaken_by_local_notification :
  exists s nd pr,
    run (init 1) f72_schedule = Good s /\ nth_error (s_nodes s) 0 = Some nd /\
    w_queue (n_w nd) = [0] /\                                  (* the awaiter is runnable *)
    alookup 0 (w_procs (n_w nd)) = Some pr /\
    p_awaiting pr = [(1, None); (2, Some (ROk 33))] /\         (* knowing only the lower-priority result *)
    In (EResults 0 [(1, Some (ROk 11)); (2, None)]) (n_evt nd).  (* the snapshot with p1's result is still queued *)
Proof.
  vm_compute. do 3 eexists. split; [reflexivity|]. split; [reflexivity|]. split; [reflexivity|].
  split; [reflexivity|]. split; [reflexivity|]. left. reflexivity.
Qed.
