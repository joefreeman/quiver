(* ProtoSpawnInv.v — C04 spawner_gets_pid on M-Sys (sys/Proto.v) in its global invariant form, for
   every schedule and every oracle: a process c is in `spawning` (on some worker) iff exactly one of
   {a SpawnAction of c queued in an event queue (or being handled by the environment), a
   NotifySpawn for c queued in a command queue} holds — and never more than one. *)
From Quiver Require Import sys.Proto sys.ProtoMsg sys.ProtoFifo sys.ProtoFail sys.ProtoWake sys.ProtoDeliver sys.ProtoWf sys.ProtoOps sys.ProtoClosed sys.ProtoParked
  sys.ProtoCommute sys.ProtoMicro sys.ProtoMicroWf.

Definition is_sevt (c : pid) (e : event) : bool := match e with ESpawnA c' => c =? c' | _ => false end.
Definition is_notif (c : pid) (x : cmd) : bool := match x with CNotifySpawn c' _ => c =? c' | _ => false end.
Definition nse (c : pid) (es : list event) : nat := length (filter (is_sevt c) es).
Definition nnc (c : pid) (cs : list cmd) : nat := length (filter (is_notif c) cs).
Lemma nse_app c a b : nse c (a ++ b) = nse c a + nse c b. Proof. unfold nse. rewrite filter_app, app_length. reflexivity. Qed.
Lemma nse_zero c es : (forall x, In x es -> is_sevt c x = false) -> nse c es = 0.
Proof. intros H. unfold nse. induction es as [|x es IH]; simpl; [reflexivity|]. rewrite (H x (or_introl eq_refl)). apply IH. intros y Hy. apply H. right; exact Hy. Qed.
Lemma nnc_app c a b : nnc c (a ++ b) = nnc c a + nnc c b. Proof. unfold nnc. rewrite filter_app, app_length. reflexivity. Qed.

Definition g_sp c (nd : node) := Nat.b2n (mem c (w_spawning (n_w nd))).
Definition g_se c (nd : node) := nse c (n_evt nd).
Definition g_nc c (nd : node) := nnc c (n_cmd nd).
Lemma nse_cons c ev evs : nse c (ev :: evs) = Nat.b2n (is_sevt c ev) + nse c evs.
Proof. unfold nse. simpl. destruct (is_sevt c ev); reflexivity. Qed.
Lemma nnc_cons c x cs : nnc c (x :: cs) = Nat.b2n (is_notif c x) + nnc c cs.
Proof. unfold nnc. simpl. destruct (is_notif c x); reflexivity. Qed.

(* ---- the spawning set through the worker operations *)
Definition spe (w w' : worker) : Prop := w_spawning w' = w_spawning w.
Lemma spe_upd_proc p f w : spe w (upd_proc p f w). Proof. apply upd_proc_sched. Qed.
Lemma spe_closed : closed spe.
Proof.
  split; [unfold spe; congruence|intros w w' (_&E&_); exact E|intros; apply spe_upd_proc..].
Qed.

Lemma handle_cmd_spawning c0 w w' ev : handle_cmd c0 w = Good (w', ev) ->
  (forall c, nse c ev = 0) /\
  match c0 with
  | CNotifySpawn p _ => w_spawning w' = if mem p (w_spawning w) then sremove p (w_spawning w) else w_spawning w
  | _ => w_spawning w' = w_spawning w
  end.
Proof.
  intros H. pose proof spe_closed as C. destruct c0; simpl in H.
  - inversion H; subst. split; reflexivity.
  - inversion H; subst. split; reflexivity.
  - destruct sleeping; inversion H; subst; split; reflexivity.
  - inversion H; subst; split; reflexivity.
  - destruct (alookup p (w_procs w)) as [pr|]; [|discriminate].
    destruct (p_res pr) as [[v|e]|]; try discriminate. destruct (p_pers pr); [|discriminate]. inversion H; subst.
    split; [reflexivity|]. unfold enqueue. simpl. apply spe_upd_proc.
  - destruct (fold_left (query_one awaiter) targets (w, [])) as [w1 rs] eqn:E. inversion H; subst.
    split; [reflexivity|]. pose proof (closed_query_fold _ C awaiter targets w []) as Q. rewrite E in Q. exact Q.
  - inversion H; subst. split; [reflexivity|apply (closed_update_await _ C)].
  - destruct (alookup target (w_procs w)); inversion H; subst; (split; [reflexivity|]);
      (eapply (cl_trans _ C); [|apply (closed_wake _ C)]); [eapply (cl_trans _ C); [|apply spe_upd_proc]|]; reflexivity.
  - destruct (mem p (w_spawning w)); inversion H; subst; split; reflexivity.
  - destruct (alookup p (w_procs w)) as [pr|]; [|discriminate].
    destruct (p_res pr); inversion H; subst; split; reflexivity.
Qed.

Lemma ind_sremove c p l : mem p l = true -> Nat.b2n (mem c (sremove p l)) + Nat.b2n (c =? p) = Nat.b2n (mem c l).
Proof.
  intros Hp. rewrite mem_sremove. destruct (c =? p) eqn:E.
  - apply Nat.eqb_eq in E. subst c. rewrite Hp, Nat.eqb_refl. reflexivity.
  - rewrite Nat.eqb_sym, E. simpl. rewrite andb_true_r, Nat.add_0_r. reflexivity.
Qed.

Lemma check_completed_spawning hint w w' ev : check_completed hint w = Good (w', ev) -> spe w w' /\ forall c, nse c ev = 0.
Proof.
  intros H. destruct (check_completed_spec _ _ _ _ H) as (_&_&S3&_&_&_&_&_&S9). split; [exact S3|].
  intros c. apply nse_zero. intros x Hx. destruct (S9 x Hx) as [(a&t&r&->&_)|(req&r&t&->&_)]; reflexivity.
Qed.

Lemma run_slice_spawning i p pr d hint w w' ev :
  mem p (w_spawning w) = false ->
  run_slice i p pr d hint w = Good (w', ev) ->
  forall c, Nat.b2n (mem c (w_spawning w')) = Nat.b2n (mem c (w_spawning w)) + nse c ev.
Proof.
  intros Hp H c. destruct (run_slice_shape _ _ _ _ _ _ _ _ H) as (taken&mail'&w2&_&Ha&Hf).
  assert (S: w_spawning w' = w_spawning w2).
  { assert (K3: w_spawning (if d_park d then mark_selecting p w2 else w2) = w_spawning w2) by (destruct (d_park d); reflexivity).
    destruct (d_fin d); [|destruct Hf as [->| ->]; exact K3].
    rewrite <- K3. apply (closed_finish _ spe_closed _ _ _ _ _ _ (spe_upd_proc _ _ _) Hf). }
  rewrite S. unfold nse. inversion Ha; subst; simpl; try lia.
  - rewrite mem_sadd. destruct (c =? p) eqn:E.
    + apply Nat.eqb_eq in E. subst c. rewrite Hp. reflexivity.
    + rewrite orb_false_r. simpl. lia.
  - match goal with |- context [upd_proc p ?f ?w1] => destruct (upd_proc_sched p f w1) as (_&S2&_) end. rewrite S2. simpl. lia.
Qed.

Lemma exec_step_spawning i now o w w' ev : SW w ->
  exec_step i now o w = Good (w', ev) ->
  forall c, Nat.b2n (mem c (w_spawning w')) = Nat.b2n (mem c (w_spawning w)) + nse c ev.
Proof.
  intros HS H c. destruct (exec_step_shape _ _ _ _ _ _ H) as (w1&E&Sh).
  pose proof (closed_expire _ spe_closed _ _ _ _ E) as S1. unfold spe in S1. rewrite <- S1.
  destruct Sh as [(_&->&->)|(p&q'&Eq&[(_&->&->)|(pr&_&[(_&R)|(e&_&F&->)])])]; try (unfold nse; simpl; lia).
  - destruct (SW_pop p q' w1 Eq (SW_expire _ _ _ _ E HS)) as (_&_&Psp&_). apply (run_slice_spawning _ _ _ _ _ (set_sched w1 q' (w_spawning w1) (w_selecting w1)) _ _ Psp R c).
  - pose proof (closed_finish _ spe_closed _ _ _ _ _ _ (spe_upd_proc _ _ _) F) as S2. unfold spe in S2. rewrite S2.
    unfold nse; simpl; lia.
Qed.

(* ---- system level *)
Lemma total_pos g ns : 1 <= total g ns -> exists i nd, nth_error ns i = Some nd /\ 1 <= g nd.
Proof.
  induction ns as [|a ns IH]; simpl; intros H; [lia|].
  destruct (g a) eqn:Ea.
  - destruct (IH H) as (i&nd&Hn&Hg). exists (S i), nd. split; assumption.
  - exists 0, a. split; [reflexivity|lia].
Qed.
Lemma total_ge g ns : forall i nd, nth_error ns i = Some nd -> g nd <= total g ns.
Proof. induction ns as [|a ns IH]; intros [|i] nd H; simpl in *; try discriminate; [inversion H; subst; lia|specialize (IH _ _ H); lia]. Qed.
Lemma total_zero g ns : (forall j b, nth_error ns j = Some b -> g b = 0) -> total g ns = 0.
Proof.
  induction ns as [|a ns IH]; intros H; simpl; [reflexivity|]. rewrite (H 0 a eq_refl), IH; [reflexivity|].
  intros j b Hj. apply (H (S j) b Hj).
Qed.
Lemma total_le1 g ns : (forall nd, g nd <= 1) ->
  (forall i j a b, nth_error ns i = Some a -> nth_error ns j = Some b -> 1 <= g a -> 1 <= g b -> i = j) ->
  total g ns <= 1.
Proof.
  intros Hg. induction ns as [|a ns IH]; intros H; simpl; [lia|].
  destruct (g a) eqn:Ea.
  - simpl. apply IH. intros i j x y Hi Hj Gx Gy. specialize (H (S i) (S j) x y Hi Hj Gx Gy). lia.
  - rewrite total_zero; [specialize (Hg a); lia|]. intros j b Hj. destruct (g b) eqn:Eb; [reflexivity|].
    specialize (H 0 (S j) a b eq_refl Hj). lia.
Qed.

Lemma ind_le1 b : Nat.b2n b <= 1. Proof. destruct b; simpl; lia. Qed.
Lemma ind_true b : 1 <= Nat.b2n b -> b = true. Proof. destruct b; simpl; [reflexivity|lia]. Qed.

Lemma spawning_where e ns c : WFe e ns -> 1 <= total (g_sp c) ns ->
  exists i nd, nth_error ns i = Some nd /\ mem c (w_spawning (n_w nd)) = true /\ alookup c (e_router e) = Some i.
Proof.
  intros (_&N) H. destruct (total_pos _ _ H) as (i&nd&Hn&Hg). exists i, nd. apply ind_true in Hg.
  destruct (N i nd Hn) as (S&L&_). repeat split; [exact Hn|exact Hg|]. apply L. apply (sw_has _ S). right; left; exact Hg.
Qed.
Lemma spawning_unique e ns c : WFe e ns -> total (g_sp c) ns <= 1.
Proof.
  intros (_&N). apply total_le1; [intros nd; apply ind_le1|].
  intros i j a b Hi Hj Ga Gb. apply ind_true in Ga, Gb.
  destruct (N i a Hi) as (Sa&La&_). destruct (N j b Hj) as (Sb&Lb&_).
  assert (alookup c (e_router e) = Some i) by (apply La, (sw_has _ Sa); right; left; exact Ga).
  assert (alookup c (e_router e) = Some j) by (apply Lb, (sw_has _ Sb); right; left; exact Gb).
  congruence.
Qed.

(* the invariant, with the SpawnActions the environment has collected and not yet handled *)
Definition Sp (ns : list node) (extra : pid -> nat) : Prop :=
  (forall i nd c, nth_error ns i = Some nd -> 1 <= nnc c (n_cmd nd) -> mem c (w_spawning (n_w nd)) = true) /\
  (forall c, total (g_sp c) ns = total (g_se c) ns + total (g_nc c) ns + extra c).

Lemma Sp_ext ns f g : (forall c, f c = g c) -> Sp ns f -> Sp ns g.
Proof. intros H (A&B). split; [exact A|]. intros c. rewrite <- H. apply B. Qed.

Lemma Sp_set_node ns i nd nd' extra extra' : nth_error ns i = Some nd -> Sp ns extra ->
  (forall c, g_sp c nd' + g_se c nd + g_nc c nd + extra c = g_sp c nd + g_se c nd' + g_nc c nd' + extra' c) ->
  (forall c, 1 <= nnc c (n_cmd nd') -> mem c (w_spawning (n_w nd')) = true) ->
  Sp (set_node i nd' ns) extra'.
Proof.
  intros Hi (A&B) Bal A'. split.
  - intros j x c Hx Hc. destruct (Nat.eq_dec j i) as [->|Hne].
    + rewrite (nth_set_node_same _ _ _ _ Hi) in Hx. injection Hx as <-. apply (A' c Hc).
    + rewrite nth_set_node_other in Hx by exact Hne. eapply A; eassumption.
  - intros c. pose proof (total_update (g_sp c) _ _ _ nd' Hi). pose proof (total_update (g_se c) _ _ _ nd' Hi).
    pose proof (total_update (g_nc c) _ _ _ nd' Hi). specialize (B c). specialize (Bal c). unfold set_node. lia.
Qed.

Lemma Sp_push_other ns extra w x : (forall c, is_notif c x = false) -> Sp ns extra -> Sp (push_cmd w x ns) extra.
Proof.
  intros Hx (A&B). split.
  - intros i nd c Hn Hc. rewrite nth_error_push in Hn. destruct (nth_error ns i) as [nd0|] eqn:En; [|discriminate].
    injection Hn as Hn. destruct (i =? w); subst nd; simpl in *; [|eapply A; eassumption].
    rewrite nnc_app in Hc. unfold nnc at 2 in Hc. simpl in Hc. rewrite Hx in Hc. simpl in Hc. rewrite Nat.add_0_r in Hc. eapply A; eassumption.
  - intros c. rewrite (total_push_other (g_sp c)), (total_push_other (g_se c)) by reflexivity.
    rewrite (total_push_other (g_nc c)); [apply B|].
    intros nd. unfold g_nc. simpl. rewrite nnc_app. unfold nnc at 2. simpl. rewrite Hx. simpl. lia.
Qed.

Lemma Sp_fold_push {A} (mk : A -> cmd) (wof : A -> wid) extra : (forall a c, is_notif c (mk a) = false) ->
  forall l ns, Sp ns extra -> Sp (fold_left (fun ns a => push_cmd (wof a) (mk a) ns) l ns) extra.
Proof. intros Hmk. induction l as [|a l IH]; intros ns H; simpl; [exact H|]. apply IH. apply Sp_push_other; [apply Hmk|exact H]. Qed.

Lemma total_push_notif c w x ns nd : nth_error ns w = Some nd ->
  total (g_nc c) (push_cmd w x ns) = total (g_nc c) ns + Nat.b2n (is_notif c x).
Proof.
  unfold push_cmd. revert w. induction ns as [|a ns IH]; intros [|w] H; simpl in *; try discriminate.
  - unfold g_nc at 1. simpl. rewrite nnc_app. unfold nnc at 2. simpl. unfold g_nc. destruct (is_notif c x); simpl; lia.
  - rewrite (IH _ H). lia.
Qed.

Lemma Sp_push_notif ns extra w c n nd :
  nth_error ns w = Some nd -> mem c (w_spawning (n_w nd)) = true ->
  Sp ns (fun c' => extra c' + Nat.b2n (c' =? c)) -> Sp (push_cmd w (CNotifySpawn c n) ns) extra.
Proof.
  intros Hw Hm (A&B). split.
  - intros i nd1 c1 Hn Hc. rewrite nth_error_push in Hn. destruct (nth_error ns i) as [nd0|] eqn:En; [|discriminate].
    injection Hn as Hn. destruct (i =? w) eqn:Ei; subst nd1; simpl in *; [|eapply A; eassumption].
    apply Nat.eqb_eq in Ei. subst i. rewrite En in Hw. injection Hw as ->.
    rewrite nnc_app in Hc. unfold nnc at 2 in Hc. simpl in Hc.
    destruct (c1 =? c) eqn:Ec; [apply Nat.eqb_eq in Ec; subst c1; exact Hm|].
    simpl in Hc. rewrite Nat.add_0_r in Hc. eapply A; eassumption.
  - intros c1. rewrite (total_push_other (g_sp c1)), (total_push_other (g_se c1)) by reflexivity.
    rewrite (total_push_notif c1 _ _ _ _ Hw). simpl. specialize (B c1). simpl in B. lia.
Qed.

Lemma handle_event_Sp nw ev e ns e' ns' extra :
  handle_event nw ev (e, ns) = Good (e', ns') -> WFe e ns ->
  Sp ns (fun c => extra c + Nat.b2n (is_sevt c ev)) -> Sp ns' extra.
Proof.
  intros H W S. destruct ev; unfold handle_event in H; cbn -[Nat.modulo nodup] in H.
  - (* SpawnAction of `caller` *)
    assert (T1: 1 <= total (g_sp caller) ns).
    { destruct S as (_&B). specialize (B caller). simpl in B. rewrite Nat.eqb_refl in B. simpl in B. lia. }
    destruct (spawning_where _ _ _ W T1) as (i&nd&Hn&Hm&Hr).
    assert (Hlt: caller < e_next e) by (destruct W as (Bd&_); eapply Bd; exact Hr).
    revert H. rewrite alookup_aset. destruct (caller =? e_next e) eqn:Ec; [apply Nat.eqb_eq in Ec; lia|].
    match goal with |- context [@alookup ?A caller ?l] => replace (@alookup A caller l) with (Some i) end.
    intros H. inversion H; subst e' ns'; clear H.
    eapply Sp_push_notif with (nd := if i =? e_next e mod nw then _ else nd).
    + rewrite nth_error_push, Hn. reflexivity.
    + destruct (i =? e_next e mod nw); simpl; exact Hm.
    + apply Sp_push_other; [reflexivity|]. eapply Sp_ext; [|exact S]. intros c. simpl. reflexivity.
  - destruct (alookup target (e_router e)) as [w|]; [|discriminate]. inversion H; subst e' ns'.
    apply Sp_push_other; [reflexivity|]. eapply Sp_ext; [|exact S]. intros c; simpl; lia.
  - revert H. match goal with |- context [forallb ?f targets] => destruct (forallb f targets) end; intros H; [|discriminate].
    inversion H; subst e' ns'; clear H.
    set (wof := fun t => match alookup t (e_router e) with Some w => w | None => 0 end).
    apply (Sp_fold_push (fun w => CQuery awaiter (filter (fun t => wof t =? w) targets)) (fun w => w)); [reflexivity|].
    eapply Sp_ext; [|exact S]. intros c; simpl; lia.
  - assert (S0: Sp ns extra) by (eapply Sp_ext; [|exact S]; intros c; simpl; lia).
    destruct (alookup awaiter (e_pending e)) as [pa|].
    + destruct (match results with [] => None | (t, _) :: _ => alookup t (e_router e) end) as [w|].
      * destruct (sremove w (pa_expected pa)).
        -- destruct (alookup awaiter (e_router e)) as [aw|]; [|discriminate]. inversion H; subst e' ns'.
           apply Sp_push_other; [reflexivity|exact S0].
        -- inversion H; subst e' ns'. exact S0.
      * inversion H; subst e' ns'. exact S0.
    + destruct (alookup awaiter (e_router e)) as [aw|]; [|discriminate]. inversion H; subst e' ns'. apply Sp_push_other; [reflexivity|exact S0].
  - inversion H; subst e' ns'. eapply Sp_ext; [|exact S]. intros c; simpl; lia.
  - inversion H; subst e' ns'. eapply Sp_ext; [|exact S]. intros c; simpl; lia.
Qed.

Definition SPI (s : sys) : Prop := WF s /\ Sp (s_nodes s) (fun _ => 0).

Lemma SPI_init nw : SPI (init nw).
Proof.
  split; [apply WF_init|]. split.
  - intros i nd c Hn Hc. simpl in Hn. apply nth_error_In, repeat_spec in Hn. subst nd. simpl in Hc. unfold nnc in Hc. simpl in Hc. lia.
  - intros c. simpl. rewrite !total_repeat by reflexivity. reflexivity.
Qed.

Theorem SPI_mstep s l s' : SPI s -> mstep s l s' -> SPI s'.
Proof.
  intros (W&S) M. split; [eapply WF_mstep; eassumption|]. pose proof S as (A&B).
  destruct M as [ns e clk i nd c0 rest w' evs Hn Hc Hh
                |ns e clk i nd o w' evs Hn Hx
                |ns e clk i nd hint w' evs Hn Hk
                |ns e clk i nd ev rest e' ns' Hn Hq He
                |ns e clk d
                |s c s' Hc]; unfold mk_sys in *; cbn [s_nodes s_env s_clock] in *.
  - (* a NotifySpawn at the head of the queue finds its process in `spawning`, and is the only one for it *)
    destruct (handle_cmd_spawning _ _ _ _ Hh) as (N1&S1).
    assert (One: forall c, nnc c (n_cmd nd) <= 1).
    { intros c. pose proof (total_ge (g_nc c) _ _ _ Hn) as G. unfold g_nc at 1 in G.
      pose proof (spawning_unique e ns c W) as U. specialize (B c). lia. }
    assert (Step: forall c, Nat.b2n (mem c (w_spawning w')) + Nat.b2n (is_notif c c0) = Nat.b2n (mem c (w_spawning (n_w nd)))).
    { intros c. destruct c0; simpl; try (rewrite S1; lia).
      assert (Mp: mem p (w_spawning (n_w nd)) = true).
      { apply (A i nd p Hn). rewrite Hc, nnc_cons. simpl. rewrite Nat.eqb_refl. simpl. lia. }
      rewrite S1, Mp. apply ind_sremove, Mp. }
    apply (Sp_set_node ns i nd _ _ _ Hn S); unfold g_sp, g_se, g_nc; simpl.
    + intros c. rewrite Hc, nnc_cons, nse_app, N1. specialize (Step c). lia.
    + intros c Hr. specialize (Step c). specialize (One c). rewrite Hc, nnc_cons in One.
      assert (Mc: mem c (w_spawning (n_w nd)) = true) by (apply (A i nd c Hn); rewrite Hc, nnc_cons; lia).
      rewrite Mc in Step. destruct (mem c (w_spawning w')); [reflexivity|simpl in Step; lia].
  - assert (HS: SW (n_w nd)) by (destruct W as (_&N); apply (N i nd Hn)).
    apply (Sp_set_node ns i nd _ _ _ Hn S); unfold g_sp, g_se, g_nc; simpl.
    + intros c. rewrite nse_app, (exec_step_spawning _ _ _ _ _ _ HS Hx c). lia.
    + intros c Hr. pose proof (exec_step_spawning _ _ _ _ _ _ HS Hx c) as X. rewrite (A i nd c Hn Hr) in X.
      destruct (mem c (w_spawning w')); [reflexivity|simpl in X; lia].
  - destruct (check_completed_spawning _ _ _ _ Hk) as (D1&D2). unfold spe in D1.
    apply (Sp_set_node ns i nd _ _ _ Hn S); unfold g_sp, g_se, g_nc; simpl; intros c; rewrite D1.
    + rewrite nse_app, D2. lia.
    + apply (A i nd c Hn).
  - (* the popped event is in the environment's hands while it is handled *)
    eapply handle_event_Sp with (extra := fun _ => 0); [exact He| |].
    + apply WFe_set_node; [exact W|]. simpl. destruct W as (_&N). apply (N i nd Hn).
    + apply (Sp_set_node ns i nd _ _ _ Hn S); unfold g_sp, g_se, g_nc; simpl; intros c; [rewrite Hq, nse_cons; lia|apply (A i nd c Hn)].
  - exact S.
  - destruct (client_step_shape _ _ _ Hc) as [->|(w&c0&e'&Hc0&->&_)]; [exact S|].
    apply Sp_push_other; [|exact S]. intros c1. destruct c0; try contradiction; reflexivity.
Qed.

Lemma SPI_step s a s' : SPI s -> sys_step s a = Good s' -> SPI s'.
Proof.
  intros HI. apply (step_inv SPI (fun _ _ _ _ => True) (fun s0 l s1 H M _ => SPI_mstep s0 l s1 H M) s a s' HI).
  destruct a as [i k o| | |]; simpl; auto. destruct (nth_error (s_nodes s) i); [|exact I]. destruct (handle_cmds _ _) as [[w1 e1]|]; exact I.
Qed.

Lemma SPI_run sigma : forall s s', SPI s -> run s sigma = Good s' -> SPI s'.
Proof. apply (run_invariant SPI SPI_step). Qed.

Definition in_spawning (s : sys) (c : pid) : Prop :=
  exists i nd, nth_error (s_nodes s) i = Some nd /\ mem c (w_spawning (n_w nd)) = true.
Definition spawn_pending (s : sys) (c : pid) : nat :=
  total (g_se c) (s_nodes s) + total (g_nc c) (s_nodes s).

(* C04 spawner_gets_pid, global form.  For every worker count, schedule and oracle, in every
   reachable state and for every process c:
     #workers with c in `spawning`  =  #SpawnAction(c) in event queues + #NotifySpawn(c,_) in command queues
   and that number is at most 1 (the Spawn instruction itself adds c to `spawning` and emits the
   SpawnAction in one atomic slice, so "Spawn action pending" is not a separate state of the model);
   a queued NotifySpawn sits in the queue of the worker that holds the spawner. *)
Theorem spawner_gets_pid_global : forall nw sigma s,
  run (init nw) sigma = Good s ->
  forall c,
    spawn_pending s c <= 1 /\
    (in_spawning s c <-> spawn_pending s c = 1) /\
    (forall i nd, nth_error (s_nodes s) i = Some nd -> 1 <= nnc c (n_cmd nd) -> mem c (w_spawning (n_w nd)) = true).
Proof.
  intros nw sigma s H c. destruct (SPI_run sigma _ _ (SPI_init nw) H) as (W&A&B).
  pose proof (spawning_unique _ _ c W) as U. specialize (B c). unfold spawn_pending.
  split; [lia|]. split; [split|].
  - intros (i&nd&Hn&Hm). pose proof (total_ge (g_sp c) _ _ _ Hn) as G. unfold g_sp at 1 in G. rewrite Hm in G. simpl in G. lia.
  - intros E. assert (T1: 1 <= total (g_sp c) (s_nodes s)) by lia.
    destruct (spawning_where _ _ _ W T1) as (i&nd&Hn&Hm&_). exists i, nd. split; assumption.
  - intros i nd Hn Hc. eapply A; eassumption.
Qed.

(* non-vacuity: both pending states are reachable, and so is the state after the answer *)
Example spawn_evt_pending : exists s, run (init 2) [X (XStart false); W 0 None (orc (Some 0) (d_act_ ASpawn))] = Good s /\
  in_spawning s 0 /\ total (g_se 0) (s_nodes s) = 1 /\ total (g_nc 0) (s_nodes s) = 0.
Proof. eexists. split; [vm_compute; reflexivity|]. split; [exists 0; eexists; split; reflexivity|split; reflexivity]. Qed.
Example spawn_notif_pending : exists s, run (init 2) [X (XStart false); W 0 None (orc (Some 0) (d_act_ ASpawn)); E []] = Good s /\
  in_spawning s 0 /\ total (g_se 0) (s_nodes s) = 0 /\ total (g_nc 0) (s_nodes s) = 1.
Proof. eexists. split; [vm_compute; reflexivity|]. split; [exists 0; eexists; split; reflexivity|split; reflexivity]. Qed.
Example spawn_answered : exists s, run (init 2) [X (XStart false); W 0 None (orc (Some 0) (d_act_ ASpawn)); E []; W 0 None (orc (Some 0) idle_did)] = Good s /\
  spawn_pending s 0 = 0 /\ w_queue (n_w (nth 0 (s_nodes s) {| n_w := new_worker; n_cmd := []; n_evt := [] |})) = [0].
Proof. eexists. split; [vm_compute; reflexivity|]. split; reflexivity. Qed.

(* non-vacuity of the premises of parked_has_no_unseen_message / no_timeout_due_at_last_check: an
   honest run that parks process 0 in an evaluated select (start time set, a timeout of 5) *)
Definition parked_sel : sel := {| sl_targets := []; sl_cursors := [0]; sl_timeouts := [5]; sl_start := Some 0 |}.
Definition park_schedule : list sched_action :=
  [ X (XStart false);
    W 0 None (orc (Some 0) {| d_taken := []; d_sel := Some parked_sel; d_forget := []; d_act := None; d_park := true; d_fin := None; d_heapy := false |}) ].
Example parked_premises_hold : exists s nd pr,
  honest_run (init 1) park_schedule /\ run (init 1) park_schedule = Good s /\
  nth_error (s_nodes s) 0 = Some nd /\ mem 0 (w_selecting (n_w nd)) = true /\
  alookup 0 (w_procs (n_w nd)) = Some pr /\ p_sel pr = Some parked_sel /\ sl_start parked_sel <> None /\
  time_honest 0 {| d_taken := []; d_sel := Some parked_sel; d_forget := []; d_act := None; d_park := true; d_fin := None; d_heapy := false |}.
Proof.
  eexists. eexists. eexists. split.
  - simpl. split; [exact I|]. split; [|exact I]. split.
    + intros _ s Hs. injection Hs as <-. repeat constructor.
    + intros ts Hts. discriminate.
  - split; [vm_compute; reflexivity|]. split; [reflexivity|]. split; [reflexivity|]. split; [reflexivity|].
    split; [reflexivity|]. split; [discriminate|]. intros _ s Hs. injection Hs as <-. reflexivity.
Qed.
