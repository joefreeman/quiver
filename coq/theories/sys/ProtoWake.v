(* ProtoWake.v — C04 on M-Sys (sys/Proto.v), the parked sets: who may take a process out of
   `spawning` (only its NotifySpawn; a stale empty UpdateAwaitResults, finding F71, does not), that
   every SpawnAction is answered by exactly one NotifySpawn carrying a fresh pid, and that each
   wake-up source of a parked select re-queues it (no missing push_back in the notify_* family). *)
From Quiver Require Import sys.Proto sys.ProtoFail sys.ProtoMsg.

Definition keeps_spawning (w w' : worker) : Prop := forall c, mem c (w_spawning w) = true -> mem c (w_spawning w') = true.

(* C04 spawner_gets_pid, handler form: Worker::handle_command takes a process c out of `spawning`
   ONLY when it handles c's NotifySpawn. (With `mark_active` in update_await a result-less
   UpdateAwaitResults for c would do so too: finding F71.) *)
Theorem spawning_left_only_by_notify : forall cmd w w' ev c,
  handle_cmd cmd w = Good (w', ev) ->
  mem c (w_spawning w) = true -> mem c (w_spawning w') = false ->
  exists sp, cmd = CNotifySpawn c sp.
Proof.
  intros cmd w w' ev c H Hin Hout. apply handle_cmd_frame in H. destruct H as (_&S&_).
  destruct cmd; try (rewrite S in Hout; congruence).
  rewrite S, mem_sremove, Hin in Hout. simpl in Hout.
  destruct (p =? c) eqn:E; [apply Nat.eqb_eq in E; subst; eexists; reflexivity|discriminate].
Qed.

(* the executor step never takes a process out of `spawning` *)
Theorem exec_step_keeps_spawning : forall i now o w w' ev,
  exec_step i now o w = Good (w', ev) -> keeps_spawning w w'.
Proof.
  intros i now o w w' ev H c Hc. apply exec_step_frame in H. destruct H as (_&_&_&[S|(p&S)]&_); rewrite S; [exact Hc|].
  rewrite mem_sadd, Hc. reflexivity.
Qed.

(* the environment answers every SpawnAction with exactly one SpawnProcess and one NotifySpawn for
   the caller, carrying the same fresh pid (environment.rs:1172-1235) *)
Theorem spawn_answered_once : forall nw caller e ns e' ns',
  handle_event nw (ESpawnA caller) (e, ns) = Good (e', ns') ->
  exists cw, alookup caller (e_router e') = Some cw /\
    ns' = push_cmd cw (CNotifySpawn caller (e_next e)) (push_cmd (e_next e mod nw) (CSpawn (e_next e)) ns) /\
    e_next e' = S (e_next e) /\ alookup (e_next e) (e_router e') = Some (e_next e mod nw).
Proof.
  intros nw caller e ns e' ns' H. unfold handle_event in H. cbn -[Nat.modulo] in H.
  revert H. match goal with |- context [@alookup ?A caller ?l] => destruct (@alookup A caller l) as [cw|] eqn:Ec end; intros H; [|discriminate].
  inversion H; subst. exists cw. repeat split; try assumption. simpl. apply alookup_aset_eq.
Qed.

Lemma wake_selecting_spec p w :
  mem p (w_selecting w) = true ->
  w_queue (wake_selecting p w) = w_queue w ++ [p] /\ mem p (w_selecting (wake_selecting p w)) = false /\
  w_procs (wake_selecting p w) = w_procs w.
Proof.
  intros H. unfold wake_selecting. rewrite H. simpl. repeat split.
  rewrite mem_sremove, Nat.eqb_refl. simpl. apply andb_false_r.
Qed.

(* a message for a process parked in `selecting` (executor.rs:849) *)
Theorem wakeup_on_message : forall t m w w' ev pr,
  alookup t (w_procs w) = Some pr -> mem t (w_selecting w) = true ->
  handle_cmd (CDeliver t m) w = Good (w', ev) ->
  w_queue w' = w_queue w ++ [t] /\ mem t (w_selecting w') = false /\
  exists pr', alookup t (w_procs w') = Some pr' /\ p_mail pr' = p_mail pr ++ [m].
Proof.
  intros t m w w' ev pr Hl Hs H. unfold handle_cmd in H. rewrite Hl in H. inversion H; subst w' ev; clear H.
  set (w0 := upd_proc t _ _).
  assert (S0: w_queue w0 = w_queue w /\ w_selecting w0 = w_selecting w) 
    by (unfold w0; split; [exact (proj1 (upd_proc_sched t _ _))|exact (proj2 (proj2 (upd_proc_sched t _ _)))]).
  destruct S0 as (Q0&L0).
  destruct (wake_selecting_spec t w0) as (A&B&C); [rewrite L0; exact Hs|].
  rewrite A, B, C, Q0. repeat split.
  eexists. split; [unfold w0; apply upd_proc_same; simpl; exact Hl|reflexivity].
Qed.

(* a result for an awaiter parked in `selecting` that still awaits the target (executor.rs:774) *)
Theorem wakeup_on_result : forall awaiter t v w pr,
  alookup awaiter (w_procs w) = Some pr -> alookup t (p_awaiting pr) <> None -> mem awaiter (w_selecting w) = true ->
  let w' := update_await awaiter [(t, Some (ROk v))] w in
  w_queue w' = w_queue w ++ [awaiter] /\ mem awaiter (w_selecting w') = false /\
  exists pr', alookup awaiter (w_procs w') = Some pr' /\ alookup t (p_awaiting pr') = Some (Some (ROk v)).
Proof.
  intros awaiter t v w pr Hl Ha Hs. unfold update_await. cbn [fold_left existsb snd fst orb worker_notify].
  unfold notify_result, awaits. rewrite Hl. destruct (alookup t (p_awaiting pr)) eqn:Ea; [|contradiction].
  set (w0 := upd_proc awaiter _ w).
  destruct (upd_proc_sched awaiter (fun pr0 => with_awaiting (aset t (Some (ROk v)) (p_awaiting pr0)) pr0) w) as (S1&S2&S3).
  fold w0 in S1, S2, S3.
  destruct (wake_selecting_spec awaiter w0) as (A&B&C); [rewrite S3; exact Hs|].
  rewrite A, B, C, S1. repeat split.
  eexists. split; [unfold w0; apply upd_proc_same; exact Hl|]. simpl. apply alookup_aset_eq.
Qed.

(* a stale answer without any result leaves a process waiting for its spawn notification alone
   (finding F71) *)
Theorem stale_update_leaves_spawner : forall c t w,
  mem c (w_spawning w) = true -> mem c (w_selecting w) = false ->
  update_await c [(t, None)] w = w.
Proof.
  intros c t w H1 H2. unfold update_await. simpl. unfold wake_selecting. rewrite H2. reflexivity.
Qed.

(* an elapsed timeout (check_expired_timeouts, executor.rs:2674) *)
Theorem wakeup_on_timeout : forall now hint w w' p,
  expire now hint w = Good w' -> mem p (w_selecting w) = true -> timed_out now w p = true ->
  In p (w_queue w') /\ mem p (w_selecting w') = false.
Proof.
  intros now hint w w' p H Hs Ht. unfold expire in H.
  destruct (order_by hint _) as [o|] eqn:Eo; [|discriminate]. inversion H; subst; clear H. simpl.
  assert (Hin: mem p (filter (timed_out now w) (w_selecting w)) = true).
  { apply mem_in. apply filter_In. split; [apply mem_in; exact Hs|exact Ht]. }
  split.
  - apply in_or_app. right. apply (order_by_all _ _ _ Eo). exact Hin.
  - destruct (mem p (filter (fun p0 => negb (mem p0 (filter (timed_out now w) (w_selecting w)))) (w_selecting w))) eqn:E; [|reflexivity].
    apply mem_in, filter_In in E. destruct E as (_&E). rewrite Hin in E. discriminate.
Qed.

