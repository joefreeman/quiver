(* ProtoFifo.v — C04 per_sender_fifo on M-Sys (sys/Proto.v): for every source worker i and every
   target t, the messages worker i has sent to t are, AS A LIST (in sending order), exactly
   what has arrived at t's worker, followed by what waits in that worker's command queue,
   followed by what waits in worker i's event queue. For every schedule and every oracle. *)
From Quiver Require Import sys.Proto sys.ProtoFail sys.ProtoMsg sys.ProtoCommute.

Definition fw (i : wid) (l : list (pid * msg)) : list (pid * msg) := filter (fun x => m_w (snd x) =? i) l.
Definition ft (t : pid) (l : list (pid * msg)) : list (pid * msg) := filter (fun x => fst x =? t) l.
Definition link (i : wid) (t : pid) (l : list (pid * msg)) := fw i (ft t l).

Lemma ft_app t a b : ft t (a ++ b) = ft t a ++ ft t b. Proof. apply filter_app. Qed.
Lemma fw_app i a b : fw i (a ++ b) = fw i a ++ fw i b. Proof. apply filter_app. Qed.
Lemma link_app i t a b : link i t (a ++ b) = link i t a ++ link i t b.
Proof. unfold link. rewrite ft_app, fw_app. reflexivity. Qed.

Lemma fw_all i l : Forall (fun x => m_w (snd x) = i) l -> fw i l = l.
Proof.
  induction l as [|a l IH]; intros H; simpl; [reflexivity|]. inversion H; subst.
  rewrite Nat.eqb_refl. f_equal. apply IH. assumption.
Qed.
Lemma fw_nil_forall i l : Forall (fun x => m_w (snd x) <> i) l -> fw i l = [].
Proof.
  induction l as [|a l IH]; intros H; simpl; [reflexivity|]. inversion H; subst.
  destruct (m_w (snd a) =? i) eqn:E; [apply Nat.eqb_eq in E; contradiction|]. apply IH. assumption.
Qed.
Lemma fw_none i j l : i <> j -> Forall (fun x => m_w (snd x) = j) l -> fw i l = [].
Proof. intros Hij H. apply fw_nil_forall. eapply Forall_impl; [|exact H]. simpl. congruence. Qed.
Lemma Forall_ft {P : pid * msg -> Prop} t l : Forall P l -> Forall P (ft t l).
Proof. intros H. apply Forall_forall. intros x Hx. apply filter_In in Hx. rewrite Forall_forall in H. apply H, Hx. Qed.
Lemma link_all i t l : Forall (fun x => m_w (snd x) = i) l -> link i t l = ft t l.
Proof. intros H. unfold link. apply fw_all. apply Forall_ft. exact H. Qed.
Lemma link_none i j t l : i <> j -> Forall (fun x => m_w (snd x) = j) l -> link i t l = [].
Proof. intros Hij H. unfold link. eapply fw_none; [exact Hij|]. apply Forall_ft. exact H. Qed.
Lemma ft_nil_app t a b : ft t (a ++ b) = [] -> ft t a = [] /\ ft t b = [].
Proof. rewrite ft_app. apply app_eq_nil. Qed.
Lemma link_of_ft_nil i t l : ft t l = [] -> link i t l = [].
Proof. intros H. unfold link. rewrite H. reflexivity. Qed.

(* what worker i sent to t and has left its event queue: arrived at, or queued for, t's worker *)
Definition Jpart (e : env) (ns : list node) (i : wid) (t : pid) : list (pid * msg) :=
  match alookup t (e_router e) with
  | Some j => match nth_error ns j with
              | Some ndj => link i t (w_arrlog (n_w ndj)) ++ link i t (delivs (n_cmd ndj))
              | None => []
              end
  | None => []
  end.

(* evs: events collected by the environment and not yet handled. The clauses: router entries are
   allocated pids on existing workers; a worker holds messages only for targets routed to it; worker n
   stamps with n; and the link equation: sent = arrived ++ queued at the target ++ held by the
   environment ++ still in the sender's event queue, as lists *)
Definition GInv (e : env) (ns : list node) (evs : list event) : Prop :=
  (forall p w, alookup p (e_router e) = Some w -> p < e_next e /\ w < length ns) /\
  (forall n nd t, nth_error ns n = Some nd -> alookup t (e_router e) <> Some n ->
      ft t (delivs (n_cmd nd)) = [] /\ ft t (w_arrlog (n_w nd)) = []) /\
  (forall n nd, nth_error ns n = Some nd ->
      Forall (fun x => m_w (snd x) = n) (w_sentlog (n_w nd)) /\ Forall (fun x => m_w (snd x) = n) (edelivs (n_evt nd))) /\
  (forall i ndi t, nth_error ns i = Some ndi ->
      ft t (w_sentlog (n_w ndi)) = Jpart e ns i t ++ link i t (edelivs evs) ++ ft t (edelivs (n_evt ndi))).

Lemma nth_error_push w c ns k :
  nth_error (push_cmd w c ns) k =
  match nth_error ns k with
  | Some nd => Some (if k =? w then {| n_w := n_w nd; n_cmd := n_cmd nd ++ [c]; n_evt := n_evt nd |} else nd)
  | None => None
  end.
Proof.
  unfold push_cmd. revert w k. induction ns as [|a ns IH]; intros [|w] [|k]; simpl; auto;
    try (destruct (nth_error ns k); reflexivity); try (rewrite IH; destruct (nth_error ns k); reflexivity).
Qed.

(* a fresh router entry does not disturb the invariant *)
Lemma GInv_route e ns evs w :
  w < length ns -> GInv e ns evs -> GInv (alloc e w) ns evs.
Proof.
  intros Hw (B&D&S&Q).
  assert (Hfresh: alookup (e_next e) (e_router e) = None).
  { destruct (alookup (e_next e) (e_router e)) eqn:E; [|reflexivity]. apply B in E. lia. }
  split; [|split; [|split]].
  - intros p w0 Hp. simpl in Hp. rewrite alookup_aset in Hp. destruct (p =? e_next e) eqn:E.
    + apply Nat.eqb_eq in E. subst. inversion Hp; subst. simpl. split; [lia|exact Hw].
    + apply B in Hp. simpl. split; [lia|apply Hp].
  - intros n nd t Hn Hr. simpl in Hr. rewrite alookup_aset in Hr. destruct (t =? e_next e) eqn:E.
    + apply Nat.eqb_eq in E. subst t. apply (D n nd (e_next e) Hn). rewrite Hfresh. discriminate.
    + apply (D n nd t Hn Hr).
  - exact S.
  - intros i ndi t Hi. rewrite (Q i ndi t Hi). f_equal.
    unfold Jpart. simpl. rewrite alookup_aset. destruct (t =? e_next e) eqn:E; [|reflexivity].
    apply Nat.eqb_eq in E. subst t. rewrite Hfresh.
    destruct (nth_error ns w) as [ndw|] eqn:Ew; [|reflexivity].
    destruct (D w ndw (e_next e) Ew) as (D1&D2); [rewrite Hfresh; discriminate|].
    rewrite (link_of_ft_nil _ _ _ D1), (link_of_ft_nil _ _ _ D2). reflexivity.
Qed.

(* a DeliverMessage moves its message from the head of the pending events to the tail of the
   command queue of its target's worker *)
Lemma GInv_push e ns evs j c :
  (forall t m, c = CDeliver t m -> alookup t (e_router e) = Some j) ->
  GInv e ns (match c with CDeliver t m => EDeliverA t m :: evs | _ => evs end) -> GInv e (push_cmd j c ns) evs.
Proof.
  intros Hr G.
  assert (G': exists evs', GInv e ns evs' /\ edelivs evs' = deliv c ++ edelivs evs)
    by (destruct c; eexists; (split; [exact G|reflexivity])).
  clear G. destruct G' as (evs'&(B&D&S&Q)&Ev).
  assert (Hroute: forall t, alookup t (e_router e) <> Some j -> ft t (deliv c) = []).
  { intros t Ht. destruct c; try reflexivity. simpl. destruct (target =? t) eqn:E; [|reflexivity].
    apply Nat.eqb_eq in E; subst. exfalso. apply Ht, (Hr _ _ eq_refl). }
  assert (Dc: delivs [c] = deliv c) by apply app_nil_r.
  split; [|split; [|split]].
  - intros p w Hp. rewrite push_cmd_length. apply (B p w Hp).
  - intros n nd t Hn Hrt. rewrite nth_error_push in Hn. destruct (nth_error ns n) as [nd0|] eqn:En; [|discriminate].
    inversion Hn; subst nd; clear Hn. destruct (D n nd0 t En Hrt) as (D1&D2).
    destruct (n =? j) eqn:E; simpl; [|split; assumption].
    apply Nat.eqb_eq in E. subst n. split; [|exact D2]. rewrite delivs_app, ft_app, D1, Dc. apply Hroute, Hrt.
  - intros n nd Hn. rewrite nth_error_push in Hn. destruct (nth_error ns n) as [nd0|] eqn:En; [|discriminate].
    inversion Hn; subst nd; clear Hn. destruct (n =? j); simpl; apply (S n nd0 En).
  - intros i ndi t Hi. rewrite nth_error_push in Hi. destruct (nth_error ns i) as [nd0|] eqn:En; [|discriminate].
    assert (Hs: w_sentlog (n_w ndi) = w_sentlog (n_w nd0) /\ n_evt ndi = n_evt nd0).
    { inversion Hi; subst ndi. destruct (i =? j); simpl; split; reflexivity. }
    destruct Hs as (Hs1&Hs2). rewrite Hs1, Hs2, (Q i nd0 t En), Ev, link_app. clear Hs1 Hs2 Hi.
    assert (HJ: Jpart e (push_cmd j c ns) i t = Jpart e ns i t ++ link i t (deliv c)).
    { unfold Jpart. destruct (alookup t (e_router e)) as [jt|] eqn:Ert.
      - rewrite nth_error_push. destruct (nth_error ns jt) as [ndj|] eqn:Ej.
        + destruct (jt =? j) eqn:Ejj; simpl.
          * rewrite delivs_app, link_app, Dc, app_assoc. reflexivity.
          * rewrite (link_of_ft_nil i t (deliv c)), app_nil_r; [reflexivity|]. apply Hroute. rewrite Ert.
            intros E; inversion E; subst. rewrite Nat.eqb_refl in Ejj. discriminate.
        + destruct (B t jt Ert) as (_&Hlt). apply nth_error_None in Ej. lia.
      - rewrite (link_of_ft_nil i t (deliv c)); [reflexivity|]. apply Hroute. rewrite Ert. discriminate. }
    rewrite HJ. rewrite <- !app_assoc. reflexivity.
Qed.

Lemma GInv_skip e ns ev evs : edeliv ev = [] -> GInv e ns (ev :: evs) -> GInv e ns evs.
Proof.
  intros He (B&D&S&Q). split; [exact B|split; [exact D|split; [exact S|]]].
  intros i ndi t Hi. rewrite (Q i ndi t Hi). simpl. rewrite He. reflexivity.
Qed.

Lemma filter_comm {A} (f g : A -> bool) l : filter f (filter g l) = filter g (filter f l).
Proof.
  induction l as [|a l IH]; simpl; [reflexivity|].
  destruct (g a) eqn:Eg; destruct (f a) eqn:Ef; simpl; rewrite ?Eg, ?Ef, ?IH; reflexivity.
Qed.
Lemma ft_fw_comm i t l : ft t (fw i l) = fw i (ft t l).
Proof. unfold ft, fw. apply filter_comm. Qed.

Lemma collect_spec : forall ns ks b evs ns',
  (forall k nd, nth_error ns k = Some nd -> Forall (fun x => m_w (snd x) = b + k) (edelivs (n_evt nd))) ->
  collect ks ns = (evs, ns') ->
  length ns' = length ns /\
  Forall (fun x => b <= m_w (snd x) < b + length ns) (edelivs evs) /\
  (forall k nd, nth_error ns k = Some nd -> exists nd', nth_error ns' k = Some nd' /\ n_w nd' = n_w nd /\ n_cmd nd' = n_cmd nd /\
       edelivs (n_evt nd) = fw (b + k) (edelivs evs) ++ edelivs (n_evt nd') /\
       Forall (fun x => m_w (snd x) = b + k) (edelivs (n_evt nd'))).
Proof.
  induction ns as [|nd ns IH]; intros ks b evs ns' Hst Hc; simpl in Hc.
  - inversion Hc; subst. simpl. repeat split; [constructor|]. intros k nd H. destruct k; discriminate.
  - set (k0 := match ks with [] => None | k1 :: _ => Some k1 end) in Hc.
    pose proof (split_at_app k0 (n_evt nd)) as Hs.
    destruct (split_at k0 (n_evt nd)) as [now_evs later]. simpl in Hs.
    destruct (collect (tl ks) ns) as [evs_t ns_t] eqn:Ec. inversion Hc; subst evs ns'; clear Hc.
    destruct (IH (tl ks) (S b) evs_t ns_t) as (L&R&N); [|exact Ec|].
    { intros k nd0 Hk. replace (S b + k) with (b + S k) by lia. apply (Hst (S k) nd0 Hk). }
    pose proof (Hst 0 nd eq_refl) as H0. rewrite Nat.add_0_r in H0.
    rewrite <- Hs, edelivs_app in H0. apply Forall_app in H0. destruct H0 as (Hnow&Hlater).
    split; [simpl; rewrite L; reflexivity|]. split.
    + rewrite edelivs_app. apply Forall_app. split.
      * eapply Forall_impl; [|exact Hnow]. intros x Hx. simpl in *. lia.
      * eapply Forall_impl; [|exact R]. intros x Hx. simpl in *. lia.
    + intros k nd0 Hk. destruct k as [|k]; simpl in Hk.
      * inversion Hk; subst nd0. eexists. split; [reflexivity|]. simpl. repeat split.
        -- rewrite Nat.add_0_r, edelivs_app, fw_app, (fw_all b _ Hnow).
           rewrite (fw_nil_forall b (edelivs evs_t)), app_nil_r, <- edelivs_app, Hs; [reflexivity|].
           eapply Forall_impl; [|exact R]. intros x Hx. simpl in *. lia.
        -- rewrite Nat.add_0_r. exact Hlater.
      * destruct (N k nd0 Hk) as (nd'&A1&A2&A3&A4&A5). exists nd'. simpl. repeat split; try assumption.
        -- replace (b + S k) with (S b + k) by lia. rewrite edelivs_app, fw_app.
           rewrite (fw_nil_forall (S b + k) (edelivs now_evs)); [exact A4|].
           eapply Forall_impl; [|exact Hnow]. intros x Hx. simpl in *. lia.
        -- replace (b + S k) with (S b + k) by lia. exact A5.
Qed.

Lemma Jpart_same e ns ns' i t :
  (forall j ndj, nth_error ns j = Some ndj -> exists ndj', nth_error ns' j = Some ndj' /\ n_w ndj' = n_w ndj /\ n_cmd ndj' = n_cmd ndj) ->
  length ns' = length ns -> Jpart e ns' i t = Jpart e ns i t.
Proof.
  intros H L. unfold Jpart. destruct (alookup t (e_router e)) as [j|]; [|reflexivity].
  destruct (nth_error ns j) as [ndj|] eqn:Ej.
  - destruct (H j ndj Ej) as (ndj'&A&B&C). rewrite A, B, C. reflexivity.
  - apply nth_error_None in Ej. rewrite <- L in Ej. apply nth_error_None in Ej. rewrite Ej. reflexivity.
Qed.

Lemma collect_GInv e ns ks evs ns' :
  GInv e ns [] -> collect ks ns = (evs, ns') -> GInv e ns' evs /\ length ns' = length ns.
Proof.
  intros (B&D&S&Q) Hc.
  destruct (collect_spec ns ks 0 evs ns') as (L&R&N); [intros k nd Hk; apply (S k nd Hk)|exact Hc|].
  assert (Back: forall k nd', nth_error ns' k = Some nd' -> exists nd, nth_error ns k = Some nd /\ n_w nd' = n_w nd /\ n_cmd nd' = n_cmd nd /\
              edelivs (n_evt nd) = fw k (edelivs evs) ++ edelivs (n_evt nd') /\ Forall (fun x => m_w (snd x) = k) (edelivs (n_evt nd'))).
  { intros k nd' Hk. destruct (nth_error ns k) as [nd|] eqn:Ek.
    - destruct (N k nd Ek) as (nd2&A1&A2&A3&A4&A5). rewrite Hk in A1. inversion A1; subst nd2. exists nd. repeat split; assumption.
    - apply nth_error_None in Ek. rewrite <- L in Ek. apply nth_error_None in Ek. congruence. }
  split; [|exact L]. split; [|split; [|split]].
  - intros p w Hp. rewrite L. apply (B p w Hp).
  - intros n nd' t Hn Hr. destruct (Back n nd' Hn) as (nd&Hk&A2&A3&_&_). rewrite A2, A3. apply (D n nd t Hk Hr).
  - intros n nd' Hn. destruct (Back n nd' Hn) as (nd&Hk&A2&_&_&A5). rewrite A2. split; [apply (S n nd Hk)|exact A5].
  - intros i ndi t Hi. destruct (Back i ndi Hi) as (nd&Hk&A2&A3&A4&A5).
    rewrite A2, (Q i nd t Hk), A4. simpl.
    rewrite (Jpart_same e ns ns' i t); [|intros j ndj Hj; destruct (N j ndj Hj) as (x&X1&X2&X3&_); exists x; auto|exact L].
    rewrite ft_app, ft_fw_comm. reflexivity.
Qed.

Lemma nth_error_update_same {A} (l : list A) n a a' : nth_error l n = Some a -> nth_error (update_nth n (fun _ => a') l) n = Some a'.
Proof. apply (nth_error_update_nth_eq (fun _ => a')). Qed.
Lemma nth_error_update_other {A} (l : list A) n k (f : A -> A) : k <> n -> nth_error (update_nth n f l) k = nth_error l k.
Proof. intros H. apply nth_error_update_nth_neq. congruence. Qed.

Lemma worker_step_GInv e ns n nd nd' now k o :
  nth_error ns n = Some nd -> node_step n now k o nd = Good nd' ->
  GInv e ns [] -> GInv e (update_nth n (fun _ => nd') ns) [].
Proof.
  intros Hn Hs (B&D&S&Q).
  destruct (node_step_ghost _ _ _ _ _ _ Hs) as (pre&new&C1&C2&C3&C4&Hnew).
  assert (Hstamp: Forall (fun x => m_w (snd x) = n) new).
  { destruct Hnew as [(->&_)|(t&p&->&_)]; repeat constructor. }
  assert (Look: forall k0 x, nth_error (update_nth n (fun _ => nd') ns) k0 = Some x ->
                 (k0 = n /\ x = nd') \/ (k0 <> n /\ nth_error ns k0 = Some x)).
  { intros k0 x Hx. destruct (Nat.eq_dec k0 n) as [->|Hne].
    - rewrite (nth_error_update_same _ _ _ _ Hn) in Hx. inversion Hx. left; auto.
    - rewrite nth_error_update_other in Hx by exact Hne. right; auto. }
  assert (HJ: forall i t, Jpart e (update_nth n (fun _ => nd') ns) i t = Jpart e ns i t).
  { intros i t. unfold Jpart. destruct (alookup t (e_router e)) as [j|]; [|reflexivity].
    destruct (Nat.eq_dec j n) as [->|Hne].
    - rewrite (nth_error_update_same _ _ _ _ Hn), Hn. rewrite C2, C1, delivs_app, !link_app, <- app_assoc. reflexivity.
    - rewrite nth_error_update_other by exact Hne. reflexivity. }
  split; [|split; [|split]].
  - intros p w Hp. rewrite update_nth_length. apply (B p w Hp).
  - intros k0 x t Hx Hr. destruct (Look k0 x Hx) as [(->&->)|(Hne&Hk)]; [|apply (D k0 x t Hk Hr)].
    destruct (D n nd t Hn Hr) as (D1&D2). rewrite C1, delivs_app in D1. apply ft_nil_app in D1. destruct D1 as (D1a&D1b).
    split; [exact D1b|]. rewrite C2, ft_app, D2, D1a. reflexivity.
  - intros k0 x Hx. destruct (Look k0 x Hx) as [(->&->)|(Hne&Hk)]; [|apply (S k0 x Hk)].
    destruct (S n nd Hn) as (S1&S2). rewrite C4, C3. split; apply Forall_app; split; assumption.
  - intros i x t Hx. rewrite HJ. destruct (Look i x Hx) as [(->&->)|(Hne&Hk)]; [|apply (Q i x t Hk)].
    rewrite C4, C3, !ft_app, (Q n nd t Hn). simpl. rewrite <- !app_assoc. reflexivity.
Qed.

Definition fifo_inv (s : sys) : Prop := 0 < length (s_nodes s) /\ GInv (s_env s) (s_nodes s) [].

Definition fifo_at (nw : nat) (e : env) (ns : list node) (evs : list event) : Prop :=
  0 < nw /\ length ns = nw /\ GInv e ns evs.

Lemma fifo_init nw : 0 < nw -> fifo_inv (init nw).
Proof.
  intros H. unfold fifo_inv, init. simpl. rewrite repeat_length. split; [exact H|].
  assert (Hn: forall k nd, nth_error (repeat {| n_w := new_worker; n_cmd := []; n_evt := [] |} nw) k = Some nd ->
               nd = {| n_w := new_worker; n_cmd := []; n_evt := [] |}).
  { intros k nd Hk. apply nth_error_In, repeat_spec in Hk. exact Hk. }
  split; [|split; [|split]].
  - intros p w Hp. discriminate.
  - intros n nd t Hk _. rewrite (Hn _ _ Hk). split; reflexivity.
  - intros n nd Hk. rewrite (Hn _ _ Hk). split; constructor.
  - intros i ndi t Hk. rewrite (Hn _ _ Hk). unfold Jpart. reflexivity.
Qed.

Lemma fifo_at_node nw e ns i nd nd' now k o :
  nth_error ns i = Some nd -> node_step i now k o nd = Good nd' -> fifo_at nw e ns [] -> fifo_at nw e (update_nth i (fun _ => nd') ns) [].
Proof.
  intros Ei Es (P&L&G). refine (conj P (conj _ (worker_step_GInv _ _ _ _ _ _ _ _ Ei Es G))). rewrite update_nth_length; exact L.
Qed.
Lemma fifo_at_collect nw e ns ks : fifo_at nw e ns [] -> fifo_at nw e (snd (collect ks ns)) (fst (collect ks ns)).
Proof.
  intros (P&L&G). destruct (collect ks ns) as [evs ns'] eqn:Ec. destruct (collect_GInv _ _ _ _ _ G Ec) as (G1&L1).
  refine (conj P (conj _ G1)). simpl. congruence.
Qed.

Lemma fifo_at_stable nw : env_stable nw (fifo_at nw).
Proof.
  assert (Push: forall e ns evs w c, deliv c = [] -> fifo_at nw e ns evs -> fifo_at nw e (push_cmd w c ns) evs).
  { intros e ns evs w c Hc (P&L&G). refine (conj P (conj _ _)); [rewrite push_cmd_length; exact L|].
    apply GInv_push; destruct c; try discriminate; exact G. }
  split; [|split; [|split; [|split]]].
  - intros e pe ns evs G. exact G.
  - intros e ns evs w c Hc. apply Push. destruct c; try discriminate; reflexivity.
  - intros e ns ev evs He (P&L&G). exact (conj P (conj L (GInv_skip _ _ _ _ He G))).
  - intros e ns evs t m j Hj (P&L&G). refine (conj P (conj _ _)); [rewrite push_cmd_length; exact L|].
    apply GInv_push; [|exact G]. intros t0 m0 E. inversion E; subst. exact Hj.
  - intros e ns evs c Hc (P&L&G). apply Push; [destruct Hc as [->|(b&->)]; reflexivity|]. refine (conj P (conj L _)).
    apply GInv_route; [rewrite L; apply Nat.mod_upper_bound; lia|exact G].
Qed.

Lemma fifo_at_step nw s a s' :
  length (s_nodes s) = nw -> sys_step s a = Good s' ->
  fifo_at nw (s_env s) (s_nodes s) [] -> fifo_at nw (s_env s') (s_nodes s') [].
Proof. apply inv_step; [apply fifo_at_stable|apply fifo_at_node|apply fifo_at_collect]. Qed.

Lemma fifo_step s a s' : fifo_inv s -> sys_step s a = Good s' -> fifo_inv s'.
Proof.
  intros (Hn&G) H. destruct (fifo_at_step _ s a s' eq_refl H (conj Hn (conj eq_refl G))) as (_&L&G').
  split; [rewrite L; exact Hn|exact G'].
Qed.

Lemma fifo_run sigma : forall s s', fifo_inv s -> run s sigma = Good s' -> fifo_inv s'.
Proof. apply run_invariant. exact fifo_step. Qed.

(* C04 per_sender_fifo. For every schedule and every oracle, for every source worker i and target t
   routed to worker j: the list of messages worker i has sent to t (in sending order) IS the list
   of those that arrived at worker j for t, followed by those in worker j's command queue, followed
   by those in worker i's event queue — each in order. Exactly-once and FIFO on the whole link. *)
Theorem per_link_fifo : forall nw sigma s,
  0 < nw -> run (init nw) sigma = Good s ->
  forall i ndi t j ndj,
    nth_error (s_nodes s) i = Some ndi -> alookup t (e_router (s_env s)) = Some j -> nth_error (s_nodes s) j = Some ndj ->
    ft t (w_sentlog (n_w ndi)) =
    link i t (w_arrlog (n_w ndj)) ++ link i t (delivs (n_cmd ndj)) ++ ft t (edelivs (n_evt ndi)).
Proof.
  intros nw sigma s Hnw H i ndi t j ndj Hi Hr Hj.
  destruct (fifo_run sigma _ _ (fifo_init nw Hnw) H) as (_&(_&_&_&Q)).
  rewrite (Q i ndi t Hi). unfold Jpart. rewrite Hr, Hj. simpl. rewrite <- app_assoc. reflexivity.
Qed.

Definition from (p : pid) (l : list (pid * msg)) := filter (fun x => m_from (snd x) =? p) l.

(* restricted to one sender process p: what has arrived from p is a PREFIX of what p sent, in p's
   sending order *)
Theorem per_sender_fifo : forall nw sigma s,
  0 < nw -> run (init nw) sigma = Good s ->
  forall i ndi t j ndj p,
    nth_error (s_nodes s) i = Some ndi -> alookup t (e_router (s_env s)) = Some j -> nth_error (s_nodes s) j = Some ndj ->
    exists in_flight,
      from p (ft t (w_sentlog (n_w ndi))) = from p (link i t (w_arrlog (n_w ndj))) ++ in_flight.
Proof.
  intros nw sigma s Hnw H i ndi t j ndj p Hi Hr Hj.
  rewrite (per_link_fifo nw sigma s Hnw H i ndi t j ndj Hi Hr Hj).
  unfold from. rewrite filter_app. eexists. reflexivity.
Qed.

(* C03 single_sender_mailbox_order: if everything that arrived for t was stamped by one worker i
   (one sender per mailbox), the arrival sequence of t is a prefix of that worker's send sequence to
   t — a function of the sender's behaviour alone, whatever the schedule *)
Theorem single_sender_mailbox_order : forall nw sigma s,
  0 < nw -> run (init nw) sigma = Good s ->
  forall i ndi t j ndj,
    nth_error (s_nodes s) i = Some ndi -> alookup t (e_router (s_env s)) = Some j -> nth_error (s_nodes s) j = Some ndj ->
    Forall (fun x => m_w (snd x) = i) (ft t (w_arrlog (n_w ndj))) ->
    exists in_flight, ft t (w_sentlog (n_w ndi)) = ft t (w_arrlog (n_w ndj)) ++ in_flight.
Proof.
  intros nw sigma s Hnw H i ndi t j ndj Hi Hr Hj Hone.
  rewrite (per_link_fifo nw sigma s Hnw H i ndi t j ndj Hi Hr Hj).
  unfold link at 1. rewrite (fw_all i _ Hone). eexists. reflexivity.
Qed.
