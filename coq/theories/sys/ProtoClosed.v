(* ProtoClosed.v — what the notification paths, the completion path and the two periodic checks of
   a worker do to a relation between worker states, proved once for every relation that is
   `closed`: the four fields are the primitive effects of those paths.  `quiet`: process table,
   spawning set and arrival / drop logs untouched, nobody newly parked (queue and bookkeeping are
   free): what wake_selecting, set_book and check_expired_timeouts do.  `quiet_but p` is weaker
   (spawning free, p may be parked): what a slice of p does besides writing p's record. *)
From Quiver Require Import sys.Proto sys.ProtoFail sys.ProtoWake sys.ProtoOps.

Definition quiet (w w' : worker) : Prop :=
  w_procs w' = w_procs w /\ w_spawning w' = w_spawning w /\
  (forall q, mem q (w_selecting w') = true -> mem q (w_selecting w) = true) /\
  w_arrlog w' = w_arrlog w /\ w_dropped w' = w_dropped w.

Lemma quiet_refl w : quiet w w.
Proof. repeat split; auto. Qed.
Lemma quiet_wake p w : quiet w (wake_selecting p w).
Proof.
  unfold wake_selecting. destruct (mem p (w_selecting w)); [|apply quiet_refl].
  repeat split; auto. simpl. intros q Hq. rewrite mem_sremove in Hq. apply andb_true_iff in Hq. apply Hq.
Qed.

Record closed (R : worker -> worker -> Prop) : Prop := {
  cl_trans : forall a b c, R a b -> R b c -> R a c;
  cl_quiet : forall w w', quiet w w' -> R w w';
  (* Executor::notify_result stores a result under a key that is there *)
  cl_record : forall a b r w, awaits a b w = true ->
    R w (upd_proc a (fun pr => with_awaiting (aset b (Some r) (p_awaiting pr)) pr) w);
  (* a failure completes a process in place *)
  cl_fail : forall a e w, R w (upd_proc a (with_res (Some (RErr e))) w)
}.

Section Closed.
  Variable R : worker -> worker -> Prop.
  Hypothesis C : closed R.

  Lemma closed_refl w : R w w.
  Proof. apply (cl_quiet R C), quiet_refl. Qed.
  Lemma closed_wake p w : R w (wake_selecting p w).
  Proof. apply (cl_quiet R C), quiet_wake. Qed.

  Lemma closed_notify_result a b r w : R w (notify_result a b r w).
  Proof.
    unfold notify_result. destruct (awaits a b w) eqn:E; [|apply closed_wake].
    eapply (cl_trans R C); [apply (cl_record R C); exact E|apply closed_wake].
  Qed.
  Lemma closed_worker_notify a b r w : R w (worker_notify a b r w).
  Proof.
    unfold worker_notify. destruct r; [apply closed_notify_result|].
    destruct (awaits a b w); [apply (cl_fail R C)|apply closed_wake].
  Qed.

  Lemma closed_fold {A} (f : worker -> A -> worker) l : (forall w x, R w (f w x)) -> forall w, R w (fold_left f l w).
  Proof. intros Hf. induction l as [|x l IH]; intros w; simpl; [apply closed_refl|]. eapply (cl_trans R C); [apply Hf|apply IH]. Qed.
  Lemma closed_fold_fst {A B} (f : worker * B -> A -> worker * B) l :
    (forall acc x, R (fst acc) (fst (f acc x))) -> forall acc, R (fst acc) (fst (fold_left f l acc)).
  Proof. intros Hf. induction l as [|x l IH]; intros acc; simpl; [apply closed_refl|]. eapply (cl_trans R C); [apply Hf|apply IH]. Qed.

  Lemma closed_update_await a rs w : R w (update_await a rs w).
  Proof.
    unfold update_await.
    assert (H: R w (fold_left (fun w e => match snd e with Some r => worker_notify a (fst e) r w | None => w end) rs w)).
    { apply closed_fold. intros w0 x. destruct (snd x); [apply closed_worker_notify|apply closed_refl]. }
    destruct (existsb _ rs); [exact H|]. eapply (cl_trans R C); [exact H|apply closed_wake].
  Qed.

  Lemma closed_query_fold a ts w rs : R w (fst (fold_left (query_one a) ts (w, rs))).
  Proof.
    refine (closed_fold_fst (query_one a) ts _ (w, rs)). intros [w0 rs0] t. unfold query_one.
    destruct (completed_value w0 t); simpl; [apply closed_refl|apply (cl_quiet R C); repeat split; auto].
  Qed.

  Lemma closed_notify_local p r h w q : R w (notify_local p r h w q).
  Proof. unfold notify_local. destruct r; [destruct h; [apply closed_refl|apply closed_notify_result]|apply (cl_fail R C)]. Qed.

  (* what setting p's own result does to the relation is the caller's business *)
  Lemma closed_finish p r h hint w w' :
    R w (upd_proc p (with_res (Some r)) w) -> finish p r h hint w = Good w' -> R w w'.
  Proof.
    unfold finish. intros H1. destruct (order_by hint _); [|discriminate]. intros H; inversion H; subst.
    eapply (cl_trans R C); [exact H1|]. apply closed_fold. intros; apply closed_notify_local.
  Qed.

  Lemma closed_expire now hint w w' : expire now hint w = Good w' -> R w w'.
  Proof.
    unfold expire. destruct (order_by hint _); [|discriminate]. intros H; inversion H; subst.
    apply (cl_quiet R C). repeat split; auto. simpl. intros q Hq. apply mem_in, filter_In in Hq. apply mem_in, Hq.
  Qed.

  Lemma closed_check_completed hint w w' ev : check_completed hint w = Good (w', ev) -> R w w'.
  Proof.
    unfold check_completed. destruct (order_by hint _) as [o|]; [|discriminate].
    intros H; inversion H as [H1]; clear H.
    set (acc := fold_left report_completed o (w, [])) in *.
    apply (cl_trans R C _ (fst acc)).
    - refine (closed_fold_fst report_completed o _ (w, [])). intros [w0 ev0] y. unfold report_completed.
      destruct (result_of w0 y); simpl; [apply (cl_quiet R C); repeat split; auto|apply closed_refl].
    - change w' with (fst (w', ev)). rewrite <- H1. refine (closed_fold_fst report_pending _ _ acc). intros [w0 ev0] y. unfold report_pending.
      destruct (result_of w0 (fst y)); simpl; [apply (cl_quiet R C); repeat split; auto|apply closed_refl].
  Qed.
End Closed.

Definition quiet_but (p : pid) (w w' : worker) : Prop :=
  w_procs w' = w_procs w /\ w_arrlog w' = w_arrlog w /\ w_dropped w' = w_dropped w /\
  forall q, q <> p -> mem q (w_selecting w') = true -> mem q (w_selecting w) = true.

Section Slice.
  Variable R : worker -> worker -> Prop.
  Hypothesis C : closed R.
  Variable p : pid.
  Hypothesis Hq : forall w w', quiet_but p w w' -> R w w'.
  Hypothesis Hawait : forall ts w,
    R w (upd_proc p (fun q => with_awaiting (fold_left (fun a t => aset t None a) ts (p_awaiting q)) q) w).
  Hypothesis Hres : forall r w, R w (upd_proc p (with_res (Some r)) w).

  (* a slice from the point where the record of p has been written back (ProtoOps.run_slice_shape) *)
  Lemma closed_slice i d hint w1 w2 w' ev :
    slice_act i p w1 (d_act d) w2 ev ->
    match d_fin d with
    | Some r => finish p r (d_heapy d) hint (if d_park d then mark_selecting p w2 else w2) = Good w'
    | None => w' = (if d_park d then mark_selecting p w2 else w2) \/ w' = enqueue p (if d_park d then mark_selecting p w2 else w2)
    end -> R w1 w'.
  Proof.
    intros Ha Hf.
    assert (Mk: forall w, R w (mark_selecting p w)).
    { intros w. apply Hq. repeat split; auto. simpl. intros q Hne Hm. rewrite mem_sadd in Hm.
      apply orb_true_iff in Hm. destruct Hm as [Hm|Hm]; [exact Hm|apply Nat.eqb_eq in Hm; contradiction]. }
    assert (K2: R w1 w2).
    { inversion Ha; subst; [apply (closed_refl R C)|apply Hq; repeat split; auto..|].
      eapply (cl_trans R C); [apply Hawait|apply Mk]. }
    assert (K3: R w1 (if d_park d then mark_selecting p w2 else w2)).
    { destruct (d_park d); [eapply (cl_trans R C); [exact K2|apply Mk]|exact K2]. }
    eapply (cl_trans R C); [exact K3|]. destruct (d_fin d).
    - eapply (closed_finish R C); [apply Hres|exact Hf].
    - destruct Hf as [->| ->]; [apply (closed_refl R C)|apply Hq; repeat split; auto].
  Qed.

  Lemma closed_run_slice i pr d hint w w' ev :
    (forall taken mail', R w (set_procs w (aset p (slice_pr1 pr d taken mail') (w_procs w)))) ->
    run_slice i p pr d hint w = Good (w', ev) -> R w w'.
  Proof.
    intros H1 H. destruct (run_slice_shape _ _ _ _ _ _ _ _ H) as (taken&mail'&w2&_&Ha&Hf).
    eapply (cl_trans R C); [apply H1|eapply closed_slice; eassumption].
  Qed.
End Slice.
