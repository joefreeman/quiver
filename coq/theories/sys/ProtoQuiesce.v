(* ProtoQuiesce.v — C04 quiescent_no_ready (the await part) on M-Sys (sys/Proto.v).
   A pending_awaits entry is LIVE: every worker it still expects an answer from has the
   QueryAndAwait command or a ProcessResults event for that awaiter in its queues, and an entry that
   expects nobody stores nothing.  With the fourth clause of Inv_parked (ProtoAwaitThm) this gives:
   in a quiescent state (all command and event queues empty) no parked, unfailed process awaits a
   process that has finished — for every schedule and every await_honest oracle. *)
From Quiver Require Import sys.Proto sys.ProtoMsg sys.ProtoFifo sys.ProtoFail sys.ProtoWake sys.ProtoDeliver sys.ProtoWf
  sys.ProtoParked sys.ProtoCommute sys.ProtoRouted sys.ProtoMicro sys.ProtoMicroWf sys.ProtoOps sys.ProtoAwait sys.ProtoAwaitInv sys.ProtoAwaitThm.

Definition wit (ns : list node) (w : wid) (p : pid) : Prop :=
  exists ndw, nth_error ns w = Some ndw /\
    ((exists ts, In (CQuery p ts) (n_cmd ndw)) \/ (exists rs, In (EResults p rs) (n_evt ndw))).
Definition pl_ok (e : env) (ns : list node) : Prop :=
  forall p pa, alookup p (e_pending e) = Some pa ->
    (pa_expected pa = [] -> pa_resp pa = []) /\ forall w, In w (pa_expected pa) -> wit ns w p.

Definition QI (s : sys) : Prop := AI s /\ pl_ok (s_env s) (s_nodes s).

Lemma wit_wstep ns i nd nd' w p :
  nth_error ns i = Some nd ->
  (forall ev, In ev (n_evt nd) -> In ev (n_evt nd')) ->
  (forall a ts, In (CQuery a ts) (n_cmd nd) -> In (CQuery a ts) (n_cmd nd') \/ exists rs, In (EResults a rs) (n_evt nd')) ->
  wit ns w p -> wit (set_node i nd' ns) w p.
Proof.
  intros Hi T1 T3 (ndw&Hw&Hc).
  destruct (nth_set_cases nd' Hi Hw) as [(->&->&Hn)|(_&Hn)]; [|exists ndw; split; assumption].
  exists nd'. split; [exact Hn|]. destruct Hc as [(ts&Hin)|(rs&Hin)].
  - destruct (T3 p ts Hin) as [H1|H2]; [left; exists ts; exact H1|right; exact H2].
  - right. exists rs. apply T1. exact Hin.
Qed.

Lemma pl_wstep e ns i nd nd' :
  nth_error ns i = Some nd ->
  (forall ev, In ev (n_evt nd) -> In ev (n_evt nd')) ->
  (forall a ts, In (CQuery a ts) (n_cmd nd) -> In (CQuery a ts) (n_cmd nd') \/ exists rs, In (EResults a rs) (n_evt nd')) ->
  pl_ok e ns -> pl_ok e (set_node i nd' ns).
Proof.
  intros Hi T1 T3 PL p pa Hp. destruct (PL p pa Hp) as (P1&P2). split; [exact P1|].
  intros w Hw. eapply wit_wstep; [exact Hi|exact T1|exact T3|apply P2; exact Hw].
Qed.

Lemma wit_pop ns i nd ev rest w p :
  nth_error ns i = Some nd -> n_evt nd = ev :: rest ->
  (forall rs, ev <> EResults p rs) \/ w <> i ->
  wit ns w p -> wit (set_node i (mk_node (n_w nd) (n_cmd nd) rest) ns) w p.
Proof.
  intros Hi He Hc (ndw&Hw&Hq).
  destruct (nth_set_cases (mk_node (n_w nd) (n_cmd nd) rest) Hi Hw) as [(->&->&Hn)|(_&Hn)]; [|exists ndw; split; assumption].
  eexists. split; [exact Hn|]. simpl. destruct Hq as [Hq|(rs&Hin)]; [left; exact Hq|right].
  rewrite He in Hin. destruct Hin as [->|Hin]; [|exists rs; exact Hin].
  destruct Hc as [Hc|Hc]; [exfalso; apply (Hc rs); reflexivity|contradiction].
Qed.

Lemma wit_ext P nsm ns' w p : ext P nsm ns' -> wit nsm w p -> wit ns' w p.
Proof.
  intros Hx (ndw&Hw&Hq). destruct (ext_node _ _ _ _ _ Hx Hw) as (nd2&N2&_&Ee&Hc).
  exists nd2. split; [exact N2|]. destruct Hq as [(ts&Hin)|(rs&Hin)]; [left; exists ts; apply Hc; exact Hin|right; exists rs; rewrite Ee; exact Hin].
Qed.

Theorem QI_mstep s l s' : QI s -> mstep s l s' -> hon_label await_honest s l -> QI s'.
Proof.
  intros (HA&PL) M Hon. split; [eapply AI_mstep; eassumption|].
  destruct HA as (Lp&HA).
  destruct M as [ns e clk i nd c rest w' evs Hn Hc Hh
                |ns e clk i nd o w' evs Hn Hx
                |ns e clk i nd hint w' evs Hn Hk
                |ns e clk i nd ev rest e' ns' Hn Hq He
                |ns e clk d
                |s c s' Hc]; simpl in *.
  - (* command *)
    apply (pl_wstep e ns i nd _ Hn); [intros ev Hin; simpl; apply in_or_app; left; exact Hin| |exact PL].
    intros a ts Hin. rewrite Hc in Hin. simpl. destruct Hin as [->|Hin]; [|left; exact Hin].
    right. simpl in Hh. destruct (fold_left (query_one a) ts (n_w nd, [])) as [w1 rs]. inversion Hh; subst.
    exists rs. apply in_or_app. right. left; reflexivity.
  - apply (pl_wstep e ns i nd _ Hn); [intros ev Hin; simpl; apply in_or_app; left; exact Hin|intros a ts Hin; left; exact Hin|exact PL].
  - apply (pl_wstep e ns i nd _ Hn); [intros ev Hin; simpl; apply in_or_app; left; exact Hin|intros a ts Hin; left; exact Hin|exact PL].
  - (* event *)
    destruct HA as (W&RB&PR&NI&IO). simpl in RB, PR, NI, IO.
    destruct (NI i nd Hn) as (_&_&EV&_).
    set (nsm := set_node i (mk_node (n_w nd) (n_cmd nd) rest) ns) in *.
    assert (Lm: length nsm = length ns) by apply set_node_length.
    assert (Keep: forall P, ext P nsm ns' -> forall p pa, alookup p (e_pending e) = Some pa -> (forall rs, ev <> EResults p rs) ->
              (pa_expected pa = [] -> pa_resp pa = []) /\ forall w, In w (pa_expected pa) -> wit ns' w p).
    { intros P Hx p pa Hp Hne. destruct (PL p pa Hp) as (P1&P2). split; [exact P1|]. intros w Hw.
      apply (wit_ext P nsm ns' w p Hx). apply (wit_pop ns i nd ev rest w p Hn Hq); [left; exact Hne|apply P2; exact Hw]. }
    destruct ev.
    + change (handle_event (length ns) (ESpawnA caller) (e, nsm) = Good (e', ns')) in He.
      destruct (handle_event_shape _ _ _ _ _ _ He) as (l&Hl&->&cw&->). specialize (Hl nsm). rewrite He in Hl. inversion Hl; subst ns'. simpl.
      intros p pa Hp. simpl in Hp. apply (Keep (fun _ _ => True)); [|exact Hp|intros; discriminate].
      apply (ext_trans _ _ (push_cmd (e_next e mod length ns) (CSpawn (e_next e)) nsm)); apply ext_push; exact I.
    + unfold handle_event in He. destruct (alookup target (e_router e)) as [w|]; [|discriminate]. inversion He; subst e' ns'; clear He.
      intros p pa Hp. apply (Keep (fun _ _ => True)); [apply ext_push; exact I|exact Hp|intros; discriminate].
    + (* AwaitAction *)
      unfold handle_event in He. cbn -[nodup] in He.
      destruct (forallb (fun t => match alookup t (e_router e) with Some _ => true | None => false end) targets) eqn:Ef; [|discriminate].
      inversion He; subst e' ns'; clear He.
      set (wof := fun t => match alookup t (e_router e) with Some w => w | None => 0 end) in *.
      set (ws := nodup Nat.eq_dec (map wof targets)) in *.
      set (mkq := fun w => CQuery awaiter (filter (fun t => wof t =? w) targets)) in *.
      assert (Hx: ext (fun _ _ => True) nsm (fold_left (fun ns0 w => push_cmd w (mkq w) ns0) ws nsm)).
      { apply (ext_fold_push (fun _ _ => True) mkq (fun w => w)). intros; exact I. }
      intros p pa Hp. simpl in Hp. rewrite alookup_aset in Hp. destruct (p =? awaiter) eqn:Epa.
      * apply Nat.eqb_eq in Epa. subst p. inversion Hp; subst pa; clear Hp. simpl. split; [reflexivity|].
        intros w Hw.
        assert (Lw: w < length nsm).
        { rewrite Lm. apply nodup_In, in_map_iff in Hw. destruct Hw as (t&Et&Ht).
          rewrite forallb_forall in Ef. specialize (Ef t Ht). apply (RB t w). unfold wrouted. unfold wof in Et.
          destruct (alookup t (e_router e)); [subst; reflexivity|discriminate]. }
        destruct (fold_push_in mkq (fun w0 => w0) ws nsm w Hw Lw) as (nd2&N2&Hc2).
        exists nd2. split; [exact N2|]. left. eexists. exact Hc2.
      * apply (Keep _ Hx p pa Hp). intros; discriminate.
    + (* ProcessResults *)
      destruct (EV awaiter results) as (Rn&Rd&Rr); [rewrite Hq; left; reflexivity|].
      assert (Hs: match results with [] => None | (t, _) :: _ => alookup t (e_router e) end = Some i).
      { destruct results as [|[t0 v0] rs1]; [contradiction|]. apply Rr. left; reflexivity. }
      unfold handle_event in He. rewrite Hs in He.
      destruct (alookup awaiter (e_pending e)) as [pa0|] eqn:Epa.
      * destruct (sremove i (pa_expected pa0)) as [|x xs] eqn:Ex.
        -- destruct (alookup awaiter (e_router e)) as [aw|]; [|discriminate]. inversion He; subst e' ns'; clear He.
           intros p pa Hp. simpl in Hp. rewrite alookup_aremove in Hp. destruct (p =? awaiter) eqn:E; [discriminate|].
           apply (Keep (fun _ _ => True)); [apply ext_push; exact I|exact Hp|].
           intros rs C. inversion C; subst. rewrite Nat.eqb_refl in E. discriminate.
        -- inversion He; subst e' ns'; clear He.
           intros p pa Hp. simpl in Hp. rewrite alookup_aset in Hp. destruct (p =? awaiter) eqn:E.
           ++ apply Nat.eqb_eq in E. subst p. inversion Hp; subst pa; clear Hp. split; [simpl; discriminate|].
              intros w Hw. cbn [pa_expected] in Hw. rewrite <- Ex in Hw. unfold sremove in Hw. apply filter_In in Hw. destruct Hw as (Hw&Hne).
              destruct (PL awaiter pa0 Epa) as (_&P2).
              apply (wit_pop ns i nd _ rest w awaiter Hn Hq); [right|apply P2; exact Hw].
              intros ->. rewrite Nat.eqb_refl in Hne. discriminate.
           ++ apply (Keep (fun _ _ => True) (ext_refl _ nsm) p pa Hp).
              intros rs C. inversion C; subst. rewrite Nat.eqb_refl in E. discriminate.
      * destruct (alookup awaiter (e_router e)) as [aw|]; [|discriminate]. inversion He; subst e' ns'; clear He.
        intros p pa Hp. apply (Keep (fun _ _ => True)); [apply ext_push; exact I|exact Hp|].
        intros rs C. inversion C; subst. rewrite Epa in Hp. discriminate.
    + unfold handle_event in He. inversion He; subst e' ns'; clear He.
      intros p pa Hp. apply (Keep (fun _ _ => True) (ext_refl _ nsm) p pa Hp). intros; discriminate.
    + unfold handle_event in He. inversion He; subst e' ns'; clear He.
      intros p pa Hp. apply (Keep (fun _ _ => True) (ext_refl _ nsm) p pa Hp). intros; discriminate.
  - exact PL.
  - (* client *)
    destruct (client_step_shape _ _ _ Hc) as [->|(w&c0&e'&_&->&He')]; [exact PL|]. simpl.
    assert (Ep: e_pending e' = e_pending (s_env s)) by (destruct He' as [->| ->]; reflexivity).
    intros p pa Hp. rewrite Ep in Hp. destruct (PL p pa Hp) as (P1&P2). split; [exact P1|]. intros w0 Hw0.
    apply (wit_ext (fun _ _ => True) (s_nodes s)); [apply ext_push; exact I|apply P2; exact Hw0].
Qed.

Lemma QI_init nw : 0 < nw -> QI (init nw).
Proof. intros H. split; [apply AI_init; exact H|]. intros p pa Hp. discriminate. Qed.

(* C04 quiescent_no_ready, the await part: when every command queue and every event queue is empty,
   no unfailed process has a None entry for a process that has finished on its worker (in
   particular no process parked in a select) *)
Theorem quiescent_no_unseen_result : forall nw sigma s,
  0 < nw -> await_honest_run (init nw) sigma -> run (init nw) sigma = Good s ->
  (forall i nd, nth_error (s_nodes s) i = Some nd -> n_cmd nd = [] /\ n_evt nd = []) ->
  forall i nd p pr t j ndj, nth_error (s_nodes s) i = Some nd ->
    alookup p (w_procs (n_w nd)) = Some pr -> alookup t (p_awaiting pr) = Some None -> ~ failed pr ->
    nth_error (s_nodes s) j = Some ndj -> result_of (n_w ndj) t = None.
Proof.
  intros nw sigma s Hnw Hh H Hq i nd p pr t j ndj Hn Hl Ht NF Hj.
  destruct (result_of (n_w ndj) t) as [r|] eqn:Er; [|reflexivity]. exfalso.
  assert (Q: QI s) by (eapply (micro_invariant QI await_honest QI_mstep); [apply QI_init; exact Hnw|exact Hh|exact H]).
  destruct Q as (_&PL).
  destruct (finished_await_in_flight nw sigma s Hnw Hh H i nd p pr t j ndj r Hn Hl Ht Hj Er) as [F|B]; [contradiction|].
  destruct (flight_when_empty s p t Hq B) as (pa&k&rs&r0&Hp&_&Hlk&_). destruct (PL p pa Hp) as (P1&P2).
  destruct (pa_expected pa) as [|w ws] eqn:Ee; [rewrite (P1 eq_refl) in Hlk; discriminate|].
  destruct (P2 w (or_introl eq_refl)) as (ndw&Hw&[(ts&Hin)|(rs'&Hin)]); destruct (Hq w ndw Hw) as (E1&E2).
  - rewrite E1 in Hin. destruct Hin.
  - rewrite E2 in Hin. destruct Hin.
Qed.

(* C04 quiescent_no_ready: in a quiescent state no parked process has a ready source it has not
   seen — neither a message (every receive cursor of an evaluated select is at the end of the
   mailbox: ProtoParked, premise honest_run) nor the result of an awaited process (premise
   await_honest_run).  Timeouts: see no_timeout_due_at_last_check. *)
Theorem quiescent_no_ready : forall nw sigma s,
  0 < nw -> honest_run (init nw) sigma -> await_honest_run (init nw) sigma -> run (init nw) sigma = Good s ->
  (forall i nd, nth_error (s_nodes s) i = Some nd -> n_cmd nd = [] /\ n_evt nd = []) ->
  forall i nd p pr, nth_error (s_nodes s) i = Some nd ->
    mem p (w_selecting (n_w nd)) = true -> alookup p (w_procs (n_w nd)) = Some pr ->
    (forall sl, p_sel pr = Some sl -> sl_start sl <> None -> Forall (fun c => c = length (p_mail pr)) (sl_cursors sl)) /\
    (~ failed pr -> forall t j ndj, alookup t (p_awaiting pr) = Some None ->
       nth_error (s_nodes s) j = Some ndj -> result_of (n_w ndj) t = None).
Proof.
  intros nw sigma s Hnw Hh1 Hh2 H Hq i nd p pr Hn Hp Hl. split.
  - intros sl Hs Hst. apply (parked_has_no_unseen_message sigma nw s Hh1 H i nd p pr sl Hn Hp Hl Hs Hst).
  - intros NF t j ndj Ht Hj. apply (quiescent_no_unseen_result nw sigma s Hnw Hh2 H Hq i nd p pr t j ndj Hn Hl Ht NF Hj).
Qed.
