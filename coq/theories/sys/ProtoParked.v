(* ProtoParked.v — C04 no_lost_wakeup on M-Sys (sys/Proto.v), the parts proved for every schedule:
   (1) a completion of an awaited process is never left unseen by check_completed_processes:
       between steps every process in a worker's `awaited` set is unfinished;
   (2) no timeout is due at the last check: after every Worker::step at clock `now`, no process
       parked in `selecting` on that worker has a timeout that has elapsed at `now`;
   (3) a process parked in a select whose sources have been scanned (start time set) has every
       receive cursor at the end of its mailbox: no unseen message (given that a slice only parks
       after scanning the mailbox — `park_honest`, the property of the VM's select machine, C05).
   The await handshake part of Inv_parked (an awaited entry that is None has its target
   unfinished-and-registered or a result in flight) is in ProtoAwaitThm.v, quiescent_no_ready in
   ProtoQuiesce.v. *)
From Quiver Require Import sys.Proto sys.ProtoMsg sys.ProtoFifo sys.ProtoFail sys.ProtoWake sys.ProtoDeliver sys.ProtoWf sys.ProtoOps sys.ProtoClosed.

(* ------------------------------------------------------------------ (1) awaited targets are unfinished *)
Definition awaited_unfinished (w : worker) : Prop :=
  forall t, In t (w_awaited w) -> result_of w t = None.

Lemma result_of_set_book w a b c t : result_of (set_book w a b c) t = result_of w t.
Proof. reflexivity. Qed.

Lemma report_completed_fold : forall o acc,
  (forall t, result_of (fst (fold_left report_completed o acc)) t = result_of (fst acc) t) /\
  (forall t, In t (w_awaited (fst (fold_left report_completed o acc))) ->
             In t (w_awaited (fst acc)) /\ (In t o -> result_of (fst acc) t = None)).
Proof.
  induction o as [|x o IH]; intros acc; simpl; [split; [reflexivity|intros t H; split; [exact H|intros []]]|].
  destruct (IH (report_completed acc x)) as (R&A).
  assert (Rx: forall t, result_of (fst (report_completed acc x)) t = result_of (fst acc) t).
  { intros t. destruct acc as [w ev]. unfold report_completed. destruct (result_of w x); reflexivity. }
  split.
  - intros t. rewrite R. apply Rx.
  - intros t Ht. destruct (A t Ht) as (A1&A2).
    destruct acc as [w ev]. unfold report_completed in A1, A2. simpl.
    destruct (result_of w x) as [r|] eqn:Er; simpl in *.
    + apply in_sremove in A1. destruct A1 as (A1&Hne). split; [exact A1|].
      intros [->|Hin]; [congruence|]. specialize (A2 Hin). exact A2.
    + split; [exact A1|]. intros [->|Hin]; [exact Er|]. exact (A2 Hin).
Qed.

Lemma report_pending_fold : forall l acc,
  (forall t, result_of (fst (fold_left report_pending l acc)) t = result_of (fst acc) t) /\
  w_awaited (fst (fold_left report_pending l acc)) = w_awaited (fst acc).
Proof.
  induction l as [|x l IH]; intros acc; simpl; [split; reflexivity|].
  destruct (IH (report_pending acc x)) as (R&A).
  destruct acc as [w ev]. unfold report_pending in *. destruct (result_of w (fst x)); simpl in *; split; auto.
Qed.

Lemma check_completed_unfinished hint w w' ev : check_completed hint w = Good (w', ev) -> awaited_unfinished w'.
Proof.
  unfold check_completed. set (done := filter _ (w_awaited w)).
  destruct (order_by hint done) as [o|] eqn:Eo; [|discriminate].
  intros H; inversion H as [H1]; clear H.
  destruct (report_completed_fold o (w, [])) as (R1&A1).
  destruct (report_pending_fold (w_pending (fst (fold_left report_completed o (w, [])))) (fold_left report_completed o (w, []))) as (R2&A2).
  rewrite H1 in R2, A2. simpl in *.
  intros t Ht. rewrite A2 in Ht. destruct (A1 t Ht) as (B1&B2). rewrite R2, R1.
  destruct (result_of w t) as [r|] eqn:Er; [|reflexivity].
  apply B2. apply (order_by_all _ _ _ Eo). apply mem_in. unfold done. apply filter_In. split; [exact B1|]. rewrite Er. reflexivity.
Qed.

Lemma node_step_unfinished i now k o nd nd' : node_step i now k o nd = Good nd' -> awaited_unfinished (n_w nd').
Proof.
  intros H. destruct (node_step_shape _ _ _ _ _ _ H) as (pre&w1&e1&w2&e2&e3&_&_&_&E3&_).
  apply (check_completed_unfinished _ _ _ _ E3).
Qed.

Definition all_workers (P : worker -> Prop) (s : sys) : Prop := forall i nd, nth_error (s_nodes s) i = Some nd -> P (n_w nd).

Lemma map_nw_nth ns ns' : map n_w ns' = map n_w ns -> forall i nd', nth_error ns' i = Some nd' -> exists nd, nth_error ns i = Some nd /\ n_w nd = n_w nd'.
Proof.
  intros M i nd' Hn.
  assert (Hm: nth_error (map n_w ns') i = Some (n_w nd')) by (rewrite nth_error_map, Hn; reflexivity).
  rewrite M, nth_error_map in Hm. destruct (nth_error ns i) as [nd|]; [|discriminate]. exists nd. split; [reflexivity|]. simpl in Hm. congruence.
Qed.

(* a client call changes nothing, or appends one command of its own kind to one queue; only
   start_process touches the environment: it allocates the next pid *)
Definition client_cmd (c : cmd) : Prop :=
  match c with CStart _ _ | CNoop | CInspect _ | CResume _ | CGetResult _ _ => True | _ => False end.
Lemma client_step_shape c s s' : client_step c s = Good s' ->
  s' = s \/ exists w c0 e', client_cmd c0 /\
    s' = {| s_nodes := push_cmd w c0 (s_nodes s); s_env := e'; s_clock := s_clock s |} /\
    (e' = s_env s \/ e' = alloc (s_env s) (e_next (s_env s) mod length (s_nodes s))).
Proof.
  unfold client_step. destruct c; intros H.
  - inversion H. right. eexists _, (CStart _ sleeping), _. split; [exact I|]. split; [reflexivity|right; reflexivity].
  - inversion H. right. exists w, CNoop, (s_env s). split; [exact I|]. split; [reflexivity|left; reflexivity].
  - inversion H. right. exists w, (CInspect req), (s_env s). split; [exact I|]. split; [reflexivity|left; reflexivity].
  - destruct (alookup p (e_router (s_env s))) as [w|]; inversion H; [right|left; reflexivity].
    exists w, (CResume p), (s_env s). split; [exact I|]. split; [reflexivity|left; reflexivity].
  - destruct (alookup p (e_router (s_env s))) as [w|]; inversion H; [right|left; reflexivity].
    exists w, (CGetResult req p), (s_env s). split; [exact I|]. split; [reflexivity|left; reflexivity].
Qed.

Lemma all_workers_step (P : worker -> Prop) s a s' :
  (forall i k o nd nd', a = W i k o -> nth_error (s_nodes s) i = Some nd ->
     node_step i (s_clock s) k o nd = Good nd' -> P (n_w nd) -> P (n_w nd')) ->
  all_workers P s -> sys_step s a = Good s' -> all_workers P s'.
Proof.
  intros PW Hs E. destruct a as [i k o|ks|d|c]; simpl in E.
  - destruct (nth_error (s_nodes s) i) as [nd|] eqn:Ei; [|inversion E; subst; exact Hs].
    destruct (node_step i (s_clock s) k o nd) as [nd'|] eqn:Es; cbn [rbind] in E; [|discriminate].
    inversion E; subst s'. intros j x Hx. simpl in Hx. destruct (Nat.eq_dec j i) as [->|Hne].
    + rewrite (nth_error_update_same _ _ _ _ Ei) in Hx. inversion Hx; subst. apply (PW i k o nd _ eq_refl Ei Es), (Hs i nd Ei).
    + rewrite nth_error_update_other in Hx by exact Hne. apply (Hs j x Hx).
  - destruct (collect ks (s_nodes s)) as [evs ns] eqn:Ec.
    destruct (handle_events (length (s_nodes s)) evs (s_env s, ns)) as [[e' ns']|] eqn:Eh; cbn [rbind] in E; [|discriminate].
    inversion E; subst s'. intros j x Hx. simpl in Hx.
    apply handle_events_nw in Eh. pose proof (collect_totals ks (s_nodes s) (0, mkMsg 0 0 0)) as (_&_&_&_&_&M). rewrite Ec in M. simpl in M.
    destruct (map_nw_nth _ _ (eq_trans Eh M) j x Hx) as (nd&Hn&En). rewrite <- En. apply (Hs j nd Hn).
  - inversion E; subst. exact Hs.
  - destruct (client_step_shape _ _ _ E) as [->|(w&c0&e'&_&->&_)]; [exact Hs|].
    intros j x Hx. simpl in Hx. rewrite nth_error_push in Hx. destruct (nth_error (s_nodes s) j) as [nd|] eqn:En; [|discriminate].
    inversion Hx; subst. destruct (j =? w); simpl; apply (Hs j nd En).
Qed.

Lemma all_workers_init (P : worker -> Prop) nw : P new_worker -> all_workers P (init nw).
Proof. intros H i nd Hn. simpl in Hn. apply nth_error_In, repeat_spec in Hn. subst nd. exact H. Qed.

Lemma worker_invariant (P : worker -> Prop) :
  P new_worker ->
  (forall e i now k o nd nd', NInv e i (n_w nd) (n_cmd nd) -> node_step i now k o nd = Good nd' -> P (n_w nd) -> P (n_w nd')) ->
  forall nw sigma s, run (init nw) sigma = Good s -> all_workers P s.
Proof.
  intros P0 PW nw sigma s H.
  apply (run_invariant (fun s => WF s /\ all_workers P s)) with (3 := H); [|split; [apply WF_init|apply all_workers_init, P0]].
  intros s0 a s1 (W0&A0) E. split; [eapply WF_step; eassumption|]. apply (all_workers_step P s0 a s1); [|exact A0|exact E].
  intros i k o nd nd' _ Ei Es. destruct W0 as (_&N). apply (PW _ _ _ _ _ _ _ (N i nd Ei) Es).
Qed.

(* C04 no_lost_wakeup, clause "an awaited target's completion not yet seen by
   check_completed_processes" never holds between steps: every process in `awaited` is unfinished *)
Theorem awaited_completion_never_unseen : forall nw sigma s,
  run (init nw) sigma = Good s ->
  forall i nd t, nth_error (s_nodes s) i = Some nd -> In t (w_awaited (n_w nd)) -> result_of (n_w nd) t = None.
Proof.
  intros nw sigma s H i nd t Hn Ht.
  apply (worker_invariant awaited_unfinished) with (3 := H) (4 := Hn); [intros x []| |exact Ht].
  intros e j now k o nd0 nd' _ Es _. apply (node_step_unfinished _ _ _ _ _ _ Es).
Qed.

(* ------------------------------------------------------------------ mailbox / select state of every process *)
Definition msall (w w' : worker) : Prop :=
  forall q, match alookup q (w_procs w'), alookup q (w_procs w) with
            | Some a, Some b => p_mail a = p_mail b /\ p_sel a = p_sel b
            | None, None => True
            | _, _ => False
            end.
Lemma msall_trans a b c : msall a b -> msall b c -> msall a c.
Proof.
  intros H1 H2 q. specialize (H1 q). specialize (H2 q).
  destruct (alookup q (w_procs c)), (alookup q (w_procs b)), (alookup q (w_procs a)); try contradiction; auto.
  destruct H1, H2. split; congruence.
Qed.
Lemma msall_same w w' : w_procs w' = w_procs w -> msall w w'. Proof. intros E q. rewrite E. destruct (alookup q (w_procs w)); auto. Qed.
Definition keeps_ms (f : proc -> proc) : Prop := forall pr, p_mail (f pr) = p_mail pr /\ p_sel (f pr) = p_sel pr.
Lemma msall_upd_proc p f w : keeps_ms f -> msall w (upd_proc p f w).
Proof.
  intros Hf q. unfold upd_proc. destruct (alookup p (w_procs w)) as [pr|] eqn:El; [|destruct (alookup q (w_procs w)); auto].
  simpl. rewrite alookup_aset. destruct (q =? p) eqn:E.
  - apply Nat.eqb_eq in E; subst q. rewrite El. apply Hf.
  - destruct (alookup q (w_procs w)); auto.
Qed.

(* ------------------------------------------------------------------ parked processes keep their mailbox and select state *)
(* every process parked in `selecting` in w' was parked in w with the same mailbox and select state,
   except possibly x *)
Definition par (x : option pid) (w w' : worker) : Prop :=
  forall q, Some q <> x -> mem q (w_selecting w') = true ->
    mem q (w_selecting w) = true /\
    match alookup q (w_procs w'), alookup q (w_procs w) with
    | Some a, Some b => p_mail a = p_mail b /\ p_sel a = p_sel b
    | None, None => True
    | _, _ => False
    end.

Lemma par_trans x a b c : par x a b -> par x b c -> par x a c.
Proof.
  intros H1 H2 q Hx Hq. destruct (H2 q Hx Hq) as (A&B). destruct (H1 q Hx A) as (C&D). split; [exact C|].
  destruct (alookup q (w_procs c)), (alookup q (w_procs b)), (alookup q (w_procs a)); try contradiction; auto.
  destruct B, D. split; congruence.
Qed.
Lemma msall_par x w w' : msall w w' -> (forall q, mem q (w_selecting w') = true -> mem q (w_selecting w) = true) -> par x w w'.
Proof. intros M S q _ Hq. split; [apply S, Hq|apply M]. Qed.
Lemma par_same x w w' : w_procs w' = w_procs w -> (forall q, mem q (w_selecting w') = true -> mem q (w_selecting w) = true) -> par x w w'.
Proof. intros E. apply msall_par, msall_same, E. Qed.
Lemma par_upd_proc x p f w : keeps_ms f -> par x w (upd_proc p f w).
Proof.
  intros Hf. apply msall_par; [apply msall_upd_proc, Hf|]. destruct (upd_proc_sched p f w) as (_&_&->). auto.
Qed.
Lemma par_upd_unparked x p f w : mem p (w_selecting w) = false -> par x w (upd_proc p f w).
Proof.
  intros Hp q _ Hq. destruct (upd_proc_sched p f w) as (_&_&S3). rewrite S3 in Hq. split; [exact Hq|].
  unfold upd_proc. destruct (alookup p (w_procs w)) as [pr|] eqn:El; [|destruct (alookup q (w_procs w)); auto].
  simpl. rewrite alookup_aset. destruct (q =? p) eqn:E; [apply Nat.eqb_eq in E; subst; congruence|].
  destruct (alookup q (w_procs w)); auto.
Qed.
Lemma keeps_ms_awaiting (g : proc -> list (pid * option res)) : keeps_ms (fun pr => with_awaiting (g pr) pr).
Proof. intros pr; split; reflexivity. Qed.
Lemma keeps_ms_res r : keeps_ms (with_res r). Proof. intros pr; split; reflexivity. Qed.

Lemma par_closed x : closed (par x).
Proof.
  split; [apply par_trans| | |].
  - intros w w' (Ep&_&Hs&_). apply par_same; assumption.
  - intros a b r w _. apply par_upd_proc, (keeps_ms_awaiting (fun pr => aset b (Some r) (p_awaiting pr))).
  - intros a e w. apply par_upd_proc, keeps_ms_res.
Qed.

Lemma wake_mem q t w : mem q (w_selecting (wake_selecting t w)) = true -> mem q (w_selecting w) = true /\ q <> t.
Proof.
  unfold wake_selecting. destruct (mem t (w_selecting w)) eqn:Et; simpl; intros Hq.
  - rewrite mem_sremove in Hq. apply andb_true_iff in Hq. destruct Hq as (A&B). split; [exact A|].
    intros ->. rewrite Nat.eqb_refl in B. discriminate.
  - split; [exact Hq|]. intros ->. congruence.
Qed.

Lemma par_handle_cmd x c w w' ev :
  SW w -> (forall p, spawns c = Some p -> ~ has p w) ->
  handle_cmd c w = Good (w', ev) -> par x w w'.
Proof.
  intros HS Hf H. pose proof (par_closed x) as C.
  assert (New: forall p pr0 w0, ~ has p w -> w_selecting w0 = w_selecting w -> w_procs w0 = aset p pr0 (w_procs w) -> par x w w0).
  { intros p pr0 w0 Hn Es Ep q _ Hq. rewrite Es in Hq. split; [exact Hq|]. rewrite Ep, alookup_aset.
    destruct (q =? p) eqn:E; [|destruct (alookup q (w_procs w)); auto].
    apply Nat.eqb_eq in E; subst q. exfalso. apply Hn. apply (sw_has _ HS). auto. }
  destruct c; simpl in H.
  - inversion H; subst; apply (closed_refl _ C).
  - inversion H; subst; apply (closed_refl _ C).
  - destruct sleeping; inversion H; subst; eapply New; try reflexivity; apply Hf; reflexivity.
  - inversion H; subst; eapply New; try reflexivity; apply Hf; reflexivity.
  - destruct (alookup p (w_procs w)) as [pr|]; [|discriminate].
    destruct (p_res pr) as [[v|e]|]; try discriminate. destruct (p_pers pr); [|discriminate]. inversion H; subst.
    eapply par_trans; [apply par_upd_proc, keeps_ms_res|apply par_same; [reflexivity|auto]].
  - destruct (fold_left (query_one awaiter) targets (w, [])) as [w1 rs] eqn:E. inversion H; subst.
    pose proof (closed_query_fold _ C awaiter targets w []) as Q. rewrite E in Q. exact Q.
  - inversion H; subst. apply (closed_update_await _ C).
  - destruct (alookup target (w_procs w)) as [pr|] eqn:El; inversion H; subst; clear H.
    + (* the mailbox of `target` grows; if it was parked it is parked no longer *)
      set (w0 := set_ghost w (w_nsent w) (w_sentlog w) (w_arrlog w ++ [(target, m)]) (w_dropped w)).
      set (w1 := upd_proc target _ w0).
      intros q Hx Hq. destruct (upd_proc_sched target (fun pr0 => with_mail (p_mail pr0 ++ [m]) (p_arrived pr0 ++ [m]) (p_taken pr0) pr0) w0) as (_&_&S3).
      fold w1 in S3.
      assert (Hq': mem q (w_selecting w) = true /\ q <> target).
      { destruct (wake_mem q target w1 Hq) as (A&B). rewrite S3 in A. split; [exact A|exact B]. }
      destruct Hq' as (A&Hne). split; [exact A|].
      rewrite procs_wake. unfold w1. rewrite upd_proc_other by exact Hne. simpl. destruct (alookup q (w_procs w)); auto.
    + eapply par_trans; [|apply (closed_wake _ C)]. apply par_same; [reflexivity|auto].
  - destruct (mem p (w_spawning w)); inversion H; subst; [apply par_same; [reflexivity|auto]|apply (closed_refl _ C)].
  - destruct (alookup p (w_procs w)) as [pr|]; [|discriminate].
    destruct (p_res pr); inversion H; subst; [apply (closed_refl _ C)|apply par_same; [reflexivity|auto]].
Qed.

Lemma par_run_slice i p pr d hint w w' ev : run_slice i p pr d hint w = Good (w', ev) -> par (Some p) w w'.
Proof.
  assert (Self: forall w0 w1, (forall q, q <> p -> alookup q (w_procs w1) = alookup q (w_procs w0)) ->
            (forall q, q <> p -> mem q (w_selecting w1) = true -> mem q (w_selecting w0) = true) -> par (Some p) w0 w1).
  { intros w0 w1 Ep Es q Hx Hq. assert (Hne: q <> p) by congruence.
    split; [apply Es; assumption|]. rewrite Ep by exact Hne. destruct (alookup q (w_procs w0)); auto. }
  apply (closed_run_slice _ (par_closed _)).
  - intros w0 w1 (Ep&_&_&Es). apply Self; [intros; rewrite Ep; reflexivity|exact Es].
  - intros ts w0. apply par_upd_proc, (keeps_ms_awaiting (fun q => fold_left (fun a t => aset t None a) ts (p_awaiting q))).
  - intros r w0. apply par_upd_proc, keeps_ms_res.
  - intros taken mail'. apply Self; [|auto]. intros q Hne. simpl. apply alookup_aset_neq, Hne.
Qed.

Lemma msall_closed : closed msall.
Proof.
  split; [apply msall_trans| | |].
  - intros w w' (Ep&_). apply msall_same, Ep.
  - intros a b r w _. apply msall_upd_proc, (keeps_ms_awaiting (fun pr => aset b (Some r) (p_awaiting pr))).
  - intros a e w. apply msall_upd_proc, keeps_ms_res.
Qed.
Lemma msall_check_completed hint w w' ev : check_completed hint w = Good (w', ev) -> msall w w'.
Proof. apply (closed_check_completed _ msall_closed). Qed.

Lemma run_slice_self i p pr d hint w w' ev taken mail' :
  take_seq (d_taken d) (p_mail pr) = Some (taken, mail') ->
  run_slice i p pr d hint w = Good (w', ev) ->
  exists pr', alookup p (w_procs w') = Some pr' /\ p_mail pr' = mail' /\ p_sel pr' = d_sel d.
Proof.
  intros Ht H. destruct (run_slice_shape _ _ _ _ _ _ _ _ H) as (taken0&mail0&w2&Ht0&Ha&Hf).
  rewrite Ht in Ht0. inversion Ht0; subst taken0 mail0.
  assert (M: msall (set_procs w (aset p (slice_pr1 pr d taken mail') (w_procs w))) w').
  { eapply (closed_slice _ msall_closed p); [| | |exact Ha|exact Hf].
    - intros w0 w1 (Ep&_). apply msall_same, Ep.
    - intros ts w0. apply msall_upd_proc, (keeps_ms_awaiting (fun q => fold_left (fun a t => aset t None a) ts (p_awaiting q))).
    - intros r w0. apply msall_upd_proc, keeps_ms_res. }
  specialize (M p). simpl in M. rewrite alookup_aset_eq in M.
  destruct (alookup p (w_procs w')) as [pr'|]; [|contradiction]. exists pr'. destruct M as (M1&M2). rewrite M1, M2. repeat split.
Qed.

(* ------------------------------------------------------------------ a property of every parked process *)
Definition parked_ok (Phi : proc -> Prop) (w : worker) : Prop :=
  forall q pr, mem q (w_selecting w) = true -> alookup q (w_procs w) = Some pr -> Phi pr.
Definition ext_ms (Phi : proc -> Prop) : Prop := forall a b, p_mail a = p_mail b -> p_sel a = p_sel b -> Phi b -> Phi a.

Lemma parked_par Phi x w w' : ext_ms Phi -> par x w w' -> parked_ok Phi w ->
  (forall q pr, Some q = x -> mem q (w_selecting w') = true -> alookup q (w_procs w') = Some pr -> Phi pr) ->
  parked_ok Phi w'.
Proof.
  intros He Hp Hok Hx q pr Hq Hl.
  assert (D: Some q = x \/ Some q <> x).
  { destruct x as [p|]; [destruct (Nat.eq_dec q p) as [->|]; [left; reflexivity|right; congruence]|right; discriminate]. }
  destruct D as [E|Hd]; [apply (Hx q pr E Hq Hl)|]. destruct (Hp q Hd Hq) as (A&B).
  rewrite Hl in B. destruct (alookup q (w_procs w)) as [b|] eqn:Eb; [|contradiction]. destruct B as (B1&B2).
  apply (He pr b B1 B2), (Hok q b A Eb).
Qed.

(* NInv is what keeps each spawn command of the prefix naming a process that does not exist yet *)
Lemma handle_cmds_inv e i (P : worker -> Prop) :
  (forall c w w' ev, SW w -> (forall p, spawns c = Some p -> ~ has p w) -> handle_cmd c w = Good (w', ev) -> P w -> P w') ->
  forall pre w rest w' ev, NInv e i w (pre ++ rest) -> handle_cmds pre w = Good (w', ev) -> P w -> P w'.
Proof.
  intros Hc. induction pre as [|c pre IH]; intros w rest w' ev HI H HP; simpl in H; [inversion H; subst; exact HP|].
  destruct (handle_cmd c w) as [[w1 e1]|] eqn:E1; simpl in H; [|discriminate].
  destruct (handle_cmds pre w1) as [[w2 e2]|] eqn:E2; simpl in H; [|discriminate].
  inversion H; subst w' ev; clear H. apply (IH w1 rest w2 e2); [|exact E2|].
  - apply (NInv_handle_cmds e i [c] w (pre ++ rest) w1 (e1 ++ [])); [exact HI|]. simpl. rewrite E1. reflexivity.
  - destruct HI as (HS&_&_&U). apply (Hc c w w1 e1 HS); [|exact E1|exact HP].
    intros p Hp. apply U. unfold spawn_pids. simpl. rewrite Hp. left; reflexivity.
Qed.

Lemma par_handle_cmds e i : forall pre w rest w' ev,
  NInv e i w (pre ++ rest) -> handle_cmds pre w = Good (w', ev) -> par None w w'.
Proof.
  intros pre w rest w' ev HI H. apply (handle_cmds_inv e i (par None w)) with (2 := HI) (3 := H); [|apply (closed_refl _ (par_closed None))].
  intros c w0 w1 e1 HS Hf E1 P. eapply par_trans; [exact P|eapply par_handle_cmd; eassumption].
Qed.

Lemma run_slice_parked_reason i p pr d hint w w' ev :
  run_slice i p pr d hint w = Good (w', ev) -> mem p (w_selecting w') = true ->
  mem p (w_selecting w) = true \/ d_park d = true \/ exists ts, d_act d = Some (AAwait ts).
Proof.
  intros H Hm. destruct (run_slice_shape _ _ _ _ _ _ _ _ H) as (taken&mail'&w2&_&Ha&Hf).
  destruct (d_park d); [right; left; reflexivity|].
  assert (M2: mem p (w_selecting w2) = true).
  { destruct (d_fin d); [|destruct Hf as [->| ->]; exact Hm].
    apply (closed_finish _ (par_closed None)) in Hf; [|apply par_upd_proc, keeps_ms_res]. apply (Hf p); [discriminate|exact Hm]. }
  inversion Ha; subst; [left; exact M2..|right; right; eexists; reflexivity].
Qed.

(* the slice that the next executor step of this worker will run, and the mailbox it leaves *)
Definition slice_input (i : wid) (now : nat) (k : option nat) (o : woracle) (nd : node) : option (pid * proc * list msg) :=
  match handle_cmds (fst (split_at k (n_cmd nd))) (n_w nd) with
  | Good (w1, _) =>
    match expire now (o_expired o) w1 with
    | Good w2 =>
      match w_queue w2 with
      | p :: _ =>
        match alookup p (w_procs w2) with
        | Some pr =>
          if match o_pid o with Some p' => p =? p' | None => false end
          then match take_seq (d_taken (o_did o)) (p_mail pr) with Some (_, mail') => Some (p, pr, mail') | None => None end
          else None
        | None => None
        end
      | [] => None
      end
    | Fault _ => None
    end
  | Fault _ => None
  end.

Lemma node_step_parked Phi e i now k o nd nd' :
  ext_ms Phi -> NInv e i (n_w nd) (n_cmd nd) ->
  node_step i now k o nd = Good nd' ->
  (* Phi holds of everybody still parked after the commands and the timeout check *)
  (forall w1 ev1 w2, handle_cmds (fst (split_at k (n_cmd nd))) (n_w nd) = Good (w1, ev1) -> expire now (o_expired o) w1 = Good w2 -> parked_ok Phi w2) ->
  (* and of the executed process if its slice parks it *)
  (forall p pr mail' pr', slice_input i now k o nd = Some (p, pr, mail') ->
      (d_park (o_did o) = true \/ exists ts, d_act (o_did o) = Some (AAwait ts)) ->
      p_mail pr' = mail' -> p_sel pr' = d_sel (o_did o) -> Phi pr') ->
  parked_ok Phi (n_w nd').
Proof.
  intros He HI H Hpre Hself. unfold node_step in H. unfold slice_input in Hself.
  pose proof (split_at_app k (n_cmd nd)) as Hs.
  destruct (split_at k (n_cmd nd)) as [pre later]. simpl in Hs, Hpre, Hself.
  destruct (handle_cmds pre (n_w nd)) as [[w1 e1]|] eqn:E1; simpl in H; [|discriminate].
  destruct (exec_step i now o w1) as [[w3 e2]|] eqn:E2; simpl in H; [|discriminate].
  destruct (check_completed (o_completed o) w3) as [[w4 e3]|] eqn:E3; simpl in H; [|discriminate].
  inversion H; subst nd'; clear H. simpl.
  apply (parked_par Phi None w3); [exact He|apply (closed_check_completed _ (par_closed None) _ _ _ _ E3)| |intros q pr E; discriminate].
  destruct (exec_step_shape _ _ _ _ _ _ E2) as (w2&Ee&Sh). rewrite Ee in Hself.
  pose proof (Hpre w1 e1 w2 eq_refl Ee) as P2.
  destruct Sh as [(_&->&_)|(p&q'&Eq&[(_&->&_)|(pr&El&[(Ho&R)|(e0&_&F&_)])])]; try exact P2.
  - (* a real slice: p has just been popped from the queue, so it was not parked *)
    rewrite Eq, El, Ho, Nat.eqb_refl in Hself.
    destruct (run_slice_shape _ _ _ _ _ _ _ _ R) as (taken&mail'&_&Et&_). rewrite Et in Hself.
    eapply (parked_par Phi (Some p)); [exact He|eapply par_run_slice; exact R|exact P2|].
    intros q prq E Hq Hl. inversion E; subst q.
    destruct (run_slice_self _ _ _ _ _ _ _ _ _ _ Et R) as (pr'&L1&L2&L3). rewrite Hl in L1. inversion L1; subst pr'.
    destruct (run_slice_parked_reason _ _ _ _ _ _ _ _ R Hq) as [A|A]; [|apply (Hself p pr mail' prq eq_refl A L2 L3)].
    rewrite <- Hs in HI. pose proof (NInv_handle_cmds e i pre (n_w nd) later w1 e1 HI E1) as (HS1&_).
    destruct (SW_pop p q' w2 Eq (SW_expire _ _ _ _ Ee HS1)) as (_&_&_&Psel&_). simpl in A. congruence.
  - eapply (parked_par Phi None); [exact He| |exact P2|intros q prq E; discriminate].
    apply (closed_finish _ (par_closed None) _ _ _ _ _ _ (par_upd_proc _ _ _ _ (keeps_ms_res _)) F).
Qed.

(* ------------------------------------------------------------------ (2) no timeout is due at the last check *)
(* a time slice that PARKS its process (by a pass over the sources that found none ready, or by the
   Await action) does not park it with a timeout already due (select machine, C05:
   never_parks_with_due_timeout).  A slice that ends RUNNABLE may well end with a due timeout
   (`! [0]` at quantum 1 after the initialising step; `! [&f, 0]` while the filter f runs): the
   premise says nothing about those. *)
Definition time_honest (now : nat) (d : did) : Prop :=
  (d_park d = true \/ exists ts, d_act d = Some (AAwait ts)) ->
  forall s, d_sel d = Some s -> match sl_start s with
                                | Some t0 => forallb (fun dl => negb (dl <=? now - t0)) (sl_timeouts s) = true
                                | None => True end.

Definition none_due (now : nat) (w : worker) : Prop := forall p, mem p (w_selecting w) = true -> timed_out now w p = false.

Lemma timed_out_same now w w' p :
  (forall q, match alookup q (w_procs w'), alookup q (w_procs w) with Some a, Some b => p_sel a = p_sel b | None, None => True | _, _ => False end) ->
  timed_out now w' p = timed_out now w p.
Proof.
  intros H. unfold timed_out. specialize (H p). destruct (alookup p (w_procs w')), (alookup p (w_procs w)); try contradiction; [|reflexivity].
  rewrite H. reflexivity.
Qed.

Definition not_due (now : nat) (pr : proc) : Prop :=
  match p_sel pr with
  | Some s => match sl_start s with
              | Some t0 => existsb (fun d => d <=? now - t0) (sl_timeouts s) = false
              | None => True end
  | None => True
  end.
Lemma ext_not_due now : ext_ms (not_due now).
Proof. intros a b _ Es H. unfold not_due in *. rewrite Es. exact H. Qed.

Lemma expire_not_due now hint w w' : expire now hint w = Good w' -> parked_ok (not_due now) w'.
Proof.
  unfold expire. set (ex := filter (timed_out now w) (w_selecting w)).
  destruct (order_by hint ex) as [o|]; [|discriminate]. intros H; inversion H; subst; clear H.
  intros q pr Hq Hl. simpl in *. apply mem_in, filter_In in Hq. destruct Hq as (A&B). apply Bool.negb_true_iff in B.
  assert (T: timed_out now w q = false).
  { destruct (timed_out now w q) eqn:E; [|reflexivity]. exfalso.
    assert (mem q ex = true) by (apply mem_in, filter_In; split; assumption). congruence. }
  unfold timed_out in T. rewrite Hl in T. unfold not_due. destruct (p_sel pr) as [s|]; [|exact I].
  destruct (sl_start s); [exact T|exact I].
Qed.

(* C04 no_lost_wakeup, clause "no timeout due at the last check_expired_timeouts": after every
   Worker::step at clock `now` of a well-formed worker, no process parked on it has a timeout that
   has elapsed at `now` — provided the executed slice itself does not park with a timeout already
   due (time_honest: the select machine evaluates its timeout sources before parking, C05) *)
Theorem no_timeout_due_after_step : forall e i now k o nd nd',
  NInv e i (n_w nd) (n_cmd nd) ->
  node_step i now k o nd = Good nd' ->
  time_honest now (o_did o) ->
  forall p, mem p (w_selecting (n_w nd')) = true -> timed_out now (n_w nd') p = false.
Proof.
  intros e i now k o nd nd' HI H Hh p Hp.
  assert (P: parked_ok (not_due now) (n_w nd')).
  { eapply node_step_parked; [apply ext_not_due|exact HI|exact H| |].
    - intros w1 ev1 w2 _ E. eapply expire_not_due; exact E.
    - intros q pr mail' pr' _ Hreason _ Es. unfold not_due. rewrite Es. unfold time_honest in Hh. specialize (Hh Hreason).
      destruct (d_sel (o_did o)) as [s|]; [|exact I]. specialize (Hh s eq_refl). destruct (sl_start s); [|exact I].
      clear -Hh. induction (sl_timeouts s) as [|d l IH]; simpl in *; [reflexivity|].
      apply andb_true_iff in Hh. destruct Hh as (A&B). apply Bool.negb_true_iff in A. rewrite A. simpl. apply IH; exact B. }
  unfold timed_out. destruct (alookup p (w_procs (n_w nd'))) as [pr|] eqn:El; [|reflexivity].
  specialize (P p pr Hp El). unfold not_due in P. destruct (p_sel pr) as [s|]; [|reflexivity]. destruct (sl_start s); [exact P|reflexivity].
Qed.

(* ------------------------------------------------------------------ (3) no unseen message *)
Definition scanned (pr : proc) : Prop :=
  forall s, p_sel pr = Some s -> sl_start s <> None -> Forall (fun c => c = length (p_mail pr)) (sl_cursors s).
Lemma ext_scanned : ext_ms scanned.
Proof. intros a b Em Es H s Hs Hn. rewrite Em. apply H; [rewrite <- Es; exact Hs|exact Hn]. Qed.

(* the property of the select machine assumed of a slice (C05 proves it of the VM): it parks only
   after having scanned the whole mailbox with every receive source, and a slice that ends with the
   Await action has not started evaluating its sources.  A select whose awaited targets have not all
   been reported yet parks again WITHOUT evaluating its sources when it is woken (executor.rs
   "Phase 3", F72): its start time is still unset, and clause 1 says nothing about it. *)
Definition park_honest (d : did) (mail' : list msg) : Prop :=
  (d_park d = true -> forall s, d_sel d = Some s -> sl_start s <> None -> Forall (fun c => c = length mail') (sl_cursors s)) /\
  (forall ts, d_act d = Some (AAwait ts) -> forall s, d_sel d = Some s -> sl_start s = None).

Definition honest_step (s : sys) (a : sched_action) : Prop :=
  match a with
  | W i k o => match nth_error (s_nodes s) i with
               | Some nd => match slice_input i (s_clock s) k o nd with
                            | Some (_, _, mail') => park_honest (o_did o) mail'
                            | None => True end
               | None => True end
  | _ => True
  end.
Fixpoint honest_run (s : sys) (sigma : list sched_action) : Prop :=
  match sigma with
  | [] => True
  | a :: t => honest_step s a /\ match sys_step s a with Good s' => honest_run s' t | Fault _ => True end
  end.

Lemma node_step_scanned e i now k o nd nd' :
  NInv e i (n_w nd) (n_cmd nd) -> parked_ok scanned (n_w nd) ->
  node_step i now k o nd = Good nd' ->
  match slice_input i now k o nd with Some (_, _, mail') => park_honest (o_did o) mail' | None => True end ->
  parked_ok scanned (n_w nd').
Proof.
  intros HI P H Hh. eapply node_step_parked; [apply ext_scanned|exact HI|exact H| |].
  - intros w1 ev1 w2 E1 E2.
    pose proof (split_at_app k (n_cmd nd)) as Hs. rewrite <- Hs in HI.
    eapply (parked_par scanned None); [apply ext_scanned| |exact P|intros q pr E; discriminate].
    eapply par_trans; [eapply par_handle_cmds; [exact HI|exact E1]|apply (closed_expire _ (par_closed None) _ _ _ _ E2)].
  - intros p pr mail' pr' Hsi Hreason Em Es. rewrite Hsi in Hh. destruct Hh as (H1&H2).
    intros s Hs Hn. rewrite Es in Hs. destruct Hreason as [Hp|(ts&Ha)].
    + rewrite Em. apply (H1 Hp s Hs Hn).
    + exfalso. apply Hn. apply (H2 ts Ha s Hs).
Qed.

(* C04 no_lost_wakeup, mailbox clause: for every schedule and every oracle whose slices park
   honestly, a process parked in a select whose sources have been evaluated (start time set) has
   every receive cursor at the end of its mailbox — there is no unseen message in the mailbox of a
   parked process (a DeliverMessage appends AND wakes in one step) *)
Theorem parked_has_no_unseen_message : forall sigma nw s,
  honest_run (init nw) sigma -> run (init nw) sigma = Good s ->
  forall i nd p pr sl, nth_error (s_nodes s) i = Some nd ->
    mem p (w_selecting (n_w nd)) = true -> alookup p (w_procs (n_w nd)) = Some pr ->
    p_sel pr = Some sl -> sl_start sl <> None ->
    Forall (fun c => c = length (p_mail pr)) (sl_cursors sl).
Proof.
  intros sigma nw s Hh H.
  assert (Inv: all_workers (parked_ok scanned) s).
  { assert (I0: WF (init nw) /\ all_workers (parked_ok scanned) (init nw)).
    { split; [apply WF_init|]. apply all_workers_init. intros q pr Hq. discriminate. }
    revert Hh H I0. generalize (init nw). induction sigma as [|a sigma IH]; intros s0 Hh H (W0&P0); simpl in H.
    - inversion H; subst. exact P0.
    - simpl in Hh. destruct Hh as (Ha&Ht). destruct (sys_step s0 a) as [s1|] eqn:E; cbn [rbind] in H; [|discriminate].
      apply (IH s1 Ht H). split; [eapply WF_step; eassumption|]. apply (all_workers_step _ s0 a s1); [|exact P0|exact E].
      intros i k o nd nd' -> Ei Es Pn. destruct W0 as (_&N). simpl in Ha. rewrite Ei in Ha.
      apply (node_step_scanned _ _ _ _ _ _ _ (N i nd Ei) Pn Es Ha). }
  intros i nd p pr sl Hn Hp Hl Hs Hst. apply (Inv i nd Hn p pr Hp Hl sl Hs Hst).
Qed.

(* (2) lifted to every reachable state *)
Theorem no_timeout_due_at_last_check : forall nw sigma s i k o s',
  run (init nw) sigma = Good s -> sys_step s (W i k o) = Good s' -> time_honest (s_clock s) (o_did o) ->
  forall nd' p, nth_error (s_nodes s') i = Some nd' -> mem p (w_selecting (n_w nd')) = true ->
    timed_out (s_clock s) (n_w nd') p = false.
Proof.
  intros nw sigma s i k o s' H E Hh nd' p Hn Hp.
  destruct (WF_run sigma _ _ (WF_init nw) H) as (_&N). simpl in E.
  destruct (nth_error (s_nodes s) i) as [nd|] eqn:Ei.
  - destruct (node_step i (s_clock s) k o nd) as [nd2|] eqn:Es; cbn [rbind] in E; [|discriminate].
    inversion E; subst s'. simpl in Hn. rewrite (nth_error_update_same _ _ _ _ Ei) in Hn. inversion Hn; subst nd2.
    eapply no_timeout_due_after_step; [apply (N i nd Ei)|exact Es|exact Hh|exact Hp].
  - inversion E; subst s'. congruence.
Qed.
