(* ProtoMsg.v — C04 on M-Sys (sys/Proto.v): message conservation (every stamped message is in
   exactly one of: an event queue, a command queue, the arrival log of a worker), uniqueness of
   stamps. All statements are over every schedule and every oracle. *)
From Quiver Require Import sys.Proto sys.ProtoFail.

(* the ghost part of the worker (stamp counter, send / arrival / drop logs) is the same *)
Definition geq (w w' : worker) : Prop :=
  w_nsent w' = w_nsent w /\ w_sentlog w' = w_sentlog w /\ w_arrlog w' = w_arrlog w /\ w_dropped w' = w_dropped w.

Lemma geq_refl w : geq w w. Proof. repeat split. Qed.
Lemma geq_trans a b c : geq a b -> geq b c -> geq a c.
Proof. unfold geq; intros (A1&A2&A3&A4) (B1&B2&B3&B4); repeat split; congruence. Qed.
Lemma geq_set_sched w a b c : geq w (set_sched w a b c). Proof. repeat split. Qed.
Lemma geq_mark_active p w : geq w (mark_active p w).
Proof. unfold mark_active. destruct (_ || _); [apply geq_set_sched|apply geq_refl]. Qed.

(* what the notify_* family, the completion path and the timeout check leave alone: they only move
   processes between the run queue and `selecting` and rewrite process records *)
Definition calm (w w' : worker) : Prop :=
  map fst (w_procs w') = map fst (w_procs w) /\ w_spawning w' = w_spawning w /\
  (w_awaited w', w_awaiters w', w_pending w') = (w_awaited w, w_awaiters w, w_pending w) /\ geq w w'.

Lemma calm_refl w : calm w w. Proof. repeat split. Qed.
Lemma calm_trans a b c : calm a b -> calm b c -> calm a c.
Proof. unfold calm, geq. intuition congruence. Qed.
Lemma calm_sched w q se : calm w (set_sched w q (w_spawning w) se). Proof. repeat split. Qed.
Lemma calm_upd_proc p f w : calm w (upd_proc p f w).
Proof.
  unfold upd_proc. destruct (alookup p (w_procs w)) eqn:E; [|apply calm_refl].
  repeat split. apply (keys_aset_same _ _ _ _ E).
Qed.
Lemma calm_wake p w : calm w (wake_selecting p w).
Proof. unfold wake_selecting. destruct (mem p (w_selecting w)); [apply calm_sched|apply calm_refl]. Qed.
Lemma calm_notify_result a b r w : calm w (notify_result a b r w).
Proof.
  unfold notify_result. destruct (awaits a b w); [|apply calm_wake].
  eapply calm_trans; [apply calm_upd_proc|apply calm_wake].
Qed.
Lemma calm_worker_notify a b r w : calm w (worker_notify a b r w).
Proof.
  unfold worker_notify. destruct r; [apply calm_notify_result|].
  destruct (awaits a b w); [apply calm_upd_proc|apply calm_wake].
Qed.
Lemma calm_fold {A} (f : worker -> A -> worker) l :
  (forall w x, calm w (f w x)) -> forall w, calm w (fold_left f l w).
Proof.
  intros Hf. induction l as [|x l IH]; intros w; simpl; [apply calm_refl|].
  eapply calm_trans; [apply Hf|apply IH].
Qed.
Lemma calm_update_await a rs w : calm w (update_await a rs w).
Proof.
  unfold update_await. set (w1 := fold_left _ rs w).
  assert (H: calm w w1).
  { apply calm_fold. intros w0 x. destruct (snd x); [apply calm_worker_notify|apply calm_refl]. }
  destruct (existsb _ rs); [exact H|]. eapply calm_trans; [exact H|apply calm_wake].
Qed.
Lemma calm_notify_local p r h w q : calm w (notify_local p r h w q).
Proof. unfold notify_local. destruct r; [destruct h; [apply calm_refl|apply calm_notify_result]|apply calm_upd_proc]. Qed.
Lemma calm_finish p r h hint w w' : finish p r h hint w = Good w' -> calm w w'.
Proof.
  unfold finish. destruct (order_by hint _); [|discriminate]. intros H; inversion H; subst.
  eapply calm_trans; [apply calm_upd_proc|]. apply calm_fold. intros; apply calm_notify_local.
Qed.
Lemma calm_expire now hint w w' : expire now hint w = Good w' -> calm w w'.
Proof. unfold expire. destruct (order_by hint _); [|discriminate]. intros H; inversion H; subst. apply calm_sched. Qed.

(* what query_and_await and check_completed_processes leave alone: all but the three bookkeeping maps *)
Definition book_only (w w' : worker) : Prop :=
  w_procs w' = w_procs w /\ w_queue w' = w_queue w /\ w_spawning w' = w_spawning w /\ w_selecting w' = w_selecting w /\
  geq w w'.

Lemma book_only_refl w : book_only w w. Proof. repeat split. Qed.
Lemma book_only_trans a b c : book_only a b -> book_only b c -> book_only a c.
Proof. unfold book_only, geq. intuition congruence. Qed.
Lemma book_only_set_book w a b c : book_only w (set_book w a b c). Proof. repeat split. Qed.

Lemma query_fold_book a ts : forall w rs, book_only w (fst (fold_left (query_one a) ts (w, rs))).
Proof.
  induction ts as [|t ts IH]; intros w rs; cbn [fold_left]; [apply book_only_refl|].
  assert (Q: book_only w (fst (query_one a (w, rs) t))).
  { unfold query_one. destruct (completed_value w t); [apply book_only_refl|apply book_only_set_book]. }
  destruct (query_one a (w, rs) t) as [w1 rs1]. eapply book_only_trans; [exact Q|apply IH].
Qed.

Definition deliv (c : cmd) : list (pid * msg) := match c with CDeliver t m => [(t, m)] | _ => [] end.
Definition delivs (cs : list cmd) : list (pid * msg) := flat_map deliv cs.
Definition edeliv (e : event) : list (pid * msg) := match e with EDeliverA t m => [(t, m)] | _ => [] end.
Definition edelivs (es : list event) : list (pid * msg) := flat_map edeliv es.

Lemma delivs_app a b : delivs (a ++ b) = delivs a ++ delivs b.
Proof. unfold delivs. apply flat_map_app. Qed.
Lemma edelivs_app a b : edelivs (a ++ b) = edelivs a ++ edelivs b.
Proof. unfold edelivs. apply flat_map_app. Qed.


Lemma handle_cmd_frame c w w' ev :
  handle_cmd c w = Good (w', ev) ->
  map fst (w_procs w') = match c with CStart p _ | CSpawn p => sadd p (map fst (w_procs w)) | _ => map fst (w_procs w) end /\
  w_spawning w' = match c with CNotifySpawn p _ => sremove p (w_spawning w) | _ => w_spawning w end /\
  w_nsent w' = w_nsent w /\ w_sentlog w' = w_sentlog w /\ w_arrlog w' = w_arrlog w ++ deliv c /\
  w_dropped w' = w_dropped w ++ match c with
                               | CDeliver t m => match alookup t (w_procs w) with Some _ => [] | None => [(t, m)] end
                               | _ => []
                               end /\
  edelivs ev = [].
Proof.
  intros H. destruct c; simpl in H.
  - inversion H; subst. rewrite !app_nil_r. repeat split.
  - inversion H; subst. rewrite !app_nil_r. repeat split.
  - destruct sleeping; inversion H; subst; simpl; rewrite keys_aset_sadd, !app_nil_r; repeat split.
  - inversion H; subst; simpl; rewrite keys_aset_sadd, !app_nil_r; repeat split.
  - destruct (alookup p (w_procs w)) as [pr|]; [|discriminate].
    destruct (p_res pr) as [[v|e]|]; try discriminate. destruct (p_pers pr); [|discriminate]. inversion H; subst.
    destruct (calm_upd_proc p (with_res None) w) as (K&S&_&N&L&A&D). simpl. rewrite !app_nil_r. repeat split; assumption.
  - destruct (fold_left (query_one awaiter) targets (w, [])) as [w1 rs] eqn:E. inversion H; subst.
    pose proof (query_fold_book awaiter targets w []) as Q. rewrite E in Q. destruct Q as (P&_&S&_&N&L&A&D).
    simpl in *. rewrite P, !app_nil_r. repeat split; assumption.
  - inversion H; subst. destruct (calm_update_await awaiter results w) as (K&S&_&N&L&A&D).
    rewrite !app_nil_r. repeat split; assumption.
  - destruct (alookup target (w_procs w)) as [pr|]; inversion H; subst; clear H;
      match goal with |- context [wake_selecting target ?x] => set (w1 := x) end.
    + set (w0 := set_ghost w (w_nsent w) (w_sentlog w) (w_arrlog w ++ [(target, m)]) (w_dropped w)) in w1.
      destruct (calm_trans w0 w1 _ (calm_upd_proc target _ w0) (calm_wake target w1)) as (K&S&_&N&L&A&D).
      rewrite app_nil_r. repeat split; assumption.
    + destruct (calm_wake target w1) as (K&S&_&N&L&A&D). repeat split; assumption.
  - destruct (mem p (w_spawning w)) eqn:Ep; inversion H; subst; simpl; rewrite ?(sremove_notin _ _ Ep), !app_nil_r; repeat split.
  - destruct (alookup p (w_procs w)) as [pr|]; [|discriminate].
    destruct (p_res pr); inversion H; subst; simpl; rewrite !app_nil_r; repeat split.
Qed.

Lemma handle_cmds_ghost cs : forall w w' ev,
  handle_cmds cs w = Good (w', ev) ->
  w_nsent w' = w_nsent w /\ w_sentlog w' = w_sentlog w /\ w_arrlog w' = w_arrlog w ++ delivs cs /\ edelivs ev = [].
Proof.
  induction cs as [|c cs IH]; intros w w' ev H; simpl in H.
  - inversion H; subst. simpl. rewrite app_nil_r. auto.
  - destruct (handle_cmd c w) as [[w1 e1]|] eqn:E1; simpl in H; [|discriminate].
    destruct (handle_cmds cs w1) as [[w2 e2]|] eqn:E2; simpl in H; [|discriminate].
    inversion H; subst.
    apply handle_cmd_frame in E1. apply IH in E2.
    destruct E1 as (_&_&A1&B1&C1&_&D1), E2 as (A2&B2&C2&D2).
    repeat split; try congruence.
    + rewrite C2, C1. simpl. rewrite <- app_assoc. reflexivity.
    + rewrite edelivs_app, D1, D2. reflexivity.
Qed.

(* one time slice on worker i: at most one message is stamped (i, next sequence number), logged and emitted *)
Definition slice_ghost (i : wid) (w w' : worker) (ev : list event) : Prop :=
  w_arrlog w' = w_arrlog w /\
  ((w_nsent w' = w_nsent w /\ w_sentlog w' = w_sentlog w /\ edelivs ev = []) \/
   (exists t p, w_nsent w' = S (w_nsent w) /\ w_sentlog w' = w_sentlog w ++ [(t, mkMsg p i (w_nsent w))]
                /\ edelivs ev = [(t, mkMsg p i (w_nsent w))])).

(* one Executor::step: at most one stamped send, the executed process possibly added to `spawning` *)
Definition slice_frame (i : wid) (w w' : worker) (ev : list event) : Prop :=
  map fst (w_procs w') = map fst (w_procs w) /\
  (w_awaited w', w_awaiters w', w_pending w') = (w_awaited w, w_awaiters w, w_pending w) /\
  w_dropped w' = w_dropped w /\
  (w_spawning w' = w_spawning w \/ exists p, w_spawning w' = sadd p (w_spawning w)) /\
  slice_ghost i w w' ev.

Lemma frame_of_calm i w w' ev : edelivs ev = [] -> calm w w' -> slice_frame i w w' ev.
Proof. intros He (K&S&B&N&L&A&D). repeat split; auto. Qed.
Lemma frame_calm_l i w w1 w2 ev : calm w w1 -> slice_frame i w1 w2 ev -> slice_frame i w w2 ev.
Proof.
  intros (K&S&B&N&L&A&D) (K'&B'&D'&S'&A'&G').
  rewrite K in K'. rewrite B in B'. rewrite D in D'. rewrite S in S'. rewrite A in A'. rewrite N, L in G'.
  repeat split; assumption.
Qed.
Lemma frame_calm_r i w w1 w2 ev : slice_frame i w w1 ev -> calm w1 w2 -> slice_frame i w w2 ev.
Proof.
  intros (K&B&D&S&A&G) (K'&S'&B'&N'&L'&A'&D'). unfold slice_frame, slice_ghost.
  rewrite K', B', D', S', A', N', L'. repeat split; assumption.
Qed.

(* the end of a time slice, after its action: park, then completion or re-queue (executor.rs:1290) *)
Definition slice_tail (p : pid) (d : did) (hint : list pid) (w2 : worker) (ev2 : list event) : result (worker * list event) :=
  let w3 := if d_park d then mark_selecting p w2 else w2 in
  match d_fin d with
  | Some r => w4 <- finish p r (d_heapy d) hint w3 ;; Good (w4, ev2)
  | None => if mem p (w_spawning w3) || mem p (w_selecting w3) then Good (w3, ev2) else Good (enqueue p w3, ev2)
  end.

Lemma run_slice_frame i p pr d hint w w' ev :
  alookup p (w_procs w) = Some pr -> run_slice i p pr d hint w = Good (w', ev) -> slice_frame i w w' ev.
Proof.
  intros Hl. unfold run_slice. destruct (negb (did_ok d)); [discriminate|].
  destruct (take_seq (d_taken d) (p_mail pr)) as [[taken mail']|]; [|discriminate].
  set (w1 := set_procs w _).
  assert (Q1: calm w w1) by (repeat split; apply (keys_aset_same _ _ _ _ Hl)).
  (* whatever the action did, what follows it (park, completion or re-queue) is calm *)
  assert (Tail: forall w2 ev2, slice_tail p d hint w2 ev2 = Good (w', ev) -> calm w2 w' /\ ev2 = ev).
  { unfold slice_tail. intros w2 ev2 H.
    assert (Q3: calm w2 (if d_park d then mark_selecting p w2 else w2)) by (destruct (d_park d); [apply calm_sched|apply calm_refl]).
    destruct (d_fin d).
    - destruct (finish _ _ _ _ _) as [w4|] eqn:F; simpl in H; [|discriminate]. inversion H; subst.
      split; [|reflexivity]. eapply calm_trans; [exact Q3|eapply calm_finish; exact F].
    - destruct (_ || _); inversion H; subst; (split; [|reflexivity]); [exact Q3|eapply calm_trans; [exact Q3|apply calm_sched]]. }
  destruct (d_act d) as [[| t | ts]|]; intros H; destruct (Tail _ _ H) as (Q&<-);
    (eapply frame_calm_l; [exact Q1|]); (eapply frame_calm_r; [|exact Q]).
  - repeat split; [right; exists p; reflexivity|left; repeat split].
  - repeat split; [left; reflexivity|right; exists t, p; repeat split].
  - apply frame_of_calm; [reflexivity|]. eapply calm_trans; [apply calm_upd_proc|apply calm_sched].
  - apply frame_of_calm; [reflexivity|apply calm_refl].
Qed.

Lemma exec_step_frame i now o w w' ev : exec_step i now o w = Good (w', ev) -> slice_frame i w w' ev.
Proof.
  unfold exec_step. destruct (expire now (o_expired o) w) as [w1|] eqn:E; simpl; [|discriminate].
  apply calm_expire in E.
  destruct (w_queue w1) as [|p q']; [intros H; inversion H; subst; apply frame_of_calm; [reflexivity|exact E]|].
  set (w2 := set_sched w1 q' _ _). assert (Q2: calm w w2) by (eapply calm_trans; [exact E|apply calm_sched]).
  destruct (alookup p (w_procs w1)) as [pr|] eqn:El; [|intros H; inversion H; subst; apply frame_of_calm; [reflexivity|exact Q2]].
  destruct (match o_pid o with Some p' => p =? p' | None => false end).
  - intros H. eapply frame_calm_l; [exact Q2|]. eapply run_slice_frame; [exact El|exact H].
  - destruct (p_res pr) as [[v|e]|]; try discriminate.
    destruct (finish _ _ _ _ _) as [w3|] eqn:F; simpl; [|discriminate]. intros H; inversion H; subst.
    apply frame_of_calm; [reflexivity|]. eapply calm_trans; [exact Q2|eapply calm_finish; exact F].
Qed.

(* check_completed_processes emits no DeliverAction *)
Lemma edelivs_map_results (f : pid -> event) l : (forall a, edeliv (f a) = []) -> edelivs (map f l) = [].
Proof. intros H. induction l; simpl; [reflexivity|]. rewrite H. exact IHl. Qed.

Lemma report_completed_ok acc t :
  book_only (fst acc) (fst (report_completed acc t)) /\ edelivs (snd (report_completed acc t)) = edelivs (snd acc).
Proof.
  destruct acc as [w ev]. unfold report_completed. destruct (result_of w t); simpl.
  - split; [apply book_only_set_book|]. rewrite edelivs_app, edelivs_map_results by reflexivity. apply app_nil_r.
  - split; [apply book_only_refl|reflexivity].
Qed.
Lemma report_pending_ok acc e :
  book_only (fst acc) (fst (report_pending acc e)) /\ edelivs (snd (report_pending acc e)) = edelivs (snd acc).
Proof.
  destruct acc as [w ev]. unfold report_pending. destruct (result_of w (fst e)); simpl.
  - split; [apply book_only_set_book|]. rewrite edelivs_app, edelivs_map_results by reflexivity. apply app_nil_r.
  - split; [apply book_only_refl|reflexivity].
Qed.

Lemma fold_acc_ok {A} (f : worker * list event -> A -> worker * list event) l :
  (forall acc x, book_only (fst acc) (fst (f acc x)) /\ edelivs (snd (f acc x)) = edelivs (snd acc)) ->
  forall acc, book_only (fst acc) (fst (fold_left f l acc)) /\ edelivs (snd (fold_left f l acc)) = edelivs (snd acc).
Proof.
  intros Hf. induction l as [|x l IH]; intros acc; simpl; [split; [apply book_only_refl|reflexivity]|].
  destruct (Hf acc x) as (Ha&Hb). destruct (IH (f acc x)) as (Hc&Hd).
  split; [eapply book_only_trans; eassumption|congruence].
Qed.

Lemma check_completed_book hint w w' ev :
  check_completed hint w = Good (w', ev) -> book_only w w' /\ edelivs ev = [].
Proof.
  unfold check_completed. destruct (order_by hint _) as [o|]; [|discriminate].
  intros H; inversion H as [H1]; clear H.
  destruct (fold_acc_ok report_completed o report_completed_ok (w, [])) as (Ha&Hb).
  destruct (fold_acc_ok report_pending (w_pending (fst (fold_left report_completed o (w, [])))) report_pending_ok
              (fold_left report_completed o (w, []))) as (Hc&Hd).
  rewrite H1 in Hc, Hd. simpl in *. split.
  - eapply book_only_trans; eassumption.
  - rewrite Hd, Hb. reflexivity.
Qed.

Lemma split_at_app {A} k (l : list A) : fst (split_at k l) ++ snd (split_at k l) = l.
Proof. destruct k; simpl; [apply firstn_skipn|apply app_nil_r]. Qed.

Lemma node_step_shape i now k o nd nd' :
  node_step i now k o nd = Good nd' ->
  exists pre w1 e1 w2 e2 e3,
    n_cmd nd = pre ++ n_cmd nd' /\ handle_cmds pre (n_w nd) = Good (w1, e1) /\ exec_step i now o w1 = Good (w2, e2) /\
    check_completed (o_completed o) w2 = Good (n_w nd', e3) /\ n_evt nd' = n_evt nd ++ e1 ++ e2 ++ e3.
Proof.
  unfold node_step. pose proof (split_at_app k (n_cmd nd)) as Hs.
  destruct (split_at k (n_cmd nd)) as [pre later]. simpl in Hs.
  destruct (handle_cmds pre (n_w nd)) as [[w1 e1]|] eqn:E1; simpl; [|discriminate].
  destruct (exec_step i now o w1) as [[w2 e2]|] eqn:E2; simpl; [|discriminate].
  destruct (check_completed (o_completed o) w2) as [[w3 e3]|] eqn:E3; simpl; [|discriminate].
  intros H; inversion H; subst; clear H. exists pre, w1, e1, w2, e2, e3. simpl. auto.
Qed.

Lemma node_step_ghost i now k o nd nd' :
  node_step i now k o nd = Good nd' ->
  exists pre new,
    n_cmd nd = pre ++ n_cmd nd' /\
    w_arrlog (n_w nd') = w_arrlog (n_w nd) ++ delivs pre /\
    edelivs (n_evt nd') = edelivs (n_evt nd) ++ new /\
    w_sentlog (n_w nd') = w_sentlog (n_w nd) ++ new /\
    ((new = [] /\ w_nsent (n_w nd') = w_nsent (n_w nd)) \/
     (exists t p, new = [(t, mkMsg p i (w_nsent (n_w nd)))] /\ w_nsent (n_w nd') = S (w_nsent (n_w nd)))).
Proof.
  intros H. destruct (node_step_shape _ _ _ _ _ _ H) as (pre&w1&e1&w2&e2&e3&Hs&E1&E2&E3&Ev).
  apply handle_cmds_ghost in E1. apply exec_step_frame in E2. apply check_completed_book in E3.
  destruct E1 as (A1&B1&C1&D1). destruct E2 as (_&_&_&_&A2&H2). destruct E3 as ((_&_&_&_&A3&B3&C3&D3)&F3).
  exists pre. exists (edelivs e2). repeat split.
  - exact Hs.
  - congruence.
  - rewrite Ev, !edelivs_app, D1, F3. simpl. rewrite app_nil_r. reflexivity.
  - destruct H2 as [(H1&H2&H3)|(t&p&H1&H2&H3)]; rewrite B3, H2, H3, ?app_nil_r; congruence.
  - destruct H2 as [(H1&H2&H3)|(t&p&H1&H2&H3)].
    + left. split; [exact H3|congruence].
    + right. exists t, p. split; [rewrite H3; congruence|congruence].
Qed.

Lemma run_invariant (P : sys -> Prop) :
  (forall s a s', P s -> sys_step s a = Good s' -> P s') ->
  forall sigma s s', P s -> run s sigma = Good s' -> P s'.
Proof.
  intros Hstep. induction sigma as [|a sigma IH]; intros s s' Hp H; simpl in H.
  - inversion H; subst. exact Hp.
  - destruct (sys_step s a) as [s1|] eqn:E; simpl in H; [|discriminate].
    eapply IH; [eapply Hstep; eassumption|exact H].
Qed.

Definition inert (c : cmd) : bool := match c with CStart _ _ | CSpawn _ | CDeliver _ _ => false | _ => true end.

(* handle_spawn / start_process: the next pid is routed to worker w *)
Definition alloc (e : env) (w : wid) : env :=
  {| e_router := aset (e_next e) w (e_router e); e_next := S (e_next e); e_pending := e_pending e |}.

Lemma update_nth_length {A} (f : A -> A) l n : length (update_nth n f l) = length l.
Proof. revert n. induction l; intros [|n]; simpl; auto. Qed.
Lemma push_cmd_length w c ns : length (push_cmd w c ns) = length ns.
Proof. apply update_nth_length. Qed.

Lemma fold_left_map {A B C} (f : A -> B -> A) (g : C -> B) l : forall a,
  fold_left f (map g l) a = fold_left (fun a x => f a (g x)) l a.
Proof. induction l; intros a0; simpl; auto. Qed.

Lemma handle_event_shape nw ev e ns e' ns' :
  handle_event nw ev (e, ns) = Good (e', ns') ->
  exists l,
    (forall ns0, handle_event nw ev (e, ns0) = Good (e', fold_left (fun ns x => push_cmd (fst x) (snd x) ns) l ns0)) /\
    match ev with
    | ESpawnA c =>
        e' = alloc e (e_next e mod nw) /\
        exists cw, l = [(e_next e mod nw, CSpawn (e_next e)); (cw, CNotifySpawn c (e_next e))]
    | EDeliverA t m => e' = e /\ exists j, alookup t (e_router e) = Some j /\ l = [(j, CDeliver t m)]
    | _ => e_router e' = e_router e /\ e_next e' = e_next e /\ Forall (fun x => inert (snd x) = true) l
    end.
Proof.
  intros H. destruct ev; unfold handle_event in *; cbn -[Nat.modulo nodup] in *.
  - revert H. match goal with |- context [@alookup ?A caller ?l] => destruct (@alookup A caller l) as [cw|] end; intros H; [|discriminate].
    inversion H; subst e' ns'; clear H. exists [(e_next e mod nw, CSpawn (e_next e)); (cw, CNotifySpawn caller (e_next e))].
    split; [intros ns0; reflexivity|]. split; [reflexivity|]. exists cw. reflexivity.
  - destruct (alookup target (e_router e)) as [w|]; [|discriminate]. inversion H; subst e' ns'.
    exists [(w, CDeliver target m)]. split; [intros; reflexivity|]. split; [reflexivity|]. exists w. split; reflexivity.
  - revert H. match goal with |- context [forallb ?f targets] => destruct (forallb f targets) end; intros H; [|discriminate].
    match type of H with Good (_, fold_left _ ?ws _) = _ =>
      exists (map (fun w => (w, CQuery awaiter (filter (fun t => match alookup t (e_router e) with Some w0 => w0 | None => 0 end =? w) targets))) ws)
    end.
    inversion H; subst e' ns'; clear H. split; [intros ns0; rewrite fold_left_map; reflexivity|].
    split; [reflexivity|]. split; [reflexivity|]. apply Forall_forall. intros x Hx. apply in_map_iff in Hx. destruct Hx as (w&<-&_). reflexivity.
  - destruct (alookup awaiter (e_pending e)) as [pa|].
    + destruct (match results with [] => None | (t, _) :: _ => alookup t (e_router e) end) as [w|];
        [|inversion H; subst; exists []; split; [intros; reflexivity|repeat split; constructor]].
      destruct (sremove w (pa_expected pa)); [|inversion H; subst; exists []; split; [intros; reflexivity|repeat split; constructor]].
      destruct (alookup awaiter (e_router e)) as [aw|]; [|discriminate]. inversion H; subst e' ns'.
      eexists [(aw, _)]. split; [intros; reflexivity|repeat split; repeat constructor].
    + destruct (alookup awaiter (e_router e)) as [aw|]; [|discriminate]. inversion H; subst e' ns'.
      eexists [(aw, _)]. split; [intros; reflexivity|repeat split; repeat constructor].
  - inversion H; subst. exists []. split; [intros; reflexivity|repeat split; constructor].
  - inversion H; subst. exists []. split; [intros; reflexivity|repeat split; constructor].
Qed.

(* I e ns evs: evs are the events the environment has collected and not yet handled. All that the
   environment and the clients do to the nodes is push commands, one kind per clause. *)
Definition env_stable (nw : nat) (I : env -> list node -> list event -> Prop) : Prop :=
  (forall e pe ns evs, I e ns evs -> I {| e_router := e_router e; e_next := e_next e; e_pending := pe |} ns evs) /\
  (forall e ns evs w c, inert c = true -> I e ns evs -> I e (push_cmd w c ns) evs) /\
  (forall e ns ev evs, edeliv ev = [] -> I e ns (ev :: evs) -> I e ns evs) /\
  (forall e ns evs t m j,
     alookup t (e_router e) = Some j -> I e ns (EDeliverA t m :: evs) -> I e (push_cmd j (CDeliver t m) ns) evs) /\
  (forall e ns evs c,
     c = CSpawn (e_next e) \/ (exists b, c = CStart (e_next e) b) ->
     I e ns evs -> I (alloc e (e_next e mod nw)) (push_cmd (e_next e mod nw) c ns) evs).

Section SysInv.
  Variable nw : nat.
  Variable I : env -> list node -> list event -> Prop.
  Hypothesis I_env : env_stable nw I.

  Lemma inv_handle_event ev evs e ns e' ns' :
    handle_event nw ev (e, ns) = Good (e', ns') -> I e ns (ev :: evs) -> I e' ns' evs.
  Proof.
    destruct I_env as (I_pending&I_push&I_skip&I_deliver&I_alloc).
    intros H G. destruct (handle_event_shape _ _ _ _ _ _ H) as (l&P&K).
    specialize (P ns). rewrite H in P. injection P as ->.
    assert (Push: forall l e0 ns0, Forall (fun x => inert (snd x) = true) l -> I e0 ns0 evs ->
                    I e0 (fold_left (fun ns x => push_cmd (fst x) (snd x) ns) l ns0) evs).
    { clear -I_push. induction l as [|x l IH]; intros e0 ns0 F G0; simpl; [exact G0|].
      inversion F; subst. apply IH; [assumption|]. apply I_push; assumption. }
    assert (G0: edeliv ev = [] -> I e ns evs) by (intros He; eapply I_skip; eassumption).
    destruct ev; simpl in K;
      try (destruct K as (R&N&F); apply Push; [exact F|]; destruct e'; simpl in R, N; subst; apply I_pending, G0; reflexivity).
    - destruct K as (->&cw&->). apply I_push; [reflexivity|]. apply (I_alloc e ns evs (CSpawn (e_next e))); [left; reflexivity|apply G0; reflexivity].
    - destruct K as (->&j&Hj&->). apply I_deliver; assumption.
  Qed.

  Lemma inv_handle_events evs : forall e ns e' ns',
    handle_events nw evs (e, ns) = Good (e', ns') -> I e ns evs -> I e' ns' [].
  Proof.
    induction evs as [|ev evs IH]; intros e ns e' ns' H G; cbn [handle_events] in H.
    - inversion H; subst. exact G.
    - destruct (handle_event nw ev (e, ns)) as [[e1 ns1]|] eqn:E1; cbn [rbind] in H; [|discriminate].
      eapply IH; [exact H|]. eapply inv_handle_event; eassumption.
  Qed.

  Hypothesis I_node : forall e ns i nd nd' now k o,
    nth_error ns i = Some nd -> node_step i now k o nd = Good nd' -> I e ns [] -> I e (update_nth i (fun _ => nd') ns) [].
  Hypothesis I_collect : forall e ns ks, I e ns [] -> I e (snd (collect ks ns)) (fst (collect ks ns)).

  Lemma inv_step s a s' :
    length (s_nodes s) = nw -> sys_step s a = Good s' -> I (s_env s) (s_nodes s) [] -> I (s_env s') (s_nodes s') [].
  Proof.
    destruct I_env as (_&I_push&_&_&I_alloc).
    intros L H G. destruct a as [i k o|ks|d|c]; simpl in H.
    - destruct (nth_error (s_nodes s) i) as [nd|] eqn:Ei; [|inversion H; subst; exact G].
      destruct (node_step i (s_clock s) k o nd) as [nd'|] eqn:Es; cbn [rbind] in H; [|discriminate].
      inversion H; subst s'. eapply I_node; eassumption.
    - pose proof (I_collect _ _ ks G) as G1. destruct (collect ks (s_nodes s)) as [evs ns]. rewrite L in H.
      destruct (handle_events nw evs (s_env s, ns)) as [[e' ns']|] eqn:Eh; cbn [rbind] in H; [|discriminate].
      inversion H; subst s'. eapply inv_handle_events; eassumption.
    - inversion H; subst s'. exact G.
    - unfold client_step in H. rewrite L in H. destruct c.
      + inversion H; subst s'. apply (I_alloc _ _ _ (CStart _ sleeping)); [right; eexists; reflexivity|exact G].
      + inversion H; subst s'. apply I_push; [reflexivity|exact G].
      + inversion H; subst s'. apply I_push; [reflexivity|exact G].
      + destruct (alookup p (e_router (s_env s))); inversion H; subst s'; [apply I_push; [reflexivity|]|]; exact G.
      + destruct (alookup p (e_router (s_env s))); inversion H; subst s'; [apply I_push; [reflexivity|]|]; exact G.
  Qed.
End SysInv.

Definition pm_eqb (a b : pid * msg) : bool :=
  (fst a =? fst b) && (m_from (snd a) =? m_from (snd b)) && (m_w (snd a) =? m_w (snd b)) && (m_seq (snd a) =? m_seq (snd b)).
Definition cnt (x : pid * msg) (l : list (pid * msg)) : nat := length (filter (pm_eqb x) l).

Lemma cnt_app x a b : cnt x (a ++ b) = cnt x a + cnt x b.
Proof. unfold cnt. rewrite filter_app, app_length. reflexivity. Qed.

Definition total (g : node -> nat) (ns : list node) : nat := fold_right (fun nd acc => g nd + acc) 0 ns.

Lemma total_update g ns : forall n nd nd',
  nth_error ns n = Some nd ->
  total g (update_nth n (fun _ => nd') ns) + g nd = total g ns + g nd'.
Proof.
  induction ns as [|a ns IH]; intros n nd nd' H; destruct n; simpl in *; try discriminate.
  - inversion H; subst. lia.
  - specialize (IH _ _ nd' H). lia.
Qed.

Definition g_sent x (nd : node) := cnt x (w_sentlog (n_w nd)).
Definition g_arr x (nd : node) := cnt x (w_arrlog (n_w nd)).
Definition g_cmd x (nd : node) := cnt x (delivs (n_cmd nd)).
Definition g_evt x (nd : node) := cnt x (edelivs (n_evt nd)).

(* sent = arrived + in a command queue + in an event queue (+ extra: held by the environment, between
   collecting a DeliverAction and queueing its DeliverMessage), for every (target, stamp) *)
Definition balanced (ns : list node) (extra : nat) (x : pid * msg) : Prop :=
  total (g_sent x) ns = total (g_arr x) ns + total (g_cmd x) ns + total (g_evt x) ns + extra.

(* router entries point at existing workers *)
Definition routed (e : env) (n : nat) : Prop := forall p w, alookup p (e_router e) = Some w -> w < n.

Lemma total_push_other g w c ns :
  (forall nd, g {| n_w := n_w nd; n_cmd := n_cmd nd ++ [c]; n_evt := n_evt nd |} = g nd) ->
  total g (push_cmd w c ns) = total g ns.
Proof.
  intros H. unfold push_cmd. revert w. induction ns as [|a ns IH]; intros [|w]; simpl; auto;
    try (rewrite H; reflexivity); try (rewrite IH; reflexivity).
Qed.

Lemma total_push_cmd x w c ns :
  w < length ns ->
  total (g_cmd x) (push_cmd w c ns) = total (g_cmd x) ns + cnt x (deliv c).
Proof.
  unfold push_cmd. revert w. induction ns as [|a ns IH]; intros [|w] H; simpl in *; try lia.
  - unfold g_cmd at 1. simpl. rewrite delivs_app, cnt_app. unfold g_cmd. simpl. rewrite app_nil_r. lia.
  - rewrite IH by lia. lia.
Qed.

Lemma push_balanced ns extra x w c :
  w < length ns -> balanced ns (extra + cnt x (deliv c)) x -> balanced (push_cmd w c ns) extra x.
Proof.
  intros Hw H. unfold balanced in *.
  rewrite (total_push_other (g_sent x)), (total_push_other (g_arr x)), (total_push_other (g_evt x)) by reflexivity.
  rewrite total_push_cmd by exact Hw. lia.
Qed.

Lemma push_balanced_nodeliv ns extra x w c :
  deliv c = [] -> balanced ns extra x -> balanced (push_cmd w c ns) extra x.
Proof.
  intros Hc H. unfold balanced in *.
  rewrite (total_push_other (g_sent x)), (total_push_other (g_arr x)), (total_push_other (g_evt x)) by reflexivity.
  assert (E: total (g_cmd x) (push_cmd w c ns) = total (g_cmd x) ns).
  { apply total_push_other. intros nd. unfold g_cmd. simpl. rewrite delivs_app. simpl. rewrite Hc, app_nil_r. reflexivity. }
  rewrite E. exact H.
Qed.

(* the collect phase: events leave the queues and are held by the environment *)
Lemma collect_totals ks : forall ns x,
  total (g_sent x) (snd (collect ks ns)) = total (g_sent x) ns /\
  total (g_arr x) (snd (collect ks ns)) = total (g_arr x) ns /\
  total (g_cmd x) (snd (collect ks ns)) = total (g_cmd x) ns /\
  total (g_evt x) (snd (collect ks ns)) + cnt x (edelivs (fst (collect ks ns))) = total (g_evt x) ns /\
  length (snd (collect ks ns)) = length ns /\
  map n_w (snd (collect ks ns)) = map n_w ns.
Proof.
  intros ns. revert ks. induction ns as [|nd ns IH]; intros ks x; simpl.
  - repeat split; reflexivity.
  - set (k := match ks with [] => None | k0 :: _ => Some k0 end).
    pose proof (split_at_app k (n_evt nd)) as Hs.
    destruct (split_at k (n_evt nd)) as [now_evs later]. simpl in Hs.
    specialize (IH (tl ks) x). destruct (collect (tl ks) ns) as [evs t']. simpl in *.
    destruct IH as (A&B&C&D&L&M).
    assert (Hev: g_evt x nd = cnt x (edelivs now_evs) + cnt x (edelivs later)).
    { unfold g_evt. rewrite <- Hs, edelivs_app, cnt_app. reflexivity. }
    repeat split.
    + unfold g_sent at 1. simpl. fold (g_sent x nd). rewrite A. reflexivity.
    + unfold g_arr at 1. simpl. fold (g_arr x nd). rewrite B. reflexivity.
    + unfold g_cmd at 1. simpl. fold (g_cmd x nd). rewrite C. reflexivity.
    + unfold g_evt at 1. simpl. rewrite edelivs_app, cnt_app. lia.
    + rewrite L. reflexivity.
    + rewrite M. reflexivity.
Qed.

Lemma collect_wc ks : forall ns, map (fun nd => (n_w nd, n_cmd nd)) (snd (collect ks ns)) = map (fun nd => (n_w nd, n_cmd nd)) ns.
Proof.
  intros ns. revert ks. induction ns as [|nd ns IH]; intros ks; simpl; [reflexivity|].
  destruct (split_at _ (n_evt nd)) as [a b]. specialize (IH (tl ks)). destruct (collect (tl ks) ns) as [evs t']. simpl in *.
  rewrite IH. reflexivity.
Qed.
Lemma collect_nth ks ns i nd' : nth_error (snd (collect ks ns)) i = Some nd' ->
  exists nd, nth_error ns i = Some nd /\ n_w nd' = n_w nd /\ n_cmd nd' = n_cmd nd.
Proof.
  intros Hn. pose proof (f_equal (fun l => nth_error l i) (collect_wc ks ns)) as M. simpl in M.
  rewrite !nth_error_map, Hn in M. destruct (nth_error ns i) as [nd|]; [|discriminate].
  injection M as M1 M2. exists nd. auto.
Qed.

Definition conserved (s : sys) : Prop :=
  0 < length (s_nodes s) /\ routed (s_env s) (length (s_nodes s)) /\ forall x, balanced (s_nodes s) 0 x.

(* X_at nw e ns evs, here and in the later files: the invariant X in the middle of Environment::step
   over nw workers, when the events evs are collected and not yet handled; X itself is X_at .. [] *)
Definition conserved_at (nw : nat) (e : env) (ns : list node) (evs : list event) : Prop :=
  0 < nw /\ length ns = nw /\ routed e nw /\ forall x, balanced ns (cnt x (edelivs evs)) x.

Lemma total_repeat g nd n : g nd = 0 -> total g (repeat nd n) = 0.
Proof. intros H. induction n; simpl; [reflexivity|]. rewrite H, IHn. reflexivity. Qed.

Lemma conserved_init nw : 0 < nw -> conserved (init nw).
Proof.
  intros H. unfold conserved, init. simpl. rewrite repeat_length. repeat split; [exact H| |].
  - intros p w E. discriminate.
  - intros x. unfold balanced. rewrite !total_repeat by reflexivity. reflexivity.
Qed.

Lemma conserved_at_stable nw : env_stable nw (conserved_at nw).
Proof.
  split; [|split; [|split; [|split]]].
  - intros e pe ns evs G. exact G.
  - intros e ns evs w c Hc (P&L&R&B). repeat split; [exact P|rewrite push_cmd_length; exact L|exact R|].
    intros x. apply push_balanced_nodeliv; [destruct c; try discriminate; reflexivity|apply B].
  - intros e ns ev evs He (P&L&R&B). repeat split; try assumption.
    intros x. specialize (B x). simpl in B. rewrite He in B. exact B.
  - intros e ns evs t m j Hj (P&L&R&B). repeat split; [exact P|rewrite push_cmd_length; exact L|exact R|].
    intros x. apply push_balanced; [rewrite L; apply (R _ _ Hj)|].
    specialize (B x). change (edelivs (EDeliverA t m :: evs)) with (deliv (CDeliver t m) ++ edelivs evs) in B.
    rewrite cnt_app in B. unfold balanced in *. lia.
  - intros e ns evs c Hc (P&L&R&B). repeat split; [exact P|rewrite push_cmd_length; exact L| |].
    + intros p w. cbn -[Nat.modulo]. rewrite alookup_aset. destruct (p =? e_next e); [|apply R].
      intros E; inversion E; subst. apply Nat.mod_upper_bound. lia.
    + intros x. apply push_balanced_nodeliv; [destruct Hc as [->|(b&->)]; reflexivity|apply B].
Qed.

Lemma conserved_step s a s' : conserved s -> sys_step s a = Good s' -> conserved s'.
Proof.
  intros (Hn&Hr&Hb) H.
  assert (G: conserved_at (length (s_nodes s)) (s_env s') (s_nodes s') []).
  { refine (inv_step _ _ (conserved_at_stable _) _ _ s a s' eq_refl H _); [| |repeat split; assumption]; clear.
    - intros e ns i nd nd' now k o Ei Es (P&L&R&B). repeat split; [exact P|rewrite update_nth_length; exact L|exact R|].
      intros x. destruct (node_step_ghost _ _ _ _ _ _ Es) as (pre&new&C1&C2&C3&C4&_).
      pose proof (total_update (g_sent x) _ _ _ nd' Ei) as T1.
      pose proof (total_update (g_arr x) _ _ _ nd' Ei) as T2.
      pose proof (total_update (g_cmd x) _ _ _ nd' Ei) as T3.
      pose proof (total_update (g_evt x) _ _ _ nd' Ei) as T4.
      assert (G1: g_sent x nd' = g_sent x nd + cnt x new) by (unfold g_sent; rewrite C4, cnt_app; reflexivity).
      assert (G2: g_arr x nd' = g_arr x nd + cnt x (delivs pre)) by (unfold g_arr; rewrite C2, cnt_app; reflexivity).
      assert (G3: g_cmd x nd = cnt x (delivs pre) + g_cmd x nd') by (unfold g_cmd; rewrite C1, delivs_app, cnt_app; reflexivity).
      assert (G4: g_evt x nd' = g_evt x nd + cnt x new) by (unfold g_evt; rewrite C3, cnt_app; reflexivity).
      specialize (B x). unfold balanced in *. change (cnt x (edelivs [])) with 0 in *. lia.
    - intros e ns ks (P&L&R&B). destruct (collect_totals ks ns (0, mkMsg 0 0 0)) as (_&_&_&_&L'&_).
      repeat split; [exact P|congruence|exact R|]. intros x.
      destruct (collect_totals ks ns x) as (A1&A2&A3&A4&_&_). specialize (B x). unfold balanced in *. change (cnt x (edelivs [])) with 0 in *. lia. }
  destruct G as (_&L&R&B). unfold conserved. rewrite L. auto.
Qed.

Lemma conserved_run sigma : forall s s', conserved s -> run s sigma = Good s' -> conserved s'.
Proof. apply run_invariant. exact conserved_step. Qed.

(* C04 message_conservation: for every schedule and every oracle, every stamped message (t, m) that
   was sent is — counted with multiplicity — in exactly one of: the arrival log of a worker (its
   DeliverMessage was handled), a command queue (DeliverMessage in flight), an event queue
   (DeliverAction in flight). Nothing is duplicated, nothing is dropped on the way. *)
Theorem message_conservation : forall nw sigma s,
  0 < nw -> run (init nw) sigma = Good s ->
  forall t m,
    total (g_sent (t, m)) (s_nodes s)
    = total (g_arr (t, m)) (s_nodes s) + total (g_cmd (t, m)) (s_nodes s) + total (g_evt (t, m)) (s_nodes s).
Proof.
  intros nw sigma s Hnw H t m.
  pose proof (conserved_run sigma _ _ (conserved_init nw Hnw) H) as (_&_&B).
  specialize (B (t, m)). unfold balanced in B. lia.
Qed.

(* worker i stamps (i, 0), (i, 1), ... : no stamp is ever issued twice *)
Definition stamp_ok (i : wid) (w : worker) : Prop :=
  Forall (fun e => m_w (snd e) = i /\ m_seq (snd e) < w_nsent w) (w_sentlog w) /\
  NoDup (map (fun e => m_seq (snd e)) (w_sentlog w)).

Definition stamps_ok (ns : list node) : Prop :=
  forall i w, nth_error (map n_w ns) i = Some w -> stamp_ok i w.

Lemma map_nw_push w c ns : map n_w (push_cmd w c ns) = map n_w ns.
Proof. unfold push_cmd. revert w. induction ns as [|a ns IH]; intros [|w]; simpl; auto. f_equal. apply IH. Qed.

Lemma workers_only_stable nw (P : list worker -> Prop) : env_stable nw (fun _ ns _ => P (map n_w ns)).
Proof. split; [|split; [|split; [|split]]]; intros; rewrite ?map_nw_push; assumption. Qed.

Lemma handle_event_nw nw ev e ns e' ns' :
  handle_event nw ev (e, ns) = Good (e', ns') -> map n_w ns' = map n_w ns.
Proof. intros H. exact (inv_handle_event nw _ (workers_only_stable nw (fun l => l = map n_w ns)) ev [] e ns e' ns' H eq_refl). Qed.

Lemma handle_events_nw nw evs : forall e ns e' ns',
  handle_events nw evs (e, ns) = Good (e', ns') -> map n_w ns' = map n_w ns.
Proof.
  intros e ns e' ns' H. exact (inv_handle_events nw _ (workers_only_stable nw (fun l => l = map n_w ns)) evs e ns e' ns' H eq_refl).
Qed.

Lemma nth_error_map_update {A B} (g : A -> B) l : forall n a' i,
  nth_error (map g (update_nth n (fun _ => a') l)) i =
  if i =? n then match nth_error l n with Some _ => Some (g a') | None => None end else nth_error (map g l) i.
Proof.
  induction l as [|a l IH]; intros n a' i.
  - destruct n, i; simpl; try reflexivity. destruct (i =? n); reflexivity.
  - destruct n, i; simpl; try reflexivity. apply IH.
Qed.


Lemma stamps_step s a s' : stamps_ok (s_nodes s) -> sys_step s a = Good s' -> stamps_ok (s_nodes s').
Proof.
  intros Hs H.
  refine (inv_step _ _ (workers_only_stable _ (fun l => forall i w, nth_error l i = Some w -> stamp_ok i w)) _ _ s a s' eq_refl H Hs); clear.
  - intros e ns i nd nd' now k o Ei Es Hs j w Hj. rewrite nth_error_map_update in Hj.
    destruct (j =? i) eqn:Eji; [|apply Hs; exact Hj].
    apply Nat.eqb_eq in Eji; subst j. rewrite Ei in Hj. inversion Hj; subst w; clear Hj.
    destruct (Hs i (n_w nd)) as (F&N); [rewrite nth_error_map, Ei; reflexivity|].
    destruct (node_step_ghost _ _ _ _ _ _ Es) as (pre&new&_&_&_&C4&Hn).
    unfold stamp_ok. rewrite C4.
    destruct Hn as [(En&Ens)|(t&p&En&Ens)]; subst new; rewrite Ens; [rewrite app_nil_r; split; assumption|]. split.
    + apply Forall_app. split.
      * eapply Forall_impl; [|exact F]. intros e0 (A1&A2). split; [exact A1|lia].
      * constructor; [simpl; split; [reflexivity|lia]|constructor].
    + rewrite map_app. simpl. apply NoDup_app_one; [exact N|].
      intros Hin. apply in_map_iff in Hin. destruct Hin as (e0&E0&I0).
      rewrite Forall_forall in F. destruct (F _ I0) as (_&Lt). lia.
  - intros e ns ks Hs. unfold stamps_ok. destruct (collect_totals ks ns (0, mkMsg 0 0 0)) as (_&_&_&_&_&M).
    rewrite M. exact Hs.
Qed.

(* C04: no stamp is issued twice — within a worker the sequence numbers of the send log are
   pairwise distinct and below the worker's counter, and every stamp carries its worker's id, so
   stamps of different workers differ too. Together with message_conservation: every message is
   in exactly ONE place. *)
Theorem stamps_unique : forall nw sigma s,
  run (init nw) sigma = Good s ->
  forall i nd, nth_error (s_nodes s) i = Some nd ->
    NoDup (map (fun e => m_seq (snd e)) (w_sentlog (n_w nd))) /\
    Forall (fun e => m_w (snd e) = i /\ m_seq (snd e) < w_nsent (n_w nd)) (w_sentlog (n_w nd)).
Proof.
  intros nw sigma s H i nd Hi.
  assert (H0: stamps_ok (s_nodes (init nw))).
  { intros j w Hj. unfold init in Hj. simpl in Hj.
    apply nth_error_In in Hj. apply in_map_iff in Hj. destruct Hj as (nd0&E0&I0).
    apply repeat_spec in I0. subst nd0 w. split; constructor. }
  pose proof (run_invariant (fun s => stamps_ok (s_nodes s)) stamps_step sigma _ _ H0 H) as Hs.
  destruct (Hs i (n_w nd)) as (F&N); [rewrite nth_error_map, Hi; reflexivity|]. split; assumption.
Qed.
