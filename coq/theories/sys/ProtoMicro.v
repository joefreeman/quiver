(* ProtoMicro.v — a small-step view of M-Sys (sys/Proto.v), used to prove global invariants.

   One scheduler action of the model is a big step: Worker::step drains a prefix of its command
   queue, runs one executor step and checks for completed processes; Environment::step collects a
   prefix of every event queue and handles the events one after the other.  Here every big step is
   decomposed into MICRO-STEPS that each touch one queue element:
     MCmd i        pop the head command of worker i and handle it          (Worker::handle_command)
     MExec i o     one Executor::step on worker i with oracle o
     MChk i hint   Worker::check_completed_processes on worker i
     MEvt i        pop the head event of worker i and handle it            (Environment::handle_event)
     MTime d / MClient c
   `node_step_msteps`, `env_step_msteps`: sys_step s a = Good s' implies a sequence of micro-steps
   from s to s' (the collect phase of Environment::step commutes with the handlers because a handler
   only appends to command queues).  `micro_invariant`: a predicate preserved by every micro-step is
   an invariant of every run; a premise on the oracle (honesty of the executed slice) is evaluated on
   the worker state the executor step starts from, and on the big-step side it is `hon_run`.
   `micro_invariant2`: the same with a second premise, on the client calls (`clients_ok`);
   `run_fault_inv`: a run that faults does so in a state satisfying the invariant. *)
From Quiver Require Import sys.Proto sys.ProtoMsg sys.ProtoFifo sys.ProtoCommute sys.ProtoDiamond.

Definition mk_sys (ns : list node) (e : env) (c : nat) : sys := {| s_nodes := ns; s_env := e; s_clock := c |}.
Definition mk_node (w : worker) (cs : list cmd) (es : list event) : node := {| n_w := w; n_cmd := cs; n_evt := es |}.
Definition set_node (i : nat) (nd : node) (ns : list node) : list node := update_nth i (fun _ => nd) ns.

Inductive mlabel :=
| MCmd (i : wid)
| MExec (i : wid) (o : woracle)
| MChk (i : wid) (hint : list pid)
| MEvt (i : wid)
| MTime (d : nat)
| MClient (c : client).

Inductive mstep : sys -> mlabel -> sys -> Prop :=
| ms_cmd ns e clk i nd c rest w' evs :
    nth_error ns i = Some nd -> n_cmd nd = c :: rest ->
    handle_cmd c (n_w nd) = Good (w', evs) ->
    mstep (mk_sys ns e clk) (MCmd i) (mk_sys (set_node i (mk_node w' rest (n_evt nd ++ evs)) ns) e clk)
| ms_exec ns e clk i nd o w' evs :
    nth_error ns i = Some nd ->
    exec_step i clk o (n_w nd) = Good (w', evs) ->
    mstep (mk_sys ns e clk) (MExec i o) (mk_sys (set_node i (mk_node w' (n_cmd nd) (n_evt nd ++ evs)) ns) e clk)
| ms_chk ns e clk i nd hint w' evs :
    nth_error ns i = Some nd ->
    check_completed hint (n_w nd) = Good (w', evs) ->
    mstep (mk_sys ns e clk) (MChk i hint) (mk_sys (set_node i (mk_node w' (n_cmd nd) (n_evt nd ++ evs)) ns) e clk)
| ms_evt ns e clk i nd ev rest e' ns' :
    nth_error ns i = Some nd -> n_evt nd = ev :: rest ->
    handle_event (length ns) ev (e, set_node i (mk_node (n_w nd) (n_cmd nd) rest) ns) = Good (e', ns') ->
    mstep (mk_sys ns e clk) (MEvt i) (mk_sys ns' e' clk)
| ms_time ns e clk d : mstep (mk_sys ns e clk) (MTime d) (mk_sys ns e (clk + d))
| ms_client s c s' : client_step c s = Good s' -> mstep s (MClient c) s'.

Inductive msteps : sys -> list mlabel -> sys -> Prop :=
| mss_nil s : msteps s [] s
| mss_cons s l s1 ls s2 : mstep s l s1 -> msteps s1 ls s2 -> msteps s (l :: ls) s2.

Lemma msteps_app s ls1 s1 ls2 s2 : msteps s ls1 s1 -> msteps s1 ls2 s2 -> msteps s (ls1 ++ ls2) s2.
Proof. intros H. induction H as [|s l sa ls sb Hs Hr IH]; intros H2; simpl; [exact H2|]. econstructor; [exact Hs|apply IH; exact H2]. Qed.

Lemma update_nth_twice {A} (f g : A -> A) : forall l i, update_nth i f (update_nth i g l) = update_nth i (fun x => f (g x)) l.
Proof. induction l as [|a l IH]; intros [|i]; simpl; try reflexivity. f_equal. apply IH. Qed.
Lemma update_nth_ext {A} (f g : A -> A) : (forall a, f a = g a) -> forall l i, update_nth i f l = update_nth i g l.
Proof. intros H. induction l as [|a l IH]; intros [|i]; simpl; try reflexivity; [rewrite H; reflexivity|f_equal; apply IH]. Qed.
Lemma update_nth_same {A} (l : list A) : forall i a, nth_error l i = Some a -> update_nth i (fun _ => a) l = l.
Proof. induction l as [|b l IH]; intros [|i] a H; simpl in *; try discriminate; [inversion H; reflexivity|f_equal; apply IH; exact H]. Qed.
Lemma set_node_twice i a b ns : set_node i a (set_node i b ns) = set_node i a ns.
Proof. unfold set_node. rewrite update_nth_twice. reflexivity. Qed.
Lemma set_node_length i a ns : length (set_node i a ns) = length ns.
Proof. apply update_nth_length. Qed.
Lemma nth_set_node_same i a ns nd : nth_error ns i = Some nd -> nth_error (set_node i a ns) i = Some a.
Proof. apply nth_error_update_same. Qed.
Lemma nth_set_node_other i j a ns : j <> i -> nth_error (set_node i a ns) j = nth_error ns j.
Proof. apply nth_error_update_other. Qed.

Lemma set_node_all (P : nat -> node -> Prop) i nd' ns :
  (forall j nd, nth_error ns j = Some nd -> P j nd) -> P i nd' ->
  forall j nd, nth_error (set_node i nd' ns) j = Some nd -> P j nd.
Proof.
  intros N H j x Hx. destruct (Nat.eq_dec j i) as [->|Hne]; [|rewrite nth_set_node_other in Hx by exact Hne; exact (N j x Hx)].
  destruct (nth_error ns i) as [nd|] eqn:Ei.
  - rewrite (nth_set_node_same _ _ _ _ Ei) in Hx. inversion Hx; subst x. exact H.
  - unfold set_node in Hx. rewrite (update_nth_none _ _ _ Ei) in Hx. congruence.
Qed.
Lemma nth_push_inv w c ns j nd' : nth_error (push_cmd w c ns) j = Some nd' ->
  exists nd, nth_error ns j = Some nd /\ nd' = if j =? w then mk_node (n_w nd) (n_cmd nd ++ [c]) (n_evt nd) else nd.
Proof.
  rewrite nth_error_push. destruct (nth_error ns j) as [nd|]; [|discriminate].
  intros H; inversion H. exists nd. split; reflexivity.
Qed.

Lemma cmds_msteps : forall pre ns e c i nd later w1 e1,
  nth_error ns i = Some nd -> n_cmd nd = pre ++ later ->
  handle_cmds pre (n_w nd) = Good (w1, e1) ->
  msteps (mk_sys ns e c) (repeat (MCmd i) (length pre)) (mk_sys (set_node i (mk_node w1 later (n_evt nd ++ e1)) ns) e c).
Proof.
  induction pre as [|c0 pre IH]; intros ns e c i nd later w1 e1 Hn Hc H; simpl in H.
  - inversion H; subst w1 e1. simpl in *. rewrite app_nil_r.
    replace (mk_node (n_w nd) later (n_evt nd)) with nd by (destruct nd; simpl in *; subst; reflexivity).
    unfold set_node. rewrite (update_nth_same _ _ _ Hn). constructor.
  - destruct (handle_cmd c0 (n_w nd)) as [[wa ea]|] eqn:E1; simpl in H; [|discriminate].
    destruct (handle_cmds pre wa) as [[wb eb]|] eqn:E2; simpl in H; [|discriminate].
    inversion H; subst w1 e1; clear H. simpl.
    econstructor.
    + eapply ms_cmd; [exact Hn|exact Hc|exact E1].
    + set (nda := mk_node wa (pre ++ later) (n_evt nd ++ ea)).
      pose proof (IH (set_node i nda ns) e c i nda later wb eb (nth_set_node_same _ _ _ _ Hn) eq_refl E2) as M.
      rewrite set_node_twice in M. simpl in M. rewrite <- app_assoc in M. exact M.
Qed.

Theorem node_step_msteps ns e c i k o nd nd' :
  nth_error ns i = Some nd -> node_step i c k o nd = Good nd' ->
  exists w1 e1 nd2,
    handle_cmds (fst (split_at k (n_cmd nd))) (n_w nd) = Good (w1, e1) /\
    let at_i x := mk_sys (set_node i x ns) e c in
    let nd1 := mk_node w1 (snd (split_at k (n_cmd nd))) (n_evt nd ++ e1) in
    msteps (mk_sys ns e c) (repeat (MCmd i) (length (fst (split_at k (n_cmd nd))))) (at_i nd1) /\
    mstep (at_i nd1) (MExec i o) (at_i nd2) /\ mstep (at_i nd2) (MChk i (o_completed o)) (at_i nd').
Proof.
  intros Hn H. unfold node_step in H.
  pose proof (split_at_app k (n_cmd nd)) as Hs.
  destruct (split_at k (n_cmd nd)) as [pre later]. simpl in Hs. simpl.
  destruct (handle_cmds pre (n_w nd)) as [[w1 e1]|] eqn:E1; simpl in H; [|discriminate].
  destruct (exec_step i c o w1) as [[w2 e2]|] eqn:E2; simpl in H; [|discriminate].
  destruct (check_completed (o_completed o) w2) as [[w3 e3]|] eqn:E3; simpl in H; [|discriminate].
  inversion H; subst nd'; clear H.
  set (nd1 := mk_node w1 later (n_evt nd ++ e1)). set (nd2 := mk_node w2 later ((n_evt nd ++ e1) ++ e2)).
  pose proof (nth_set_node_same i) as Hi.
  exists w1, e1, nd2. split; [reflexivity|]. split; [|split].
  - apply cmds_msteps; [exact Hn|symmetry; exact Hs|exact E1].
  - pose proof (ms_exec _ e c i nd1 o w2 e2 (Hi nd1 _ _ Hn) E2) as M. rewrite set_node_twice in M. exact M.
  - pose proof (ms_chk _ e c i nd2 (o_completed o) w3 e3 (Hi nd2 _ _ Hn) E3) as M. rewrite set_node_twice in M.
    simpl in M. rewrite <- !app_assoc in M. exact M.
Qed.

Definition prepend (p : list event) (nd : node) : node := mk_node (n_w nd) (n_cmd nd) (p ++ n_evt nd).

Lemma push_cmd_prepend w c k p X : push_cmd w c (update_nth k (prepend p) X) = update_nth k (prepend p) (push_cmd w c X).
Proof.
  unfold push_cmd. destruct (Nat.eq_dec k w) as [->|Hne].
  - rewrite !update_nth_twice. apply update_nth_ext. intros a. reflexivity.
  - symmetry. apply update_nth_comm. exact Hne.
Qed.
Lemma pushes_prepend k p : forall l X, pushes l (update_nth k (prepend p) X) = update_nth k (prepend p) (pushes l X).
Proof. induction l as [|[w c] l IH]; intros X; simpl; [reflexivity|]. rewrite push_cmd_prepend. apply IH. Qed.

Lemma handle_events_app nw : forall a b st,
  handle_events nw (a ++ b) st = (st1 <- handle_events nw a st ;; handle_events nw b st1).
Proof.
  induction a as [|ev a IH]; intros b st; simpl; [reflexivity|].
  destruct (handle_event nw ev st) as [st1|]; simpl; [apply IH|reflexivity].
Qed.

Lemma prepend_nil nd : prepend [] nd = nd. Proof. destruct nd; reflexivity. Qed.
Lemma update_nth_id {A} (f : A -> A) : (forall a, f a = a) -> forall l i, update_nth i f l = l.
Proof. intros H. induction l as [|a l IH]; intros [|i]; simpl; try reflexivity; [rewrite H; reflexivity|f_equal; apply IH]. Qed.

Lemma pop_prepend j ev now X nd : nth_error X j = Some nd ->
  set_node j (mk_node (n_w (prepend (ev :: now) nd)) (n_cmd (prepend (ev :: now) nd)) (now ++ n_evt nd)) (update_nth j (prepend (ev :: now)) X)
  = update_nth j (prepend now) X.
Proof. intros Hn. unfold set_node. rewrite update_nth_twice. eapply update_nth_at; [exact Hn|reflexivity]. Qed.

(* drain the events `now` sitting at the head of worker j's event queue, one micro-step each *)
Lemma drain j clk : forall now e X e' X',
  handle_events (length X) now (e, X) = Good (e', X') ->
  (now <> [] -> exists nd, nth_error X j = Some nd) ->
  msteps (mk_sys (update_nth j (prepend now) X) e clk) (repeat (MEvt j) (length now)) (mk_sys X' e' clk).
Proof.
  induction now as [|ev now IH]; intros e X e' X' H Hj; cbn [handle_events] in H.
  - inversion H; subst. simpl. rewrite (update_nth_id _ prepend_nil). constructor.
  - destruct (handle_event (length X) ev (e, X)) as [[e1 X1]|] eqn:E1; cbn [rbind] in H; [|discriminate].
    destruct Hj as (nd&Hn); [discriminate|].
    destruct (handle_event_plan _ _ _ _ _ _ E1) as (l&Pl).
    assert (EX1: X1 = pushes l X) by (specialize (Pl X); rewrite E1 in Pl; inversion Pl; reflexivity).
    assert (L1: length X1 = length X) by (rewrite EX1; apply pushes_length).
    simpl. apply (mss_cons _ _ (mk_sys (update_nth j (prepend now) X1) e1 clk)).
    + eapply (ms_evt _ e clk j (prepend (ev :: now) nd) ev (now ++ n_evt nd)).
      * apply nth_error_update_nth_eq. exact Hn.
      * reflexivity.
      * rewrite update_nth_length, (pop_prepend _ _ _ _ _ Hn), Pl, pushes_prepend, <- EX1. reflexivity.
    + rewrite <- L1 in H. apply (IH e1 X1 e' X' H).
      intros _. destruct (pushes_node j l X nd Hn) as (extra&Hx). rewrite <- EX1 in Hx. eexists; exact Hx.
Qed.

(* the collect phase: every worker's queue is a collected prefix in front of what stays *)
Fixpoint addp_from (k : nat) (pre : list (list event)) (X : list node) : list node :=
  match pre with
  | [] => X
  | p :: pre' => update_nth k (prepend p) (addp_from (S k) pre' X)
  end.

Lemma addp_from_cons : forall pre k x X, addp_from (S k) pre (x :: X) = x :: addp_from k pre X.
Proof. induction pre as [|p pre IH]; intros k x X; simpl; [reflexivity|]. rewrite IH. reflexivity. Qed.
Lemma addp_from_length : forall pre k X, length (addp_from k pre X) = length X.
Proof. induction pre as [|p pre IH]; intros k X; simpl; [reflexivity|]. rewrite update_nth_length. apply IH. Qed.
Lemma pushes_addp : forall pre k l X, pushes l (addp_from k pre X) = addp_from k pre (pushes l X).
Proof. induction pre as [|p pre IH]; intros k l X; simpl; [reflexivity|]. rewrite pushes_prepend, IH. reflexivity. Qed.

Lemma collect_addp : forall ns ks evs ns1, collect ks ns = (evs, ns1) ->
  exists pre, evs = concat pre /\ length pre = length ns /\ length ns1 = length ns /\ ns = addp_from 0 pre ns1.
Proof.
  induction ns as [|nd ns IH]; intros ks evs ns1 H; simpl in H.
  - inversion H; subst. exists []. repeat split.
  - set (k0 := match ks with [] => None | k1 :: _ => Some k1 end) in H.
    pose proof (split_at_app k0 (n_evt nd)) as Hs.
    destruct (split_at k0 (n_evt nd)) as [now later]. simpl in Hs.
    destruct (collect (tl ks) ns) as [evs_t t1] eqn:Ec. inversion H; subst evs ns1; clear H.
    destruct (IH _ _ _ Ec) as (pre&P1&P2&P3&P4).
    exists (now :: pre). simpl. rewrite P1, P2, P3. repeat split.
    rewrite addp_from_cons. simpl. rewrite <- P4. f_equal.
    unfold prepend, mk_node. simpl. rewrite Hs. destruct nd; reflexivity.
Qed.

(* k is the index of the node whose queue starts with the head of pre; the bound says that pre does
   not reach beyond the last node (collect yields one prefix per node, k = 0) *)
Lemma drain_all clk : forall pre k e X e' X',
  handle_events (length X) (concat pre) (e, X) = Good (e', X') -> k + length pre <= length X ->
  exists ls, msteps (mk_sys (addp_from k pre X) e clk) ls (mk_sys X' e' clk) /\ Forall (fun l => exists j, l = MEvt j) ls.
Proof.
  induction pre as [|p pre IH]; intros k e X e' X' H L; simpl in *.
  - inversion H; subst. exists []. split; constructor.
  - rewrite handle_events_app in H.
    destruct (handle_events (length X) p (e, X)) as [[e1 X1]|] eqn:E1; cbn [rbind] in H; [|discriminate].
    destruct (handle_events_plan _ _ _ _ _ _ E1) as (l&Pl).
    assert (EX1: X1 = pushes l X) by (specialize (Pl X); rewrite E1 in Pl; inversion Pl; reflexivity).
    assert (L1: length X1 = length X) by (rewrite EX1; apply pushes_length).
    set (Y := addp_from (S k) pre X).
    assert (LY: length Y = length X) by apply addp_from_length.
    assert (EY: handle_events (length Y) p (e, Y) = Good (e1, addp_from (S k) pre X1)).
    { rewrite LY, Pl. unfold Y. rewrite pushes_addp, <- EX1. reflexivity. }
    pose proof (drain k clk p e Y e1 _ EY) as D.
    rewrite <- L1 in H. destruct (IH (S k) e1 X1 e' X' H) as (ls&M&F); [lia|].
    exists (repeat (MEvt k) (length p) ++ ls). split.
    + eapply msteps_app; [apply D|exact M].
      intros _. destruct (nth_error Y k) as [nd|] eqn:En; [eexists; reflexivity|].
      apply nth_error_None in En. lia.
    + apply Forall_app. split; [|exact F]. apply Forall_forall. intros x Hx. apply repeat_spec in Hx. eexists; exact Hx.
Qed.

Theorem env_step_msteps : forall s ks s', sys_step s (E ks) = Good s' ->
  exists ls, msteps s ls s' /\ Forall (fun l => exists j, l = MEvt j) ls.
Proof.
  intros [ns e clk] ks s' H. simpl in H.
  destruct (collect ks ns) as [evs ns1] eqn:Ec.
  destruct (collect_addp _ _ _ _ Ec) as (pre&P1&P2&P3&P4).
  destruct (handle_events (length ns) evs (e, ns1)) as [[e' ns']|] eqn:Eh; cbn [rbind] in H; [|discriminate].
  inversion H; subst s'; clear H.
  rewrite <- P3, P1 in Eh. destruct (drain_all clk pre 0 e ns1 e' ns' Eh) as (ls&M&F); [simpl; lia|].
  exists ls. split; [|exact F]. rewrite P4. exact M.
Qed.

(* the premise on the oracle of an executor step, as seen on the worker state the step starts from *)
Definition hon_label (HonW : env -> nat -> woracle -> worker -> Prop) (s : sys) (l : mlabel) : Prop :=
  match l with
  | MExec i o => forall nd, nth_error (s_nodes s) i = Some nd -> HonW (s_env s) (s_clock s) o (n_w nd)
  | _ => True
  end.
(* ... and on a schedule: the worker state is the one after the commands of that Worker::step *)
Definition hon_step (HonW : env -> nat -> woracle -> worker -> Prop) (s : sys) (a : sched_action) : Prop :=
  match a with
  | W i k o =>
    match nth_error (s_nodes s) i with
    | Some nd =>
      match handle_cmds (fst (split_at k (n_cmd nd))) (n_w nd) with
      | Good (w1, _) => HonW (s_env s) (s_clock s) o w1
      | Fault _ => True
      end
    | None => True
    end
  | _ => True
  end.
Fixpoint hon_run (HonW : env -> nat -> woracle -> worker -> Prop) (s : sys) (sigma : list sched_action) : Prop :=
  match sigma with
  | [] => True
  | a :: t => hon_step HonW s a /\ match sys_step s a with Good s' => hon_run HonW s' t | Fault _ => True end
  end.

(* the premise on a client call may depend on the state in which the call is made *)
Definition hon_label2 (HonW : env -> nat -> woracle -> worker -> Prop) (OkC : sys -> client -> Prop) (s : sys) (l : mlabel) : Prop :=
  match l with
  | MClient c => OkC s c
  | _ => hon_label HonW s l
  end.
Fixpoint clients_ok (OkC : sys -> client -> Prop) (s : sys) (sigma : list sched_action) : Prop :=
  match sigma with
  | [] => True
  | a :: t => match a with X c => OkC s c | _ => True end /\
              match sys_step s a with Good s' => clients_ok OkC s' t | Fault _ => True end
  end.

Section Invariant2.
  Variable Inv : sys -> Prop.
  Variable HonW : env -> nat -> woracle -> worker -> Prop.
  Variable OkC : sys -> client -> Prop.
  Hypothesis Hstep : forall s l s', Inv s -> mstep s l s' -> hon_label2 HonW OkC s l -> Inv s'.

  Lemma msteps_inv2 : forall s ls s', msteps s ls s' -> Inv s ->
    Forall (fun l => match l with MExec _ _ | MClient _ => False | _ => True end) ls -> Inv s'.
  Proof.
    intros s ls s' M. induction M as [|s l s1 ls s2 Hs Hr IH]; intros HI F; [exact HI|].
    inversion F as [|x y F1 F2]; subst. apply IH; [|exact F2].
    eapply Hstep; [exact HI|exact Hs|]. destruct l; simpl; auto; contradiction.
  Qed.

  Lemma step_inv2 s a s' : Inv s -> hon_step HonW s a -> match a with X c => OkC s c | _ => True end -> sys_step s a = Good s' -> Inv s'.
  Proof.
    intros HI Hh Hc H. destruct a as [i k o|ks|d|c].
    - destruct s as [ns e clk]. simpl in H, Hh.
      destruct (nth_error ns i) as [nd|] eqn:Ei; [|inversion H; subst; exact HI].
      destruct (node_step i clk k o nd) as [nd'|] eqn:Es; cbn [rbind] in H; [|discriminate].
      inversion H; subst s'; clear H.
      destruct (node_step_msteps ns e clk i k o nd nd' Ei Es) as (w1&e1&nd2&E1&Mc&Mx&Mk).
      rewrite E1 in Hh.
      eapply Hstep; [|exact Mk|exact I]. eapply Hstep; [|exact Mx|].
      + eapply msteps_inv2; [exact Mc|exact HI|]. apply Forall_forall. intros x Hx. apply repeat_spec in Hx. subst x. exact I.
      + intros nd1 Hn1. simpl in Hn1. rewrite (nth_set_node_same _ _ _ _ Ei) in Hn1. inversion Hn1; subst nd1. exact Hh.
    - destruct (env_step_msteps s ks s' H) as (ls&M&F).
      eapply msteps_inv2; [exact M|exact HI|]. eapply Forall_impl; [|exact F]. intros x (j&->). exact I.
    - destruct s as [ns e clk]. simpl in H. inversion H; subst s'.
      eapply Hstep; [exact HI|apply ms_time|exact I].
    - simpl in H. eapply Hstep; [exact HI|apply ms_client; exact H|exact Hc].
  Qed.

  Theorem micro_invariant2 : forall sigma s s', Inv s -> hon_run HonW s sigma -> clients_ok OkC s sigma -> run s sigma = Good s' -> Inv s'.
  Proof.
    induction sigma as [|a sigma IH]; intros s s' HI Hh Hc H; simpl in H.
    - inversion H; subst. exact HI.
    - simpl in Hh, Hc. destruct Hh as (Ha&Ht). destruct Hc as (C1&C2).
      destruct (sys_step s a) as [s1|] eqn:E; cbn [rbind] in H; [|discriminate].
      apply (IH s1 s'); [eapply step_inv2; eassumption|exact Ht|exact C2|exact H].
  Qed.

  Lemma run_fault_inv : forall sigma s f, Inv s -> hon_run HonW s sigma -> clients_ok OkC s sigma -> run s sigma = Fault f ->
    exists s1 a, Inv s1 /\ sys_step s1 a = Fault f.
  Proof.
    induction sigma as [|a sigma IH]; intros s f HI Hh Hc H; simpl in H; [discriminate|].
    destruct Hh as (Ha&Ht). destruct Hc as (C1&C2).
    destruct (sys_step s a) as [s1|f1] eqn:E; cbn [rbind] in H.
    - apply (IH s1 f); [eapply step_inv2; eassumption|exact Ht|exact C2|exact H].
    - inversion H; subst. exists s, a. split; assumption.
  Qed.
End Invariant2.

Section Invariant.
  Variable Inv : sys -> Prop.
  Variable HonW : env -> nat -> woracle -> worker -> Prop.
  Hypothesis Hstep : forall s l s', Inv s -> mstep s l s' -> hon_label HonW s l -> Inv s'.

  Lemma step_inv s a s' : Inv s -> hon_step HonW s a -> sys_step s a = Good s' -> Inv s'.
  Proof.
    intros HI Hh. apply (step_inv2 Inv HonW (fun _ _ => True)); [|exact HI|exact Hh|destruct a; exact I].
    intros s0 l s1 H0 M Hl. apply (Hstep s0 l s1 H0 M). destruct l; exact Hl.
  Qed.

  Theorem micro_invariant : forall sigma s s', Inv s -> hon_run HonW s sigma -> run s sigma = Good s' -> Inv s'.
  Proof.
    intros sigma s s' HI Hh. apply (micro_invariant2 Inv HonW (fun _ _ => True)); [|exact HI|exact Hh|].
    - intros s0 l s1 H0 M Hl. apply (Hstep s0 l s1 H0 M). destruct l; exact Hl.
    - clear. revert s. induction sigma as [|a sigma IH]; intros s; simpl; [exact I|].
      split; [destruct a; exact I|destruct (sys_step s a); [apply IH|exact I]].
  Qed.
End Invariant.
