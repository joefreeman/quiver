(* C05 — Select follows its documented semantics: priority, filters, timeouts.
   ONLY property theorems, each closed by `exact <lemma>` and followed by Print Assumptions.

   Model     : sel/Select.v  — the select machine of quiver-core/src/executor.rs (handle_select,
               handle_select_continuation, initialize_select, ensure_select_start_time,
               process_select_sources, handle_select_timeout/process/receive, handle_receive_result,
               scan_mailbox_for_message, call_receive_function, complete_select,
               check_expired_timeouts, next_timeout_ms, notify_message / notify_result /
               mark_active, the Err arm of Worker::notify_result and the awaiters loop of
               Executor::step) for one process, re-entrant, filters as an oracle
               `verdict_of : receive index -> message -> Truthy n | VdNil | VdErr e`; `run` folds an
               arbitrary list of events (EStep now = one execution of the Select instruction; EMsg,
               EResult, EFail, EActive, ELocal, EReport = arrivals between entries; ETick now = an
               Executor::step that runs another process; the clock value of each step is arbitrary).
               `fix45 = true` models /repo (F45, repaired in /repo by 09625d4: complete_select
               forgets the select's process sources); `fix45 = false` models the code before it.
   Spec      : sel/SelectSpec.v — select_spec (first ready source in written order), and the
               environment's await protocol (pending_awaits); `merge = true` models /repo (F8,
               repaired in /repo by 5c787ac: a worker's later answer is merged into its earlier
               one), `merge = false` the code before it.
   Proofs    : sel/SelectRefine.v, sel/SelectProofs.v, sel/AwaitProofs.v; non-vacuity Examples
               ex_select_completes, ex_timeout_fires, stale_await_witness_repaired,
               await_protocol_witness_repaired, wf_history_inhabited.

   How "ready at the moment it completes" is made precise.  The theorems speak about ENTRIES
   (executions of the Select instruction).  An entry that completes the select yields exactly
   select_spec of the state AT THAT ENTRY (mailbox, delivered results, start time, clock): a
   higher-priority source that becomes ready while a lower-priority filter runs wins at the next
   entry, the filter's verdict is dropped, its message stays.  Two things are NOT priority-ordered
   in the code and are stated as such, not hidden: (a) the failure of an awaited process is an
   asynchronous kill (EFail / ELocal None set the error at arrival, whatever else is ready);
   (b) a filter that fails does so inside its own frame before the next entry, so a source that
   became ready meanwhile cannot pre-empt it: the guarantee is that the filter was only CALLED on
   a message for which select_spec, on the CALLING entry's state, is Fail e. *)
(* HOW THESE THEOREMS DISCHARGE THE PREMISES OF THE PROTOCOL CONE (sys/*.v, props/C04.v, C15.v)

   The protocol model M-Sys (sys/Proto.v) abstracts the behaviour of a process: what one time slice
   did is an input `did` of the step (d_sel: select state at the end of the slice, d_park: the pass
   over the sources found nothing ready, d_act: the Action returned, d_forget: process sources
   forgotten by complete_select, d_fin: the result).  Its no-lost-wake-up / quiescence theorems
   hold for every schedule UNDER premises on `did`, which are properties of the select machine.
   Below, left = premise in sys (file), right = theorem of THIS file about the select machine
   (sel/Select.v: `step` = one execution of the Select instruction; a slice that parks ends with
   such an entry, so "the slice parks" = "p_queued st' = false, p_error st' = None after an
   entry of a runnable live process"; `step_action` = the Action the slice returns;
   `p_unreported` = Process.unreported_awaits, emptied by EReport = notify_await_report and by a
   stored result; theorems about a PASS over the sources carry `p_unreported st = []`).

   sys/ProtoParked.v  park_honest d mail', clause 1 (d_park = true -> sl_start <> None -> every cursor
     of d_sel = |mail'|; conditional on the start time: in /repo (8388832, F72) a select woken
     before every awaited process was reported parks again with the start time unset and its
     cursors untouched), hence honest_step / honest_run, used by C04 parked_has_no_unseen_message
        <-  C05_parked_started_select_is_fully_scanned  (the clause as sys states it: ANY parking entry,
                                                     start time set -> all cursors = |mailbox|)
            C05_parks_only_after_full_scan          (a pass over the sources — every awaited process
                                                     reported — parks with all cursors = |mailbox|
                                                     and the start time set)
            C05_reparks_until_all_reported          (the other parking entry of a live select: some
                                                     awaited process unreported -> parks again, nothing
                                                     evaluated, start time and `receiving` unset)
            C05_completes_only_after_all_reported   (F72 itself: no completion before every report)
            C05_never_parks_with_acceptable_message (in the machine's own terms: no message of the
                                                     mailbox is acceptable to any receive source;
                                                     also C05_parks_only_when_spec_waits)
   sys/ProtoParked.v  park_honest d mail', clause 2 (d_act = Some (AAwait ts) -> sl_start = None)
        <-  C05_await_slice_has_not_started         (the Await slice is the initialising entry: start
                                                     unset, parks, ts = the process sources in order)
   sys/ProtoParked.v  time_honest now d  (d_park = true or d_act = Some (AAwait ts) -> d_sel = Some s,
     sl_start s = Some t0 -> no timeout of s due at now), used by C04 no_timeout_due_at_last_check / no_timeout_due_after_step
        <-  C05_never_parks_with_due_timeout        (for the slice that PARKS — by a pass or by an
                                                     Await: `expired s' now = false`)
            C05_parked_not_expired_at_same_clock    (check_expired_timeouts at the same clock leaves it)
        NOTE: the guard of time_honest (the slice parks) is needed.  Without it the premise is
        FALSE of the select machine and of the real executor: a slice that ends RUNNABLE may end
        with a due timeout (`! [0]` at quantum 1; `! [&f, 0]` while the filter f runs) — Example
        ex_runnable_slice_may_end_with_due_timeout in sel/SelectRefine.v.  no_timeout_due_after_step
        applies the premise to the slice's process when it ends in `selecting`, i.e. exactly
        what is proved here (an Await-parked slice has sl_start = None by clause 2 of park_honest).
   sys/ProtoAwait.v  await_honestb, conjunct (a)  (a slice is executed only for a process with
     p_res = None), used by C04 await_backed, parked_await_answer_in_flight, quiescent_no_ready
        <-  C05_dead_process_runs_no_entry          (a process completed in place by a failure: the
                                                     step only dequeues it; no entry, no Action)
            (a process that finished normally is outside this model: it is never queued again)
   sys/ProtoAwait.v  await_honestb, conjunct (b)  (d_act = Some (AAwait ts) -> every key of
     fold aremove d_forget awaiting is in ts), with d_forget = the process sources of the selects
     completed in the slice (executor.rs complete_select)
        <-  C05_complete_select_clears_process_sources  (d_forget: the completing entry removes
                                                     every process source of its select, from ANY map)
            C05_completed_select_awaits_nothing     (so the next select starts from no key)
            C05_awaiting_keys_subset_of_current_sources (invariant: every key is a process source
                                                     of the current, uncompleted select)
            C05_await_slice_leaves_only_its_targets (conjunct (b) itself)
        These four are stated at fix45 = true (/repo, with 09625d4); at fix45 = false (the code
        before it) conjunct (b) is false (C05_stale_await_kills_refuted: a completed select keeps
        its keys).
        "A process blocks in one select at a time": the machine has one select state; a select
        inside a filter is rejected by handle_select_continuation (not modelled, see Select.v).
   The correspondence (vplib/props/c05.py) evaluates every one of these premises on the REAL
   executor after every slice of the process under test (counts `premise_*` in the evidence) and
   compares `step_action` with the Action the real step returned. *)
From Quiver Require Import Base.
From Quiver Require Import sel.Select sel.SelectSpec sel.SelectProofs sel.SelectRefine sel.AwaitProofs.

(* select_refines_spec: from the first entry on, under ANY history of entries and arrivals, an
   entry that completes the select (p_value None -> Some v) completes with select_spec evaluated on
   the state at that entry, and the mailbox afterwards is the one select_spec returns *)
Theorem C05_select_refines_spec :
  forall (fix45 : bool) (verdict_of : nat -> msg -> verdict) (written : list source)
         (mb0 : list msg) (aw0 : list (pid * option value)) (evs : list event) (st : proc)
         (now : Z) (st' : proc) (v : value),
    run fix45 verdict_of written evs (initial mb0 aw0) = Val st ->
    step fix45 verdict_of written now st = Val st' ->
    p_value st = None ->
    p_value st' = Some v ->
    exists s : sel_state,
      p_sel st = Some s /\
      select_spec verdict_of written (p_mailbox st) (p_awaiting st) (start_of s now) now =
      Complete v (p_mailbox st').
Proof. exact select_refines_spec. Qed.
Print Assumptions C05_select_refines_spec.

(* untaken_preserved_in_order: ... which is that entry's mailbox minus exactly the taken message
   (nothing, when the select completed by a process result or a timeout), order preserved *)
Theorem C05_untaken_preserved_in_order :
  forall (fix45 : bool) (verdict_of : nat -> msg -> verdict) (written : list source)
         (mb0 : list msg) (aw0 : list (pid * option value)) (evs : list event) (st : proc)
         (now : Z) (st' : proc) (v : value),
    run fix45 verdict_of written evs (initial mb0 aw0) = Val st ->
    step fix45 verdict_of written now st = Val st' ->
    p_value st = None ->
    p_value st' = Some v ->
    p_mailbox st' = p_mailbox st \/
    (exists (m : msg) (l1 l2 : list msg),
       v = VMsg m /\ p_mailbox st = l1 ++ m :: l2 /\ p_mailbox st' = l1 ++ l2).
Proof. exact untaken_preserved_in_order. Qed.
Print Assumptions C05_untaken_preserved_in_order.

(* an entry parks the process (runnable and alive before, not runnable and alive after) only when
   no source is ready: select_spec says Wait *)
Theorem C05_parks_only_when_spec_waits :
  forall (fix45 : bool) (verdict_of : nat -> msg -> verdict) (written : list source)
         (mb0 : list msg) (aw0 : list (pid * option value)) (evs : list event) (st : proc)
         (now : Z) (st' : proc) (s : sel_state),
    run fix45 verdict_of written evs (initial mb0 aw0) = Val st ->
    step fix45 verdict_of written now st = Val st' ->
    active now st s ->
    p_unreported st = [] ->
    p_queued st' = false ->
    p_error st' = None ->
    select_spec verdict_of written (p_mailbox st) (p_awaiting st) (start_of s now) now = Wait.
Proof. exact parks_only_when_spec_waits. Qed.
Print Assumptions C05_parks_only_when_spec_waits.

(* an entry fails the process with an executor error e only if the verdict it popped was that
   filter error, or select_spec on this entry's state is Fail e (an invalid source is reached
   before any ready one) *)
Theorem C05_fails_only_when_spec_fails :
  forall (fix45 : bool) (verdict_of : nat -> msg -> verdict) (written : list source)
         (mb0 : list msg) (aw0 : list (pid * option value)) (evs : list event) (st : proc)
         (now : Z) (st' : proc) (s : sel_state) (e : err),
    run fix45 verdict_of written evs (initial mb0 aw0) = Val st ->
    step fix45 verdict_of written now st = Val st' ->
    active now st s ->
    p_unreported st = [] ->
    p_error st' = Some (PErr e) ->
    (exists (r : nat) (m : msg), ss_receiving s = Some (r, m) /\ verdict_of r m = VdErr e) \/
    select_spec verdict_of written (p_mailbox st) (p_awaiting st) (start_of s now) now = Fail e.
Proof. exact fails_only_when_spec_fails. Qed.
Print Assumptions C05_fails_only_when_spec_fails.

(* ... and a filter that is going to fail is only ever called, on message m of receive source r,
   at an entry on whose state select_spec is already Fail e: no earlier source was ready and every
   earlier message of that source was rejected *)
Theorem C05_failing_filter_called_only_when_spec_fails :
  forall (fix45 : bool) (verdict_of : nat -> msg -> verdict) (written : list source)
         (mb0 : list msg) (aw0 : list (pid * option value)) (evs : list event) (st : proc)
         (now : Z) (st' : proc) (s s' : sel_state) (r : nat) (m : msg) (e : err),
    run fix45 verdict_of written evs (initial mb0 aw0) = Val st ->
    step fix45 verdict_of written now st = Val st' ->
    active now st s ->
    p_unreported st = [] ->
    (forall (r0 : nat) (m0 : msg) (e0 : err),
       ss_receiving s = Some (r0, m0) -> verdict_of r0 m0 <> VdErr e0) ->
    p_error st' = None ->
    p_value st' = None ->
    p_queued st' = true ->
    p_sel st' = Some s' ->
    ss_receiving s' = Some (r, m) ->
    verdict_of r m = VdErr e ->
    select_spec verdict_of written (p_mailbox st) (p_awaiting st) (start_of s now) now = Fail e.
Proof. exact failing_filter_called_only_when_spec_fails. Qed.
Print Assumptions C05_failing_filter_called_only_when_spec_fails.

(* cursor_skips_only_rejected: in every reachable state of a live select, every mailbox message
   before the cursor of a receive source is type-incompatible with it, or the source has a filter
   and the (pure) filter rejects it *)
Theorem C05_cursor_skips_only_rejected :
  forall (fix45 : bool) (verdict_of : nat -> msg -> verdict) (written : list source)
         (mb0 : list msg) (aw0 : list (pid * option value)) (evs : list event) (st : proc)
         (s : sel_state),
    run fix45 verdict_of written evs (initial mb0 aw0) = Val st ->
    p_error st = None ->
    p_sel st = Some s ->
    forall (r : nat) (c : list nat) (t : bool),
      nth_recv written r = Some (c, t) ->
      forall (j : nat) (m : msg),
        (j < cur_get r (ss_cursors s))%nat ->
        nth_error (p_mailbox st) j = Some m ->
        compat c m = false \/ t = false /\ verdict_of r m = VdNil.
Proof. exact cursor_skips_only_rejected_reach. Qed.
Print Assumptions C05_cursor_skips_only_rejected.

(* verdict_is_only_a_verdict: two filter oracles that agree on accept / reject / fail — whatever
   non-nil values they return — give the same run (every state, hence every yielded value) ... *)
Theorem C05_verdict_is_only_a_verdict :
  forall (fix45 : bool) (v1 v2 : nat -> msg -> verdict) (written : list source),
    (forall (r : nat) (m : msg), same_verdict (v1 r m) (v2 r m)) ->
    forall (evs : list event) (st : proc), run fix45 v1 written evs st = run fix45 v2 written evs st.
Proof. exact verdict_is_only_a_verdict. Qed.
Print Assumptions C05_verdict_is_only_a_verdict.

(* ... and the same specification *)
Theorem C05_spec_ignores_verdict_payload :
  forall v1 v2 : nat -> msg -> verdict,
    (forall (r : nat) (m : msg), same_verdict (v1 r m) (v2 r m)) ->
    forall (srcs : list source) (mb : list msg) (aw : list (pid * option value)) (start now : Z),
      select_spec v1 srcs mb aw start now = select_spec v2 srcs mb aw start now.
Proof. exact select_spec_same_verdict. Qed.
Print Assumptions C05_spec_ignores_verdict_payload.

(* timeout_not_early: if no clock value of the history (nor of the completing entry) is behind
   t0, a select that completes with nil although no awaited process delivered nil has a timeout d
   whose duration has elapsed since t0 — in particular since the select's first entry.
   (eff_timeout d = max d 0 for every d that fits an i64; the code clamps the others to 2^63-1.) *)
Theorem C05_timeout_not_early :
  forall (fix45 : bool) (verdict_of : nat -> msg -> verdict) (written : list source)
         (t0 : Z) (mb0 : list msg) (aw0 : list (pid * option value)) (evs : list event)
         (st : proc) (now : Z) (st' : proc),
    steps_ge t0 evs ->
    t0 <= now ->
    run fix45 verdict_of written evs (initial mb0 aw0) = Val st ->
    step fix45 verdict_of written now st = Val st' ->
    p_value st = None ->
    p_value st' = Some VNil ->
    (forall p : pid, aw_get p (p_awaiting st) <> Some (Some VNil)) ->
    exists d : Z, In (SrcTimeout d) written /\ Z.min d i64_max <= now - t0 /\ eff_timeout d <= now - t0.
Proof. exact timeout_not_early. Qed.
Print Assumptions C05_timeout_not_early.

Theorem C05_eff_timeout_in_range : forall d : Z, in_i64 d = true -> eff_timeout d = Z.max d 0.
Proof. exact eff_timeout_in_range. Qed.
Print Assumptions C05_eff_timeout_in_range.

(* the machine is total: no history reaches one of the index panics of the code
   (cursors[receive_idx] in handle_receive_result / call_receive_function) or a missing verdict *)
Theorem C05_machine_never_panics :
  forall (fix45 : bool) (verdict_of : nat -> msg -> verdict) (written : list source)
         (mb0 : list msg) (aw0 : list (pid * option value)) (evs : list event),
    exists st : proc, run fix45 verdict_of written evs (initial mb0 aw0) = Val st.
Proof. exact machine_never_panics. Qed.
Print Assumptions C05_machine_never_panics.

(* the environment's await protocol (finding F8, repaired in /repo by 5c787ac) *)
(* merge = true (/repo): a worker's later answer is merged into its earlier one.  For every history
   of ProcessResults events of an initial await (distinct keys per event, every target owned by
   one worker, every expected worker answers at least once, in ANY order and any number of times),
   what reaches the awaiter contains, for every target, the latest answer any worker gave *)
Theorem C05_await_protocol_delivers_all :
  forall (owner : pid -> wid) (expected : list wid) (evs : list (wid * answer)) (targets : list pid),
    wf_history owner expected evs -> delivers_all true expected evs targets.
Proof. exact await_protocol_delivers_all. Qed.
Print Assumptions C05_await_protocol_delivers_all.

(* merge = false (the code before 5c787ac: responses.insert REPLACES the earlier answer): refuted
   by the history `w1:{p1:11,p3:-}  w1:{p3:33}  w0:{p2:-}` of `! [p1, p3, p2]`; the correspondence
   check fails if the real code behaves like this *)
Theorem C05_await_protocol_refuted_before_repair :
  exists expected evs targets, ~ delivers_all false expected evs targets.
Proof. exact await_protocol_refuted. Qed.
Print Assumptions C05_await_protocol_refuted_before_repair.

(* finding F45: stale awaits *)
(* fix45 = false (the code before /repo 09625d4): a process whose select has completed is killed by
   the later failure of a process that select awaited: `! [p0, 0]` yields nil, then p0 fails *)
Theorem C05_stale_await_kills_refuted : ~ completed_select_survives false.
Proof. exact stale_await_kills_refuted. Qed.
Print Assumptions C05_stale_await_kills_refuted.

(* fix45 = true (/repo: complete_select forgets the select's targets; a failure only reaches
   a process that still awaits its origin): the un-negated statement holds for every history *)
Theorem C05_completed_select_survives_repaired : completed_select_survives true.
Proof. exact completed_select_survives_repaired. Qed.
Print Assumptions C05_completed_select_survives_repaired.

(* The premises of the protocol cone, proved of the select machine (see the table at the top) *)

(* park_honest, clause 1: an entry parks a runnable live process only after scanning the whole
   mailbox with every receive source: all cursors are at the end of the mailbox and the sources
   have been evaluated (start time set) *)
Theorem C05_parks_only_after_full_scan :
  forall (fix45 : bool) (verdict_of : nat -> msg -> verdict) (written : list source)
         (mb0 : list msg) (aw0 : list (pid * option value)) (evs : list event)
         (st : proc) (now : Z) (st' : proc) (s : sel_state),
    run fix45 verdict_of written evs (initial mb0 aw0) = Val st ->
    step fix45 verdict_of written now st = Val st' ->
    active now st s ->
    p_unreported st = [] ->
    p_queued st' = false ->
    p_error st' = None ->
    exists s' : sel_state,
      p_sel st' = Some s' /\
      p_selecting st' = true /\
      ss_start s' <> None /\ Forall (fun c : nat => c = length (p_mailbox st')) (ss_cursors s').
Proof. exact parks_only_after_full_scan. Qed.
Print Assumptions C05_parks_only_after_full_scan.

(* ... it never parks with an unseen matching message: no message left in the mailbox is
   acceptable to any receive source *)
Theorem C05_never_parks_with_acceptable_message :
  forall (fix45 : bool) (verdict_of : nat -> msg -> verdict) (written : list source)
         (mb0 : list msg) (aw0 : list (pid * option value)) (evs : list event)
         (st : proc) (now : Z) (st' : proc) (s : sel_state),
    run fix45 verdict_of written evs (initial mb0 aw0) = Val st ->
    step fix45 verdict_of written now st = Val st' ->
    active now st s ->
    p_unreported st = [] ->
    p_queued st' = false ->
    p_error st' = None ->
    forall (r : nat) (c : list nat) (t : bool),
      nth_recv written r = Some (c, t) ->
      forall m : msg, In m (p_mailbox st') -> compat c m = false \/ t = false /\ verdict_of r m = VdNil.
Proof. exact never_parks_with_acceptable_message. Qed.
Print Assumptions C05_never_parks_with_acceptable_message.

(* park_honest, clause 2: the slice that returns Action::Await ts is the initialising entry: ts are
   the process sources in written order, the start time is unset, the process parks, and exactly
   ts are entered into `awaiting` with no result *)
Theorem C05_await_slice_has_not_started :
  forall (fix45 : bool) (verdict_of : nat -> msg -> verdict) (written : list source)
         (now : Z) (st st' : proc) (ts : list pid),
    step_action written now st = Some ts ->
    step fix45 verdict_of written now st = Val st' ->
    ts = pids_of written /\
    ts <> [] /\
    p_queued st' = false /\
    p_selecting st' = true /\
    (exists s' : sel_state,
       p_sel st' = Some s' /\
       ss_start s' = None /\
       ss_sources s' = written /\
       ss_receiving s' = None /\
       p_awaiting st' =
       fold_left (fun (aw : list (pid * option value)) (p : pid) => aw_insert p None aw) ts (p_awaiting st) /\
       p_unreported st' = ts).
Proof. exact await_slice_has_not_started. Qed.
Print Assumptions C05_await_slice_has_not_started.

(* time_honest (for the slice that parks): whichever way an entry parks the process, no timeout
   source of its select is due at the clock the entry ran with *)
Theorem C05_never_parks_with_due_timeout :
  forall (fix45 : bool) (verdict_of : nat -> msg -> verdict) (written : list source)
         (mb0 : list msg) (aw0 : list (pid * option value)) (evs : list event)
         (st : proc) (now : Z) (st' : proc),
    run fix45 verdict_of written evs (initial mb0 aw0) = Val st ->
    step fix45 verdict_of written now st = Val st' ->
    runs now st ->
    p_queued st' = false ->
    p_error st' = None -> forall s' : sel_state, p_sel st' = Some s' -> expired s' now = false.
Proof. exact never_parks_with_due_timeout. Qed.
Print Assumptions C05_never_parks_with_due_timeout.

(* ... so check_expired_timeouts of any later step at the same clock leaves it parked *)
Theorem C05_parked_not_expired_at_same_clock :
  forall (fix45 : bool) (verdict_of : nat -> msg -> verdict) (written : list source)
         (mb0 : list msg) (aw0 : list (pid * option value)) (evs : list event)
         (st : proc) (now : Z) (st' : proc),
    run fix45 verdict_of written evs (initial mb0 aw0) = Val st ->
    step fix45 verdict_of written now st = Val st' ->
    runs now st -> p_queued st' = false -> p_error st' = None -> check_expired now st' = st'.
Proof. exact parked_not_expired_at_same_clock. Qed.
Print Assumptions C05_parked_not_expired_at_same_clock.

(* await_honest (a): no entry is executed for a process whose result has been set in place by a
   failure notification: the step takes it off the queue, returns no Action, changes nothing else *)
Theorem C05_dead_process_runs_no_entry :
  forall (fix45 : bool) (verdict_of : nat -> msg -> verdict) (written : list source)
         (now : Z) (st st' : proc) (e : perr),
    p_error st = Some e ->
    step fix45 verdict_of written now st = Val st' ->
    step_action written now st = None /\
    p_sel st' = p_sel st /\
    p_mailbox st' = p_mailbox st /\
    p_awaiting st' = p_awaiting st /\
    p_value st' = p_value st /\ p_error st' = Some e /\ p_queued st' = false.
Proof. exact dead_process_runs_no_entry. Qed.
Print Assumptions C05_dead_process_runs_no_entry.

(* awaiting_keys_subset_of_current_sources (invariant, fix45 = true): in every reachable
   state of a process that started with no awaited key, every key of `awaiting` is a process
   source of the current select, which exists and has not completed *)
Theorem C05_awaiting_keys_subset_of_current_sources :
  forall (verdict : nat -> msg -> verdict) (written : list source) (evs : list event)
         (mb : list msg) (st : proc),
    run true verdict written evs (initial mb []) = Val st ->
    forall p : pid,
      aw_has p (p_awaiting st) = true ->
      p_value st = None /\
      In (SrcProc p) written /\ (exists s : sel_state, p_sel st = Some s /\ ss_sources s = written).
Proof. exact awaiting_keys_subset_of_current_sources. Qed.
Print Assumptions C05_awaiting_keys_subset_of_current_sources.

(* complete_select_clears_process_sources: the entry that completes a select removes every process
   source of that select from `awaiting`, whatever the map held before *)
Theorem C05_complete_select_clears_process_sources :
  forall (verdict : nat -> msg -> verdict) (written : list source) (evs : list event)
         (mb : list msg) (aw0 : list (pid * option value)) (st : proc) (now : Z)
         (st' : proc) (v : value),
    run true verdict written evs (initial mb aw0) = Val st ->
    step true verdict written now st = Val st' ->
    p_value st = None ->
    p_value st' = Some v ->
    forall p : pid, In (SrcProc p) written -> aw_has p (p_awaiting st') = false.
Proof. exact complete_select_clears_process_sources. Qed.
Print Assumptions C05_complete_select_clears_process_sources.

(* ... hence a process that started with no awaited key awaits nothing once its select is over *)
Theorem C05_completed_select_awaits_nothing :
  forall (verdict : nat -> msg -> verdict) (written : list source) (evs : list event)
         (mb : list msg) (st : proc),
    run true verdict written evs (initial mb []) = Val st ->
    p_value st <> None -> forall p : pid, aw_has p (p_awaiting st) = false.
Proof. exact completed_select_awaits_nothing. Qed.
Print Assumptions C05_completed_select_awaits_nothing.

(* await_honest (b): when a slice ends with Action::Await on targets ts, every key that remains in
   `awaiting` is one of ts *)
Theorem C05_await_slice_leaves_only_its_targets :
  forall (verdict : nat -> msg -> verdict) (written : list source) (evs : list event)
         (mb : list msg) (st : proc) (now : Z) (st' : proc) (ts : list pid),
    run true verdict written evs (initial mb []) = Val st ->
    step_action written now st = Some ts ->
    step true verdict written now st = Val st' ->
    forall p : pid, aw_has p (p_awaiting st') = true -> In p ts.
Proof. exact await_slice_leaves_only_its_targets. Qed.
Print Assumptions C05_await_slice_leaves_only_its_targets.

(* /repo 8388832 (F72): no evaluation before the await has reported every process source *)

(* a live select entered while some awaited process is still unreported parks again: the step
   changes nothing but the scheduling flags; its start time and `receiving` slot are unset *)
Theorem C05_reparks_until_all_reported :
  forall (fix45 : bool) (verdict_of : nat -> msg -> verdict) (written : list source)
         (mb0 : list msg) (aw0 : list (pid * option value)) (evs : list event)
         (st : proc) (now : Z) (s : sel_state),
    run fix45 verdict_of written evs (initial mb0 aw0) = Val st ->
    active now st s ->
    p_unreported st <> [] ->
    step fix45 verdict_of written now st = Val (set_flags (check_expired now st) false true) /\
    ss_start s = None /\ ss_receiving s = None.
Proof. exact reparks_until_all_reported. Qed.
Print Assumptions C05_reparks_until_all_reported.

(* an entry completes the select only when every awaited process has been reported *)
Theorem C05_completes_only_after_all_reported :
  forall (fix45 : bool) (verdict_of : nat -> msg -> verdict) (written : list source)
         (now : Z) (st st' : proc) (v : value),
    step fix45 verdict_of written now st = Val st' ->
    p_value st = None -> p_value st' = Some v -> p_unreported st = [].
Proof. exact completes_only_after_all_reported. Qed.
Print Assumptions C05_completes_only_after_all_reported.

(* park_honest clause 1 as sys/ProtoParked.v states it: ANY entry that parks a runnable live
   process, if it leaves the select with its start time set, leaves every cursor at the end of
   the mailbox *)
Theorem C05_parked_started_select_is_fully_scanned :
  forall (fix45 : bool) (verdict_of : nat -> msg -> verdict) (written : list source)
         (mb0 : list msg) (aw0 : list (pid * option value)) (evs : list event)
         (st : proc) (now : Z) (st' : proc),
    run fix45 verdict_of written evs (initial mb0 aw0) = Val st ->
    step fix45 verdict_of written now st = Val st' ->
    runs now st ->
    p_queued st' = false ->
    p_error st' = None ->
    forall s' : sel_state,
      p_sel st' = Some s' ->
      ss_start s' <> None -> Forall (fun c : nat => c = length (p_mailbox st')) (ss_cursors s').
Proof. exact parked_started_select_is_fully_scanned. Qed.
Print Assumptions C05_parked_started_select_is_fully_scanned.
