(* C08 — Runtime type tests accept only members and never reject known members.
   The property theorems (closed by `exact`), each followed by Print Assumptions, and two worked
   examples on concrete tables.
   Model: Compat.v (compatibility.rs tables + the executor's lookups) over Types.v / Rel.v
   (`current_cfg` = check_type_relation as in /repo).  Specification of membership: Sem.v.
   As in /repo (F70, repaired in /repo by 5eb967d) the tables are computed over `ci_xreg I`: the program's types extended
   with the process type of every function that has none in the table (ids past the end).

   PROVED (every input, unbounded):
     index_first_occurrence   TypeIndex::build records, for every shape, the FIRST type id of that shape
     table_is_relation        a tag is in the row of pattern t  <->  the tag's type — the FIRST
                              entry of its shape in the type table (first-occurrence rule) — is
                              assignable to t (or the primitive fallback when int/bin/ref have no
                              entry); functions by their type_id, builtins via the first
                              never-receiving Callable (param, result), processes via the first
                              Process (receive, result) of the spawning function, resources by name
     istype_is_relation       IsType answers Ok  <->  t is a registered id named by some IsType
                              instruction and the tag's type is assignable to t
     no_tuple_entry_never_accepted / no_type_entry_never_accepted (F70's mechanism);
     process_has_type_entry   over `ci_xreg I` the process tag of EVERY function (with a callable type) has
                              a type entry, so that mechanism does not silence a process value;
     xreg_keeps_ids           the extension changes no id of the program's own types
     istype_sound             relative to C09: on the fragment where compat_sound is proved
                              (cf_domain: cycle-free ...), an accepted value that inhabits its tag's
                              type inhabits the pattern type
     istype_complete          when the tag has a type entry (type_of_tag = Some) and given the transitivity
                              instance of is_compatible at (tag type, static type, pattern);
     istype_complete_partial  the same WITHOUT the transitivity hypothesis on the cycle-free
                              fragment (trans_domain), by C09's compat_trans_partial
     param tables             rows cover every function; a filter is permissive only when the row
                              is absent; with param_compat = false everything is accepted
   NOT proved: soundness on the recursive fragment (inherits C09's gap and its open findings
   F23, F24); `table_config_invariant` (same verdict as compiled / tree-shaken / merged) is checked on
   every run by the harness on structural images of the tables, not a theorem. *)
From Quiver Require Import Base Types Rel Sem RelProofs Compat CompatProofs TransCheck TransThm CompatTrans.
From Coq Require Import Arith.
Close Scope Z_scope.
Open Scope nat_scope.

Theorem C08_index_first_occurrence : forall P, IxInv P (build_index P) (types P).
Proof. exact build_index_spec. Qed.
Print Assumptions C08_index_first_occurrence.

Theorem C08_table_is_relation : forall cfg fuel I c t,
  In c (compute_compatible_concrete_types cfg fuel I (ci_xreg I) (build_index (ci_xreg I)) t) <-> accepts cfg fuel I c t = true.
Proof. exact table_is_relation. Qed.
Print Assumptions C08_table_is_relation.

Theorem C08_istype_is_relation : forall cfg fuel I c t,
  check_type_compatible (compute_type_compatibility cfg fuel I) c t = true <->
  t < length (types (ci_reg I)) /\ is_pattern I t = true /\ accepts cfg fuel I c t = true.
Proof. exact istype_is_relation. Qed.
Print Assumptions C08_istype_is_relation.

Theorem C08_no_tuple_entry_never_accepted : forall cfg fuel I tid t,
  position (is_tuple tid) (types (ci_xreg I)) = None ->
  check_type_compatible (compute_type_compatibility cfg fuel I) (CTuple tid) t = false.
Proof. exact no_tuple_entry_never_accepted. Qed.
Print Assumptions C08_no_tuple_entry_never_accepted.

Theorem C08_no_type_entry_never_accepted : forall cfg fuel I c t,
  type_of_tag I c = None -> (forall p, c <> p \/ (p <> CInteger /\ p <> CBinary /\ p <> CReference)) ->
  check_type_compatible (compute_type_compatibility cfg fuel I) c t = false.
Proof. exact no_type_entry_never_accepted. Qed.
Print Assumptions C08_no_type_entry_never_accepted.

(* since 5eb967d (fix of F70): every function's process tag has a type entry *)
Theorem C08_process_has_type_entry : forall I f fi p r rc,
  nth_error (ci_functions I) f = Some fi ->
  lookup_type (ci_reg I) (f_type_id fi) = Some (TCallable p r rc) ->
  exists tau, type_of_tag I (CProcess f) = Some tau.
Proof. exact process_has_type_entry. Qed.
Print Assumptions C08_process_has_type_entry.

Theorem C08_xreg_keeps_ids : forall I i t,
  lookup_type (ci_reg I) i = Some t -> lookup_type (ci_xreg I) i = Some t.
Proof. exact xreg_keeps_ids. Qed.
Print Assumptions C08_xreg_keeps_ids.

Theorem C08_istype_sound : forall cfg fuel I c t tau n v,
  cfg_retract cfg = true ->
  check_type_compatible (compute_type_compatibility cfg fuel I) c t = true ->
  type_of_tag I c = Some tau ->
  cf_domain cfg (ci_xreg I) tau = true -> cf_domain cfg (ci_xreg I) t = true ->
  inhab (ci_xreg I) n [] v tau -> inhab (ci_xreg I) n [] v t.
Proof. exact istype_sound. Qed.
Print Assumptions C08_istype_sound.

Theorem C08_istype_complete : forall cfg fuel I c t tau S,
  t < length (types (ci_reg I)) -> is_pattern I t = true ->
  type_of_tag I c = Some tau ->
  is_compatible_with cfg fuel (ci_xreg I) tau S = Some true ->
  is_compatible_with cfg fuel (ci_xreg I) S t = Some true ->
  (is_compatible_with cfg fuel (ci_xreg I) tau S = Some true -> is_compatible_with cfg fuel (ci_xreg I) S t = Some true ->
   is_compatible_with cfg fuel (ci_xreg I) tau t = Some true) ->
  check_type_compatible (compute_type_compatibility cfg fuel I) c t = true.
Proof. exact istype_complete. Qed.
Print Assumptions C08_istype_complete.

Theorem C08_istype_complete_partial : forall cfg fuel I c t tau S,
  cfg_retract cfg = true -> cfg_partial_name cfg = true ->
  trans_domain (ci_xreg I) tau = true -> trans_domain (ci_xreg I) S = true -> trans_domain (ci_xreg I) t = true ->
  tau + S < fuel -> S + t < fuel -> tau + t < fuel ->
  t < length (types (ci_reg I)) -> is_pattern I t = true ->
  type_of_tag I c = Some tau ->
  is_compatible_with cfg fuel (ci_xreg I) tau S = Some true ->
  is_compatible_with cfg fuel (ci_xreg I) S t = Some true ->
  check_type_compatible (compute_type_compatibility cfg fuel I) c t = true.
Proof. exact istype_complete_cf. Qed.
Print Assumptions C08_istype_complete_partial.

Theorem C08_param_tables_cover : forall cfg fuel I fp bp,
  compute_param_compatibility cfg fuel I = (fp, bp) ->
  length fp = length (ci_functions I) /\ length bp = length (ci_builtins I).
Proof. exact param_tables_cover. Qed.
Print Assumptions C08_param_tables_cover.

Theorem C08_param_table_permissive_only_when_absent : forall (fp bp : list (list ctag)) c f row,
  nth_error fp f = Some row -> check_message_compatible fp bp c (SrcFunction f) = mem_tag c row.
Proof. exact (fun fp bp c f row => param_table_permissive_only_when_absent fp bp c f row). Qed.
Print Assumptions C08_param_table_permissive_only_when_absent.

Theorem C08_param_table_absent_is_permissive : forall cfg fuel I c f fp bp,
  param_tables cfg fuel I false = (fp, bp) -> check_message_compatible fp bp c (SrcFunction f) = true.
Proof.
  exact (fun cfg fuel I c f fp bp (H : param_tables cfg fuel I false = (fp, bp)) =>
           match H in _ = y return check_message_compatible (fst y) (snd y) c (SrcFunction f) = true with
           | eq_refl => param_table_absent_is_permissive [] [] c f (match f with 0 => eq_refl | S _ => eq_refl end)
           end).
Qed.
Print Assumptions C08_param_table_absent_is_permissive.

Theorem C08_param_row_is_relation : forall cfg fuel I fp bp c f fi,
  param_tables cfg fuel I true = (fp, bp) -> nth_error (ci_functions I) f = Some fi ->
  check_message_compatible fp bp c (SrcFunction f) =
  accepts cfg fuel I c (fst (fst (fst (extract_function_type_info (ci_reg I) fi)))).
Proof. exact param_row_is_relation. Qed.
Print Assumptions C08_param_row_is_relation.

(* ---- non-vacuity / witnesses on the dump of a real program:
   `x = #('int | 'bin) { | =('int)i => 1 | =('bin)b => 2 }, 5 x`  (as compiled) ---- *)
Definition ex_input : compat_input :=
  mk_input
    (mk_reg [mk_tuple None []; mk_tuple (Some name_ok) []]
            [TUnion []; TTuple 0; TInteger; TBinary; TUnion [2; 3]; TUnion [1; 2]; TTuple 1; TUnion [6; 1];
             TCallable 4 2 0; TCallable 1 2 0])
    [mk_func 8 [2]; mk_func 9 []] [] [].

Example C08_example_tables :
  compute_type_compatibility current_cfg 1000 ex_input = [[]; []; [CInteger]; []; []; []; []; []; []; []] /\
  compute_param_compatibility current_cfg 1000 ex_input = ([[CInteger; CBinary]; [CTuple 0]], []) /\
  check_type_compatible (compute_type_compatibility current_cfg 1000 ex_input) CInteger 2 = true /\
  check_type_compatible (compute_type_compatibility current_cfg 1000 ex_input) CBinary 2 = false /\
  type_of_tag ex_input CInteger = Some 2 /\
  cf_domain current_cfg (ci_reg ex_input) 2 = true.
Proof. vm_compute. repeat split; reflexivity. Qed.

(* F70 (fixed 5eb967d) as a regression statement: the process tag of function 0 (receive never, result
   int) has no `Process(Some never, Some int)` entry in the program's type table; the tables are computed
   with that type appended (id 5), so the process pattern with unknown directions accepts the tag.
   (Without the appended type: type_of_tag = None and the verdict false — no pattern at all accepts the
   top-level process's own pid.) *)
Definition f70_input : compat_input :=
  mk_input
    (mk_reg [mk_tuple None []; mk_tuple (Some name_ok) []]
            [TUnion []; TTuple 0; TInteger; TCallable 1 2 0; TProcess None None])
    [mk_func 3 [4]] [] [].

Example C08_F70_repaired :
  type_of_tag f70_input (CProcess 0) = Some 5 /\
  lookup_type (ci_xreg f70_input) 5 = Some (TProcess (Some 0) (Some 2)) /\
  check_type_compatible (compute_type_compatibility current_cfg 1000 f70_input) (CProcess 0) 4 = true /\
  type_of_tag f70_input (CFunction 0) = Some 3.
Proof. vm_compute. repeat split; reflexivity. Qed.
