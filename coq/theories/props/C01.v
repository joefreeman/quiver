(* C01 — Type soundness: accepted programs never get stuck on a type error (PARTIAL).
   The property theorems, each followed by Print Assumptions, and the Definitions and Examples of
   their non-vacuity instances.
   Definitions: typed/Typed.v (wt_value, vinhab/result_inhabits, obligations O1-O4 and Oext, the
   monitor, the judgement `judge`/`inhabv` extracted for ./check C01, the mirrored builtin TypeSpec
   table); typed/TypedProofs.v (held, origin, atom, direct_part, not_constructor); typed/Core.v (the
   core fragment: infer, infer_prog, eval, memb, subty, disj, split_variants); typed/CoreProofs.v
   (env_ok).  The bare `memb` of this file is Core.memb.
   Meaning of types: Sem.v (`inhab`, C09).  VM: vm/Vm.v (C07).  Builtin models: Builtins.v (C12).

   What is PROVED:
     builtin_result_typed / builtin_only_domain_errors   every modelled pure builtin (43 rows, the
        REGISTERED TypeSpecs of builtins/mod.rs, compared with the real registry on every run):
        on EVERY argument a value outcome inhabits the registered result spec; on a well-typed
        argument with well-formed binaries it never panics and its only error is InvalidArgument
     get_typed                a well-typed tuple's field inhabits its declared field type
     data_moves_origin / data_moves_preserve_wt   instructions other than Tuple/Function only
        move, copy or drop values: every value held after the step is a held value or an immediate
        component of one, the external value, or an atom; hence any predicate Qv that holds of
        atoms and is inherited by components is preserved (lemma data_moves_preserve)
     wt_hereditary            wt_value is inherited by tuple fields and by captures
     istype_refines           an accepted run-time type test gives membership — RELATIVE to C08's
        statement that the run-time table is the relation is_compatible, on the fragment where
        C09 proves is_compatible sound (cf_domain)
     inhabv_sound_fo          the decision procedure ./check C01 applies to (real result value,
        real inferred type) implies Sem.inhab for every value holding no function/process
     monitor_sound            the obligations at every step of a run started with the promise [r0]
        (run_ok) => the run does not end in a VM-level type failure, and a finished run's result
        inhabits r0.  r0 is any type id: the statement does not tie it to `entry`

     core_soundness / core_progress / core_type_safety / core_program_safety   for the CORE FRAGMENT of typed/Core.v (an
        AST-level typing judgement `infer` and evaluator `eval`: literals, named / labelled tuples,
        field access by position and by label, the two builtins integer_add / binary_length, bare and type-ascribed
        binders with nil-narrowing, blocks on a variable with forward and complement narrowing
        as compiler.rs compile_scoped_expression implements them - dead branches
        contribute nothing, a never complement is not applied -, calls of monomorphic
        non-dispatching functions): an accepted expression never gets stuck, terminates, and its
        value is in [[T]].  subty_sound / disj_sound / split_sound: the type relations and the
        narrowing split the judgement uses are sound for [[.]].  The judgement is tied to the
        compiler on every run: on generated core programs the extracted `infer` must EQUAL the
        real compiler's inferred type and the extracted `eval` the real VM's value.

   What is NOT proved — the full statement, kept here:

     type_soundness : forall (src : source) (P : compiled program) (arg : value),
        compile src = Ok P ->                                  (* the REAL compiler accepts *)
        forall xs, match run_res P.vm (init_state P.entry [] arg false) xs with
                   | Some (Fault f) => type_fault f = false /\ structural f = false
                   | Some (Finished v _) => result_inhabits P.typed v P.result_type
                   | _ => True                                 (* not finished: non-termination *)
                   end

     Missing: a model of the compiler's typing judgement beyond the core fragment (compiler.rs, compiler/{typing,pattern,
     narrowing,spread}.rs — ~10 kLoC of flow-sensitive, provenance-keyed narrowing), i.e. the
     proof that every program it emits satisfies `run_ok` (the obligations at every step).  That
     part is DECIDED PER PROGRAM by ./check C01 on the real compiler and VM (vplib/props/c01.py);
     for /repo the statement is FALSE — open findings F27 F67 F68 F94, each with a reproducer in
     known_findings.json. *)
From Quiver Require Import Base Types Sem Rel RelProofs Builtins BuiltinWf.
From Quiver Require vm.Vm.
From Quiver Require Import typed.Typed typed.BuiltinTyped typed.TypedProofs typed.Core typed.CoreProofs.
From Coq Require Import Arith.
Close Scope Z_scope.
Open Scope nat_scope.

Theorem C01_builtin_result_typed : Forall result_typed builtin_sigs.
Proof. exact builtin_result_typed_all. Qed.
Print Assumptions C01_builtin_result_typed.

Theorem C01_builtin_only_domain_errors : Forall (only_domain_errors wf_bval) builtin_sigs.
Proof. exact builtin_only_domain_errors_all. Qed.
Print Assumptions C01_builtin_only_domain_errors.

(* non-vacuity: the table has the 43 modelled builtins; a well-typed argument on which the
   documented domain error IS reported *)
Example C01_builtin_nonvacuous :
  List.length builtin_sigs = 43 /\
  (let a := BTup [BInt 1; BInt 0] in
   wf_bval a /\ bspec_inhab s_int_int a /\ impl_integer_divide a = Err InvalidArgument).
Proof. exact (conj builtin_sigs_length domain_error_witness). Qed.

Theorem C01_get_typed : forall (P : tprog) t fs i v,
  wt_value P (Bytecode.VTuple t fs) -> nth_error fs i = Some v ->
  wt_value P v /\
  exists info f, lookup_tuple (tp_reg P) t = Some info /\ nth_error (tfields info) i = Some f /\
                 vinhab P v (snd f).
Proof. exact get_typed. Qed.
Print Assumptions C01_get_typed.

Theorem C01_data_moves_origin : forall (Pvm : Bytecode.program) s x s',
  not_constructor Pvm s -> Vm.step Pvm s x = Vm.Next s' ->
  forall v, held s' v -> origin s x v.
Proof. exact data_moves_origin. Qed.
Print Assumptions C01_data_moves_origin.

Theorem C01_data_moves_preserve_wt : forall (Pvm : Bytecode.program) (Qv : Bytecode.value -> Prop),
  (forall v, atom v -> Qv v) ->
  (forall t fs, Qv (Bytecode.VTuple t fs) -> Forall Qv fs) ->
  (forall f caps, Qv (Bytecode.VFun f caps) -> Forall Qv caps) ->
  forall s x s',
    not_constructor Pvm s -> Vm.step Pvm s x = Vm.Next s' ->
    (forall v, held s v -> Qv v) -> (forall v, Vm.x_value x = Some v -> Qv v) ->
    forall v, held s' v -> Qv v.
Proof. exact data_moves_preserve. Qed.
Print Assumptions C01_data_moves_preserve_wt.

(* wt_value P is inherited by tuple fields and by captures (the second and third premise of
   C01_data_moves_preserve_wt at Qv := wt_value P).  The first premise does not hold of it: an atom
   `VBuiltin b` is well typed only for b within tp_bi_type. *)
Theorem C01_wt_hereditary : forall (P : tprog),
  (forall t fs, wt_value P (Bytecode.VTuple t fs) -> Forall (wt_value P) fs) /\
  (forall f caps, wt_value P (Bytecode.VFun f caps) -> Forall (wt_value P) caps).
Proof.
  exact (fun P => conj (fun t fs H => proj2 (proj1 (wt_tuple P t fs) H))
                       (fun f caps H => proj2 (proj2 (proj1 (wt_fun P f caps) H)))).
Qed.
Print Assumptions C01_wt_hereditary.

Theorem C01_istype_refines : forall (R : registry) (cfg : rel_cfg) (table : nat -> nat -> bool),
  (forall t tag, table t tag = true -> exists fuel, is_compatible_with cfg fuel R tag t = Some true) ->
  cfg_retract cfg = true ->
  forall t tag n e,
    cf_domain cfg R tag = true -> cf_domain cfg R t = true ->
    table t tag = true -> inhab R n [] e tag -> inhab R n [] e t.
Proof. exact istype_refines. Qed.
Print Assumptions C01_istype_refines.

Theorem C01_inhabv_sound_fo : forall (Q : registry) (k cap nf n : nat) E v t,
  first_orderb v = true -> inhabv k cap nf Q n E v t = true -> inhab Q n E v t.
Proof. exact inhabv_sound_fo. Qed.
Print Assumptions C01_inhabv_sound_fo.

Theorem C01_monitor_sound : forall (Pvm : Bytecode.program) (P : tprog) (r0 entry : nat) arg xs,
  run_ok Pvm P (Vm.init_state entry [] arg false) [r0] xs ->
  match run_res Pvm (Vm.init_state entry [] arg false) xs with
  | Some (Vm.Fault f) => type_fault f = false
  | Some (Vm.Finished v _) => result_inhabits P v r0
  | _ => True
  end.
Proof. exact monitor_sound. Qed.
Print Assumptions C01_monitor_sound.

(* ---- non-vacuity: a concrete typed program, a well-typed value, an accepted judgement, and a
   finished monitored run.  Types: 0 = int, 1 = [int, int] (tuple 2), 2 = nil, 3 = #nil -> int;
   function 0 = `Constant 0` (returns the integer 7). *)
Definition ex_reg : registry :=
  mk_reg [mk_tuple None []; mk_tuple (Some 1) []; mk_tuple None [(None, 0); (None, 0)]]
         [TInteger; TTuple 2; TTuple 0; TCallable 2 0 2].
Definition ex_prog : tprog := mk_tprog ex_reg [3] [3] [0] [] [].
Definition ex_vm : Bytecode.program :=
  {| Bytecode.p_consts := [Bytecode.CInt 7%Z];
     Bytecode.p_funcs := [{| Bytecode.f_code := [Bytecode.IPop; Bytecode.IConstant 0]; Bytecode.f_caps := 0 |}];
     Bytecode.p_tuples := [0; 0; 2]; Bytecode.p_nbuiltins := 0; Bytecode.p_ntypes := 4 |}.
Definition ex_pair : Bytecode.value := Bytecode.VTuple 2 [Bytecode.VInt 1%Z; Bytecode.VInt 2%Z].

Example C01_judge_nonvacuous :
  judge ex_prog 16 4 2 ex_pair 1 = Accept /\ wt_valueb ex_prog 16 4 2 ex_pair = true /\
  judge ex_prog 16 4 2 ex_pair 0 = Reject /\
  judge ex_prog 16 4 2 (Bytecode.VFun 0 []) 3 = Accept.
Proof. vm_compute. repeat split; reflexivity. Qed.

Example C01_run_nonvacuous :
  let x := {| Vm.x_value := None; Vm.x_bool := false |} in
  run_res ex_vm (Vm.init_state 0 [] Bytecode.vnil false) [x; x; x; x] =
    Some (Vm.Finished (Bytecode.VInt 7%Z)
            {| Vm.stack := []; Vm.locals := []; Vm.frames := []; Vm.persistent := false |}) /\
  fn_sig ex_prog 0 = Some (2, 0, 2).
Proof. vm_compute. split; reflexivity. Qed.

(* the core fragment of typed/Core.v *)
Theorem C01_subty_sound : forall s t v, subty s t = true -> memb v s = true -> memb v t = true.
Proof. exact subty_sound. Qed.
Print Assumptions C01_subty_sound.

Theorem C01_disj_sound : forall s t v, disj s t = true -> memb v s = true -> memb v t = false.
Proof. exact disj_sound. Qed.
Print Assumptions C01_disj_sound.

(* forward narrowing and complement narrowing partition the scrutinee's values as the run-time
   match does *)
Theorem C01_split_sound : forall p us m r v rho,
  split_variants p us = Some (m, r) ->
  (exists u, In u us /\ memb v u = true) ->
  match pmatch p v rho with
  | Some _ => exists u, In u m /\ memb v u = true
  | None => exists u, In u r /\ memb v u = true
  end.
Proof. exact split_sound. Qed.
Print Assumptions C01_split_sound.

Theorem C01_core_soundness : forall (fns : list fdef) n k G e T rho v,
  infer fns k G e = Some T -> env_ok rho G -> eval fns n rho e = Some v -> memb v T = true.
Proof. exact core_soundness. Qed.
Print Assumptions C01_core_soundness.

Theorem C01_core_progress : forall (fns : list fdef) k G e T rho,
  infer fns k G e = Some T -> env_ok rho G -> exists v, eval fns k rho e = Some v.
Proof. exact core_progress. Qed.
Print Assumptions C01_core_progress.

Theorem C01_core_type_safety : forall (fns : list fdef) k e T,
  infer fns k [] e = Some T -> exists v, eval fns k [] e = Some v /\ memb v T = true.
Proof. exact core_type_safety. Qed.
Print Assumptions C01_core_type_safety.

Theorem C01_core_program_safety : forall (fns : list fdef) k e T,
  infer_prog fns k e = Some T -> exists v, eval fns k [] e = Some v /\ memb v T = true.
Proof. exact core_program_safety. Qed.
Print Assumptions C01_core_program_safety.

(* non-vacuity: `f0 = #(A['int] | B) { v1 = $, v1 { | =A[v2] => [v2, 1] __integer_add__ | 7 } }`,
   `[A[4] f0, B f0, 0xababab __binary_length__]`, the third field carrying label 5, is accepted at
   ['int, 'int, 'int] with that label, and its field labelled 5 evaluates to 3; with the default
   reading the narrowed variable's field it is rejected.  The fuel 20 is more than is needed. *)
Definition shA : shape := (Some 0, [None]).
Definition shB : shape := (Some 1, []).
Definition ex_core_fns : list fdef :=
  [ (TyUnion [TyTup shA [TyInt]; TyTup shB []],
     ELet 1 (EVar 0) (ECase 1 [(PTup shA [Some 2], EAdd (EVar 2) (EInt 1%Z))] (EInt 7%Z))) ].
Definition ex_core_main : exp :=
  ETup (None, [None; None; Some 5])
       [ECall 0 (ETup shA [EInt 4%Z]); ECall 0 (ETup shB []); ELen (EBinLit 3)].

Example C01_core_nonvacuous :
  infer_prog ex_core_fns 20 ex_core_main = Some (TyTup (None, [None; None; Some 5]) [TyInt; TyInt; TyInt]) /\
  eval ex_core_fns 20 [] (EGetL ex_core_main 5) = Some (CInt 3%Z) /\
  infer [(TyUnion [TyTup shA [TyInt]; TyTup shB []],
          ELet 1 (EVar 0) (ECase 1 [(PTup shA [Some 2], EVar 2)] (EGet (EVar 1) 0)))]
        20 [] (ECall 0 (ETup shB [])) = None.
Proof. vm_compute. repeat split; reflexivity. Qed.
