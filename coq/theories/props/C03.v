(* C03 — Results do not depend on scheduling, worker count or quantum.
   The property theorems: statement, `exact <term>`, Print Assumptions.
   Model: sys/Proto.v (see props/C04.v).

   PROVED (the ingredients): worker_steps_commute; worker_env_diamond (a Worker::step that
   handles only commands already queued and an Environment::step that collects from that worker
   only events already queued commute — W;E and E;W end in the same state; together with
   worker_steps_commute every pair of independent scheduler actions commutes);
   placement_irrelevant_local (+ the stamp-only difference for a slice that sends);
   single_sender_mailbox_order (from C04's per_link_fifo); message conservation.
   The quantum is not a parameter of the model at all: a time slice is an oracle input, so that
   splitting a slice in two changes nothing is a statement about the VM (vm/Vm.v), not about the
   protocol; it is not stated here.
   PROTOCOL FACT behind finding F72 (repaired in /repo by 8388832): the answer to a multi-target
   await can be OVERTAKEN by a same-worker completion (C03_snapshot_overtaken_refuted, from
   sys/ProtoFail.v snapshot_overtaken_by_local_notification: the awaiter is runnable knowing only
   p3's result while the snapshot with p1's result is still queued).  The protocol of /repo does
   this.  In /repo the select does not evaluate its sources before every awaited target has been
   reported (Process.unreported_awaits, executor-internal, not part of M-Sys): the woken awaiter's
   next slice parks again (d_park = true with the start time unset), so `! [p1, p3]` after `!p1`
   yields p1's result under every schedule (corpus/sim_c03.txt, explored by c03.py).
   PROVED (sys/ProtoTrace.v): the local lemmas lifted to schedules, Mazurkiewicz-trace style:
     swap_independent / trace_equiv_sound : two adjacent actions that are independent in the state
       they start from (W i / W j with i <> j always; W i (Some n) / E ks when the worker handles only
       commands already queued and the environment collects from it only events already queued; a
       clock tick T d with E, T, X always and with W i when no timeout of worker i is due at the later
       clock in a well-formed state) can
       be swapped: the run succeeds in one order iff in the other, and ends in the SAME state; hence
       schedules related by `trace_equiv` (the congruence generated by such swaps) reach the same state;
     worker_interleavings_agree : for schedules of worker steps the projection theorem — any two
       schedules with the same per-worker subsequences reach the same state.
     Remaining gap to schedule_independence: client calls are not commuted with W / E, a clock tick
     does not commute with a worker step across which a timeout falls due (by design), a
     draining Worker::step (k = None) is not independent of an Environment::step, the oracle is part
     of the action (a statement about PROGRAMS needs the VM to say commuted steps produce the same
     slices), and equal results across worker counts / quanta (placement) are only the local lemmas.
   NOT PROVED (partial): the global statement
     schedule_independence : forall P (confluent) sigma1 sigma2 (fair), the per-process results of
                             run (init nw1) sigma1 and run (init nw2) sigma2 under P's behaviour agree
   (Kahn-network determinism of M-Sys); `C03_schedule_independence_partial` is the conjunction of
   worker_steps_commute, placement_irrelevant_local and message_conservation, and the schedule
   exploration of vplib/props/c03.py tests the global statement on
   the real code. *)
From Quiver Require Import sys.Proto sys.ProtoCommute sys.ProtoMsg sys.ProtoFifo sys.ProtoFail sys.ProtoDiamond sys.ProtoTrace.

Theorem C03_worker_steps_commute : forall s i j ki kj oi oj s1 s2,
  i <> j ->
  sys_step s (W i ki oi) = Good s1 -> sys_step s1 (W j kj oj) = Good s2 ->
  exists s1', sys_step s (W j kj oj) = Good s1' /\ sys_step s1' (W i ki oi) = Good s2.
Proof. exact worker_steps_commute. Qed.
Print Assumptions C03_worker_steps_commute.

Theorem C03_placement_irrelevant_local : forall i i' p pr d hint w,
  is_deliver d = false ->
  run_slice i p pr d hint w = run_slice i' p pr d hint w.
Proof. exact placement_irrelevant_local. Qed.
Print Assumptions C03_placement_irrelevant_local.

Theorem C03_placement_only_stamps : forall i i' p pr d hint w w1 ev,
  d_fin d = None ->
  run_slice i p pr d hint w = Good (w1, ev) ->
  exists w2, run_slice i' p pr d hint w = Good (w2, map (restamp_event i') ev)
             /\ forget_log w2 = forget_log w1.
Proof. exact placement_only_stamps. Qed.
Print Assumptions C03_placement_only_stamps.

(* one sender (worker) per mailbox: the arrival sequence is a prefix of the sender's send sequence,
   whatever the schedule *)
Theorem C03_single_sender_mailbox_order : forall nw sigma s,
  0 < nw -> run (init nw) sigma = Good s ->
  forall i ndi t j ndj,
    nth_error (s_nodes s) i = Some ndi -> alookup t (e_router (s_env s)) = Some j -> nth_error (s_nodes s) j = Some ndj ->
    Forall (fun x => m_w (snd x) = i) (ft t (w_arrlog (n_w ndj))) ->
    exists in_flight, ft t (w_sentlog (n_w ndi)) = ft t (w_arrlog (n_w ndj)) ++ in_flight.
Proof. exact single_sender_mailbox_order. Qed.
Print Assumptions C03_single_sender_mailbox_order.

Theorem C03_schedule_independence_partial :
  (forall s i j ki kj oi oj s1 s2, i <> j ->
     sys_step s (W i ki oi) = Good s1 -> sys_step s1 (W j kj oj) = Good s2 ->
     exists s1', sys_step s (W j kj oj) = Good s1' /\ sys_step s1' (W i ki oi) = Good s2) /\
  (forall i i' p pr d hint w, is_deliver d = false -> run_slice i p pr d hint w = run_slice i' p pr d hint w) /\
  (forall nw sigma s, 0 < nw -> run (init nw) sigma = Good s -> forall t m,
     total (g_sent (t, m)) (s_nodes s)
     = total (g_arr (t, m)) (s_nodes s) + total (g_cmd (t, m)) (s_nodes s) + total (g_evt (t, m)) (s_nodes s)).
Proof. exact (conj worker_steps_commute (conj placement_irrelevant_local message_conservation)). Qed.
Print Assumptions C03_schedule_independence_partial.

(* the shape of F72 (repaired in /repo by 8388832 in the executor: a select re-parks until every
   awaited target is reported): the snapshot answering `! [p1, p3]` is overtaken by the same-worker
   direct notification of p3's completion: the awaiter is runnable knowing only p3's result while
   p1's is still in the event queue (corpus/sim_c03.txt).  The protocol of /repo does this. *)
Theorem C03_snapshot_overtaken_refuted :
  exists s nd pr,
    run (init 1) f72_schedule = Good s /\ nth_error (s_nodes s) 0 = Some nd /\
    w_queue (n_w nd) = [0] /\
    alookup 0 (w_procs (n_w nd)) = Some pr /\
    p_awaiting pr = [(1, None); (2, Some (ROk 33))] /\
    In (EResults 0 [(1, Some (ROk 11)); (2, None)]) (n_evt nd).
Proof. exact snapshot_overtaken_by_local_notification. Qed.
Print Assumptions C03_snapshot_overtaken_refuted.

(* the diamond for independent worker / environment actions *)
Theorem C03_worker_env_diamond : forall s i n o ks nd m s1 s2,
  nth_error (s_nodes s) i = Some nd ->
  n <= length (n_cmd nd) ->
  nth_error ks i = Some m -> m <= length (n_evt nd) ->
  sys_step s (W i (Some n) o) = Good s1 -> sys_step s (E ks) = Good s2 ->
  exists s', sys_step s1 (E ks) = Good s' /\ sys_step s2 (W i (Some n) o) = Good s'.
Proof. exact worker_env_diamond. Qed.
Print Assumptions C03_worker_env_diamond.

Theorem C03_diamond_nonvacuous : exists s',
  run (init 2) [X (XStart false); W 0 (Some 1) (orc (Some 0) (d_act_ ASpawn)); E [0]] = Good s' /\
  run (init 2) [X (XStart false); E [0]; W 0 (Some 1) (orc (Some 0) (d_act_ ASpawn))] = Good s' /\
  total (fun nd => length (n_evt nd)) (s_nodes s') = 1.
Proof. exact diamond_instance. Qed.
Print Assumptions C03_diamond_nonvacuous.

(* from local commutation to schedules *)
Theorem C03_swap_independent : forall s a b s1 s2,
  indep_at s a b -> sys_step s a = Good s1 -> sys_step s1 b = Good s2 ->
  exists s1', sys_step s b = Good s1' /\ sys_step s1' a = Good s2.
Proof. exact swap_independent. Qed.
Print Assumptions C03_swap_independent.

Theorem C03_trace_equiv_sound : forall s l1 l2, trace_equiv s l1 l2 -> forall s', run s l1 = Good s' <-> run s l2 = Good s'.
Proof. exact trace_equiv_sound. Qed.
Print Assumptions C03_trace_equiv_sound.

Theorem C03_worker_interleavings_agree : forall l1 l2 s s',
  Forall is_W l1 -> Forall is_W l2 -> (forall i, proj i l1 = proj i l2) ->
  (run s l1 = Good s' <-> run s l2 = Good s').
Proof. exact worker_interleavings_agree. Qed.
Print Assumptions C03_worker_interleavings_agree.

Theorem C03_trace_equiv_nonvacuous :
  (exists s0, sys_step (init 2) (X (XStart false)) = Good s0 /\
    trace_equiv s0 [W 0 (Some 1) (orc (Some 0) (d_act_ ASpawn)); E [0]] [E [0]; W 0 (Some 1) (orc (Some 0) (d_act_ ASpawn))] /\
    exists s', run s0 [W 0 (Some 1) (orc (Some 0) (d_act_ ASpawn)); E [0]] = Good s' /\
               run s0 [E [0]; W 0 (Some 1) (orc (Some 0) (d_act_ ASpawn))] = Good s') /\
  (let a := W 0 None (orc None idle_did) in let b := W 1 None (orc None idle_did) in let c := W 2 None (orc None idle_did) in
   (forall i, proj i [a; b; c; a] = proj i [c; a; a; b]) /\
   exists s', run (init 3) [a; b; c; a] = Good s' /\ run (init 3) [c; a; a; b] = Good s').
Proof. exact (conj trace_equiv_instance worker_interleavings_instance). Qed.
Print Assumptions C03_trace_equiv_nonvacuous.

Theorem C03_clock_swap_nonvacuous :
  exists s0, sys_step (init 2) (X (XStart false)) = Good s0 /\
    trace_equiv s0 [T 5; W 0 None (orc (Some 0) (d_act_ ASpawn))] [W 0 None (orc (Some 0) (d_act_ ASpawn)); T 5] /\
    exists s', run s0 [T 5; W 0 None (orc (Some 0) (d_act_ ASpawn))] = Good s' /\
               run s0 [W 0 None (orc (Some 0) (d_act_ ASpawn)); T 5] = Good s' /\ s_clock s' = 5.
Proof. exact clock_swap_instance. Qed.
Print Assumptions C03_clock_swap_nonvacuous.
