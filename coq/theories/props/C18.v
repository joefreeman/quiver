(* C18 — The front end is total: any text yields a program or a located error.
   Level: proof, PARTIAL.  The property theorems and their non-vacuity Examples, each closed by
   `exact` and followed by Print Assumptions.

   The property is about Rust-level partiality (unwrap / expect / unreachable! / slicing / stack
   exhaustion) and non-termination in parser.rs + compiler.rs (~13 kLoC).  No Gallina model covers
   them, and a total Gallina function proves nothing about Rust panics.  The FULL statement

     forall text, nesting text <= 100 ->
       (exists prog, parse text = Ok prog /\ (exists bc, compile prog = Ok bc) \/ (exists e, compile prog = Err e))
       \/ (exists kind span, parse text = Err (kind, span) /\ span.offset <= len text /\ line/column of span agree with text)

   is NOT a theorem here: it is SEARCHED on the real code by vplib/props/c18.py (harness qv_front:
   parse + Compiler::compile in child processes with an 8 MiB stack and a CPU watchdog; oracles: no
   panic / abort / timeout, position in range and consistent, determinism).  Known finding there:
   F77 (parse time exponential in the nesting depth of parentheses; parser.rs has no nesting guard,
   so there is no guard to model).

   What IS proved: the TERMINATION ARGUMENTS of the front end's recursive algorithms, with explicit
   bounds, on the executable models that C09 / C17 tie to the code by differential execution —
   where finding F55 lies (stack overflow of check_type_relation, repaired in /repo by e7dcc7d).
     1. check_type_relation (types.rs:248-671; Rel.check_rel): FULL, recursive types included —
        for every registry with topologically ordered ids and n types, both modes, every pair of
        ids, every model variant that records the callable assumption (in particular current_cfg,
        the code of /repo): fuel B(n) = n^2 (4n+5) + 4n + 4 suffices, i.e. the recursion depth is at most B(n).
        The two hypotheses are necessary: witnesses exceed the bound without them (partial_cfg, the
        code before e7dcc7d, gets no answer with any fuel; on an id cycle through the tuple table
        current_cfg gets none at 100 times the bound).
     2. narrowing (narrowing.rs:306-593): contains_cycle: depth <= n + 1.  intersect_types / intersect_pair:
        FULL - fuel 2n+2 (and relation fuel B(n)) suffices on every registry with topologically ordered
        ids and in-range tuple ids; the registry grows but the recursion descends base ids only.
        compute_complement / subtract_one: recursion depth <= 2n+2, stated as irrelevance of the
        structural fuel beyond the bound (results are fed back as operands; the measure is the id of
        the NARROWED side, which never is a result).  union_type_ids: not recursive.
        NOT PROVED: sufficiency of a relation fuel given in n alone for the relation checks made
        inside compute_complement (they see ids registered during the run).
     3. string post-processing with the located error (parser.rs:685-754): total; the error span
        lies inside the segment and starts at the offending backslash (a character boundary).
        normalize_blocks and print: total (print re-exported from C17 with attribution). *)
From Quiver Require Import Base Types Rel Narrow RelProofs TypesProofs.
From Quiver Require Import Ast Simplify Escape Pretty PrettyProofs.
From Quiver.front Require Import Totality RelTermProofs RelTermWitness NarrowTermProofs StringLoc StringLocProofs.
From Quiver.front Require Import IntersectTermProofs ComplementTermProofs NarrowBoundProofs.
From Coq Require Import Arith.

(* 1. check_type_relation *)
(* the code as it is in /repo (current_cfg: assumptions recorded for unions AND callables, retracted
   on failure, two stacks), both modes, from the empty state of is_compatible / types_overlap *)
Theorem C18_check_rel_terminates : forall (P : registry) (mode : union_mode) (fuel a b : nat),
  topob P = true -> (rel_bound (ntypes P) <= fuel)%nat ->
  exists r A', check_rel current_cfg P mode fuel [] [] [] a b = Some (r, A').
Proof. exact check_rel_terminates_current. Qed.
Print Assumptions C18_check_rel_terminates.

(* the bound, written out: cubic in the number of registered types *)
Theorem C18_rel_bound_formula : forall n : nat,
  rel_bound n = (n * n * (4 * n + 5) + 4 * n + 4)%nat.
Proof. exact rel_bound_formula. Qed.
Print Assumptions C18_rel_bound_formula.

(* every variant of the model that records the assumption in the Callable arm (whatever the other
   switches: with or without retraction, one or two stacks, ...) *)
Theorem C18_check_rel_terminates_gen : forall (cfg : rel_cfg) (P : registry) (mode : union_mode) (fuel a b : nat),
  cfg_callable_assume cfg = true -> topob P = true -> (rel_bound (ntypes P) <= fuel)%nat ->
  check_rel cfg P mode fuel [] [] [] a b <> None.
Proof. exact check_rel_terminates_gen. Qed.
Print Assumptions C18_check_rel_terminates_gen.

(* the general form: from ANY reachable state (assumption set A, both stacks holding ids of unions /
   callables), with U in-range pairs not yet assumed, at a pair of weight <= m; and WINDOWED: only the
   ids below K need to be topologically ordered (RelTermProofs.topo_below, written out), the bound is
   in K (K = ntypes P is the plain statement; narrowing runs the relation on base ids inside a
   registry that has grown) *)
Theorem C18_check_rel_fuel_enough : forall (cfg : rel_cfg) (P : registry) (mode : union_mode),
  cfg_callable_assume cfg = true ->
  forall K : nat,
  (forall id t, (id < K)%nat -> lookup_type P id = Some t -> forall c, In c (children P t) -> (c < id)%nat) ->
  forall (U m f : nat) (A : assumptions) (ss ps : list nat) (s p : nat),
  (unassumed K A <= U)%nat -> stack_ok P K ss -> stack_ok P K ps ->
  (s < K)%nat -> (p < K)%nat -> (w P s p <= m)%nat -> (rel_need K U m <= f)%nat ->
  exists r A', check_rel cfg P mode f A ss ps s p = Some (r, A') /\ ext A' A.
Proof. exact check_rel_fuel_enough. Qed.
Print Assumptions C18_check_rel_fuel_enough.

Theorem C18_check_rel_terminates_window : forall (cfg : rel_cfg) (P : registry) (mode : union_mode),
  cfg_callable_assume cfg = true ->
  forall K : nat,
  (forall id t, (id < K)%nat -> lookup_type P id = Some t -> forall c, In c (children P t) -> (c < id)%nat) ->
  forall fuel a b, (a < K)%nat -> (b < K)%nat -> (rel_bound K <= fuel)%nat ->
  exists r A', check_rel cfg P mode fuel [] [] [] a b = Some (r, A').
Proof. exact check_rel_terminates_window. Qed.
Print Assumptions C18_check_rel_terminates_window.

Theorem C18_is_compatible_terminates : forall (P : registry) (fuel a b : nat),
  topob P = true -> (rel_bound (ntypes P) <= fuel)%nat ->
  exists r, is_compatible_with current_cfg fuel P a b = Some r.
Proof. exact is_compatible_terminates. Qed.
Print Assumptions C18_is_compatible_terminates.

Theorem C18_types_overlap_terminates : forall (P : registry) (fuel a b : nat),
  topob P = true -> (rel_bound (ntypes P) <= fuel)%nat ->
  exists r, types_overlap_with current_cfg fuel P a b = Some r.
Proof. exact types_overlap_terminates. Qed.
Print Assumptions C18_types_overlap_terminates.

(* non-vacuity: the minimised F55 shape (recursive function types) and a recursive list type meet the
   hypothesis and are answered far inside the bound *)
Example C18_check_rel_nonvacuous :
  topob reg_F55 = true /\ rel_bound (ntypes reg_F55) = 649%nat /\
  is_compatible_with current_cfg 649 reg_F55 4 3 = Some true /\
  is_compatible_with current_cfg 11 reg_F55 4 3 = Some true /\
  is_compatible_with current_cfg 10 reg_F55 4 3 = None /\
  topob reg_list = true /\ is_compatible_with current_cfg 2404 reg_list 4 7 = Some false /\
  types_overlap_with current_cfg 2404 reg_list 4 7 = Some true.
Proof.
  exact (conj reg_F55_topo
        (conj (proj1 F55_current_terminates)
        (conj (proj1 (proj2 F55_current_terminates))
        (conj (proj1 (proj2 (proj2 F55_current_terminates)))
        (conj (proj2 (proj2 (proj2 F55_current_terminates)))
        (conj (proj1 reg_list_checks)
        (conj (proj1 (proj2 (proj2 reg_list_checks)))
              (proj1 (proj2 (proj2 (proj2 reg_list_checks))))))))))).
Qed.

(* the hypothesis on the Callable arm is necessary: partial_cfg (the code before e7dcc7d, finding
   F55) exceeds the bound — and ten times the bound — on a topologically ordered 5-type registry *)
Theorem C18_check_rel_bound_fails_without_callable_assumption :
  topob reg_F55 = true /\
  check_rel partial_cfg reg_F55 All (rel_bound (ntypes reg_F55)) [] [] [] 4 3 = None /\
  check_rel partial_cfg reg_F55 All (10 * rel_bound (ntypes reg_F55)) [] [] [] 4 3 = None.
Proof. exact (conj reg_F55_topo F55_partial_cfg_exceeds_bound). Qed.
Print Assumptions C18_check_rel_bound_fails_without_callable_assumption.

(* ... and in fact no fuel at all is enough: F55 (stack overflow of check_type_relation on recursive
   function types) as a theorem about partial_cfg *)
Theorem C18_check_rel_diverges_without_callable_assumption : forall fuel : nat,
  check_rel partial_cfg reg_F55 All fuel [] [] [] 4 3 = None.
Proof. exact F55_partial_cfg_diverges. Qed.
Print Assumptions C18_check_rel_diverges_without_callable_assumption.

(* the hypothesis on the registry is necessary: two tuple types that refer to each other by id get
   no answer at 100 times the bound *)
Theorem C18_check_rel_bound_fails_on_id_cycle :
  topob reg_idcycle = false /\
  check_rel current_cfg reg_idcycle All (100 * rel_bound (ntypes reg_idcycle)) [] [] [] 0 1 = None.
Proof. exact idcycle_not_topo_and_exceeds. Qed.
Print Assumptions C18_check_rel_bound_fails_on_id_cycle.

(* 2. narrowing helpers *)
Theorem C18_contains_cycle_terminates : forall (cfg : rel_cfg) (P : registry) (fuel : nat) (seen : list nat) (t : nat),
  topob P = true -> (cc_bound (ntypes P) <= fuel)%nat ->
  exists r, contains_cycle cfg fuel P seen t = Some r.
Proof. exact contains_cycle_terminates. Qed.
Print Assumptions C18_contains_cycle_terminates.

Theorem C18_union_type_ids_total : forall (P : registry) (ids : list nat),
  exists P' id, union_type_ids P ids = (P', id).
Proof. exact union_type_ids_total. Qed.
Print Assumptions C18_union_type_ids_total.

(* intersect_types (narrowing.rs:340-472, incl. the exact-meet arms for callable / process types): FULL.
   For every registry with topologically ordered ids and in-range tuple ids (`closed_tuplesb`: what
   register_tuple / register_type produce) with n types, every pair of ids, every model variant that
   records the callable assumption: structural fuel narrow_bound n = 2n+2 and relation fuel rel_bound n
   suffice; the result extends the registry.  The registry grows during the run, but the recursion only
   descends into ids of the registry it started from (measure: the id of the self side), and the
   relation checks are made on such ids (windowed check_rel / contains_cycle bounds). *)
Theorem C18_intersect_types_terminates : forall (cfg : rel_cfg) (P : registry) (rel_fuel fuel a b : nat),
  cfg_callable_assume cfg = true -> topob P = true -> closed_tuplesb P = true ->
  (rel_bound (ntypes P) <= rel_fuel)%nat -> (narrow_bound (ntypes P) <= fuel)%nat ->
  exists P' r, intersect_types cfg rel_fuel fuel P a b = Some (P', r) /\ extends P P'.
Proof. exact intersect_types_terminates. Qed.
Print Assumptions C18_intersect_types_terminates.

(* the general form: relative to a base registry P0, from ANY registry P that extends it (any state
   reached during a run), for operands that are base ids, given that the relation checks on base ids
   answer in every extension (`rel_answers_on`, discharged above from rel_fuel >= rel_bound n) *)
Theorem C18_intersect_fuel_enough : forall (cfg : rel_cfg) (rel_fuel : nat) (P0 : registry),
  topo P0 -> closed_tuples P0 -> rel_answers_on cfg rel_fuel P0 ->
  forall m : nat,
  (forall fuel P a b, extends P0 P -> (a < ntypes P0)%nat -> (b < ntypes P0)%nat -> (a <= m)%nat -> (2 * m + 2 <= fuel)%nat ->
     exists P' x, intersect_types cfg rel_fuel fuel P a b = Some (P', x) /\ extends P P') /\
  (forall fuel P a b, extends P0 P -> (a < ntypes P0)%nat -> (b < ntypes P0)%nat -> (a <= m)%nat -> (2 * m + 1 <= fuel)%nat ->
     exists P' x, intersect_pair cfg rel_fuel fuel P a b = Some (P', x) /\ extends P P').
Proof. exact intersect_fuel_enough. Qed.
Print Assumptions C18_intersect_fuel_enough.

(* compute_complement / subtract_one (narrowing.rs:508-593): the recursion depth is at most 2n+2.
   compute_complement feeds its results back into subtract_one, so the self side of a call may be an
   id registered during the run; the NARROWED side never is (always a variant, or a field type of a
   variant, of the narrowed operand) and strictly decreases - that is the measure.  The relation checks
   of subtract_one's shortcuts run on (piece, narrowed variant) where the piece may be new, so whether
   THEY answer depends on the relation fuel and on how far the registry has grown; the theorem is
   therefore about the structural fuel: beyond narrow_bound n it is irrelevant, for every relation
   fuel - if any structural fuel >= the bound yields an answer, the bound itself yields the same one,
   and a None at the bound can only come from the relation fuel. *)
Theorem C18_complement_fuel_irrelevant : forall (cfg : rel_cfg) (rel_fuel : nat) (P : registry) (fuel fuel' o nr : nat),
  topob P = true -> closed_tuplesb P = true ->
  (narrow_bound (ntypes P) <= fuel)%nat -> (narrow_bound (ntypes P) <= fuel')%nat ->
  compute_complement cfg rel_fuel fuel P o nr = compute_complement cfg rel_fuel fuel' P o nr.
Proof. exact complement_fuel_irrelevant. Qed.
Print Assumptions C18_complement_fuel_irrelevant.

Theorem C18_complement_bound_suffices : forall (cfg : rel_cfg) (rel_fuel : nat) (P : registry) (fuel o nr : nat) r,
  topob P = true -> closed_tuplesb P = true -> (narrow_bound (ntypes P) <= fuel)%nat ->
  compute_complement cfg rel_fuel fuel P o nr = Some r ->
  compute_complement cfg rel_fuel (narrow_bound (ntypes P)) P o nr = Some r.
Proof. exact complement_bound_suffices. Qed.
Print Assumptions C18_complement_bound_suffices.

(* general form: relative to a base registry, from any extension, for every self side (base id or not) *)
Theorem C18_complement_fuel_stable : forall (cfg : rel_cfg) (rel_fuel : nat) (P0 : registry),
  topo P0 -> closed_tuples P0 -> forall m : nat,
  (forall f f' P o nr, extends P0 P -> (nr < ntypes P0)%nat -> (nr <= m)%nat -> (2 * m + 2 <= f)%nat -> (2 * m + 2 <= f')%nat ->
     compute_complement cfg rel_fuel f P o nr = compute_complement cfg rel_fuel f' P o nr) /\
  (forall f f' P a b, extends P0 P -> (b < ntypes P0)%nat -> (b <= m)%nat -> (2 * m + 1 <= f)%nat -> (2 * m + 1 <= f')%nat ->
     subtract_one cfg rel_fuel f P a b = subtract_one cfg rel_fuel f' P a b).
Proof. exact complement_fuel_stable. Qed.
Print Assumptions C18_complement_fuel_stable.

(* non-vacuity of both: the recursive list registry and the F55 function types meet the hypotheses; the
   meet and the complement are computed at the bounds, not with 3 units of structural fuel *)
Example C18_narrow_nonvacuous :
  topob reg_list = true /\ closed_tuplesb reg_list = true /\ narrow_bound (ntypes reg_list) = 18%nat /\
  (exists P' r, intersect_types current_cfg (rel_bound (ntypes reg_list)) 18 reg_list 4 7 = Some (P', r) /\ r = 3%nat) /\
  intersect_types current_cfg (rel_bound (ntypes reg_list)) 3 reg_list 4 7 = None /\
  (exists P' r, compute_complement current_cfg (rel_bound (ntypes reg_list)) (narrow_bound (ntypes reg_list)) reg_list 4 7 = Some (P', r)) /\
  compute_complement current_cfg (rel_bound (ntypes reg_list)) 3 reg_list 4 7 = None.
Proof.
  exact (conj (proj1 intersect_nonvacuous) (conj (proj1 (proj2 intersect_nonvacuous)) (conj (proj1 (proj2 (proj2 intersect_nonvacuous)))
        (conj (proj1 (proj2 (proj2 (proj2 intersect_nonvacuous)))) (conj (proj1 (proj2 (proj2 (proj2 (proj2 intersect_nonvacuous)))))
        (conj (proj1 complement_nonvacuous) (proj1 (proj2 complement_nonvacuous)))))))).
Qed.

(* NOT proved: that the relation checks made INSIDE compute_complement answer for a relation fuel given
   as a function of the initial n alone (they run on ids registered during the run, in a registry whose
   growth is not polynomially bounded: pieces multiply per field and per narrowed variant).  Measured on
   every run instead by vplib/props/c18.py: the model's minimal structural fuel against narrow_bound n,
   with a large relation fuel (evidence keys narrow_queries_measured, narrow_depth_over_proved_bound
   under model_layer). *)

(* 3. string post-processing, block normalisation, layout *)
(* parse_string_content with its position bookkeeping: a result or a located error, the location
   inside the segment; the erased result is C17's `unescape` *)
Theorem C18_unescape_total : forall s : list Z,
  (exists r, parse_string_content_loc s = PscOk r /\ unescape s = Some r) \/
  (exists off len esc, parse_string_content_loc s = PscErr off len esc /\ unescape s = None /\
                       (off < byte_len s)%nat /\ (off + len <= byte_len s)%nat).
Proof. exact unescape_total_located. Qed.
Print Assumptions C18_unescape_total.

(* with the segment starting at byte `base` of the source (span.location_offset()): the reported
   span [off, off+len) lies in [base, base + len(segment)) and starts after a whole prefix of
   characters (at the backslash) *)
Theorem C18_escape_error_offset_in_range : forall (s : list Z) (base off len : nat) (esc : list Z),
  psc s base = PscErr off len esc ->
  (base <= off)%nat /\ (off < base + byte_len s)%nat /\ (off + len <= base + byte_len s)%nat /\
  exists pre, firstn (length pre) s = pre /\ off = (base + byte_len pre)%nat.
Proof. exact escape_error_offset_in_range. Qed.
Print Assumptions C18_escape_error_offset_in_range.

(* latent (the only caller drops the error value): `length: 2` counts a multi-byte escaped character
   as one byte, so the END of the span can fall inside a character *)
Theorem C18_escape_error_span_end_not_boundary :
  exists s off len esc, parse_string_content_loc s = PscErr off len esc /\
    (off + len < byte_len s)%nat /\
    forall pre, firstn (length pre) s = pre -> byte_len pre <> (off + len)%nat.
Proof. exact escape_error_span_end_not_boundary. Qed.
Print Assumptions C18_escape_error_span_end_not_boundary.

(* normalize_blocks (simplify.rs, run by the compiler at compiler.rs:559) is structurally recursive on
   the AST: in the model that IS the termination argument (Coq's guard checker accepted it without
   fuel); the statement below records only that, it carries no further content *)
Theorem C18_normalize_blocks_total : forall (p : program) (o : options),
  exists q, normalize_blocks p o = q.
Proof. exact (fun p o => ex_intro _ (normalize_blocks p o) eq_refl). Qed.
Print Assumptions C18_normalize_blocks_total.

(* pretty.rs print: total with the explicit fuel `enough_fuel d`.  Proved by C17 (PrettyProofs.print_total,
   props/C17.v C17_print_total); re-exported here, not re-proved. *)
Theorem C18_print_total : forall (d : doc) (width : nat), exists out, Pretty.print d width = Some out.
Proof. exact print_total. Qed.
Print Assumptions C18_print_total.
