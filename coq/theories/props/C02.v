(* C02 — compiled execution agrees with the language's reference semantics.
   This file contains ONLY the property theorems, each closed by `exact <lemma>` and followed by
   Print Assumptions.  Proofs and the non-vacuity Examples: lang/LangProofs.v (the reference
   evaluator), lang/LangSimplifyProofs.v (block normalisation), lang/LangCompileProofs.v (the
   compile slice).

   Level: proof, PARTIAL.  What is proved: the reference evaluator is a well-defined (partial)
   function with the laws docs/spec.md states; block normalisation preserves it; for a FRAGMENT of
   the language the mirror lang/LangCompile.v of compiler.rs's code generation is correct on the
   VM model (C02_compile_program_correct below).  What is NOT proved, and is decided per program
   by the differential check vplib/props/c02.py (real parser's AST -> extracted evaluator vs real
   compiler + real VM):

     compile_correct (NOT PROVED for compiler.rs, of which there is no model beyond the mirror of
     that fragment):
       forall (p : program) (v : value) n,
         eval_program mods n p = Ret v _ ->
         run (compile p) = v     (after erasing tuple ids to (name, labels); `compile`, `run`: the
                                  real compiler and VM)

     normalize_preserves_eval is PROVED below (C02_normalize_preserves_eval) for the model
       lang/LangSimplify.v of simplify.rs with the compiler's options (keep nothing, lift, no
       grouping); the model is tied to the real `normalize_blocks` by differential runs
       (`qv_ast --norm` dumps the AST before/after, the extracted model must map one to the other).
*)
From Coq Require Import ZArith List Bool.
From Quiver Require Import lang.Lang lang.LangProofs lang.LangSimplify lang.LangSimplifyProofs lang.LangCompile lang.LangCompileProofs.
Import ListNotations.
Open Scope Z_scope.

(* Notation: one level of the evaluator is parameterised by the fuel of the type tests `tf`, by
   `cf` (calling a function value) and `imf` (importing a module); `call mods n`,
   `eval_import mods n`, `eval_program mods n`, `eval mods n` tie the knot on the fuel. *)

Theorem C02_chain_infallible : forall tf cf imf c e t ts v x e1 w,
  eval_term tf cf imf c t e v = Ret (x, e1) w ->
  eval_chain tf cf imf c (Chain None (t :: ts)) e v =
  tick w (tick (match t, ts with
                | Match _, _ :: _ => if is_nil x then ev_mid_fail else st0
                | _, _ => st0
                end) (eval_chain tf cf imf c (Chain None ts) e1 x)).
Proof. exact chain_infallible. Qed.
Print Assumptions C02_chain_infallible.

Theorem C02_sequence_short_circuit : forall tf cf imf c e ch rest v x e1 w,
  rest <> [] ->
  eval_chain tf cf imf c ch e v = Ret (x, e1) w -> is_nil x = true ->
  eval_sequence tf cf imf c (Sequence (ch :: rest)) e v = Ret (vnil, e1) (st_add w ev_short).
Proof. exact sequence_short_circuit. Qed.
Print Assumptions C02_sequence_short_circuit.

Theorem C02_branch_fallthrough : forall tf cf imf c e cond conseq rest v x e1 w,
  eval_sequence tf cf imf c cond e v = Ret (x, e1) w -> is_nil x = true ->
  eval_expr tf cf imf c (Expression (Branch cond conseq :: rest)) e v =
  tick w (tick ev_fallthrough (eval_expr tf cf imf c (Expression rest) e v)).
Proof. exact branch_fallthrough. Qed.
Print Assumptions C02_branch_fallthrough.

Theorem C02_consequence_commits : forall tf cf imf c e cond k rest v x e1 w y e2 w2,
  eval_sequence tf cf imf c cond e v = Ret (x, e1) w -> is_nil x = false ->
  eval_sequence tf cf imf c k e1 v = Ret (y, e2) w2 ->
  exists w', eval_expr tf cf imf c (Expression (Branch cond (Some k) :: rest)) e v = Ret y w'.
Proof. exact consequence_commits. Qed.
Print Assumptions C02_consequence_commits.

Theorem C02_block_scoping : forall tf cf imf c e b v r e' w,
  eval_term tf cf imf c (Block b) e v = Ret (r, e') w -> e' = e.
Proof. exact block_scoping. Qed.
Print Assumptions C02_block_scoping.

Theorem C02_closure_captures_by_value : forall tf cf imf c e f clo v,
  lookup_var f e = Some clo ->
  eval_term tf cf imf c (Access (mkAccess (Some (Identifier f)) [])) e v =
  with_env e (tick st0 (if is_callable clo then cf clo (tail_arg clo v) st0 else ret clo)).
Proof. exact closure_captures_by_value. Qed.
Print Assumptions C02_closure_captures_by_value.

(* a finished result is stable under more fuel: the semantics is a partial function *)
Theorem C02_eval_fuel_mono : forall mods n m c e b v r,
  (n <= m)%nat -> eval mods n c e b v = r -> r <> Timeout -> eval mods m c e b v = r.
Proof. exact eval_fuel_mono. Qed.
Print Assumptions C02_eval_fuel_mono.

Theorem C02_eval_program_fuel_mono : forall mods n m p r,
  (n <= m)%nat -> eval_program mods n p = r -> r <> Timeout -> eval_program mods m p = r.
Proof. exact eval_program_fuel_mono. Qed.
Print Assumptions C02_eval_program_fuel_mono.

(* ... for the two judgements that consume fuel (function calls with their tail-call loop, and
   imports) *)
Theorem C02_fuel_mono_all_judgements : forall mods n m, (n <= m)%nat -> mono_at mods n m.
Proof. exact mono_all. Qed.
Print Assumptions C02_fuel_mono_all_judgements.

Theorem C02_eval_deterministic : forall mods n m c e b v,
  eval mods n c e b v <> Timeout -> eval mods m c e b v <> Timeout ->
  eval mods n c e b v = eval mods m c e b v.
Proof. exact eval_deterministic. Qed.
Print Assumptions C02_eval_deterministic.

(* a match evaluates to Ok or []; on success the scope grows by the pattern's bindings, on
   failure by its static binders, all nil (reading R3 of Lang.v); nothing else changes *)
Theorem C02_match_verdict : forall n c e p v r e' w,
  do_match n c e p v = Ret (r, e') w ->
  (r = vok /\ exists b, pmatch n (c_tenv c) e [] p v = POk b /\ e' = b ++ e) \/
  (r = vnil /\ pmatch n (c_tenv c) e [] p v = PFail /\ e' = nil_fill (binders p) ++ e).
Proof. exact match_verdict. Qed.
Print Assumptions C02_match_verdict.

(* inside one pattern, a successful sub-match only adds bindings *)
Theorem C02_pmatch_extends : forall n te outer p b v b',
  pmatch n te outer b p v = POk b' -> exists d, b' = d ++ b.
Proof. exact pmatch_extends. Qed.
Print Assumptions C02_pmatch_extends.

Theorem C02_bare_binder_always_succeeds : forall n c e x v,
  do_match n c e (MIdentifier x) v = Ret (vok, (x, v) :: e) st0.
Proof. exact bare_binder_always_succeeds. Qed.
Print Assumptions C02_bare_binder_always_succeeds.

(* the names a successful match adds to the scope are static binders of the pattern (for
   patterns without `*`, whose binders depend on the value, and whose or-alternatives bind
   names of the first alternative, as the compiler demands) *)
Theorem C02_match_binds_only_binders : forall n c e p v e' w,
  wf_pat p -> do_match n c e p v = Ret (vok, e') w ->
  exists d, e' = d ++ e /\ incl (map fst d) (binders p).
Proof. exact match_binds_only_binders. Qed.
Print Assumptions C02_match_binds_only_binders.

(* simplify.rs block normalisation preserves the reference semantics. *)

(* the evaluator does not see a redundant block spliced into its chain ... *)
Theorem C02_splice_noop : forall tf cf imf c ts e v,
  eqv (terms_with (eval_term tf cf imf c) (splice ts) e v) (terms_with (eval_term tf cf imf c) ts e v).
Proof. exact splice_noop. Qed.
Print Assumptions C02_splice_noop.

(* ... nor a multi-step binding-free block lifted into its sequence *)
Theorem C02_lift_noop : forall tf cf imf c cs e v,
  eqv (seq_with (eval_chain tf cf imf c) (lift_chains cs) e v) (seq_with (eval_chain tf cf imf c) cs e v).
Proof. exact lift_noop. Qed.
Print Assumptions C02_lift_noop.

(* at EVERY fuel the normalised program (with normalised modules) has the same outcome — value,
   tail call, error or out-of-fuel — as the program, up to the event counters (`erase`) and to
   normalising the bodies of the function values inside the result (`nv`) *)
Theorem C02_normalize_preserves_eval : forall mods n p,
  erase (eval_program (nmods mods) n (normalize p)) = erase (rmap nv (eval_program mods n p)).
Proof. exact normalize_preserves_eval. Qed.
Print Assumptions C02_normalize_preserves_eval.

(* a result without function values is literally the same value *)
Theorem C02_normalize_preserves_value : forall mods n p v w,
  eval_program mods n p = Ret v w -> closure_free v ->
  exists w', eval_program (nmods mods) n (normalize p) = Ret v w'.
Proof. exact normalize_preserves_value. Qed.
Print Assumptions C02_normalize_preserves_value.

Theorem C02_normalize_preserves_termination : forall mods n p,
  eval_program (nmods mods) n (normalize p) = Timeout <-> eval_program mods n p = Timeout.
Proof. exact normalize_preserves_termination. Qed.
Print Assumptions C02_normalize_preserves_termination.

(* the same for calling a function value and for importing a module *)
Theorem C02_call_import_norm : forall mods n,
  (forall f a acc acc', sim nv (call (nmods mods) n (nv f) (nv a) acc') (call mods n f a acc)) /\
  (forall path, sim nv (eval_import (nmods mods) n path) (eval_import mods n path)).
Proof. exact call_import_norm. Qed.
Print Assumptions C02_call_import_norm.

(* Compile slice: for a fragment of the core language the code generation of compiler.rs is
   mirrored by lang/LangCompile.v (compared with the real compiler's bytecode on every run:
   `qv_ast --code` vs the extracted `compile_program (normalize p)`, identical instructions after
   resolving constant indices and tuple ids) and PROVED to simulate the reference evaluator on the
   VM model vm/Vm.v (C07's, itself tied to executor.rs by C07's value-level lock-step run).

   IN the fragment: integer literals; tuple literals without spreads; positional access on the
   flowing value and on identifiers; the bare binder (`x = chain`, `chain =x`); integer-literal
   matches (`=5`); chains; sequences with their nil short-circuit; BLOCKS — the block's input in a
   fresh slot (Store/Load), any number of branches, each a condition sequence with or without a
   `=>` consequence sequence, fall-through to the next branch with the input re-loaded, Reset of
   the slots a branch bound and of the block's own slot at the exit; NON-CAPTURING FUNCTIONS with a
   non-nil parameter, bound by `f = #T { body }` (IFunction) and called `arg f` (ILoad; ICall: the
   callee's frame, its own locals above the caller's, the frame pop), to any call depth.
   NOT in the fragment (the mirror answers None): a `=>` branch whose CONDITION binds (the
   compiler then emits an out-of-line failure handler), spreads, label access (`.x`: resolved
   through the static type), strings/binaries, tuple/partial/star/type/or/pin patterns, function
   values anywhere but as the value of a binding step (in tuples, as arguments, `&f`), capturing
   or nilary functions, tail calls (ITailCall), builtins, imports, processes.  Not mirrored: after
   a step whose STATIC type is nil the real compiler drops the rest of the sequence (a non-final
   nil-literal step is refused; the generator produces no other statically-nil value).

   IEqual: the VM model takes the verdict of Equal as an outside input (`x_bool`).  The run the
   theorems exhibit supplies, at each IEqual of a literal match `=z`, the verdict of the
   EVALUATOR's own structural equality (`lit_verdict z v`: v is the integer z); every other step
   uses no outside input.  (C13 proves that the real `values_equal` is that structural equality.)

   SIM P fn C caps shapes isfun fnum base rest pers ev c sc sc' (LangCompileProofs.v) reads: whenever the
   evaluator judgement `ev e v` yields (v', e'), the machine of function `fn`, whose code C holds
   `c` at pc, started with a value related to v on top of ANY stack and locals related to the scope
   sc/e above any `base` locals, runs to pc + |c| with a value related to v' on top of the same
   stack and locals — an extension of the initial ones — related to sc'/e'. *)
Theorem C02_compile_simulates :
  forall (P : Quiver.vm.Bytecode.program) (fn : nat) (C : list Quiver.vm.Bytecode.instr) (caps : nat),
    nth_error (Quiver.vm.Bytecode.p_funcs P) fn = Some (Quiver.vm.Bytecode.Build_func C caps) ->
    forall (pool : list Z) (shapes : list shape),
    (forall z k, const_index pool z = Some k -> nth_error (Quiver.vm.Bytecode.p_consts P) k = Some (Quiver.vm.Bytecode.CInt z)) ->
    (forall sh t, shape_index shapes sh = Some t -> nth_error (Quiver.vm.Bytecode.p_tuples P) t = Some (length (snd sh))) ->
    (exists r, shapes = nil_shape :: ok_shape :: r) ->
    forall (isfun : atom -> bool) (fnum : expression -> option nat),
    (forall body k, fnum body = Some k ->
       exists code, function_code pool shapes isfun fnum body = Some code /\
                    nth_error (Quiver.vm.Bytecode.p_funcs P) k = Some (Quiver.vm.Bytecode.Build_func code 0)) ->
    forall (base : nat) (rest : list Quiver.vm.Vm.frame) (pers : bool) tf cf imf,
    (* calls at the evaluator's current fuel are simulated (C02_call_simulates discharges this for
       `call mods n`, every n) *)
    (forall body cenv te k a acc r w ma pc stk locs,
       fnum body = Some k -> cf (VClos false (Some body) cenv te) a acc = Ret r w -> vrel shapes a ma ->
       nth_error C pc = Some Quiver.vm.Bytecode.ICall ->
       exists mr, star P (st fn caps base rest pers pc (Quiver.vm.Bytecode.VFun k nil :: ma :: stk) locs)
                         (st fn caps base rest pers (S pc) (mr :: stk) locs) /\ vrel shapes r mr) ->
    (forall t ctx sc c sc', compile_term pool shapes isfun fnum sc t = Some (c, sc') ->
                            SIM P fn C caps shapes isfun fnum base rest pers (eval_term tf cf imf ctx t) c sc sc') /\
    (forall ch ctx sc c sc', compile_chain pool shapes isfun fnum sc ch = Some (c, sc') ->
                             SIM P fn C caps shapes isfun fnum base rest pers (eval_chain tf cf imf ctx ch) c sc sc').
Proof. exact compile_simulates. Qed.
Print Assumptions C02_compile_simulates.

(* blocks: the term `{ branches }` — Store/Load of the input, the branches with their fall-through
   and commit jumps, the Resets — leaves the scope and the locals as they were and the block's
   value on the stack *)
Theorem C02_compile_block_simulates :
  forall (P : Quiver.vm.Bytecode.program) (fn : nat) (C : list Quiver.vm.Bytecode.instr) (caps : nat),
    nth_error (Quiver.vm.Bytecode.p_funcs P) fn = Some (Quiver.vm.Bytecode.Build_func C caps) ->
    forall (pool : list Z) (shapes : list shape),
    (forall z k, const_index pool z = Some k -> nth_error (Quiver.vm.Bytecode.p_consts P) k = Some (Quiver.vm.Bytecode.CInt z)) ->
    (forall sh t, shape_index shapes sh = Some t -> nth_error (Quiver.vm.Bytecode.p_tuples P) t = Some (length (snd sh))) ->
    (exists r, shapes = nil_shape :: ok_shape :: r) ->
    forall (isfun : atom -> bool) (fnum : expression -> option nat),
    (forall body k, fnum body = Some k ->
       exists code, function_code pool shapes isfun fnum body = Some code /\
                    nth_error (Quiver.vm.Bytecode.p_funcs P) k = Some (Quiver.vm.Bytecode.Build_func code 0)) ->
    forall (base : nat) (rest : list Quiver.vm.Vm.frame) (pers : bool) tf cf imf,
    (forall body cenv te k a acc r w ma pc stk locs,
       fnum body = Some k -> cf (VClos false (Some body) cenv te) a acc = Ret r w -> vrel shapes a ma ->
       nth_error C pc = Some Quiver.vm.Bytecode.ICall ->
       exists mr, star P (st fn caps base rest pers pc (Quiver.vm.Bytecode.VFun k nil :: ma :: stk) locs)
                         (st fn caps base rest pers (S pc) (mr :: stk) locs) /\ vrel shapes r mr) ->
    forall bs ctx sc c sc',
    compile_term pool shapes isfun fnum sc (Block (Expression bs)) = Some (c, sc') ->
    SIM P fn C caps shapes isfun fnum base rest pers (eval_term tf cf imf ctx (Block (Expression bs))) c sc sc'.
Proof. exact compile_block_simulates. Qed.
Print Assumptions C02_compile_block_simulates.

(* calls: for EVERY fuel n the evaluator's `call mods n` of a function value (non-capturing, with a
   non-nil parameter) is simulated from every caller frame: Call pushes the callee's frame, the
   callee's code (store; load 0; branches; reset 0) runs, the exhausted frame is popped, and the
   caller continues after the Call with the related result.
   call_simulated P shapes fnum mods n (LangCompileProofs.v) is exactly the premise about `cf` of
   the two theorems above, with cf := call mods n, for all fn C caps base rest pers. *)
Theorem C02_call_simulates :
  forall (P : Quiver.vm.Bytecode.program) (pool : list Z) (shapes : list shape) (isfun : atom -> bool) (fnum : expression -> option nat),
    (forall z k, const_index pool z = Some k -> nth_error (Quiver.vm.Bytecode.p_consts P) k = Some (Quiver.vm.Bytecode.CInt z)) ->
    (forall sh t, shape_index shapes sh = Some t -> nth_error (Quiver.vm.Bytecode.p_tuples P) t = Some (length (snd sh))) ->
    (exists r, shapes = nil_shape :: ok_shape :: r) ->
    (forall body k, fnum body = Some k ->
       exists code, function_code pool shapes isfun fnum body = Some code /\
                    nth_error (Quiver.vm.Bytecode.p_funcs P) k = Some (Quiver.vm.Bytecode.Build_func code 0)) ->
    forall mods n, call_simulated P shapes fnum mods n.
Proof. exact call_simulates. Qed.
Print Assumptions C02_call_simulates.

(* whole programs: the VM started as spawn_process starts it reaches the end of the compiled
   code with the evaluator's value on the stack, pops the frame and finishes with that value *)
Theorem C02_compile_program_correct :
  forall (P : Quiver.vm.Bytecode.program) (pool : list Z) (shapes : list shape) (isfun : atom -> bool) (fnum : expression -> option nat),
    (forall z k, const_index pool z = Some k -> nth_error (Quiver.vm.Bytecode.p_consts P) k = Some (Quiver.vm.Bytecode.CInt z)) ->
    (forall sh t, shape_index shapes sh = Some t -> nth_error (Quiver.vm.Bytecode.p_tuples P) t = Some (length (snd sh))) ->
    (exists r, shapes = nil_shape :: ok_shape :: r) ->
    (forall body k, fnum body = Some k ->
       exists code, function_code pool shapes isfun fnum body = Some code /\
                    nth_error (Quiver.vm.Bytecode.p_funcs P) k = Some (Quiver.vm.Bytecode.Build_func code 0)) ->
    forall (mods : list (list atom * program)) (fn : nat) (p : program) (code : list Quiver.vm.Bytecode.instr) (pers : bool),
    compile_program pool shapes isfun fnum p = Some code ->
    nth_error (Quiver.vm.Bytecode.p_funcs P) fn = Some (Quiver.vm.Bytecode.Build_func code 0) ->
    forall n v w, eval_program mods n p = Ret v w ->
    exists mv ls,
      vrel shapes v mv /\
      star P (Quiver.vm.Vm.init_state fn nil Quiver.vm.Bytecode.vnil pers) (st fn 0 0 nil pers (length code) (mv :: nil) ls) /\
      (forall x, Quiver.vm.Vm.step P (st fn 0 0 nil pers (length code) (mv :: nil) ls) x =
                 Quiver.vm.Vm.Next (Quiver.vm.Vm.Build_state (mv :: nil) (if pers then ls else nil) nil pers)) /\
      (forall x, Quiver.vm.Vm.step P (Quiver.vm.Vm.Build_state (mv :: nil) (if pers then ls else nil) nil pers) x =
                 Quiver.vm.Vm.Finished mv (Quiver.vm.Vm.Build_state nil (if pers then ls else nil) nil pers)).
Proof. exact compile_program_correct. Qed.
Print Assumptions C02_compile_program_correct.

(* what the compiler does — normalise the blocks, then generate code — computes the value the
   reference evaluator assigns to the ORIGINAL program *)
Theorem C02_normalize_then_compile_correct :
  forall (P : Quiver.vm.Bytecode.program) (pool : list Z) (shapes : list shape) (isfun : atom -> bool) (fnum : expression -> option nat),
    (forall z k, const_index pool z = Some k -> nth_error (Quiver.vm.Bytecode.p_consts P) k = Some (Quiver.vm.Bytecode.CInt z)) ->
    (forall sh t, shape_index shapes sh = Some t -> nth_error (Quiver.vm.Bytecode.p_tuples P) t = Some (length (snd sh))) ->
    (exists r, shapes = nil_shape :: ok_shape :: r) ->
    (forall body k, fnum body = Some k ->
       exists code, function_code pool shapes isfun fnum body = Some code /\
                    nth_error (Quiver.vm.Bytecode.p_funcs P) k = Some (Quiver.vm.Bytecode.Build_func code 0)) ->
    forall (fn : nat) (p : program) (code : list Quiver.vm.Bytecode.instr) (pers : bool),
    compile_program pool shapes isfun fnum (normalize p) = Some code ->
    nth_error (Quiver.vm.Bytecode.p_funcs P) fn = Some (Quiver.vm.Bytecode.Build_func code 0) ->
    forall mods n v w, eval_program mods n p = Ret v w -> closure_free v ->
    exists mv ls,
      vrel shapes v mv /\
      star P (Quiver.vm.Vm.init_state fn nil Quiver.vm.Bytecode.vnil pers) (st fn 0 0 nil pers (length code) (mv :: nil) ls) /\
      (forall x, Quiver.vm.Vm.step P (st fn 0 0 nil pers (length code) (mv :: nil) ls) x =
                 Quiver.vm.Vm.Next (Quiver.vm.Vm.Build_state (mv :: nil) (if pers then ls else nil) nil pers)) /\
      (forall x, Quiver.vm.Vm.step P (Quiver.vm.Vm.Build_state (mv :: nil) (if pers then ls else nil) nil pers) x =
                 Quiver.vm.Vm.Finished mv (Quiver.vm.Vm.Build_state nil (if pers then ls else nil) nil pers)).
Proof. exact normalize_then_compile_correct. Qed.
Print Assumptions C02_normalize_then_compile_correct.
