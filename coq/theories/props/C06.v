(* C06 — Binary heap accounting is exact: no leak, no premature free, no aliasing damage.

   Model: theories/heap/Heap.v (heap + choke points), theories/heap/HeapVm.v (every instruction
   handler, the select machine, notify_*, spawn_process, frame auto-pop and completion of
   Executor::step, replace_locals / release_orphan_locals; debug-build semantics: every
   debug_assert and every Vec index is a Panic outcome), theories/heap/HeapVmFix.v (spawn_process
   after fix_F46). The repairs are committed in /repo (fix_F9 = b6882e1, fix_F46 = 9ff9f6e, fix_F45 =
   09625d4): the model of the code AS COMMITTED is `true` as first argument of a handler (the
   displaced awaiting/receiving value is released; complete_select forgets the select's process
   sources and releases their stored results; notify_result stores nothing for a key that is no
   longer awaited; the worker's Err arm fails only an awaiter that still awaits) — together with
   8388832 (a select re-parks, touching nothing, until every awaited process has been reported) — and
   `spawn_process_f46` (one bundled injection); `false` and `spawn_process` model the code before
   the repairs and carry the `_refuted` witnesses.

   Vocabulary (theories/heap/HeapInv.v, HeapExec.v, HeapProofs.v):
     RC x      := forall i, rc_at (x_heap x) i = cnt i (all_refs x)
                  — refcounts[i] = the exact number of occurrences of Heap(i) in ALL roots: every
                  process's stack, locals, mailbox, Ok result, select sources and `receiving`,
                  awaiting values, plus one per constant-cache entry (stronger than the code's own
                  check_refcounts, which only demands  > 0 <=> reachable).
     XInv x    := WFh (x_heap x) /\ RC x /\ NoDup (map fst (x_procs x))
     WFh h     := refcounts/freed parallel to heap, free = {i | freed i} without duplicates,
                  freed i -> refcounts i = 0, pending_free indices in range
     Inv o h p := WFh h /\ forall i, rc_at h i = cnt i o + cnt i (cb_refs h) + cnt i (proc_refs p)
                  — the same exact count for the RUNNING process taken out of the map, `o` = the
                  references held by all other processes
     Good o h p r := the result r of a handler started in (h, p), on its Ok AND its Err path,
                  satisfies Inv o again, keeps the bytes of every non-free slot (`stable`), and
                  leaves the process result untouched (a Panic result claims nothing)
     NoOrphan h := every slot with count 0 is freed or queued in pending_free.

   PARTIAL (what no theorem here covers):
   * `refcount_exact` for the code BEFORE fix_F9 is false: refuted below at initialize_select,
     notify_result and call_receive_function; the un-negated theorems are for the code as
     committed (fx = true). Sites not touched by F9 are proved for both.
   * C06_refcount_exact_step keeps the premise "a process that has an `awaiting` key for the failing
     process holds no Ok result with references": the awaiters loop of Executor::step
     (executor.rs, `awaiter_process.result = Some(Err(..))`) is unchanged by 09625d4 and still
     overwrites unconditionally. What 09625d4 guarantees is that a key exists only between
     initialize_select and complete_select of the select that registered it, i.e. while the awaiter
     is blocked in that select and its `result` is None (resume_process takes it) — a reachability
     fact about programs, not a local invariant of the model (arbitrary bytecode could finish a
     process while its select state is set), so it is a premise; the stale-key scenario of F45h
     itself does not arise at fx = true (C06_F45h_repaired, C06_F45_complete_select_forgets) and
     its reproducer is a must-pass probe of the check.
   * reclaim_complete needs NoOrphan, which `spawn_process` (the code before fix_F46) breaks
     (refuted below);
     NoOrphan-preservation is proved for the heap primitives only, not per handler (for the
     repaired spawn_process it is validated on every run: the oracle counts orphan slots).
   * Theorems are conditional on the operation returning `Val`/not panicking: absence of the
     debug-assert panics (release underflow, retain of a freed slot) is validated by the
     correspondence and the oracle on the real code, not proved.
   * Spawn/Send with fewer than two operands, or Send to a non-process target holding a binary,
     leak in the code (raw pops); they are excluded by `instr_pre` (what C07's verifier and typing
     guarantee) — see HeapHandlers.handle_spawn_underflow_leaks / handle_send_badtarget_leaks. *)
From Quiver Require Import heap.HeapAll.
Require Import List.
Import ListNotations.
Local Open Scope nat_scope.

(* refcount_exact: choke points *)
Theorem C06_refcount_exact_chokepoints : forall o v n h p,
  Inv o h p ->
  Good o h p (push_value v h p) /\ Good o h p (pop_value h p) /\
  Good o h p (push_local v h p) /\ Good o h p (truncate_locals n h p).
Proof. exact chokepoints_good. Qed.
Print Assumptions C06_refcount_exact_chokepoints.

(* refcount_exact: every one of the 24 instruction handlers (fx = true, the code of /repo) *)
Theorem C06_refcount_exact_handlers : forall P pid i x o h p,
  instr_pre p i -> Inv o h p -> Good o h p (exec_instr true P pid i x h p).
Proof. exact exec_instr_good_all. Qed.
Print Assumptions C06_refcount_exact_handlers.

(* the handlers F9 does not touch (all but Select): for both values of fx *)
Theorem C06_refcount_exact_handlers_as_found : forall fx P pid i x o h p,
  i <> ISelect -> instr_pre p i -> Inv o h p -> Good o h p (exec_instr fx P pid i x h p).
Proof. exact exec_instr_good. Qed.
Print Assumptions C06_refcount_exact_handlers_as_found.

(* refcount_exact + bytes_stable BETWEEN TIME SLICES: one Executor::step, any quantum q, any
   process, any outside inputs (ppf, instruction loop, frame auto-pop, completion, notification
   of awaiters) *)
Theorem C06_refcount_exact_step : forall P x pid q xs dflt x',
  XInv x ->
  (forall pid0 p0 h0, pid = Some pid0 -> get_proc x pid0 = Some p0 -> ppf (x_heap x) = Val h0 ->
     result_refs (p_result p0) = [] /\ SlicePre true P instr_pre pid0 q xs dflt h0 p0) ->
  (forall pid0 w pw, pid = Some pid0 -> w <> pid0 -> get_proc x w = Some pw ->
     has_key pid0 (p_await pw) = true -> result_refs (p_result pw) = []) ->
  exec_step true P x pid q xs dflt = Val x' ->
  XInv x' /\
  (forall i, cnt i (all_refs x) > 0 -> cnt i (all_refs x') > 0 ->
     bytes_at (x_heap x') i = bytes_at (x_heap x) i /\ freed_at (x_heap x') i = false).
Proof. exact exec_step_XInv_all. Qed.
Print Assumptions C06_refcount_exact_step.

(* refcount_exact + bytes_stable for the operations that reach an executor between slices *)
Theorem C06_refcount_exact_notify_message : forall x pid v data x',
  XInv x -> notify_message x pid v data = Val x' -> XInv x' /\ xstable x x'.
Proof. exact notify_message_XInv. Qed.
Print Assumptions C06_refcount_exact_notify_message.

Theorem C06_refcount_exact_notify_result : forall x awaiter awaited v data x',
  XInv x -> notify_result true x awaiter awaited v data = Val x' -> XInv x' /\ xstable x x'.
Proof. exact notify_result_XInv. Qed.
Print Assumptions C06_refcount_exact_notify_result.

(* notify_await_report (8388832): reporting the state of awaited processes moves no reference *)
Theorem C06_refcount_exact_await_report : forall x awaiter targets,
  XInv x -> XInv (report_await x awaiter targets) /\ xstable x (report_await x awaiter targets).
Proof. exact report_await_XInv. Qed.
Print Assumptions C06_refcount_exact_await_report.

Theorem C06_refcount_exact_notify_spawn : forall x pid pv x',
  refs_of pv = [] -> XInv x -> notify_spawn x pid pv = Val x' -> XInv x' /\ xstable x x'.
Proof. exact notify_spawn_XInv. Qed.
Print Assumptions C06_refcount_exact_notify_spawn.

Theorem C06_refcount_exact_spawn_process : forall x pid fn caps arg data pers x',
  XInv x -> get_proc x pid = None ->
  spawn_process_f46 x pid fn caps arg data pers = Val x' -> XInv x' /\ xstable x x'.
Proof. exact spawn_process_f46_XInv. Qed.
Print Assumptions C06_refcount_exact_spawn_process.

(* the per-capture injection of the code before fix_F46 keeps the exact count too (it only
   strands slots, see C06_F46_spawn_orphans_refuted) *)
Theorem C06_refcount_exact_spawn_process_before_F46 : forall x pid fn caps arg data pers x',
  XInv x -> get_proc x pid = None ->
  spawn_process x pid fn caps arg data pers = Val x' -> XInv x' /\ xstable x x'.
Proof. exact spawn_process_XInv. Qed.
Print Assumptions C06_refcount_exact_spawn_process_before_F46.

(* Worker::compact_locals (quiver-environment/src/worker.rs): the kept values are clones of the
   current locals, handed to Executor::replace_locals; an index out of range changes nothing *)
Theorem C06_refcount_exact_replace_locals : forall x pid keep x',
  XInv x -> compact_locals x pid keep = Val x' -> XInv x' /\ xstable x x'.
Proof. exact compact_locals_XInv. Qed.
Print Assumptions C06_refcount_exact_replace_locals.

Theorem C06_refcount_exact_release_orphan_locals : forall x pid keep x',
  XInv x -> release_orphan_locals x pid keep = Val x' -> XInv x' /\ xstable x x'.
Proof. exact release_orphan_locals_XInv. Qed.
Print Assumptions C06_refcount_exact_release_orphan_locals.

Theorem C06_refcount_exact_resume : forall x pid fn, XInv x -> XInv (resume_process x pid fn).
Proof. exact resume_process_XInv. Qed.
Print Assumptions C06_refcount_exact_resume.

(* no_use_after_free *)
Theorem C06_no_use_after_free : forall x,
  XInv x -> forall i, freed_at (x_heap x) i = true -> cnt i (all_refs x) = 0.
Proof. exact no_use_after_free_x. Qed.
Print Assumptions C06_no_use_after_free.

(* reclaim_sound / reclaim_complete (process_pending_free never panics on a well-formed heap) *)
Theorem C06_reclaim_total : forall h, WFh h -> exists h', ppf h = Val h'.
Proof. exact ppf_total. Qed.
Print Assumptions C06_reclaim_total.

Theorem C06_reclaim_sound : forall h h',
  WFh h -> ppf h = Val h' ->
  forall i, freed_at h' i = true -> freed_at h i = false -> rc_at h i = 0 /\ In i (pending h).
Proof. exact reclaim_sound. Qed.
Print Assumptions C06_reclaim_sound.

Theorem C06_reclaim_complete : forall h h',
  WFh h -> NoOrphan h -> ppf h = Val h' ->
  forall i, i < length (cells h') -> rc_at h' i = 0 -> freed_at h' i = true.
Proof. exact reclaim_complete. Qed.
Print Assumptions C06_reclaim_complete.

(* bytes_stable: materialize flattens in place, denotation unchanged *)
Theorem C06_bytes_stable_materialize : forall h i h' bs,
  materialize h i = Val (h', bs) ->
  rcs h' = rcs h /\ free h' = free h /\ pending h' = pending h /\ freed h' = freed h /\
  cbins h' = cbins h /\ length (cells h') = length (cells h) /\
  (forall j, bytes_at h' j = bytes_at h j) /\ bs = bytes_at h i.
Proof. exact materialize_spec. Qed.
Print Assumptions C06_bytes_stable_materialize.

(* transfer_copies *)
Theorem C06_transfer_copies : forall h h2 v v' data h2' v'',
  WFh h2 -> extract h v = Val (v', data) -> inject h2 v' data = Val (h2', v'') ->
  denote h2' v'' = denote h v.
Proof. exact transfer_copies_l. Qed.
Print Assumptions C06_transfer_copies.

(* refuted, witnesses by computation: the models of the code before fix_F9 / fix_F46 / fix_F45
   (first argument `false`; `spawn_process`) *)
Theorem C06_F9_initialize_select_refuted :
  exists o h p pid now,
    Inv o h p /\ p_sel p = None /\
    match initialize_select false pid now h p with
    | MVal _ h' p' => ~ Inv o h' p'
    | _ => False
    end.
Proof. exact initialize_select_refuted. Qed.
Print Assumptions C06_F9_initialize_select_refuted.

Theorem C06_F9_notify_result_refuted :
  exists x v, XInv x /\ exists x', notify_result false x 0 1 v [] = Val x' /\ ~ RC x'.
Proof. exact notify_result_refuted. Qed.
Print Assumptions C06_F9_notify_result_refuted.

Theorem C06_F9_call_receive_refuted : forall P,
  exists o h p ridx midx msg src x,
    Inv o h p /\ p_sel p <> None /\
    match call_receive_function false P ridx midx msg src x h p with
    | MVal _ h' p' | MErr _ h' p' => ~ Inv o h' p'
    | MPanic _ => False
    end.
Proof. exact call_receive_refuted. Qed.
Print Assumptions C06_F9_call_receive_refuted.

Theorem C06_F46_spawn_orphans_refuted :
  exists x x', XInv x /\ NoOrphan (x_heap x) /\
    spawn_process x 1 (Some 0) [VBin 0] (VInt 0%Z) [[1%Z]] false = Val x' /\ ~ NoOrphan (x_heap x').
Proof. exact spawn_orphans_refuted. Qed.
Print Assumptions C06_F46_spawn_orphans_refuted.

(* the same spawn with spawn_process_f46 (the code of /repo) strands nothing *)
Theorem C06_F46_repaired_no_orphan :
  exists x', spawn_process_f46 (mkExec empty_heap []) 1 (Some 0) [VBin 0] (VInt 0%Z) [[1%Z]] false = Val x' /\
             rcs (x_heap x') = [1] /\ freed (x_heap x') = [false] /\ length (cells (x_heap x')) = 1.
Proof. exact spawn_f46_no_orphan. Qed.
Print Assumptions C06_F46_repaired_no_orphan.

Theorem C06_F45h_fail_result_refuted : exists x, XInv x /\ ~ RC (fail_result false x 0 1).
Proof. exact fail_result_refuted. Qed.
Print Assumptions C06_F45h_fail_result_refuted.

(* fx = true (/repo, with 09625d4): the same stale failure changes nothing *)
Theorem C06_F45h_repaired :
  fail_result true fr_exec 0 1 = fr_exec /\ XInv (fail_result true fr_exec 0 1).
Proof. exact fail_result_repaired. Qed.
Print Assumptions C06_F45h_repaired.

(* fx = true (/repo, with 09625d4): completing a select on a process forgets it — the `awaiting`
   entry disappears and the stored result is released; at fx = false the entry and its count stay *)
Theorem C06_F45_complete_select_forgets :
  match complete_select true (VInt 1) wit_heap
          (mkProc [] [] [wit_frame] false [] None (Some (mkSel 0 0 [VProc 7 0] [] None None))
                  [(7, Some (VBin 0))] []) with
  | MVal None h' p' => rc_at h' 0 = 0 /\ p_await p' = [] /\ pending h' = [0]
  | _ => False
  end /\
  match complete_select false (VInt 1) wit_heap
          (mkProc [] [] [wit_frame] false [] None (Some (mkSel 0 0 [VProc 7 0] [] None None))
                  [(7, Some (VBin 0))] []) with
  | MVal None h' p' => rc_at h' 0 = 1 /\ p_await p' = [(7, Some (VBin 0))]
  | _ => False
  end.
Proof. exact complete_select_forgets. Qed.
Print Assumptions C06_F45_complete_select_forgets.

(* a stale failure never touches a process that no longer awaits the failed one *)
Theorem C06_F45_stale_failure_inert : forall x pid awaited p,
  get_proc x pid = Some p -> has_key awaited (p_await p) = false -> fail_result true x pid awaited = x.
Proof. exact fail_result_stale. Qed.
Print Assumptions C06_F45_stale_failure_inert.

(* the worker's Err arm on an awaiter that still awaits (its result carries no reference) *)
Theorem C06_refcount_exact_fail_result : forall fx x pid awaited,
  XInv x -> (forall p, get_proc x pid = Some p -> result_refs (p_result p) = []) ->
  XInv (fail_result fx x pid awaited).
Proof. exact fail_result_XInv. Qed.
Print Assumptions C06_refcount_exact_fail_result.

(* non-vacuity: a heap with a shared, sliced binary in two processes satisfies the invariant *)
Theorem C06_nonvacuous_shared_sliced :
  XInv sh_exec /\
  bytes_at (x_heap sh_exec) 1 = [2; 3]%Z /\ cnt 0 (all_refs sh_exec) = 3 /\ cnt 1 (all_refs sh_exec) = 1.
Proof. exact (conj shared_sliced_RC shared_sliced_bytes). Qed.
Print Assumptions C06_nonvacuous_shared_sliced.
