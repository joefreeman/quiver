(* C04 — Messages: exactly-once, per-sender FIFO, no lost wake-ups.
   ONLY property theorems: statement, `exact <lemma>`, Print Assumptions.
   Model: sys/Proto.v (M-Sys: Executor scheduling state, Worker, Environment, transports; process
   behaviour and HashMap iteration orders are inputs, universally quantified here; ghost stamps
   (sender, worker, sequence number) on messages). Tied to the code by replaying `qv_sim --trace`
   runs of the real Environment/Workers through the extracted model, state compared after every
   action (vplib/props/c04.py).

   PROVED for every schedule and every oracle: message_conservation, stamps_unique (together:
   every sent message is in exactly one of event queue / command queue / arrival log),
   per_link_fifo / per_sender_fifo (the send sequence of a worker to a target IS arrival log ++
   command queue ++ event queue, as lists), no_message_dropped (a DeliverMessage is never handled
   for a process that does not exist).
   Also PROVED for every schedule and every oracle:
     scheduler_well_formed : in every reachable state the executor sets of every worker are well
                            formed (run queue duplicate-free, `spawning` / `selecting` / queue pairwise
                            disjoint and naming existing unfinished processes) and every process lives
                            on the worker the router names.
     spawner_gets_pid     : the GLOBAL invariant: for every process c,
                            #workers with c in `spawning` = #SpawnAction(c) queued + #NotifySpawn(c,_)
                            queued <= 1, and a queued NotifySpawn sits in the queue of the worker
                            that holds the spawner (the Spawn instruction adds c to `spawning` and
                            emits the SpawnAction in one atomic slice, so "Spawn action pending" is
                            not a separate state of the model).
     arrival_log_is_mailbox_history : on every worker the DeliverMessages handled for target t (the
                            ghost arrival log restricted to t) ARE, as a list, p_arrived of t —
                            everything ever appended to t's mailbox; with per_link_fifo this makes
                            the FIFO theorems statements about mailboxes.
   no_lost_wakeup is the four clauses of Inv_parked (DESIGN.md §5 C04), each an invariant over all
   schedules; the first three hold for every oracle up to the stated premise on parking slices:
       awaited_completion_never_unseen : no process in `awaited` has a result between steps;
       no_timeout_due_at_last_check    : after every Worker::step at clock `now` no parked process
                                         has a timeout elapsed at `now` (for slices that do not
                                         park with a timeout already due: `time_honest`, C05 — a premise
                                         on PARKING slices only: a slice that ends runnable may end inside a
                                         select whose timeout is due, `! [0]` at quantum 1);
       parked_has_no_unseen_message    : a process parked in an evaluated select has every receive
                                         cursor at the end of its mailbox (for slices that park
                                         honestly: `honest_run`, the select machine of C05; a select
                                         that re-parks before all its awaited targets are reported
                                         — F72 — has its start unset and is not constrained).
   The fourth clause — "p in selecting, p awaits t, t has a result  ->  the answer is in flight
   (ProcessResults event, pending_awaits entry or UpdateAwaitResults command)", and with it
   quiescent_no_ready (all queues empty -> no parked process has a ready source) — goes through five
   hops with stale and overwritten pending_awaits entries (F8/F72 live there; sys/ProtoAwait*.v,
   ProtoQuiesce.v over the micro-step decomposition sys/ProtoMicro.v):
     REFUTED for arbitrary oracles (parked_await_refuted_for_dishonest_oracle, kernel-computed,
       17 actions on 2 workers): a slice that issues Await [2] while keeping the stale key 1 of its
       previous select lets the new AwaitAction overwrite the pending_awaits entry that stores
       {1: Ok 11}; the run ends quiescent with process 0 parked, awaiting 1 (None), 1 finished,
       nothing in flight. No slice of the real VM does this (executor.rs complete_select
       removes the process sources of a completed select; a process blocks in one select at a
       time): a property of the select machine, not a defect of the protocol.
     PROVED for every schedule and every oracle that is `await_honest` (a Prop/boolean on the
       schedule, evaluated on the worker state each executor step starts from):
         (a) a slice is executed only for a process that has no result yet (needed:
             parked_await_refuted_for_resurrecting_oracle), and
         (b) a slice that ends with the Await action for ts leaves no key outside ts in `awaiting`:
       await_backed : every None entry of an unfailed process is backed — the awaiter is registered in
         awaiters_for_target ON THE TARGET'S OWN WORKER (and the target is in its `awaited` set),
         or the answer is in flight: AwaitAction event | QueryAndAwait command | ProcessResults
         event carrying the result | result stored in the pending_awaits entry | UpdateAwaitResults
         command carrying the result;
       parked_await_answer_in_flight : the fourth clause of Inv_parked as stated above (with "or the
         awaiter has been completed by a failure": Worker::notify_result completes it in place; that
         p is parked is not needed for it: ProtoAwaitThm.finished_await_in_flight);
       quiescent_no_unseen_result / quiescent_no_ready : all command and event queues empty -> no
         unfailed process has a None entry for a finished process (a pending_awaits entry is live:
         every worker it still expects has the query or an answer in its queues), and with
         parked_has_no_unseen_message: no parked process has an unseen ready source.
     F72 is NOT a counterexample to this clause: the overtaken awaiter is runnable, not parked; it
     parks again until the answer arrives, which is the case this clause covers (the answer is in
     flight). *)
From Quiver Require Import sys.Proto sys.ProtoMsg sys.ProtoFifo sys.ProtoDeliver sys.ProtoFail sys.ProtoWake sys.ProtoExamples
  sys.ProtoWf sys.ProtoParked sys.ProtoSpawnInv sys.ProtoArrive sys.ProtoMicro sys.ProtoOps sys.ProtoAwait sys.ProtoAwaitInv sys.ProtoAwaitThm sys.ProtoQuiesce.

(* every stamped message that was sent is — counted with multiplicity — in exactly one of: the
   arrival log of a worker (its DeliverMessage was handled), a command queue (DeliverMessage in
   flight), an event queue (DeliverAction in flight): nothing duplicated, nothing dropped *)
Theorem C04_message_conservation : forall nw sigma s,
  0 < nw -> run (init nw) sigma = Good s ->
  forall t m,
    total (g_sent (t, m)) (s_nodes s)
    = total (g_arr (t, m)) (s_nodes s) + total (g_cmd (t, m)) (s_nodes s) + total (g_evt (t, m)) (s_nodes s).
Proof. exact message_conservation. Qed.
Print Assumptions C04_message_conservation.

(* no stamp is issued twice: a worker's sequence numbers are pairwise distinct and below its
   counter, and every stamp carries its worker's index *)
Theorem C04_stamps_unique : forall nw sigma s,
  run (init nw) sigma = Good s ->
  forall i nd, nth_error (s_nodes s) i = Some nd ->
    NoDup (map (fun e => m_seq (snd e)) (w_sentlog (n_w nd))) /\
    Forall (fun e => m_w (snd e) = i /\ m_seq (snd e) < w_nsent (n_w nd)) (w_sentlog (n_w nd)).
Proof. exact stamps_unique. Qed.
Print Assumptions C04_stamps_unique.

(* exactly-once AND in order on every link: for source worker i and target t routed to worker j, the
   messages i sent to t (in sending order) are those that arrived at j, then those in j's command
   queue, then those in i's event queue *)
Theorem C04_per_link_fifo : forall nw sigma s,
  0 < nw -> run (init nw) sigma = Good s ->
  forall i ndi t j ndj,
    nth_error (s_nodes s) i = Some ndi -> alookup t (e_router (s_env s)) = Some j -> nth_error (s_nodes s) j = Some ndj ->
    ft t (w_sentlog (n_w ndi)) =
    link i t (w_arrlog (n_w ndj)) ++ link i t (delivs (n_cmd ndj)) ++ ft t (edelivs (n_evt ndi)).
Proof. exact per_link_fifo. Qed.
Print Assumptions C04_per_link_fifo.

(* per sender process p: what has arrived from p is a prefix of what p sent, in p's order *)
Theorem C04_per_sender_fifo : forall nw sigma s,
  0 < nw -> run (init nw) sigma = Good s ->
  forall i ndi t j ndj p,
    nth_error (s_nodes s) i = Some ndi -> alookup t (e_router (s_env s)) = Some j -> nth_error (s_nodes s) j = Some ndj ->
    exists in_flight,
      from p (ft t (w_sentlog (n_w ndi))) = from p (link i t (w_arrlog (n_w ndj))) ++ in_flight.
Proof. exact per_sender_fifo. Qed.
Print Assumptions C04_per_sender_fifo.

(* nothing is dropped at the mailbox: no DeliverMessage is handled for a process that does not exist;
   a routed process is on its worker, or its spawn command is queued there ahead of every
   DeliverMessage addressed to it *)
Theorem C04_no_message_dropped : forall nw sigma s,
  0 < nw -> run (init nw) sigma = Good s ->
  (forall n nd, nth_error (s_nodes s) n = Some nd -> w_dropped (n_w nd) = []) /\
  (forall t n nd, alookup t (e_router (s_env s)) = Some n -> nth_error (s_nodes s) n = Some nd -> ready t (n_w nd) (n_cmd nd)).
Proof. exact no_message_dropped. Qed.
Print Assumptions C04_no_message_dropped.

(* one Worker::step, for every oracle: the commands it handles are a prefix of its queue, their
   DeliverMessage's extend the arrival log IN ORDER, and what it emits extends its send log and its
   event queue IN ORDER (the per-hop ingredient of per_sender_fifo) *)
Theorem C04_worker_step_fifo : forall i now k o nd nd',
  node_step i now k o nd = Good nd' ->
  exists pre new,
    n_cmd nd = pre ++ n_cmd nd' /\
    w_arrlog (n_w nd') = w_arrlog (n_w nd) ++ delivs pre /\
    edelivs (n_evt nd') = edelivs (n_evt nd) ++ new /\
    w_sentlog (n_w nd') = w_sentlog (n_w nd) ++ new /\
    ((new = [] /\ w_nsent (n_w nd') = w_nsent (n_w nd)) \/
     (exists t p, new = [(t, mkMsg p i (w_nsent (n_w nd)))] /\ w_nsent (n_w nd') = S (w_nsent (n_w nd)))).
Proof. exact node_step_ghost. Qed.
Print Assumptions C04_worker_step_fifo.

(* spawner_gets_pid, handler form: Worker::handle_command takes c out of `spawning` only for c's
   NotifySpawn (a result-less UpdateAwaitResults does not: F71) *)
Theorem C04_spawning_left_only_by_notify : forall cmd w w' ev c,
  handle_cmd cmd w = Good (w', ev) ->
  mem c (w_spawning w) = true -> mem c (w_spawning w') = false ->
  exists sp, cmd = CNotifySpawn c sp.
Proof. exact spawning_left_only_by_notify. Qed.
Print Assumptions C04_spawning_left_only_by_notify.

Theorem C04_exec_step_keeps_spawning : forall i now o w w' ev,
  exec_step i now o w = Good (w', ev) -> forall c, mem c (w_spawning w) = true -> mem c (w_spawning w') = true.
Proof. exact exec_step_keeps_spawning. Qed.
Print Assumptions C04_exec_step_keeps_spawning.

Theorem C04_spawn_answered_once : forall nw caller e ns e' ns',
  handle_event nw (ESpawnA caller) (e, ns) = Good (e', ns') ->
  exists cw, alookup caller (e_router e') = Some cw /\
    ns' = push_cmd cw (CNotifySpawn caller (e_next e)) (push_cmd (e_next e mod nw) (CSpawn (e_next e)) ns) /\
    e_next e' = S (e_next e) /\ alookup (e_next e) (e_router e') = Some (e_next e mod nw).
Proof. exact spawn_answered_once. Qed.
Print Assumptions C04_spawn_answered_once.

(* the step of F71: a stale result-less answer leaves a waiting spawner alone *)
Theorem C04_stale_update_leaves_spawner : forall c t w,
  mem c (w_spawning w) = true -> mem c (w_selecting w) = false ->
  update_await c [(t, None)] w = w.
Proof. exact stale_update_leaves_spawner. Qed.
Print Assumptions C04_stale_update_leaves_spawner.

(* regression witness of F71 (corpus/sim_c03.txt): after its schedule the spawner is still parked,
   its SpawnAction still queued, the run queue empty *)
Theorem C04_f71_schedule_repaired :
  exists s, run (init 1) f71_schedule = Good s /\ spawner_ok 0 s = true /\
            w_queue (n_w (nth 0 (s_nodes s) {| n_w := new_worker; n_cmd := []; n_evt := [] |})) = [].
Proof. exact f71_schedule_repaired. Qed.
Print Assumptions C04_f71_schedule_repaired.

(* every wake-up source re-queues a parked select *)
Theorem C04_wakeup_on_message : forall t m w w' ev pr,
  alookup t (w_procs w) = Some pr -> mem t (w_selecting w) = true ->
  handle_cmd (CDeliver t m) w = Good (w', ev) ->
  w_queue w' = w_queue w ++ [t] /\ mem t (w_selecting w') = false /\
  exists pr', alookup t (w_procs w') = Some pr' /\ p_mail pr' = p_mail pr ++ [m].
Proof. exact wakeup_on_message. Qed.
Print Assumptions C04_wakeup_on_message.

Theorem C04_wakeup_on_result : forall awaiter t v w pr,
  alookup awaiter (w_procs w) = Some pr -> alookup t (p_awaiting pr) <> None -> mem awaiter (w_selecting w) = true ->
  let w' := update_await awaiter [(t, Some (ROk v))] w in
  w_queue w' = w_queue w ++ [awaiter] /\ mem awaiter (w_selecting w') = false /\
  exists pr', alookup awaiter (w_procs w') = Some pr' /\ alookup t (p_awaiting pr') = Some (Some (ROk v)).
Proof. exact wakeup_on_result. Qed.
Print Assumptions C04_wakeup_on_result.

Theorem C04_wakeup_on_timeout : forall now hint w w' p,
  expire now hint w = Good w' -> mem p (w_selecting w) = true -> timed_out now w p = true ->
  In p (w_queue w') /\ mem p (w_selecting w') = false.
Proof. exact wakeup_on_timeout. Qed.
Print Assumptions C04_wakeup_on_timeout.

(* non-vacuity: a 3-process fan-in mid-flight — one message arrived, one in a command queue, one in
   an event queue *)
Theorem C04_nonvacuous :
  exists s, run (init 2) fanin_schedule = Good s /\
    let x1 := (1, mkMsg 2 0 0) in let x2 := (1, mkMsg 0 0 1) in let x3 := (1, mkMsg 2 0 2) in
    total (g_arr x1) (s_nodes s) = 1 /\ total (g_cmd x2) (s_nodes s) = 1 /\ total (g_evt x3) (s_nodes s) = 1 /\
    total (g_sent x1) (s_nodes s) = 1 /\ total (g_sent x2) (s_nodes s) = 1 /\ total (g_sent x3) (s_nodes s) = 1.
Proof. exact fanin_midflight. Qed.
Print Assumptions C04_nonvacuous.

(* ---- global invariants over every schedule and every oracle *)
Theorem C04_scheduler_well_formed : forall nw sigma s,
  run (init nw) sigma = Good s ->
  forall i nd, nth_error (s_nodes s) i = Some nd ->
    SW (n_w nd) /\ (forall p, has p (n_w nd) -> alookup p (e_router (s_env s)) = Some i).
Proof. exact scheduler_well_formed. Qed.
Print Assumptions C04_scheduler_well_formed.

Theorem C04_spawner_gets_pid : forall nw sigma s,
  run (init nw) sigma = Good s ->
  forall c,
    spawn_pending s c <= 1 /\
    (in_spawning s c <-> spawn_pending s c = 1) /\
    (forall i nd, nth_error (s_nodes s) i = Some nd -> 1 <= nnc c (n_cmd nd) -> mem c (w_spawning (n_w nd)) = true).
Proof. exact spawner_gets_pid_global. Qed.
Print Assumptions C04_spawner_gets_pid.

Theorem C04_spawner_states_reachable :
  (exists s, run (init 2) [X (XStart false); W 0 None (orc (Some 0) (d_act_ ASpawn))] = Good s /\
     in_spawning s 0 /\ total (g_se 0) (s_nodes s) = 1 /\ total (g_nc 0) (s_nodes s) = 0) /\
  (exists s, run (init 2) [X (XStart false); W 0 None (orc (Some 0) (d_act_ ASpawn)); E []] = Good s /\
     in_spawning s 0 /\ total (g_se 0) (s_nodes s) = 0 /\ total (g_nc 0) (s_nodes s) = 1).
Proof. exact (conj spawn_evt_pending spawn_notif_pending). Qed.
Print Assumptions C04_spawner_states_reachable.

Theorem C04_awaited_completion_never_unseen : forall nw sigma s,
  run (init nw) sigma = Good s ->
  forall i nd t, nth_error (s_nodes s) i = Some nd -> In t (w_awaited (n_w nd)) -> result_of (n_w nd) t = None.
Proof. exact awaited_completion_never_unseen. Qed.
Print Assumptions C04_awaited_completion_never_unseen.

Theorem C04_no_timeout_due_at_last_check : forall nw sigma s i k o s',
  run (init nw) sigma = Good s -> sys_step s (W i k o) = Good s' -> time_honest (s_clock s) (o_did o) ->
  forall nd' p, nth_error (s_nodes s') i = Some nd' -> mem p (w_selecting (n_w nd')) = true ->
    timed_out (s_clock s) (n_w nd') p = false.
Proof. exact no_timeout_due_at_last_check. Qed.
Print Assumptions C04_no_timeout_due_at_last_check.

Theorem C04_parked_has_no_unseen_message : forall sigma nw s,
  honest_run (init nw) sigma -> run (init nw) sigma = Good s ->
  forall i nd p pr sl, nth_error (s_nodes s) i = Some nd ->
    mem p (w_selecting (n_w nd)) = true -> alookup p (w_procs (n_w nd)) = Some pr ->
    p_sel pr = Some sl -> sl_start sl <> None ->
    Forall (fun c => c = length (p_mail pr)) (sl_cursors sl).
Proof. exact parked_has_no_unseen_message. Qed.
Print Assumptions C04_parked_has_no_unseen_message.

Theorem C04_parked_premises_nonvacuous : exists s nd pr,
  honest_run (init 1) park_schedule /\ run (init 1) park_schedule = Good s /\
  nth_error (s_nodes s) 0 = Some nd /\ mem 0 (w_selecting (n_w nd)) = true /\
  alookup 0 (w_procs (n_w nd)) = Some pr /\ p_sel pr = Some parked_sel /\ sl_start parked_sel <> None /\
  time_honest 0 {| d_taken := []; d_sel := Some parked_sel; d_forget := []; d_act := None; d_park := true; d_fin := None; d_heapy := false |}.
Proof. exact parked_premises_hold. Qed.
Print Assumptions C04_parked_premises_nonvacuous.

Theorem C04_arrival_log_is_mailbox_history : forall nw sigma s,
  0 < nw -> run (init nw) sigma = Good s ->
  forall i nd t, nth_error (s_nodes s) i = Some nd ->
    tgt t (w_arrlog (n_w nd)) = arr t (n_w nd).
Proof. exact arrival_log_is_mailbox_history. Qed.
Print Assumptions C04_arrival_log_is_mailbox_history.

Theorem C04_arrival_history_nonvacuous : exists s nd,
  run (init 2) fanin_schedule = Good s /\ nth_error (s_nodes s) 1 = Some nd /\
  tgt 1 (w_arrlog (n_w nd)) = [mkMsg 2 0 0] /\ arr 1 (n_w nd) = [mkMsg 2 0 0].
Proof. exact arrival_history_nonempty. Qed.
Print Assumptions C04_arrival_history_nonvacuous.

(* ---- the await handshake (fourth clause of Inv_parked) and quiescent_no_ready *)
Theorem C04_await_backed : forall nw sigma s,
  0 < nw -> await_honest_run (init nw) sigma -> run (init nw) sigma = Good s ->
  forall i nd p pr t, nth_error (s_nodes s) i = Some nd ->
    alookup p (w_procs (n_w nd)) = Some pr -> alookup t (p_awaiting pr) = Some None ->
    failed pr \/
    (exists j ndj, alookup t (e_router (s_env s)) = Some j /\ nth_error (s_nodes s) j = Some ndj /\
                   registered p t (n_w ndj) /\ In t (w_awaited (n_w ndj))) \/
    answer_in_flight s p t.
Proof. exact await_backed. Qed.
Print Assumptions C04_await_backed.

Theorem C04_parked_await_answer_in_flight : forall nw sigma s,
  0 < nw -> await_honest_run (init nw) sigma -> run (init nw) sigma = Good s ->
  forall i nd p pr t j ndj r,
    nth_error (s_nodes s) i = Some nd -> mem p (w_selecting (n_w nd)) = true ->
    alookup p (w_procs (n_w nd)) = Some pr -> alookup t (p_awaiting pr) = Some None ->
    nth_error (s_nodes s) j = Some ndj -> result_of (n_w ndj) t = Some r ->
    failed pr \/ answer_in_flight s p t.
Proof. exact parked_await_answer_in_flight. Qed.
Print Assumptions C04_parked_await_answer_in_flight.

Theorem C04_parked_await_refuted_for_dishonest_oracle :
  exists s nd pr nd1,
    run (init 2) stale_key_schedule = Good s /\ await_honest_runb (init 2) stale_key_schedule = false /\
    nth_error (s_nodes s) 0 = Some nd /\ mem 0 (w_selecting (n_w nd)) = true /\
    alookup 0 (w_procs (n_w nd)) = Some pr /\ p_res pr = None /\ alookup 1 (p_awaiting pr) = Some None /\
    nth_error (s_nodes s) 1 = Some nd1 /\ result_of (n_w nd1) 1 = Some (ROk 11) /\
    quiescent s /\ ~ answer_in_flight s 0 1.
Proof. exact parked_await_refuted_for_dishonest_oracle. Qed.
Print Assumptions C04_parked_await_refuted_for_dishonest_oracle.

(* the other half of the premise is needed too: a slice run for a process that a failure notification
   has completed in place, finishing Ok, followed by a client resume *)
Theorem C04_parked_await_refuted_for_resurrecting_oracle :
  exists s nd pr nd1,
    run (init 2) resurrect_schedule = Good s /\
    await_honest_runb (init 2) resurrect_schedule = false /\ await_honest_runb (init 2) (firstn 7 resurrect_schedule) = true /\
    nth_error (s_nodes s) 0 = Some nd /\ mem 0 (w_selecting (n_w nd)) = true /\
    alookup 0 (w_procs (n_w nd)) = Some pr /\ p_res pr = None /\ alookup 1 (p_awaiting pr) = Some None /\
    nth_error (s_nodes s) 1 = Some nd1 /\ result_of (n_w nd1) 1 = Some (RErr 7) /\
    quiescent s /\ ~ answer_in_flight s 0 1.
Proof. exact parked_await_refuted_for_resurrecting_oracle. Qed.
Print Assumptions C04_parked_await_refuted_for_resurrecting_oracle.

Theorem C04_await_premise_decidable : forall sigma s, await_honest_runb s sigma = true -> await_honest_run s sigma.
Proof. exact await_honest_runb_sound. Qed.
Print Assumptions C04_await_premise_decidable.

Theorem C04_parked_await_nonvacuous :
  await_honest_runb (init 2) await_schedule = true /\
  exists s nd pr nd1,
    run (init 2) await_schedule = Good s /\
    nth_error (s_nodes s) 0 = Some nd /\ mem 0 (w_selecting (n_w nd)) = true /\
    alookup 0 (w_procs (n_w nd)) = Some pr /\ p_res pr = None /\ alookup 1 (p_awaiting pr) = Some None /\
    nth_error (s_nodes s) 1 = Some nd1 /\ result_of (n_w nd1) 1 = Some (ROk 5) /\
    In (CUpdate 0 [(1, Some (ROk 5))]) (n_cmd nd).
Proof. exact parked_await_applies. Qed.
Print Assumptions C04_parked_await_nonvacuous.

Theorem C04_quiescent_no_unseen_result : forall nw sigma s,
  0 < nw -> await_honest_run (init nw) sigma -> run (init nw) sigma = Good s ->
  (forall i nd, nth_error (s_nodes s) i = Some nd -> n_cmd nd = [] /\ n_evt nd = []) ->
  forall i nd p pr t j ndj, nth_error (s_nodes s) i = Some nd ->
    alookup p (w_procs (n_w nd)) = Some pr -> alookup t (p_awaiting pr) = Some None -> ~ failed pr ->
    nth_error (s_nodes s) j = Some ndj -> result_of (n_w ndj) t = None.
Proof. exact quiescent_no_unseen_result. Qed.
Print Assumptions C04_quiescent_no_unseen_result.

Theorem C04_quiescent_no_ready : forall nw sigma s,
  0 < nw -> honest_run (init nw) sigma -> await_honest_run (init nw) sigma -> run (init nw) sigma = Good s ->
  (forall i nd, nth_error (s_nodes s) i = Some nd -> n_cmd nd = [] /\ n_evt nd = []) ->
  forall i nd p pr, nth_error (s_nodes s) i = Some nd ->
    mem p (w_selecting (n_w nd)) = true -> alookup p (w_procs (n_w nd)) = Some pr ->
    (forall sl, p_sel pr = Some sl -> sl_start sl <> None -> Forall (fun c => c = length (p_mail pr)) (sl_cursors sl)) /\
    (~ failed pr -> forall t j ndj, alookup t (p_awaiting pr) = Some None ->
       nth_error (s_nodes s) j = Some ndj -> result_of (n_w ndj) t = None).
Proof. exact quiescent_no_ready. Qed.
Print Assumptions C04_quiescent_no_ready.
