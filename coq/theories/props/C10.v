(* C10 — Packaging steps preserve behaviour: tree-shake, serialise, merge, import.
   The property theorems: statement, proof by a lemma of vm/Remap*Proofs.v (`exact`; the two halves
   of C10_struct_simulation_ext by `apply`) or, for the instances C10_models_nonvacuous and
   C10_merge_premises_needed, by vm_compute; Print Assumptions.

   Models: vm/Bytecode.v + vm/Vm.v (the per-process machine of executor.rs, shared with C07),
   vm/Remap.v (`xprogram` = a Bytecode with everything a renaming must preserve and the two
   run-time tables type_compatibility / canonical_tuples; the validator `is_renaming`; the models
   of value_to_instructions_from_cache and of value_to_instructions / inject_function_captures).
   tree_shake (optimisation.rs) and merge_bytecode (environment.rs) ARE modelled (vm/RemapShake.v,
   vm/RemapMerge.v; every run compares the models' output with the real functions' output, exact
   equality of the dumped Bytecode) and proved to produce renamings (from C10_is_renaming_split
   on); in addition each real output is checked by the extracted `is_renaming`.
   `is_renaming = struct_ok && rows_ok && canon_ok X && canon_ok X'`: the STRUCTURAL part is what a
   packaging step produces and is what the model theorems establish; `rows_ok` concerns the
   type_compatibility table every loader recomputes through is_compatible (C08/C09) and stays a
   per-run validated premise. serde_json is not modelled: the JSON leg is validated field-wise only. *)
From Quiver Require Import vm.Wf vm.Remap vm.RemapProofs vm.RemapWf vm.RemapInject
  vm.RemapShake vm.RemapShakeProofs vm.RemapMerge vm.RemapMergeProofs.

(* Lock-step simulation. For every function the renaming maps — every function reachable from the
   entry is (next theorem) — every argument, every captured environment and every sequence of outside
   inputs (builtin results, pids, select results, binary handles), related through rho where they
   carry ids: the renamed program, started on the renamed state and fed the renamed inputs,
   produces step for step the renaming of what the original produces: the same fault, or a related
   next state, or a related final value. IsType and Equal verdicts are COMPUTED here from each
   program's own type_compatibility rows and canonical_tuples (xrun), not assumed equal.
   Hypothesis `typed_run`: along the ORIGINAL execution, every tuple value tested by an IsType carries
   a tuple id that has a `Type::Tuple` entry in the original program (C08's has_type_entry obligation:
   the compiler registers the static type of every value it lets reach a run-time test). Without an
   entry the original answers "no" to every pattern, while a program merged earlier may have
   registered the entry (typically Type::Tuple(OK)) and the merged table may answer "yes"; the
   validator compares rows on tuple tags that have an entry. *)
Theorem C10_renaming_simulation : forall rho X X', is_renaming rho X X' = true ->
  forall bin_eq f f' caps caps' arg arg' pers xs xs',
  app (r_f rho) f = Some f' -> Forall2 (vrel rho) caps caps' -> vrel rho arg arg' ->
  Forall2 (xvrel rho) xs xs' ->
  typed_run X bin_eq (init_state f caps arg pers) xs ->
  rrel rho (xrun X bin_eq (init_state f caps arg pers) xs)
           (xrun X' bin_eq (init_state f' caps' arg' pers) xs').
Proof. exact renaming_simulation. Qed.
Print Assumptions C10_renaming_simulation.

(* the entry is mapped to the entry, and the mapped functions are closed under Function / Process
   references: everything reachable from the entry is covered by the simulation *)
Theorem C10_renaming_covers_reachable : forall rho X X', is_renaming rho X X' = true ->
  app (r_f rho) (x_entry X) = Some (x_entry X') /\
  forall f, reachable X (x_entry X) f -> exists f', app (r_f rho) f = Some f'.
Proof. exact renaming_covers_reachable. Qed.
Print Assumptions C10_renaming_covers_reachable.

(* the side condition on the run-time tables, on its own: an accepted pair gives the same IsType
   verdict (row of the renamed type, read at the renamed tag) and the same Equal verdict
   (values_equal with each side's canonical tuple ids) on related values *)
Theorem C10_verdicts_commute : forall rho X X', is_renaming rho X X' = true ->
  (forall v v' y y' w, vrel rho v v' -> app (r_y rho) y = Some y' -> row_of X y = Some w -> tag_typed X v ->
     istype_verdict X v y = istype_verdict X' v' y') /\
  (forall bin_eq vs vs', Forall2 (vrel rho) vs vs' -> equal_verdict X bin_eq vs = equal_verdict X' bin_eq vs').
Proof. exact verdicts_commute. Qed.
Print Assumptions C10_verdicts_commute.

(* the same simulation on vm/Vm.v exactly as C07 uses it (every verdict an outside input) *)
Theorem C10_renaming_simulation_ext : forall rho X X', is_renaming rho X X' = true ->
  forall s s' xs xs', srel rho s s' -> Forall2 (xrel rho) xs xs' ->
  rrel rho (run (project X) s xs) (run (project X') s' xs').
Proof. exact renaming_simulation_ext. Qed.
Print Assumptions C10_renaming_simulation_ext.

(* non-vacuity: a program with a dead function, its image with every table renumbered and shared
   with foreign entries; the validator accepts it and rejects a corruption of it (another constant
   table), and both programs run to related results *)
Theorem C10_nonvacuous :
  is_renaming Examples.ex_rho Examples.exX Examples.exX' = true /\
  is_renaming Examples.ex_rho Examples.exX (with_consts Examples.exX' [XInt 6]) = false /\
  rrel Examples.ex_rho
    (xrun Examples.exX (fun _ _ => false) (init_state 2 [] vnil false) (repeat Examples.quiet 16))
    (xrun Examples.exX' (fun _ _ => false) (init_state 1 [] vnil false) (repeat Examples.quiet 16)).
Proof. exact (conj Examples.ex_accepts (conj Examples.ex_rejects_constant Examples.ex_simulation_applies)). Qed.
Print Assumptions C10_nonvacuous.

(* C07's verifier verdict carries over, certificate for certificate, to every function the
   renaming maps (tree-shaken and merged programs need no new proof of well-formedness; the merged
   program may also hold other programs' functions, about which nothing is claimed) *)
Theorem C10_wf_stable_under_renaming : forall rho X X' As, is_renaming rho X X' = true ->
  check_program (project X) As = true ->
  forall f f', app (r_f rho) f = Some f' ->
  exists A fd', nth_error As f = Some A /\ nth_error (p_funcs (project X')) f' = Some fd' /\
                check_function (project X') fd' A = true.
Proof. exact wf_stable_under_renaming. Qed.
Print Assumptions C10_wf_stable_under_renaming.

(* value_reemit (imports): `emit_cached` models compiler.rs value_to_instructions_from_cache, what
   `%m` / `%m.f` compile to. It refuses process / resource / ref values and undefined function and
   builtin ids; a tuple id is not looked up. For every value it accepts that is well-formed for the
   program (`wfx`: tuples of their arity, closures of their capture count), the program only grows (prefix-wise) and, in ANY later growth Y of it, the emitted
   code — wherever it is spliced into a function, on any stack, locals and frames — pushes exactly
   that value and changes nothing else. Binary constants: the pushed handle is the one allocation
   returns (`emit_inputs`), their bytes are the registered constant (binaries are opaque in vm/Vm.v). *)
Theorem C10_value_reemit : forall bytes_of v X X1 code,
  emit_cached bytes_of v X = Some (X1, code) -> wfx X v ->
  extends X X1 /\
  forall Y, extends X1 Y ->
  forall fn fd pre post st lo base caps rest pers,
    nth_error (x_funcs Y) fn = Some fd -> xf_code fd = pre ++ code ++ post ->
    run (project Y) (at_pc st lo fn base caps (length pre) rest pers) (emit_inputs v) =
    Next (at_pc (v :: st) lo fn base caps (length pre + length code) rest pers).
Proof. exact value_reemit. Qed.
Print Assumptions C10_value_reemit.

(* non-vacuity of value_reemit: a named tuple holding a closure over an integer and a binary, a
   nested tuple and a builtin; the emitted code (one constant is shared with the program) rebuilds it *)
Theorem C10_value_reemit_nonvacuous :
  option_map snd (emit_cached Examples.ex_bytes Examples.ex_value Examples.exM) =
    Some [IConstant 0; IConstant 1; IFunction 0; IConstant 2; IBuiltin 0; ITuple 2; ITuple 2] /\
  wfx Examples.exM Examples.ex_value.
Proof. exact (conj Examples.ex_emit Examples.ex_emit_wf). Qed.
Print Assumptions C10_value_reemit_nonvacuous.

(* inject_function_captures (program.rs:228, model `emit_injected`): what `quiv compile` does to an
   entry function that captured values. The closure is re-emitted as Function(f') of a capture-free
   function whose body is a prefix followed by the original body; entering f' on any argument and
   running the prefix yields exactly the captures as the frame's locals, the argument still on the
   stack, pc at the start of the original body (captures without nested capturing closures). *)
Theorem C10_inject_rebuilds_captures : forall bytes_of f c cs X X2 code,
  Forall flat (c :: cs) -> Forall (wfx X) (c :: cs) ->
  emit_injected bytes_of (VFun f (c :: cs)) X = Some (X2, code) ->
  exists f' fd fd' pre,
    code = [IFunction f'] /\ nth_error (x_funcs X2) f' = Some fd' /\ nth_error (x_funcs X2) f = Some fd /\
    xf_code fd' = pre ++ xf_code fd /\ xf_caps fd' = 0 /\ xf_type fd' = xf_type fd /\
    forall Y, extends X2 Y -> forall arg st lo base rest pers,
      run (project Y) (at_pc (arg :: st) lo f' base 0 0 rest pers) (caps_inputs (c :: cs)) =
      Next (at_pc (arg :: st) (lo ++ c :: cs) f' base 0 (length pre) rest pers).
Proof. exact inject_rebuilds_captures. Qed.
Print Assumptions C10_inject_rebuilds_captures.

(* tree_shake and merge_bytecode, modelled and proved *)

(* the validator splits into the structural part and the run-time tables *)
Theorem C10_is_renaming_split : forall rho X X', is_renaming rho X X' = true <->
  struct_ok rho X X' = true /\ rows_ok rho X X' = true /\ canon_ok X = true /\ canon_ok X' = true.
Proof. exact is_renaming_split. Qed.
Print Assumptions C10_is_renaming_split.

(* the structural part alone gives the lock-step simulation on vm/Vm.v (verdicts as outside inputs)
   and covers everything reachable from the entry *)
Theorem C10_struct_simulation_ext : forall rho X X', struct_ok rho X X' = true ->
  (app (r_f rho) (x_entry X) = Some (x_entry X') /\
   forall f, reachable X (x_entry X) f -> exists f', app (r_f rho) f = Some f') /\
  forall s s' xs xs', srel rho s s' -> Forall2 (xrel rho) xs xs' ->
    rrel rho (run (project X) s xs) (run (project X') s' xs').
Proof. intros rho X X' H. split; [apply struct_covers_reachable; exact H | apply struct_simulation_ext; exact H]. Qed.
Print Assumptions C10_struct_simulation_ext.

(* TREE-SHAKE. For EVERY well-formed program (every id it mentions is in range, NIL and OK exist, the
   entry exists) the model of optimisation.rs tree_shake does not panic, and its output is a
   structural renaming of the input under the remap tables it computed. No validation involved. *)
Theorem C10_tree_shake_struct : forall X, wf_program X = true ->
  exists X', tree_shake X = Some X' /\ struct_ok (shake_rho X) X X' = true.
Proof. exact tree_shake_struct. Qed.
Print Assumptions C10_tree_shake_struct.

(* ... hence every tree-shake preserves behaviour step for step (verdicts as outside inputs) *)
Theorem C10_tree_shake_simulation : forall X, wf_program X = true ->
  exists X', tree_shake X = Some X' /\
  app (r_f (shake_rho X)) (x_entry X) = Some (x_entry X') /\
  (forall f, reachable X (x_entry X) f -> exists f', app (r_f (shake_rho X)) f = Some f') /\
  forall s s' xs xs', srel (shake_rho X) s s' -> Forall2 (xrel (shake_rho X)) xs xs' ->
    rrel (shake_rho X) (run (project X) s xs) (run (project X') s' xs').
Proof. exact tree_shake_simulation. Qed.
Print Assumptions C10_tree_shake_simulation.

(* ... and is a full renaming (so C10_renaming_simulation applies, verdicts computed from the
   tables) as soon as the loader's type_compatibility rows commute — premise `rows_ok`, checked on
   the real tables each run *)
Theorem C10_tree_shake_is_renaming : forall X, wf_program X = true -> canon_ok X = true ->
  exists X', tree_shake X = Some X' /\
  forall R, rows_ok (shake_rho X) X (loaded X' R) = true ->
            is_renaming (shake_rho X) X (loaded X' R) = true.
Proof. exact tree_shake_is_renaming. Qed.
Print Assumptions C10_tree_shake_is_renaming.

(* MERGE. For ANY accumulated environment program E and any well-formed B: whenever the model of
   merge_bytecode returns (None = a Rust panic or an id cycle between types and tuples), and under
   the decidable premises `merge_premises` — Function operands point backwards, no Process
   instruction, NIL/OK head the tuple tables, a builtin already known by name has the imported
   signature, dedup identifies no two functions/builtins of B — the grown program is a structural
   renaming of B under the remap tables merge computed. The premises are evaluated on every real
   merge of every run; C10_merge_premises_needed gives a witness that backward Function operands,
   the absence of Process instructions and the builtin signature are needed (none is stated for
   the NIL/OK and the dedup premise). *)
Theorem C10_merge_struct : forall E B E' rho, merge E B = Some (E', rho) -> wf_program B = true ->
  merge_premises rho B E' = true -> struct_ok rho B E' = true.
Proof. exact merge_struct. Qed.
Print Assumptions C10_merge_struct.

Theorem C10_merge_simulation : forall E B E' rho, merge E B = Some (E', rho) -> wf_program B = true ->
  merge_premises rho B E' = true ->
  app (r_f rho) (x_entry B) = Some (x_entry E') /\
  (forall f, reachable B (x_entry B) f -> exists f', app (r_f rho) f = Some f') /\
  forall s s' xs xs', srel rho s s' -> Forall2 (xrel rho) xs xs' ->
    rrel rho (run (project B) s xs) (run (project E') s' xs').
Proof. exact merge_simulation. Qed.
Print Assumptions C10_merge_simulation.

Theorem C10_merge_is_renaming : forall E B E' rho, merge E B = Some (E', rho) -> wf_program B = true ->
  merge_premises rho B E' = true -> canon_ok B = true ->
  forall R, rows_ok rho B (loaded E' R) = true -> is_renaming rho B (loaded E' R) = true.
Proof. exact merge_is_renaming. Qed.
Print Assumptions C10_merge_is_renaming.

(* non-vacuity: a program with a dead function is shaken (2 of 3 functions, 1 of 2 constants kept);
   its renaming is merged behind an environment that shares a constant, NIL, OK and a type with it *)
Theorem C10_models_nonvacuous :
  wf_program Examples.exX = true /\
  option_map (fun Y => (length (x_funcs Y), length (x_consts Y), x_entry Y)) (tree_shake Examples.exX) = Some (2, 1, 1) /\
  match merge Examples.exM Examples.exX' with
  | Some (E', rho) => wf_program Examples.exX' = true /\ merge_premises rho Examples.exX' E' = true /\
                      r_f rho = [Some 2; Some 3] /\ r_t rho = [Some 0; Some 1; Some 4; Some 3]
  | None => False
  end.
Proof. vm_compute. repeat split. Qed.
Print Assumptions C10_models_nonvacuous.

(* three of the premises of the merge theorem are needed: with a forward Function reference (replayed on the
   real merge_bytecode: corpus/c10_json_witness.txt), with a builtin of a known name but another
   signature, or with a Process instruction, the merge is NOT a renaming *)
Theorem C10_merge_premises_needed :
  (match merge Examples.exM MergeExamples.fwdB with
   | Some (E', rho) => wf_program MergeExamples.fwdB = true /\ backward_refs MergeExamples.fwdB = false /\
                       struct_ok rho MergeExamples.fwdB E' = false
   | None => False end) /\
  (match merge MergeExamples.bE MergeExamples.bB with
   | Some (E', rho) => wf_program MergeExamples.bB = true /\ struct_ok rho MergeExamples.bB E' = false
   | None => False end) /\
  (match merge Examples.exM MergeExamples.pB with
   | Some (E', rho) => wf_program MergeExamples.pB = true /\ no_process MergeExamples.pB = false /\
                       struct_ok rho MergeExamples.pB E' = false
   | None => False end).
Proof. vm_compute. repeat split. Qed.
Print Assumptions C10_merge_premises_needed.
