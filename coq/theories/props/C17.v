(* C17 — Formatting is a fixpoint and preserves the program and its comments.
   Level: proof, PARTIAL. Proved for the whole language are the three places where the formatter
   changes or re-encodes the program: block normalisation (Simplify.v ~ simplify.rs), string escaping
   (Escape.v ~ format.rs escapers / parser.rs string processing) and layout (Pretty.v ~ pretty.rs).
   The Doc construction of format.rs and the nom parser are modelled on two fragments only
   (FormatFrag.v: data literals and chains; FormatFrag2.v: adds blocks, branches, sequences and
   collapse_blanks), for which parse o format = id and the fixpoint are proved; trivia attachment
   (comments) is not modelled.  The user-visible property on the whole language is decided by the
   end-to-end real-vs-real search of vplib/props/c17.py.
   The property theorems, each closed by `exact <lemma>` (after `intros` in C17_normalize_idempotent)
   and followed by Print Assumptions. *)
From Quiver Require Import Base Ast Simplify SimplifyProofs SimplifyCompose Escape EscapeProofs Pretty PrettyProofs EscapePretty FormatFrag FormatFragProofs FormatFrag2 FormatFrag2Proofs.

(* normalize_blocks *)
(* compiler.rs:559: keep = |_| false, lift = true, group_consequences = false *)
Theorem C17_normalize_idempotent_compiler : forall p,
  normalize_blocks (normalize_blocks p compiler_options) compiler_options = normalize_blocks p compiler_options.
Proof. exact normalize_idempotent_compiler. Qed.
Print Assumptions C17_normalize_idempotent_compiler.

(* format.rs:42: lift = false, group_consequences = true, keep = |chain| trivia.has_trivia(chain.span).
   No stability hypothesis on `keep` is needed in the model: `keep` is only ever consulted on the
   already-normalised body chain of a redundant block, which the second pass meets again unchanged
   (the real closure is a function of the chain's span offset only, see `keep_by_span`; spans of
   surviving chains are preserved by the rewrite). *)
Theorem C17_normalize_idempotent_formatter : forall (k : chain -> bool) p,
  normalize_blocks (normalize_blocks p (formatter_options k)) (formatter_options k)
  = normalize_blocks p (formatter_options k).
Proof. exact normalize_idempotent_formatter. Qed.
Print Assumptions C17_normalize_idempotent_formatter.

(* any option set in which grouping is not combined with lifting *)
Theorem C17_normalize_idempotent : forall o p,
  (group_consequences o = true -> lift o = false) ->
  normalize_blocks (normalize_blocks p o) o = normalize_blocks p o.
Proof. intros o p H. exact (normalize_idempotent_gen o p H). Qed.
Print Assumptions C17_normalize_idempotent.

(* format_then_compile_same ("identical after removing no-op blocks"): normalising with the formatter's options and then
   with the compiler's gives what the compiler's options give alone, for EVERY keep predicate (so in particular for the real
   closure `|chain| trivia.has_trivia(chain.span)`, `keep_by_span`). Simplify.v models simplify.rs of /repo (finding F19,
   repaired in /repo by e176e48: the "body ends in a tail call" test looks through a kept trailing redundant block); for
   the code before it the statement is false — witness: Example `f19_pre_repair_test_missed_it` in SimplifyProofs.v. *)
Theorem C17_format_then_compile_same : forall (k : chain -> bool) (p : program),
  normalize_blocks (normalize_blocks p (formatter_options k)) compiler_options = normalize_blocks p compiler_options.
Proof. exact format_then_compile_same. Qed.
Print Assumptions C17_format_then_compile_same.

(* normalize_preserves_eval (stripping / lifting / grouping a no-op block preserves the reference meaning)
   needs the reference evaluator Lang.eval of C02 and is left to C02 (DESIGN.md §5 C02). *)

(* string escaping (Escape.v ~ format.rs:597/680/697/642, parser.rs:685/499/794/826/864/914) *)
(* single-line: the parser's unescaping inverts the formatter's escaping, for every string *)
Theorem C17_escape_roundtrip_single : forall s : list Z, unescape (escape_single s) = Some s.
Proof. exact escape_single_roundtrip. Qed.
Print Assumptions C17_escape_roundtrip_single.

(* term position: after the escaped text the closing quote (34) is found where expected and no hole opens *)
Theorem C17_escape_roundtrip_single_scan : forall (s rest : list Z),
  scan_single (escape_single s ++ 34 :: rest) = ScanText s rest.
Proof. exact escape_single_scan. Qed.
Print Assumptions C17_escape_roundtrip_single_scan.

(* multi-line: raw text between the delimiters as rendered at any margin (incl. \s protection of trailing spaces,
   CR/TAB/backslash/quote/brace escapes, empty lines) is de-indented and decoded back to the string.
   `render_multiline` assumes that the printer leaves a rendered line alone and drops the indentation of an empty one:
   that assumption is the theorem C17_rendered_line_survives_strip below (pretty.rs strips only ' ' and TAB: F18,
   repaired in /repo by 868b2cc). Not covered here: format.rs collapse_blanks on a text WITH a multi-line string (it is
   string-aware: F15, repaired in /repo by 4f4bb64; validated end-to-end); FormatFrag2.v models it on texts without. *)
Theorem C17_escape_roundtrip_multiline : forall (s : list Z) (margin : nat),
  process_multiline (render_multiline s margin) = Some s.
Proof. exact multiline_roundtrip. Qed.
Print Assumptions C17_escape_roundtrip_multiline.

(* term position (holes recognised): the rendered text opens no hole *)
Theorem C17_escape_roundtrip_multiline_term : forall (s : list Z) (margin : nat),
  process_multiline_term (render_multiline s margin) = MText s.
Proof. exact multiline_term_roundtrip. Qed.
Print Assumptions C17_escape_roundtrip_multiline_term.

(* the escape-aware scan for the closing delimiter stops exactly after the rendered text (every quote is escaped) *)
Theorem C17_escape_multiline_raw_scan : forall (s : list Z) (margin : nat) (rest : list Z),
  scan_multiline_raw (render_multiline s margin ++ [34; 34; 34] ++ rest) = Some (render_multiline s margin, rest).
Proof. exact multiline_raw_scan. Qed.
Print Assumptions C17_escape_multiline_raw_scan.

(* the printer's trailing-whitespace stripping (Pretty.trim_end = `trim_end_matches([' ', '\t'])`) applied to a rendered
   line printed at any indentation gives exactly what `render_multiline` assumes (`indent_line`): the whole line, or
   nothing for an empty line — for every string, also when a line ends in U+00A0 or another non-ASCII space *)
Theorem C17_rendered_line_survives_strip : forall (margin : nat) (l : list Z),
  Pretty.trim_end (repeat 32 margin ++ render_line l) = indent_line margin (render_line l).
Proof. exact rendered_line_survives_strip. Qed.
Print Assumptions C17_rendered_line_survives_strip.

(* layout (Pretty.v ~ pretty.rs) *)
(* print is total: the explicit fuel `enough_fuel d` suffices for every doc and width *)
Theorem C17_print_total : forall (d : doc) (width : nat), exists out, Pretty.print d width = Some out.
Proof. exact print_total. Qed.
Print Assumptions C17_print_total.

(* layout_content_invariant: for every width the printer emits exactly the Text atoms of the doc, in order,
   each IfBreak resolved by the mode of its enclosing group (`content`, PrettyProofs.v: a group with
   should_break = true is Break, any other group may be Flat or Break) - so width can only change
   line breaks, indentation and IfBreak decorations. Docs without LineSuffix (whose content is deferred to the
   end of the line, which does depend on where lines break): *)
Theorem C17_layout_content_invariant : forall (d : doc) (width : nat) (ts : list token),
  suffix_free d = true -> layout d width = Some ts -> content Break d (texts ts).
Proof. exact layout_content_invariant. Qed.
Print Assumptions C17_layout_content_invariant.

(* all docs (LineSuffix = trailing comments included): the same atoms, up to the deferral of suffix content *)
Theorem C17_layout_content_perm : forall (d : doc) (width : nat) (ts : list token),
  layout d width = Some ts -> exists l, content_all Break d l /\ Permutation.Permutation (texts ts) l.
Proof. exact layout_content_perm. Qed.
Print Assumptions C17_layout_content_perm.

(* parse o print = id on the data-literal fragment (FormatFrag.v) *)
(* FormatFrag.v models BOTH the formatter's Doc construction (term_doc / tuple_doc / field_doc / chain_doc with its
   head-flat-plus-container and `~>`-continuation layouts and the 50-column soft width / bracketed with its trailing
   comma / break_if_wider_than / flatten / flat_width / sequence_doc + format_program for one statement) AND the
   parser (program / chain / chain_inner / primary / tuple_term / tuple_field(_list) / identifier / tuple_name /
   integer_literal / string_segments) on the fragment: integers, identifiers, single-line strings, nested anonymous
   and named tuples with optional labels, chains. Both are compared with the real functions on generated inputs
   at every run (exact output text; parsed ASTs). *)

(* for EVERY width the formatter's output parses back to the same chain *)
Theorem C17_frag_roundtrip : forall (c : fchain) (w : nat),
  wf_chain c = true -> exists out, format_frag c w = Some out /\ parse_frag out = Some c.
Proof. exact frag_roundtrip. Qed.
Print Assumptions C17_frag_roundtrip.

(* formatting the re-parsed output gives the same text again (print o parse o print = print) *)
Theorem C17_frag_format_fixpoint : forall (c : fchain) (w : nat) (out : list Z),
  wf_chain c = true -> format_frag c w = Some out ->
  exists c', parse_frag out = Some c' /\ format_frag c' w = Some out.
Proof. exact frag_format_fixpoint. Qed.
Print Assumptions C17_frag_format_fixpoint.

(* the parser only produces well-formed chains, hence: formatting ANY source text the (fragment) parser accepts is a
   fixpoint of parse-then-format *)
Theorem C17_parse_frag_wf : forall (s : list Z) (c : fchain), parse_frag s = Some c -> wf_chain c = true.
Proof. exact parse_frag_wf. Qed.
Print Assumptions C17_parse_frag_wf.

Theorem C17_frag_source_fixpoint : forall (s : list Z) (c : fchain) (w : nat) (out : list Z),
  parse_frag s = Some c -> format_frag c w = Some out ->
  exists c', parse_frag out = Some c' /\ format_frag c' w = Some out.
Proof. exact frag_source_fixpoint. Qed.
Print Assumptions C17_frag_source_fixpoint.

(* the fragment with BLOCKS (FormatFrag2.v) *)
(* adds `{ .. }` blocks with `|` branches, guards `cond => consequence`, multi-step sequences; on the formatter side
   format_program's normalize_blocks step (redundant single-chain blocks spliced away, compound consequences wrapped in
   grouping braces), sequence_doc with several steps (`,`/newline, tall steps set off by blank lines), is_tall_step,
   block_doc, leading_bar, branch_doc (flattened or breaking guard), wrap_breaking_body (the print-time `{ chain }` wrap)
   and collapse_blanks; on the parser side block / expression / branch / sequence / seq_sep. Compared with the real
   functions at every run. *)

(* for EVERY width the output parses, to the input up to the no-op blocks the formatter removes or adds *)
Theorem C17_frag2_roundtrip : forall (s : gseq) (w : nat), g_wf_seq s = true ->
  exists out c', format_frag2 s w = Some out /\ parse_frag2 out = Some c' /\ g_normalize c' = g_normalize s.
Proof. exact frag2_roundtrip. Qed.
Print Assumptions C17_frag2_roundtrip.

(* formatting the re-parsed output reproduces it (print o parse o print = print) *)
Theorem C17_frag2_format_fixpoint : forall (s : gseq) (w : nat) (out : list Z),
  g_wf_seq s = true -> format_frag2 s w = Some out ->
  exists c', parse_frag2 out = Some c' /\ format_frag2 c' w = Some out.
Proof. exact frag2_format_fixpoint. Qed.
Print Assumptions C17_frag2_format_fixpoint.

(* the fragment's block normalisation is idempotent (the model of simplify.rs on this AST) *)
Theorem C17_g_normalize_idempotent : forall s : gseq, g_normalize (g_normalize s) = g_normalize s.
Proof. exact g_normalize_idempotent. Qed.
Print Assumptions C17_g_normalize_idempotent.

(* the parser yields well-formed sequences, so formatting ANY accepted source text is a fixpoint of parse-then-format *)
Theorem C17_parse_frag2_wf : forall (t : list Z) (c : gseq), parse_frag2 t = Some c -> g_wf_seq c = true.
Proof. exact parse_frag2_wf. Qed.
Print Assumptions C17_parse_frag2_wf.

Theorem C17_frag2_source_fixpoint : forall (t : list Z) (c : gseq) (w : nat) (out : list Z),
  parse_frag2 t = Some c -> format_frag2 c w = Some out ->
  exists c', parse_frag2 out = Some c' /\ format_frag2 c' w = Some out.
Proof. exact frag2_source_fixpoint. Qed.
Print Assumptions C17_frag2_source_fixpoint.
