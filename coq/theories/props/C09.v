(* C09 — Assignability implies containment; overlap detection is complete.
   The property theorems (each closed by `exact <lemma>` and followed by Print Assumptions) and closed
   examples that show they are not vacuous.
   Models: Types.v (registry), Rel.v (check_type_relation, `current_cfg` = /repo, which has the
   repairs 5207502 (F7), 2246a47 (F12), 2932723 (F29), 7ba69a0 (F25p), e7dcc7d (F55), dea0269 (F25)), Narrow.v (incl.
   f9e893e = F26, 2bb39f1 = F56, d6406e8 = F87, 79f9965 = F25b).  Specification: Sem.v (`inhab`).

   What is PROVED (for every registry, unbounded):
     compat_sound_partial      is_compatible => containment, on the cycle-free fragment
                               (`cf_domain`: ids topologically ordered, no Cycle/Variable reachable,
                               processes with both directions; named partial types only for
                               variants with the F29 repair), for every model variant that
                               retracts failed assumptions (fix F7)
     compat_refl               outright, every registry and id
     compat_trans_partial      is_compatible is transitive on the cycle-free fragment (`trans_domain`:
                               ids topologically ordered, no duplicate type entry, no Cycle/Variable
                               reachable), for every variant with the F7 and F29 repairs and fuel
                               above the id sums: check_rel computes exactly a reference relation
                               (TransCheck.check_exact) that is transitive (TransProofs.R_trans)
     overlap_complete_partial  a `false` of types_overlap proves disjointness on the first-order
                               cycle-free fragment (ints, bins, refs, resources, tuples, unions);
     overlap_complete_callable_partial  the same with callable and process types in the fragment,
                               for the variants with the F25 repair
     overlap_complete_partial_arms  the same with PARTIAL types in the fragment too (all three partial arms of
                               check_type_relation), for the variants with the F25 and F25p repairs, over values
                               whose tuples carry each label at most once (`wfv`); without that premise on
                               the values: refuted (overlap_partial_arms_refuted_dup_labels)
     intersect_keeps_partial   a value of both a and b is a value of intersect_types a b (in the registry
                               after the call, which extends the one before), a b first-order cycle-free
     intersect_keeps_callable_partial / intersect_keeps_process_partial   the same for two callable / two process
                               operands with first-order cycle-free components (the exact meet of fix_F25b),
                               memberships read in the registry after the call
     intersect_keeps_partial_pattern / complement_keeps_partial_pattern   narrowing a first-order cycle-free type by
                               a PARTIAL pattern type (first-order field types): both branches keep their values
                               (the intersect side over values with distinct labels)
     complement_keeps_partial  a value of o that is not a value of nr is a value of compute_complement o nr,
                               o nr first-order cycle-free, registry well formed (`wfregb`), F7 repair
     filter_keeps_partial      filter_variants_by_field with the overlap test (as in /repo, d6406e8) keeps every tuple
                               value of the parent whose tested field is a value of the tested type (first-order
                               cycle-free parent with non-union variants); with the is_compatible test (the code before
                               d6406e8): refuted (C09_filter_refuted_F87_as_found)
     register_type/tuple_monotone, inhab_monotone   registry monotonicity
   What is REFUTED (witnesses, vm_compute; replayed by ./check):
     for /repo (current_cfg): F23 (a, c), F24;
     for the model variants of the code before the respective repair: F7, F12, F25, F25p, F29, F87, each with
     the answer of current_cfg on the same witness stated beside it.
   What is NOT proved (stated here in full; judged on every run by the semantic oracle on the REAL
   functions' answers, exhaustive value enumeration to depth 3):

     compat_sound : forall P a b, closedb P a = true -> closedb P b = true -> ~ KnownF23 P a b ->
        is_compatible P a b = true -> forall n v, inhab P n [] v a -> inhab P n [] v b
        (KnownF23, not a definition of the tree, stands for: a Cycle of depth >= 2 or an open subterm shared
         by two binders is reachable; proved only where no Cycle is reachable at all — the recursive fragment is missing)
     compat_trans (general) : is_compatible P a b = true -> is_compatible P b c = true ->
        is_compatible P a c = true        (proved on the cycle-free fragment: compat_trans_partial
        below; on the recursive fragment it is checked on every generated triple of every run)
     overlap_complete : forall P a b, closedb P a = true -> closedb P b = true ->
        (exists n v, inhab P n [] v a /\ inhab P n [] v b) -> types_overlap P a b = true
        (recursive fragment unproved; on the cycle-free fragment all arms are proved, the partial
         arms over values with distinct labels: overlap_complete_partial_arms below)
     intersect_keeps / complement_keeps (general) : false on recursive unions (F24, witness
        C09_complement_refuted_F24); PROVED on the first-order cycle-free fragment (and for two callable /
        two process operands, and against a partial pattern type):
        intersect_keeps_partial, complement_keeps_partial below (NarrowProofs.v: every narrowing
        function only extends the registry; union_type_ids keeps every value of every piece; a
        `never` answer of intersect_pair's default arm is justified by overlap_complete_partial,
        the is_compatible shortcut of subtract_one by compat_sound_partial; membership in a
        first-order type is decidable, which locates the field where the value leaves b). *)
From Quiver Require Import Base Types Rel Sem SemProofs RelProofs OverlapProofs OverlapCallable OverlapPartial OverlapPartialEx TypesProofs Narrow NarrowProofs NarrowCallable NarrowCallableEx NarrowPartial NarrowPartialEx Witness TransCheck TransThm.
From Coq Require Import Arith.
Close Scope Z_scope.
Open Scope nat_scope.

Theorem C09_compat_sound_partial : forall cfg P fuel a b,
  cfg_retract cfg = true ->
  cf_domain cfg P a = true -> cf_domain cfg P b = true ->
  is_compatible_with cfg fuel P a b = Some true ->
  forall n v, inhab P n [] v a -> inhab P n [] v b.
Proof. exact compat_sound_cf. Qed.
Print Assumptions C09_compat_sound_partial.

(* the instance for the code as it is in /repo *)
Theorem C09_compat_sound_partial_current : forall P fuel a b,
  cf_domain current_cfg P a = true -> cf_domain current_cfg P b = true ->
  is_compatible_with current_cfg fuel P a b = Some true ->
  forall n v, inhab P n [] v a -> inhab P n [] v b.
Proof. exact (fun P fuel a b => compat_sound_cf current_cfg P fuel a b eq_refl). Qed.
Print Assumptions C09_compat_sound_partial_current.

(* non-vacuity: Wrap[Wrap[A]] is assignable to Wrap[Wrap[A]] | Wrap[Wrap[A]|O] in the F7 graph, both
   ids are in the proved domain, and the type is inhabited *)
Example C09_compat_sound_nonvacuous :
  cf_domain current_cfg reg_F7 7 = true /\ cf_domain current_cfg reg_F7 10 = true /\
  is_compatible_with current_cfg 1000 reg_F7 7 10 = Some true /\
  memb reg_F7 (tup 3 [tup 3 [tup 0 []]]) 7 = true.
Proof. vm_compute. repeat split; reflexivity. Qed.

Theorem C09_compat_refl : forall cfg P fuel a, is_compatible_with cfg (S fuel) P a a = Some true.
Proof. exact compat_refl_all. Qed.
Print Assumptions C09_compat_refl.

Theorem C09_compat_trans_partial : forall cfg P fuel a b c,
  cfg_retract cfg = true -> cfg_partial_name cfg = true ->
  trans_domain P a = true -> trans_domain P b = true -> trans_domain P c = true ->
  a + b < fuel -> b + c < fuel -> a + c < fuel ->
  is_compatible_with cfg fuel P a b = Some true ->
  is_compatible_with cfg fuel P b c = Some true ->
  is_compatible_with cfg fuel P a c = Some true.
Proof. exact compat_trans_cf. Qed.
Print Assumptions C09_compat_trans_partial.

Definition reg_chain : registry :=
  mk_reg [mk_tuple None []; mk_tuple (Some name_ok) []] [TInteger; TBinary; TUnion [0; 1]; TReference; TUnion [0; 1; 3]].
Example C09_compat_trans_nonvacuous :
  trans_domain reg_chain 0 = true /\ trans_domain reg_chain 2 = true /\ trans_domain reg_chain 4 = true /\
  is_compatible_with current_cfg 100 reg_chain 0 2 = Some true /\
  is_compatible_with current_cfg 100 reg_chain 2 4 = Some true /\
  cfg_retract current_cfg = true /\ cfg_partial_name current_cfg = true.
Proof. vm_compute. repeat split; reflexivity. Qed.

Theorem C09_overlap_complete_partial : forall cfg P fuel a b r,
  fo_domain P a = true -> fo_domain P b = true ->
  types_overlap_with cfg fuel P a b = Some r ->
  (exists n v, inhab P n [] v a /\ inhab P n [] v b) -> r = true.
Proof. exact overlap_complete_fo. Qed.
Print Assumptions C09_overlap_complete_partial.

(* for the variants with the F25 repair (/repo has it: dea0269) the same holds with callable and process
   types in the fragment *)
Theorem C09_overlap_complete_callable_partial : forall cfg P fuel a b r,
  cfg_any_callable cfg = true ->
  foc_domain P a = true -> foc_domain P b = true ->
  types_overlap_with cfg fuel P a b = Some r ->
  (exists n v, inhab P n [] v a /\ inhab P n [] v b) -> r = true.
Proof. exact overlap_complete_foc. Qed.
Print Assumptions C09_overlap_complete_callable_partial.

(* with the F25p repair too, the same holds with PARTIAL types in the fragment, over values whose
   tuples carry each label at most once *)
Theorem C09_overlap_complete_partial_arms : forall cfg P fuel a b r,
  cfg_any_callable cfg = true -> cfg_partial_any cfg = true ->
  fop_domain P a = true -> fop_domain P b = true ->
  types_overlap_with cfg fuel P a b = Some r ->
  (exists n v, wfv v /\ inhab P n [] v a /\ inhab P n [] v b) -> r = true.
Proof. exact overlap_complete_fop. Qed.
Print Assumptions C09_overlap_complete_partial_arms.

(* the premise on the values is necessary: (x: int, ..) and (x: bin, ..) share [x: 0, x: ''] *)
Theorem C09_overlap_partial_arms_refuted_dup_labels :
  cfg_any_callable current_cfg = true /\ cfg_partial_any current_cfg = true /\
  fop_domain reg_dup 2 = true /\ fop_domain reg_dup 3 = true /\
  types_overlap_with current_cfg 1000 reg_dup 2 3 = Some false /\
  memb reg_dup v_dup 2 = true /\ memb reg_dup v_dup 3 = true /\ ~ wfv v_dup.
Proof. exact overlap_partial_needs_distinct_labels. Qed.
Print Assumptions C09_overlap_partial_arms_refuted_dup_labels.

Theorem C09_overlap_partial_arms_nonvacuous :
  fop_domain reg_dup 2 = true /\ fop_domain reg_dup 4 = true /\
  types_overlap_with current_cfg 1000 reg_dup 2 4 = Some true /\
  memb reg_dup v_xy 2 = true /\ memb reg_dup v_xy 4 = true /\ wfv v_xy.
Proof. exact overlap_partial_nonvacuous. Qed.
Print Assumptions C09_overlap_partial_arms_nonvacuous.

Example C09_overlap_callable_nonvacuous :
  cfg_any_callable current_cfg = true /\ foc_domain reg_F25fn 3 = true /\ foc_domain reg_F25fn 4 = true /\
  types_overlap_with current_cfg 1000 reg_F25fn 3 4 = Some true /\
  types_overlap_with current_cfg 1000 reg_F25fn 3 0 = Some false /\
  memb reg_F25fn (VFun 6) 3 = true /\ memb reg_F25fn (VFun 6) 4 = true.
Proof. vm_compute. repeat split; reflexivity. Qed.

Example C09_overlap_nonvacuous :
  fo_domain reg_F7 5 = true /\ fo_domain reg_F7 10 = true /\
  types_overlap_with current_cfg 1000 reg_F7 5 10 = Some true /\
  types_overlap_with current_cfg 1000 reg_F7 0 1 = Some false.
Proof. vm_compute. repeat split; reflexivity. Qed.

Theorem C09_intersect_keeps_partial : forall cfg rel_fuel fuel P a b P' r,
  intersect_types cfg rel_fuel fuel P a b = Some (P', r) ->
  fo_domain P a = true -> fo_domain P b = true ->
  extends P P' /\ forall n v, inhab P n [] v a -> inhab P n [] v b -> inhab P' n [] v r.
Proof. exact intersect_keeps_fo. Qed.
Print Assumptions C09_intersect_keeps_partial.

(* two CALLABLE operands (components first-order cycle-free), model with the F25b repair (the premise on
   cfg_any_callable is not used: NarrowCallable.intersect_callable_keeps): a function
   value of both operands is a value of the result; memberships in the registry after the call *)
Theorem C09_intersect_keeps_callable_partial : forall cfg rel_fuel fuel P a b P' r p1 r1 c1 p2 r2 c2,
  cfg_any_callable cfg = true ->
  lookup_type P a = Some (TCallable p1 r1 c1) -> lookup_type P b = Some (TCallable p2 r2 c2) ->
  fo_domain P p1 = true -> fo_domain P r1 = true -> fo_domain P c1 = true ->
  fo_domain P p2 = true -> fo_domain P r2 = true -> fo_domain P c2 = true ->
  intersect_types cfg rel_fuel fuel P a b = Some (P', r) ->
  extends P P' /\ forall n v, inhab P' n [] v a -> inhab P' n [] v b -> inhab P' n [] v r.
Proof. exact intersect_keeps_callable. Qed.
Print Assumptions C09_intersect_keeps_callable_partial.

(* two PROCESS operands (known directions first-order cycle-free) *)
Theorem C09_intersect_keeps_process_partial : forall cfg rel_fuel fuel P a b P' r s1 r1 s2 r2,
  cfg_any_callable cfg = true ->
  lookup_type P a = Some (TProcess s1 r1) -> lookup_type P b = Some (TProcess s2 r2) ->
  (forall x, s1 = Some x -> fo_domain P x = true) -> (forall x, r1 = Some x -> fo_domain P x = true) ->
  (forall x, s2 = Some x -> fo_domain P x = true) -> (forall x, r2 = Some x -> fo_domain P x = true) ->
  intersect_types cfg rel_fuel fuel P a b = Some (P', r) ->
  extends P P' /\ forall n v, inhab P' n [] v a -> inhab P' n [] v b -> inhab P' n [] v r.
Proof. exact intersect_keeps_process. Qed.
Print Assumptions C09_intersect_keeps_process_partial.

Theorem C09_intersect_callable_nonvacuous :
  cfg_any_callable current_cfg = true /\
  fo_domain reg_F25fn 0 = true /\ fo_domain reg_F25fn 1 = true /\ fo_domain reg_F25fn 2 = true /\
  match intersect_types current_cfg 1000 1000 reg_F25fn 3 4 with
  | Some (P', r) => memb P' (VFun 6) 3 && memb P' (VFun 6) 4 && memb P' (VFun 6) r && negb (memb P' (VFun 3) r)
                    && negb (Nat.eqb r 3) && negb (Nat.eqb r 4)
  | None => false
  end = true.
Proof. exact intersect_callable_nonvacuous. Qed.
Print Assumptions C09_intersect_callable_nonvacuous.

Theorem C09_intersect_process_nonvacuous :
  fo_domain reg_proc 0 = true /\ fo_domain reg_proc 2 = true /\
  match intersect_types current_cfg 1000 1000 reg_proc 3 4 with
  | Some (P', r) => memb P' (VProc 5) 3 && memb P' (VProc 5) 4 && memb P' (VProc 5) r && negb (memb P' (VProc 6) r)
                    && negb (Nat.eqb r 3) && negb (Nat.eqb r 4)
  | None => false
  end = true.
Proof. exact intersect_process_nonvacuous. Qed.
Print Assumptions C09_intersect_process_nonvacuous.

Theorem C09_complement_keeps_partial : forall cfg rel_fuel fuel P o nr P' r,
  cfg_retract cfg = true -> wfregb P = true ->
  compute_complement cfg rel_fuel fuel P o nr = Some (P', r) ->
  fo_domain P o = true -> fo_domain P nr = true ->
  extends P P' /\ forall n v, inhab P n [] v o -> ~ inhab P n [] v nr -> inhab P' n [] v r.
Proof. exact complement_keeps_fo. Qed.
Print Assumptions C09_complement_keeps_partial.

(* narrowing by a PARTIAL pattern type (field types first-order cycle-free): intersect keeps every value of
   both (values with distinct labels; needs the F25p repair only), complement keeps every value of o
   that does not match the pattern (needs the F7 / F29 repairs) *)
Theorem C09_intersect_keeps_partial_pattern : forall cfg rel_fuel fuel P a b P' r pn pfs,
  cfg_any_callable cfg = true -> cfg_partial_any cfg = true ->
  fo_domain P a = true ->
  lookup_type P b = Some (TPartial pn pfs) -> (forall f, In f pfs -> fo_domain P (snd f) = true) ->
  intersect_types cfg rel_fuel fuel P a b = Some (P', r) ->
  extends P P' /\ forall n v, wfv v -> inhab P n [] v a -> inhab P n [] v b -> inhab P' n [] v r.
Proof. exact intersect_keeps_partial_pattern. Qed.
Print Assumptions C09_intersect_keeps_partial_pattern.

Theorem C09_complement_keeps_partial_pattern : forall cfg rel_fuel fuel P o b P' r pn pfs,
  cfg_retract cfg = true -> cfg_partial_name cfg = true -> wfregb P = true ->
  fo_domain P o = true ->
  lookup_type P b = Some (TPartial pn pfs) -> (forall f, In f pfs -> fo_domain P (snd f) = true) ->
  compute_complement cfg rel_fuel fuel P o b = Some (P', r) ->
  extends P P' /\ forall n v, inhab P n [] v o -> ~ inhab P n [] v b -> inhab P' n [] v r.
Proof. exact complement_keeps_partial_pattern. Qed.
Print Assumptions C09_complement_keeps_partial_pattern.

Theorem C09_intersect_partial_pattern_nonvacuous :
  cfg_any_callable current_cfg = true /\ cfg_partial_any current_cfg = true /\
  fo_domain reg_pp 4 = true /\ fo_domain reg_pp 0 = true /\
  match intersect_types current_cfg 1000 1000 reg_pp 4 5 with
  | Some (P', r) => memb reg_pp v_A0 4 && memb reg_pp v_A0 5 && memb P' v_A0 r
                    && memb reg_pp v_Bb 4 && negb (memb P' v_Bb r)
  | None => false
  end = true /\ wfv v_A0.
Proof. exact intersect_partial_pattern_nonvacuous. Qed.
Print Assumptions C09_intersect_partial_pattern_nonvacuous.

Theorem C09_complement_partial_pattern_nonvacuous :
  cfg_retract current_cfg = true /\ cfg_partial_name current_cfg = true /\ wfregb reg_pp = true /\
  fo_domain reg_pp 4 = true /\ fo_domain reg_pp 0 = true /\
  match compute_complement current_cfg 1000 1000 reg_pp 4 5 with
  | Some (P', r) => memb reg_pp v_Bb 4 && negb (memb reg_pp v_Bb 5) && memb P' v_Bb r && negb (memb P' v_A0 r)
  | None => false
  end = true.
Proof. exact complement_partial_pattern_nonvacuous. Qed.
Print Assumptions C09_complement_partial_pattern_nonvacuous.

(* non-vacuity on the F7 graph: Wrap[Wrap[A|B]] /\ (Wrap[Wrap[A]] | Wrap[Wrap[A]|O]) keeps Wrap[Wrap[A]];
   (A|B) \ A keeps B; the registry is well formed and all operands are in the fragment *)
Example C09_narrowing_nonvacuous :
  wfregb reg_F7 = true /\ fo_domain reg_F7 5 = true /\ fo_domain reg_F7 10 = true /\
  fo_domain reg_F7 3 = true /\ fo_domain reg_F7 0 = true /\
  match intersect_types current_cfg 1000 1000 reg_F7 5 10 with
  | Some (P', r) => memb reg_F7 (tup 3 [tup 3 [tup 0 []]]) 5 && memb reg_F7 (tup 3 [tup 3 [tup 0 []]]) 10
                    && memb P' (tup 3 [tup 3 [tup 0 []]]) r
  | None => false
  end = true /\
  match compute_complement current_cfg 1000 1000 reg_F7 3 0 with
  | Some (P', r) => memb reg_F7 (tup 1 []) 3 && negb (memb reg_F7 (tup 1 []) 0) && memb P' (tup 1 []) r
  | None => false
  end = true.
Proof. vm_compute. repeat split; reflexivity. Qed.

Theorem C09_complement_refuted_F24 : complement_violation current_cfg reg_F24 4 0 v_F24 = true.
Proof. exact F24_current. Qed.
Print Assumptions C09_complement_refuted_F24.



(* filter_variants_by_field (narrowing a parent after a runtime test of one field succeeded): with the
   is_compatible test (the code before d6406e8) it drops values (refuted); with the overlap test (/repo, d6406e8) it
   keeps every tuple value of the parent whose tested field is a value of the tested type *)
Theorem C09_filter_refuted_F87_as_found : filter_violation current_cfg false reg_filter 5 0 0 v_filter (VInt 0%Z) = true.
Proof. exact F87_as_found. Qed.
Print Assumptions C09_filter_refuted_F87_as_found.

Theorem C09_F87_repaired :
  current_filter_by_overlap = true /\
  filter_violation current_cfg current_filter_by_overlap reg_filter 5 0 0 v_filter (VInt 0%Z) = false.
Proof. exact (conj eq_refl (proj1 F87_repaired)). Qed.
Print Assumptions C09_F87_repaired.

Theorem C09_filter_keeps_partial : forall cfg rel_fuel P parent idx must P' r,
  filter_variants_by_field cfg rel_fuel true P parent idx must = Some (P', r) ->
  FO P parent -> FO P must ->
  (forall x, In x (get_type_variants P parent) -> non_union P x) ->
  extends P P' /\
  forall n name fs f, inhab P (S n) [] (VTup name fs) parent -> nth_error fs idx = Some f ->
                      inhab P n [] (snd f) must -> inhab P' (S n) [] (VTup name fs) r.
Proof. exact filter_keeps_fo. Qed.
Print Assumptions C09_filter_keeps_partial.

Example C09_filter_nonvacuous :
  fo_domain reg_filter 5 = true /\ fo_domain reg_filter 0 = true /\
  match filter_variants_by_field current_cfg 1000 true reg_filter 5 0 0 with
  | Some (P', r) => memb reg_filter v_filter 5 && memb P' v_filter r | None => false end = true.
Proof. vm_compute. repeat split; reflexivity. Qed.

Theorem C09_register_type_monotone : forall P t P' id,
  register_type P t = (P', id) -> extends P P' /\ lookup_type P' id = Some t.
Proof. exact register_type_spec. Qed.
Print Assumptions C09_register_type_monotone.

Theorem C09_register_tuple_monotone : forall P name fields P' id,
  register_tuple P name fields = (P', id) ->
  extends P P' /\ lookup_tuple P' id = Some (mk_tuple name fields).
Proof. exact register_tuple_spec. Qed.
Print Assumptions C09_register_tuple_monotone.

Theorem C09_inhab_monotone : forall P P', extends P P' ->
  forall n E v t, fov v = true -> inhab P n E v t -> inhab P' n E v t.
Proof. exact inhab_extends. Qed.
Print Assumptions C09_inhab_monotone.

(* refuted for legacy_cfg (the code before the repairs of F7 and F12); beside each, the answer of
   current_cfg on the same witness *)
Theorem C09_compat_refuted_F7_legacy :
  exists P a b v, compat_violation legacy_cfg P a b v = true.
Proof. exact (ex_intro _ reg_F7 (ex_intro _ 5 (ex_intro _ 10 (ex_intro _ v_F7 F7_legacy)))). Qed.
Print Assumptions C09_compat_refuted_F7_legacy.

Theorem C09_F7_repaired : is_compatible_with current_cfg 1000 reg_F7 5 10 = Some false.
Proof. exact F7_repaired. Qed.
Print Assumptions C09_F7_repaired.

Theorem C09_overlap_refuted_F12_legacy :
  exists P a b v, overlap_violation legacy_cfg P a b v = true.
Proof. exact (ex_intro _ reg_F12 (ex_intro _ 4 (ex_intro _ 6 (ex_intro _ v_F12 F12_legacy)))). Qed.
Print Assumptions C09_overlap_refuted_F12_legacy.

Theorem C09_F12_repaired :
  types_overlap_with current_cfg 1000 reg_F12 4 6 = Some true /\
  types_overlap_with current_cfg 1000 reg_F12 6 4 = Some true.
Proof. exact F12_repaired. Qed.
Print Assumptions C09_F12_repaired.

(* refuted for current_cfg: the open finding F23; refuted for f55_cfg (the code before dea0269): F25, with
   the answer of current_cfg beside it *)
Theorem C09_compat_refuted_F23 :
  (exists P a b v, compat_violation current_cfg P a b v = true) /\
  compat_violation current_cfg reg_F23a 9 10 v_F23a = true /\
  compat_violation current_cfg reg_F23c 11 8 v_F23c = true.
Proof.
  exact (conj (ex_intro _ reg_F23a (ex_intro _ 9 (ex_intro _ 10 (ex_intro _ v_F23a F23a_current))))
              (conj F23a_current F23c_current)).
Qed.
Print Assumptions C09_compat_refuted_F23.

Theorem C09_overlap_refuted_F25_as_found :
  overlap_violation f55_cfg reg_F25fn 3 4 (VFun 6) = true.
Proof. exact F25_callable_as_found. Qed.
Print Assumptions C09_overlap_refuted_F25_as_found.

Theorem C09_F25_repaired :
  types_overlap_with current_cfg 1000 reg_F25fn 3 4 = Some true /\
  intersect_violation current_cfg reg_F25fn 3 4 (VFun 6) = false.
Proof. exact (conj F25_callable_repaired F25_intersect_repaired). Qed.
Print Assumptions C09_F25_repaired.

(* refuted for fixed_cfg (the code before 7ba69a0 and 2932723): F25p, F29; beside each, the answer of
   current_cfg *)
Theorem C09_overlap_refuted_F25p_as_found :
  overlap_violation fixed_cfg reg_F25partial 1 2 v_F25p = true.
Proof. exact F25p_as_found. Qed.
Print Assumptions C09_overlap_refuted_F25p_as_found.

Theorem C09_F25p_repaired :
  types_overlap_with current_cfg 1000 reg_F25partial 1 2 = Some true /\
  types_overlap_with current_cfg 1000 reg_F25partial 2 1 = Some true.
Proof. exact F25p_repaired. Qed.
Print Assumptions C09_F25p_repaired.

Theorem C09_compat_refuted_F29_as_found :
  compat_violation fixed_cfg reg_Pname 1 2 v_Pname = true.
Proof. exact F29_as_found. Qed.
Print Assumptions C09_compat_refuted_F29_as_found.

Theorem C09_F29_repaired : is_compatible_with current_cfg 1000 reg_Pname 1 2 = Some false.
Proof. exact F29_repaired. Qed.
Print Assumptions C09_F29_repaired.
