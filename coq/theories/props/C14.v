(* C14 — a resource is usable only by its single owner and is closed exactly once.
   Property theorems (model in res/Own.v, proofs in res/OwnProofs.v).

   `run h` is the state of the environment's ownership automaton after handling the events h
   (one `Environment::handle_event` each; `ETerminate p` marks the moment p really terminates on its
   worker; `EWatchReport p` is Event::ProcessTerminated, `EResults` Event::ProcessResults);
   `new_calls s e` are the EffectBackend calls made while handling e in state s.
   Every theorem quantifies over EVERY event sequence (every interleaving of every program).
   Every owner is watched (F10), a stale handle is not registered again (F48), only the owner can
   give a resource away (F49); the only excluded class is KnownF47 (an effect on an id absent from
   the map reaches the backend: known_findings.json), with its `_refuted` witness, the trace of a
   real run. *)
From Coq Require Import List NArith Bool.
From Quiver Require Import res.Own res.OwnProofs.
Import ListNotations.
Open Scope N_scope.

Theorem C14_owner_map_is_function : forall h r p q,
  In (r, p) (owner (run h)) -> In (r, q) (owner (run h)) -> p = q.
Proof. intros h r p q. apply owner_function, run_inv. Qed.
Print Assumptions C14_owner_map_is_function.

(* a send moves exactly the resources it carries — at any depth below tuples and closures — that the
   SENDER owns, to the recipient; a handle of somebody else's resource, or of an id that is not
   registered, moves nothing *)
Theorem C14_single_owner_after_send : forall h sender target v r,
  (carries r v -> lookup r (owner (run h)) = Some sender ->
     lookup r (owner (run (h ++ [ESend sender target v]))) = Some target) /\
  (lookup r (owner (run h)) <> Some sender ->
     lookup r (owner (run (h ++ [ESend sender target v]))) = lookup r (owner (run h))) /\
  (~ carries r v -> lookup r (owner (run (h ++ [ESend sender target v]))) = lookup r (owner (run h))).
Proof.
  intros h sender target v r. rewrite run_snoc, !carries_iff.
  exact (transfer_owner _ (ESend sender target v) _ r (run_inv h) eq_refl).
Qed.
Print Assumptions C14_single_owner_after_send.

Theorem C14_single_owner_after_spawn : forall h caller vals r,
  ((exists v, In v vals /\ carries r v) -> lookup r (owner (run h)) = Some caller ->
     lookup r (owner (run (h ++ [ESpawn caller vals]))) = Some (next_pid (run h))) /\
  (lookup r (owner (run h)) <> Some caller ->
     lookup r (owner (run (h ++ [ESpawn caller vals]))) = lookup r (owner (run h))) /\
  ((forall v, In v vals -> ~ carries r v) ->
     lookup r (owner (run (h ++ [ESpawn caller vals]))) = lookup r (owner (run h))).
Proof.
  intros h caller vals r. rewrite run_snoc, carries_flat.
  destruct (transfer_owner _ (ESpawn caller vals) _ r (run_inv h) eq_refl) as [H1 [H2 H3]].
  repeat split; [exact H1|exact H2|]. intro Hn. apply H3. cbn [transferred]. rewrite <- carries_flat.
  intros [v [Hin Hc]]. exact (Hn v Hin Hc).
Qed.
Print Assumptions C14_single_owner_after_spawn.

Theorem C14_creator_is_first_owner : forall h p n r,
  lookup r (owner (run (h ++ [EEffect p (Open n) (ANow (Some (VRes r)))]))) = Some p /\
  lookup r (owner (run (h ++ [EComplete p (Some (VRes r))]))) = Some p.
Proof.
  intros h p n r. rewrite !run_snoc.
  split; [apply (grant_owner _ (EEffect p _ _))|apply (grant_owner _ (EComplete p _))];
    try apply run_inv; left; reflexivity.
Qed.
Print Assumptions C14_creator_is_first_owner.

(* the owner of r changes only by a transfer carrying r made by its owner, by the backend creating
   r, or — to no owner — by the cleanup of a reported owner *)
Theorem C14_ownership_changes_only_by_transfer_creation_cleanup : forall h e r,
  lookup r (owner (run (h ++ [e]))) <> lookup r (owner (run h)) ->
  match lookup r (owner (run (h ++ [e]))) with
  | Some p => match e with
              | ESend q t v => t = p /\ carries r v /\ lookup r (owner (run h)) = Some q
              | ESpawn q vals => next_pid (run h) = p /\ (exists v, In v vals /\ carries r v) /\
                                 lookup r (owner (run h)) = Some q
              | EEffect q _ _ | EComplete q _ => q = p /\ In r (issued_by e)
              | _ => False
              end
  | None => exists o, lookup r (owner (run h)) = Some o /\ In o (reported e)
  end.
Proof. intros h e r. rewrite run_snoc. apply owner_change, run_inv. Qed.
Print Assumptions C14_ownership_changes_only_by_transfer_creation_cleanup.

(* F49: a resource leaves its owner only by the owner's own send/spawn, by the owner's
   cleanup, or by the backend issuing the same id again *)
Theorem C14_transfer_only_by_owner : forall h e r o,
  lookup r (owner (run h)) = Some o -> lookup r (owner (run (h ++ [e]))) <> Some o ->
  initiates e o r \/ In o (reported e) \/ In r (issued_by e).
Proof. intros h e r o. rewrite run_snoc. apply owner_loses, run_inv. Qed.
Print Assumptions C14_transfer_only_by_owner.

Theorem C14_non_owner_never_reaches_backend : forall h e p eff r o,
  In (CExec p eff) (new_calls (run h) e) -> resource_id eff = Some r ->
  lookup r (owner (run h)) = Some o -> o = p.
Proof. exact non_owner_never_reaches_backend. Qed.
Print Assumptions C14_non_owner_never_reaches_backend.

(* a request by a non-owner changes nothing and makes no backend call (the process gets an error
   completion: environment.rs report_effect_error) *)
Theorem C14_denied_request_is_inert : forall h p r n a o,
  lookup r (owner (run h)) = Some o -> o <> p ->
  run (h ++ [EEffect p (Op r n) a]) = run h /\ new_calls (run h) (EEffect p (Op r n) a) = [].
Proof.
  intros h p r n a o Ho Hne. rewrite run_snoc. apply denied_inert. unfold deniedb. cbn [resource_id].
  rewrite Ho. apply negb_true_iff, N.eqb_neq. exact Hne.
Qed.
Print Assumptions C14_denied_request_is_inert.

(* the statement without the `r in dom owner` side condition, outside F47 *)
Theorem C14_non_owner_never_reaches_backend_strong : forall h e p eff r,
  ~ KnownF47 (h ++ [e]) ->
  In (CExec p eff) (new_calls (run h) e) -> resource_id eff = Some r ->
  lookup r (owner (run h)) = Some p.
Proof.
  intros h e p eff r Hk Hin Hr. pose proof (exec_owner _ _ _ _ _ (run_inv h) Hin Hr) as H.
  destruct (lookup r (owner (run h))) as [o|]; [subst o; reflexivity|].
  exfalso. apply Hk. unfold KnownF47. rewrite anyb_snoc. apply orb_true_iff. right. exact H.
Qed.
Print Assumptions C14_non_owner_never_reaches_backend_strong.

Theorem C14_non_owner_never_reaches_backend_unconditional_refuted :
  exists h e p eff r, reports_only_terminated (h ++ [e]) /\
    In (CExec p eff) (new_calls (run h) e) /\ resource_id eff = Some r /\
    lookup r (owner (run h)) <> Some p /\ KnownF47 (h ++ [e]).
Proof.
  exists witness_F47, (EEffect 0 (Op 1 0) AFail), 0, (Op 1 0), 1. repeat split; try reflexivity.
  - left. reflexivity.
  - discriminate.
Qed.
Print Assumptions C14_non_owner_never_reaches_backend_unconditional_refuted.

Theorem C14_close_only_in_cleanup_of_owner : forall h e r,
  In (CClose r) (new_calls (run h) e) ->
  exists p, In p (reported e) /\ lookup r (owner (run h)) = Some p.
Proof. intros h e r. apply close_in_calls, run_inv. Qed.
Print Assumptions C14_close_only_in_cleanup_of_owner.

Theorem C14_not_closed_while_owner_alive : forall h e r,
  reports_only_terminated (h ++ [e]) -> In (CClose r) (new_calls (run h) e) ->
  exists p, lookup r (owner (run h)) = Some p /\ In p (dead (run h)).
Proof. exact not_closed_while_owner_alive. Qed.
Print Assumptions C14_not_closed_while_owner_alive.

(* the only hypothesis is the backend's: it never hands out the same id twice *)
Theorem C14_closed_at_most_once : forall h,
  backend_fresh h -> NoDup (closes (log (run h))).
Proof. exact closed_at_most_once. Qed.
Print Assumptions C14_closed_at_most_once.

(* when the environment learns that p terminated (ProcessResults or ProcessTerminated), everything p
   owns is closed, and p owns nothing *)
Theorem C14_cleanup_closes_everything : forall h e p r,
  In p (reported e) -> lookup r (owner (run h)) = Some p ->
  In (CClose r) (new_calls (run h) e) /\
  forall r', lookup r' (owner (run (h ++ [e]))) <> Some p.
Proof.
  intros h e p r Hp Hl. split; [apply (close_in_calls _ _ _ (run_inv h)); eauto|].
  intro r'. rewrite run_snoc. apply reported_owns_nothing; [apply run_inv|exact Hp].
Qed.
Print Assumptions C14_cleanup_closes_everything.

(* F10: whoever owns a resource has a WatchProcess outstanding, so its worker will report
   its termination *)
Theorem C14_owners_are_watched : forall h r p,
  lookup r (owner (run h)) = Some p -> In p (watched (run h)).
Proof. exact run_owners_watched. Qed.
Print Assumptions C14_owners_are_watched.

(* safety form of "every resource owned at termination is eventually closed": in a quiescent state
   (no completion outstanding; no watched process that has terminated and is not yet reported) a
   terminated process owns nothing — unconditionally, awaited or not *)
Theorem C14_closed_after_termination : forall h p r,
  quiescent (run h) -> In p (dead (run h)) -> lookup r (owner (run h)) <> Some p.
Proof. exact closed_after_termination. Qed.
Print Assumptions C14_closed_after_termination.

(* the model's log is append-only (gives `new_calls` its meaning) *)
Theorem C14_log_extends : forall h e, log (run (h ++ [e])) = log (run h) ++ new_calls (run h) e.
Proof. intros h e. rewrite run_snoc. apply log_extends, run_inv. Qed.
Print Assumptions C14_log_extends.

(* non-vacuity: one history meets every hypothesis used above and exercises every handler *)
Theorem C14_nonvacuity :
  reports_only_terminated good_history /\ backend_fresh good_history /\
  ~ KnownF47 good_history /\ quiescent (run good_history) /\ In 2 (dead (run good_history)) /\
  closes (log (run good_history)) = [1] /\
  log (run good_history) = [CExec 0 (Open 1); CExec 1 (Op 1 0); CExec 2 (Op 1 0); CClose 1].
Proof. exact good_history_meets_all_hypotheses. Qed.
Print Assumptions C14_nonvacuity.

(* F10's reproducer as a must-hold instance (the trace of a real run) *)
Theorem C14_unawaited_owner_is_cleaned_up :
  reports_only_terminated probe_F10 /\ backend_fresh probe_F10 /\ quiescent (run probe_F10) /\
  In 1 (dead (run probe_F10)) /\ owner (run probe_F10) = [] /\ closes (log (run probe_F10)) = [1] /\
  ~ quiescent (run (firstn 5 probe_F10)).
Proof. exact unawaited_owner_is_cleaned_up. Qed.
Print Assumptions C14_unawaited_owner_is_cleaned_up.
