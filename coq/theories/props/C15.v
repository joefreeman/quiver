(* C15 — Failures are contained; workers never crash.
   Model: sys/Proto.v (see props/C04.v). A process-level error is the oracle input
   `d_fin = Some (RErr e)`; a worker/environment-level failure is the `Fault` outcome of a step.

   One completion, one hop (for every oracle):
     C15_failure_local                 a failing process changes only itself and the processes that have
                                       it in `awaiting`; run queue and parked sets are untouched;
     C15_error_reported_unchanged, C15_error_forwarded_unchanged, C15_error_delivered_unchanged,
     C15_stale_failure_is_harmless, C15_late_awaiter_is_registered
                                       the error value is the same on every hop to an awaiter
                                       (check_completed -> environment -> Worker::notify_result), an awaiter
                                       registered after the failure is registered, a failure of a process
                                       that is no longer awaited leaves the former awaiter alone;
     C15_worker_errs_only_on_client_commands, C15_environment_never_errs_on_routed_events
                                       Worker::handle_command fails only on ResumeProcess / GetResult,
                                       Environment::handle_event never on routed process ids.
   One step (for every state, action and oracle):
     C15_step_errs_only                the only ways a step of the model returns a Fault:
                                       Worker.step: WorkerErr only if a ResumeProcess / GetResult command
                                       (issued only by client calls) is among the commands it handles, any
                                       other Fault is BadOracle (the oracle does not describe a possible
                                       slice — not an error of the code); Environment.step: only if a queued
                                       event names a process id that is not routed; client calls, time: never.
   Every schedule and every oracle from `init` (sys/ProtoRouted.v, sys/ProtoErrTok.v, sys/ProtoNoErr.v, over
   the micro-step decomposition sys/ProtoMicro.v):
     C15_errors_originate              the error a process ends with is the error some time slice of the
                                       schedule finished with (origin_errs sigma); no premise.
     C15_errors_in_flight_originate    the same for the errors in queued ProcessResults events and
                                       UpdateAwaitResults commands. (The invariant behind both,
                                       ProtoErrTok.errors_originate_inv, also covers `awaiting` values,
                                       ResultResponse events and pending_awaits.)
     C15_awaiters_get_same_error_single_failure
                                       when all failing slices fail with the same e0 (in particular: exactly
                                       one process fails on its own), every failed process — each awaiter,
                                       transitively, on every worker — has exactly e0.
     C15_step_never_errs               under `pid_honest_run` (a boolean on the schedule: the Send / Await
                                       action of every Worker::step's oracle names process ids below
                                       next_process_id at that moment) the run is never Fault (EnvErr _); no
                                       premise on client calls is needed (their misuse is a WorkerErr).
     C15_events_always_routed          the invariant behind it: every queued event is routed.
     C15_step_faults_only_bad_oracle   under pid_honest_run and a schedule without resume_process
                                       (`no_resume`) every Fault of the run is BadOracle: no Worker::step and
                                       no Environment::step returns Err; in particular request_result never
                                       fails (its GetResult command reaches the worker the process is routed
                                       to behind the process's Start / Spawn command).
     C15_step_faults_only_bad_oracle_resume
                                       the same when the client does resume, honestly (`resume_honest_run`,
                                       boolean form resume_honest_runb, C15_resume_premise_decidable): at the
                                       call the process is routed, sleeping on its worker (finished Ok,
                                       persistent, awaiting nothing) or its StartProcess(sleeping) is queued
                                       there, and no ResumeProcess for it is queued already. A sleeping process
                                       stays sleeping under every worker operation but its own resume
                                       (sys/ProtoSleep.v).
   Open: with several DISTINCT failures an awaiter of two failing processes t1, t2 is completed with the
   error of t1 and then overwritten with the error of t2 (upd_proc .. with_res, both in finish / notify_local
   and in Worker::notify_result) — the code keeps the one written last, and which one that is depends on the
   schedule. "Every awaiter of a failed t has t's error" is therefore not an invariant; what holds is the
   hop-wise statements above and C15_errors_originate.
   Outside this model: the debug panic of F9 (heap accounting, C06). *)
From Quiver Require Import sys.Proto sys.ProtoFail sys.ProtoExamples sys.ProtoErrs sys.ProtoMicro sys.ProtoRouted sys.ProtoErrTok sys.ProtoNoErr sys.ProtoPremises.

Theorem C15_failure_local : forall p e h hint w w',
  NoDup (map fst (w_procs w)) ->
  finish p (RErr e) h hint w = Good w' ->
  w_queue w' = w_queue w /\ w_spawning w' = w_spawning w /\ w_selecting w' = w_selecting w /\
  (forall q pr, q <> p -> alookup q (w_procs w) = Some pr -> alookup p (p_awaiting pr) = None ->
      alookup q (w_procs w') = Some pr) /\
  (forall q pr, q <> p -> alookup q (w_procs w) = Some pr -> alookup p (p_awaiting pr) <> None ->
      exists pr', alookup q (w_procs w') = Some pr' /\ p_res pr' = Some (RErr e) /\
                  p_mail pr' = p_mail pr /\ p_awaiting pr' = p_awaiting pr /\ p_sel pr' = p_sel pr).
Proof. exact failure_local. Qed.
Print Assumptions C15_failure_local.

Theorem C15_error_reported_unchanged : forall w ev t r,
  result_of w t = Some r ->
  snd (report_completed (w, ev) t) =
  ev ++ map (fun a => EResults a [(t, Some r)]) (match alookup t (w_awaiters w) with Some l => l | None => [] end).
Proof. exact report_completed_same_error. Qed.
Print Assumptions C15_error_reported_unchanged.

Theorem C15_error_forwarded_unchanged : forall nw e ns awaiter results aw,
  alookup awaiter (e_pending e) = None -> alookup awaiter (e_router e) = Some aw ->
  handle_event nw (EResults awaiter results) (e, ns) = Good (e, push_cmd aw (CUpdate awaiter results) ns).
Proof. exact env_forwards_results. Qed.
Print Assumptions C15_error_forwarded_unchanged.

Theorem C15_error_delivered_unchanged : forall awaiter awaited e w pr,
  alookup awaiter (w_procs w) = Some pr -> alookup awaited (p_awaiting pr) <> None ->
  exists pr', alookup awaiter (w_procs (worker_notify awaiter awaited (RErr e) w)) = Some pr' /\ p_res pr' = Some (RErr e).
Proof. exact worker_notify_same_error. Qed.
Print Assumptions C15_error_delivered_unchanged.

(* a failure of a process that is no longer awaited does not touch the former awaiter (F45) *)
Theorem C15_stale_failure_is_harmless : forall awaiter awaited e w pr,
  alookup awaiter (w_procs w) = Some pr -> alookup awaited (p_awaiting pr) = None ->
  w_procs (worker_notify awaiter awaited (RErr e) w) = w_procs w.
Proof. exact stale_failure_is_harmless. Qed.
Print Assumptions C15_stale_failure_is_harmless.

Theorem C15_late_awaiter_is_registered : forall awaiter t w rs pr e,
  alookup t (w_procs w) = Some pr -> p_res pr = Some (RErr e) ->
  let '(w', rs') := query_one awaiter (w, rs) t in
  In t (w_awaited w') /\ (exists l, alookup t (w_awaiters w') = Some (l ++ [awaiter])) /\ alookup t rs' = Some None.
Proof. exact query_failed_registers. Qed.
Print Assumptions C15_late_awaiter_is_registered.

Theorem C15_worker_errs_only_on_client_commands : forall c w f,
  handle_cmd c w = Fault f -> (exists p, c = CResume p) \/ (exists r p, c = CGetResult r p).
Proof. exact handle_cmd_errs_only_on_client_commands. Qed.
Print Assumptions C15_worker_errs_only_on_client_commands.

Theorem C15_environment_never_errs_on_routed_events : forall nw ev e ns,
  event_routed e ev -> exists st, handle_event nw ev (e, ns) = Good st.
Proof. exact handle_event_never_errs. Qed.
Print Assumptions C15_environment_never_errs_on_routed_events.

(* non-vacuity: a parked select with two sources whose awaited target fails *)
Theorem C15_nonvacuous :
  NoDup (map fst (w_procs fail_worker)) /\
  exists w', finish 1 (RErr 7) false [0; 1; 2] fail_worker = Good w' /\
    (exists pr, alookup 0 (w_procs w') = Some pr /\ p_res pr = Some (RErr 7) /\ p_sel pr = p_sel two_source_proc) /\
    alookup 2 (w_procs w') = Some bystander_proc /\ w_selecting w' = [0].
Proof. exact failure_local_applies. Qed.
Print Assumptions C15_nonvacuous.

Theorem C15_worker_step_errs_only_on_client_commands : forall i now k o nd f,
  node_step i now k o nd = Fault f ->
  is_oracle_fault f \/ (is_worker_err f /\ existsb client_cmd (fst (split_at k (n_cmd nd))) = true).
Proof. exact worker_step_errs_only_on_client_commands. Qed.
Print Assumptions C15_worker_step_errs_only_on_client_commands.

Theorem C15_env_step_never_errs_on_routed_ids : forall s ks,
  events_routed s -> exists s', sys_step s (E ks) = Good s'.
Proof. exact env_step_never_errs_on_routed_ids. Qed.
Print Assumptions C15_env_step_never_errs_on_routed_ids.

Theorem C15_step_errs_only : forall s a f, sys_step s a = Fault f ->
  match a with
  | W i k o => exists nd, nth_error (s_nodes s) i = Some nd /\
                 (is_oracle_fault f \/ (is_worker_err f /\ existsb client_cmd (fst (split_at k (n_cmd nd))) = true))
  | E ks => ~ events_routed s
  | T _ | X _ => False
  end.
Proof. exact step_errs_only. Qed.
Print Assumptions C15_step_errs_only.

Theorem C15_error_classes_nonvacuous :
  node_step 0 0 None (orc None idle_did) {| n_w := new_worker; n_cmd := [CResume 5]; n_evt := [] |} = Fault (WorkerErr 1) /\
  sys_step {| s_nodes := [{| n_w := new_worker; n_cmd := []; n_evt := [EDeliverA 7 (mkMsg 0 0 0)] |}];
              s_env := {| e_router := []; e_next := 0; e_pending := [] |}; s_clock := 0 |} (E []) = Fault (EnvErr 1).
Proof. exact (conj worker_err_on_client_misuse env_err_on_unrouted_id). Qed.
Print Assumptions C15_error_classes_nonvacuous.

Theorem C15_step_never_errs : forall nw sigma,
  pid_honest_run (init nw) sigma = true -> forall n, run (init nw) sigma <> Fault (EnvErr n).
Proof. exact step_never_errs. Qed.
Print Assumptions C15_step_never_errs.

Theorem C15_events_always_routed : forall nw sigma s,
  pid_honest_run (init nw) sigma = true -> run (init nw) sigma = Good s ->
  forall i nd ev, nth_error (s_nodes s) i = Some nd -> In ev (n_evt nd) -> event_routed (s_env s) ev.
Proof. exact events_always_routed. Qed.
Print Assumptions C15_events_always_routed.

(* non-vacuity: 11 actions on two workers (spawn, send and await across workers, completion report,
   update) meet the premise and run *)
Theorem C15_step_never_errs_nonvacuous :
  pid_honest_run (init 2) routed_schedule = true /\
  exists s nd pr, run (init 2) routed_schedule = Good s /\ nth_error (s_nodes s) 0 = Some nd /\
    alookup 0 (w_procs (n_w nd)) = Some pr /\ p_res pr = Some (ROk 6) /\ e_next (s_env s) = 2.
Proof. exact step_never_errs_applies. Qed.
Print Assumptions C15_step_never_errs_nonvacuous.

Theorem C15_errors_originate : forall nw sigma s,
  run (init nw) sigma = Good s ->
  forall i nd p pr e, nth_error (s_nodes s) i = Some nd -> alookup p (w_procs (n_w nd)) = Some pr ->
    p_res pr = Some (RErr e) -> In e (origin_errs sigma).
Proof. exact errors_originate. Qed.
Print Assumptions C15_errors_originate.

Theorem C15_errors_in_flight_originate : forall nw sigma s,
  run (init nw) sigma = Good s ->
  forall i nd, nth_error (s_nodes s) i = Some nd ->
    (forall a rs t e, In (EResults a rs) (n_evt nd) -> In (t, Some (RErr e)) rs -> In e (origin_errs sigma)) /\
    (forall a rs t e, In (CUpdate a rs) (n_cmd nd) -> In (t, Some (RErr e)) rs -> In e (origin_errs sigma)).
Proof. exact errors_in_flight_originate. Qed.
Print Assumptions C15_errors_in_flight_originate.

Theorem C15_awaiters_get_same_error_single_failure : forall nw sigma s e0,
  run (init nw) sigma = Good s -> (forall e, In e (origin_errs sigma) -> e = e0) ->
  forall i nd p pr e, nth_error (s_nodes s) i = Some nd -> alookup p (w_procs (n_w nd)) = Some pr ->
    p_res pr = Some (RErr e) -> e = e0.
Proof. exact single_failure_same_error. Qed.
Print Assumptions C15_awaiters_get_same_error_single_failure.

Theorem C15_single_failure_nonvacuous :
  origin_errs err_schedule = [7] /\
  exists s nd0 pr0 nd1 pr1, run (init 2) err_schedule = Good s /\
    nth_error (s_nodes s) 0 = Some nd0 /\ alookup 0 (w_procs (n_w nd0)) = Some pr0 /\ p_res pr0 = Some (RErr 7) /\
    nth_error (s_nodes s) 1 = Some nd1 /\ alookup 1 (w_procs (n_w nd1)) = Some pr1 /\ p_res pr1 = Some (RErr 7).
Proof. exact single_failure_applies. Qed.
Print Assumptions C15_single_failure_nonvacuous.

Theorem C15_step_faults_only_bad_oracle : forall nw sigma f,
  pid_honest_run (init nw) sigma = true -> no_resume sigma -> run (init nw) sigma = Fault f -> is_oracle_fault f.
Proof. exact step_faults_only_bad_oracle. Qed.
Print Assumptions C15_step_faults_only_bad_oracle.

Theorem C15_step_faults_only_bad_oracle_nonvacuous :
  pid_honest_run (init 2) getresult_schedule = true /\ no_resume getresult_schedule /\
  exists s, run (init 2) getresult_schedule = Good s.
Proof. exact step_faults_only_bad_oracle_applies. Qed.
Print Assumptions C15_step_faults_only_bad_oracle_nonvacuous.

Theorem C15_step_faults_only_bad_oracle_resume : forall nw sigma f,
  pid_honest_run (init nw) sigma = true -> resume_honest_run (init nw) sigma -> run (init nw) sigma = Fault f -> is_oracle_fault f.
Proof. exact step_faults_only_bad_oracle_resume. Qed.
Print Assumptions C15_step_faults_only_bad_oracle_resume.

Theorem C15_resume_premise_decidable : forall sigma s, resume_honest_runb s sigma = true -> resume_honest_run s sigma.
Proof. exact resume_honest_runb_sound. Qed.
Print Assumptions C15_resume_premise_decidable.

Theorem C15_honest_resumes_nonvacuous :
  (pid_honest_run (init 1) resume_schedule = true /\ resume_honest_run (init 1) resume_schedule /\
   exists s nd pr, run (init 1) resume_schedule = Good s /\ nth_error (s_nodes s) 0 = Some nd /\
     alookup 0 (w_procs (n_w nd)) = Some pr /\ p_res pr = Some (ROk 10)) /\
  (resume_honest_runb (init 1) [X (XStart false); X (XResume 0)] = false /\
   run (init 1) [X (XStart false); X (XResume 0); W 0 None (orc None idle_did)] = Fault (WorkerErr 3)).
Proof. exact (conj honest_resumes_apply dishonest_resume_flagged). Qed.
Print Assumptions C15_honest_resumes_nonvacuous.
