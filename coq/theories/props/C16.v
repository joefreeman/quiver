(* C16 — Tail calls run in constant space.
   ONLY property theorems. The verifier (vm/Wf.v) accepts a tail call only when the operand stack
   above the frame's base holds exactly the call shape (the argument for `^`, argument and
   function for `^f`); the theorems below then give, for every verified program and every
   execution: a tail call never grows the frame stack, re-enters at pc 0 on the same locals
   base and the same stack base with only the new function's captures as locals, and the locals of
   each activation stay within the per-function bound the verifier computed (the operand stack is
   bounded globally, C16_run_space_bound). Heap reclamation of dropped binaries is C06's. *)
From Quiver Require Import vm.Wf vm.WfProofs vm.WfRun vm.WfExamples vm.WfSpace.

Theorem C16_tailcall_constant_space : forall P As, check_program P As = true ->
  forall s x r s' fr rest,
  Inv P As s -> frames s = fr :: rest -> top_instr P s = Some (ITailCall r) ->
  step P s x = Next s' ->
  exists fr' a,
    frames s' = fr' :: rest /\
    ann As (fr_fn fr) (fr_pc fr) = Some a /\
    length (frames s') = length (frames s) /\
    fr_pc fr' = 0 /\ fr_base fr' = fr_base fr /\
    length (stack s') = (length (stack s) - a_h a) + 1 /\
    length (locals s') = fr_base fr + fr_caps fr'.
Proof. exact tailcall_constant_space. Qed.
Print Assumptions C16_tailcall_constant_space.

Theorem C16_per_function_bounds : forall P As s fr rest A,
  Inv P As s -> frames s = fr :: rest -> nth_error As (fr_fn fr) = Some A ->
  exists a, ann As (fr_fn fr) (fr_pc fr) = Some a /\
            a_h a <= max_height A /\
            length (locals s) <= fr_base fr + max_locals A.
Proof. exact per_function_bounds. Qed.
Print Assumptions C16_per_function_bounds.

(* the invariant these theorems assume holds along every execution of a verified program *)
Theorem C16_invariant_reachable : forall P As, check_program P As = true ->
  forall s xs, Inv P As s -> Forall (ext_ok P) xs -> good P As (run P s xs).
Proof. exact run_sound. Qed.
Print Assumptions C16_invariant_reachable.

(* non-vacuity: a self tail call not in tail position is rejected, one in tail position accepted *)
Theorem C16_nonvacuous :
  (exists As, verify_program good_prog = Some As) /\
  verify_program (prog [{| f_caps := 0; f_code := [IDuplicate; ITailCall true] |}]) = None.
Proof. split; [exact verifier_accepts | exact reject_tailcall_not_in_tail_position]. Qed.
Print Assumptions C16_nonvacuous.

(* global form: in every state a verified program reaches from a spawn, the operand stack and the
   locals are bounded by (number of frames) x (the verifier's largest per-point height / locals
   count) — and a tail call never adds a frame, so the only factor that can grow counts pending
   NON-tail calls: a loop written with tail calls runs in space independent of its iteration count *)
Theorem C16_run_space_bound : forall P As, check_program P As = true ->
  forall fn fd caps arg pers xs s,
  nth_error (p_funcs P) fn = Some fd -> length caps = f_caps fd ->
  Forall (wfv P) caps -> wfv P arg -> Forall (ext_ok P) xs ->
  run P (init_state fn caps arg pers) xs = Next s -> frames s <> [] ->
  length (stack s) <= length (frames s) * Hmax As /\
  length (locals s) <= length (frames s) * Lmax As.
Proof. exact run_space_bound. Qed.
Print Assumptions C16_run_space_bound.

Theorem C16_tailcall_keeps_frame_count : forall P As, check_program P As = true ->
  forall s x r s',
  Inv P As s -> top_instr P s = Some (ITailCall r) -> step P s x = Next s' ->
  length (frames s') = length (frames s).
Proof. exact tailcall_keeps_frame_count. Qed.
Print Assumptions C16_tailcall_keeps_frame_count.

Theorem C16_loop_space_nonvacuous :
  exists As, verify_program good_prog = Some As /\ Hmax As = 2 /\ Lmax As = 2 /\
  exists s, run good_prog (init_state 2 [] (VInt 5%Z) false)
                (repeat {| x_value := None; x_bool := false |} 60) = Next s /\
            length (frames s) = 1 /\ length (stack s) = 1 /\ length (locals s) = 0.
Proof. exact loop_space_nonvacuous. Qed.
Print Assumptions C16_loop_space_nonvacuous.
