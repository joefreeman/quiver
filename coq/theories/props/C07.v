(* C07 — Every function the compiler emits is well-formed bytecode.
   ONLY property theorems: statement, `exact <lemma>`, Print Assumptions.
   Models: vm/Bytecode.v, vm/Vm.v (the per-process machine of executor.rs), vm/Wf.v (verifier),
   vm/Tables.v (cross-references inside the tables).
   The theorems say: whatever program the verifier accepts is safe on EVERY execution; the check
   then runs the extracted verifier on every function the real compiler emits (as compiled,
   tree-shaken, merged into an environment) — translation validation. *)
From Quiver Require Import vm.Wf vm.WfProofs vm.WfRun vm.WfExamples vm.Tables.

(* the extracted verifier's answer is a certificate the proved checker accepts *)
Theorem C07_verifier_output_checked : forall P As, verify_program P = Some As -> check_program P As = true.
Proof. exact verify_program_checked. Qed.
Print Assumptions C07_verifier_output_checked.

(* one step preserves the frame/stack/locals invariant and never faults structurally *)
Theorem C07_step_sound : forall P As, check_program P As = true ->
  forall s x, Inv P As s -> ext_ok P x -> good P As (step P s x).
Proof. exact step_sound. Qed.
Print Assumptions C07_step_sound.

(* every execution of every function, on every argument, with every outside input: no stack
   underflow, frame underflow, undefined local/constant/function/builtin/tuple, no jump out of
   the function; and a finished process leaves exactly its one result *)
Theorem C07_wf_sound : forall P As, check_program P As = true ->
  forall fn fd caps arg pers xs,
  nth_error (p_funcs P) fn = Some fd -> length caps = f_caps fd ->
  Forall (wfv P) caps -> wfv P arg -> Forall (ext_ok P) xs ->
  match run P (init_state fn caps arg pers) xs with
  | Fault f => structural f = false
  | Finished v s' => stack s' = []
  | Next _ => True
  end.
Proof. exact wf_sound. Qed.
Print Assumptions C07_wf_sound.

(* non-vacuity: a program the verifier accepts, meeting the hypotheses above *)
Theorem C07_nonvacuous : exists As, check_program good_prog As = true /\
  Inv good_prog As (init_state 1 [VFun 0 []] (VInt 5%Z) false).
Proof. exact wf_sound_applies. Qed.
Print Assumptions C07_nonvacuous.

(* indices that occur INSIDE the tables (a type mentioning a type or tuple id, a tuple field type,
   a builtin signature, a function's callable type) are in range whenever the table check passes *)
Theorem C07_tables_ok_spec : forall t, tables_ok t = true ->
  (forall tys tups, In (tys, tups) (tb_types t) ->
     (forall x, In x tys -> x < length (tb_types t)) /\ (forall x, In x tups -> x < length (tb_tuples t))) /\
  (forall fs, In fs (tb_tuples t) -> forall x, In x fs -> x < length (tb_types t)) /\
  (forall p r, In (p, r) (tb_builtins t) -> p < length (tb_types t) /\ r < length (tb_types t)) /\
  (forall x, In x (tb_fn_types t) -> x < length (tb_types t)).
Proof. exact tables_ok_spec. Qed.
Print Assumptions C07_tables_ok_spec.
