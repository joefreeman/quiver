(* FormatFragLang.v — FormatFrag.v and FormatFrag2.v are the same parser at two term types. Over a `lang` (a term type
   with its constructors, with or without blocks): the character-level grammar x* of the formatter's outputs, indexed by
   what the parser returns; the parser is complete on it (x_complete) and only produces well-formed terms (pt_wf);
   strip_trailing_whitespace and collapse_blanks map grammar texts to grammar texts of the same tree (cb, x_cb). *)
From Quiver Require Import Base Escape Pretty EscapeProofs EscapePretty FormatFrag FormatFrag2.
From Coq Require Decimal DecimalZ DecimalPos.
From Coq Require Import ZifyBool.

Definition nl (i : nat) : list Z := 10 :: repeat 32 i.

(* a character after which a line (or the text) may end *)
Definition solid (c : Z) : bool :=
  negb ((c =? 32) || (c =? 9) || (c =? 10) || (c =? 13)).

(* compositional description of strip_trailing_whitespace + collapse_blanks: cb p s s' q = from state p (previous
   character solid?), the text s is turned into s' and leaves state q. Every LF and the end of the text are
   preceded by a solid character, except that a whitespace-only line may stand between two LFs (cb_blank: the
   two hard lines around a tall step); that line is emptied. *)
Inductive cb : bool -> list Z -> list Z -> bool -> Prop :=
| cb_nil p : cb p [] [] p
| cb_app p q r a a' b b' : cb p a a' q -> cb q b b' r -> cb p (a ++ b) (a' ++ b') r
| cb_char p c : c <> 10 -> cb p [c] [c] (solid c)
| cb_lf : cb true [10] [10] false
| cb_blank i : cb true (nl i ++ [10]) [10; 10] false.

Lemma trim_end_solid l c : is_ws c = false -> trim_end (l ++ [c]) = l ++ [c].
Proof. intros Hc. rewrite trim_end_snoc, Hc. reflexivity. Qed.

Lemma solid_not_ws c : solid c = true -> is_ws c = false.
Proof. unfold solid, is_ws. lia. Qed.

Lemma split_lines_aux_nonnil s cur : (s <> [] \/ cur <> []) -> split_lines_aux cur s <> [].
Proof.
  revert cur. induction s as [|c r IH]; intros cur H.
  - cbn [split_lines_aux]. destruct cur; [destruct H; congruence|discriminate].
  - cbn [split_lines_aux]. destruct (c =? 10); [discriminate|].
    apply IH. right. discriminate.
Qed.

(* the continuation predicate: from state p, with any current line cur compatible with p, stripping the rest s
   of the text yields the current line followed by s' *)
Definition stripK (p : bool) (s s' : list Z) : Prop :=
  forall cur, (p = true -> exists c cur', cur = c :: cur' /\ solid c = true) ->
    Pretty.join_lf (map trim_end (split_lines_aux cur s)) = List.rev cur ++ s'.

Lemma stripK_false_nonnil s s' : stripK false s s' -> s <> [].
Proof.
  (* with nothing left, a current line that is one space would be trimmed away *)
  intros HK Hs. subst s.
  assert (Hf : false = true -> exists c cur', [32] = c :: cur' /\ solid c = true) by (intros Hd; discriminate Hd).
  specialize (HK [32] Hf). vm_compute in HK. discriminate HK.
Qed.

Lemma repeat_snoc (x : Z) i l : repeat x i ++ x :: l = x :: repeat x i ++ l.
Proof. change (x :: l) with ([x] ++ l). rewrite app_assoc, <- repeat_cons. reflexivity. Qed.

Lemma split_spaces i : forall cur t,
  split_lines_aux cur (repeat 32 i ++ t) = split_lines_aux (repeat 32 i ++ cur) t.
Proof.
  induction i as [|i IH]; intros cur t; [reflexivity|].
  cbn [repeat app split_lines_aux].
  replace (32 =? 10) with false by reflexivity.
  rewrite IH. rewrite repeat_snoc. reflexivity.
Qed.

Lemma trim_end_ws l : forallb is_ws l = true -> trim_end l = [].
Proof.
  induction l as [|c l IH]; intros H; [reflexivity|].
  cbn [forallb] in H. apply andb_true_iff in H. destruct H as [Hc Hl].
  cbn [trim_end]. rewrite (IH Hl). rewrite Hc. reflexivity.
Qed.

Lemma ws_rev_spaces i : forallb is_ws (List.rev (repeat 32 i)) = true.
Proof.
  apply forallb_forall. intros x Hx. apply in_rev in Hx. apply repeat_spec in Hx. subst x. reflexivity.
Qed.

Lemma drop_cr_spaces i : drop_cr (repeat 32 i) = repeat 32 i.
Proof. destruct i as [|i]; reflexivity. Qed.

Lemma drop_cr_solid c cur : solid c = true -> drop_cr (c :: cur) = c :: cur.
Proof.
  intros Hs. cbn [drop_cr].
  assert (Hx : (c =? 13) = false) by (unfold solid in Hs; lia).
  rewrite Hx. reflexivity.
Qed.

Lemma trim_end_solid_rev c cur : solid c = true -> trim_end (List.rev (c :: cur)) = List.rev (c :: cur).
Proof.
  intros Hs. cbn [List.rev]. apply trim_end_solid. apply solid_not_ws. exact Hs.
Qed.

Lemma join_lf_cons2 l l' r : Pretty.join_lf (l :: l' :: r) = l ++ 10 :: Pretty.join_lf (l' :: r).
Proof. reflexivity. Qed.

Lemma stripK_line b b' l :
  stripK false b b' -> Pretty.join_lf (l :: map trim_end (split_lines_aux [] b)) = l ++ 10 :: b'.
Proof.
  intros HK.
  pose proof (split_lines_aux_nonnil b [] (or_introl (stripK_false_nonnil b b' HK))) as Hne.
  assert (Hf : false = true -> exists c0 cur0, @nil Z = c0 :: cur0 /\ solid c0 = true)
    by (intros Hd; discriminate Hd).
  pose proof (HK [] Hf) as E. cbn [List.rev app] in E.
  destruct (split_lines_aux [] b) as [|l0 ls] eqn:Esp; [congruence|].
  cbn [map] in E |- *. cbn [Pretty.join_lf]. cbn [Pretty.join_lf] in E. rewrite E. reflexivity.
Qed.

Lemma cb_stripK p a a' q : cb p a a' q -> forall b b', stripK q b b' -> stripK p (a ++ b) (a' ++ b').
Proof.
  induction 1 as [p|p q r a a' b b' _ IH1 _ IH2|p c Hc| |i]; intros b0 b0' HK.
  - exact HK.
  - rewrite <- !app_assoc. apply IH1. apply IH2. exact HK.
  - intros cur Hp. cbn [app split_lines_aux]. apply Z.eqb_neq in Hc. rewrite Hc.
    rewrite (HK (c :: cur)).
    + cbn [List.rev]. rewrite <- app_assoc. reflexivity.
    + intros Hs. exists c, cur. split; [reflexivity|exact Hs].
  - intros cur Hp. destruct (Hp eq_refl) as [c [cur' [E Hs]]]. subst cur.
    cbn [app split_lines_aux]. replace (10 =? 10) with true by reflexivity.
    rewrite (drop_cr_solid c cur' Hs). cbn [map].
    rewrite trim_end_solid_rev by exact Hs.
    apply stripK_line. exact HK.
  - (* the line of spaces is trimmed to nothing *)
    intros cur Hp. destruct (Hp eq_refl) as [c [cur' [E Hs]]]. subst cur.
    unfold nl. cbn [app split_lines_aux]. replace (10 =? 10) with true by reflexivity.
    rewrite (drop_cr_solid c cur' Hs). cbn [map].
    rewrite <- app_assoc. rewrite split_spaces. rewrite app_nil_r.
    cbn [app split_lines_aux]. replace (10 =? 10) with true by reflexivity.
    rewrite drop_cr_spaces. cbn [map].
    rewrite (trim_end_ws _ (ws_rev_spaces i)).
    rewrite trim_end_solid_rev by exact Hs.
    rewrite join_lf_cons2, (stripK_line b0 b0' [] HK). reflexivity.
Qed.

Lemma stripK_nil : stripK true [] [].
Proof.
  intros cur Hp. destruct (Hp eq_refl) as [c [cur' [E Hs]]]. subst cur.
  cbn [split_lines_aux map Pretty.join_lf List.rev].
  rewrite trim_end_solid by (apply solid_not_ws; exact Hs).
  rewrite app_nil_r. reflexivity.
Qed.

Theorem cb_strip : forall s s', cb false s s' true -> strip_trailing_whitespace s = s'.
Proof.
  intros s s' H.
  pose proof (cb_stripK _ _ _ _ H [] [] stripK_nil) as HK. rewrite !app_nil_r in HK.
  unfold strip_trailing_whitespace, split_lines.
  rewrite (HK []); [reflexivity|intros Hd; discriminate Hd].
Qed.

(* cb with both texts equal: texts that are left alone *)
Definition cl (p : bool) (s : list Z) (q : bool) : Prop := cb p s s q.

Lemma cl_nil p : cl p [] p.
Proof. apply cb_nil. Qed.
Lemma cl_app p q r a b : cl p a q -> cl q b r -> cl p (a ++ b) r.
Proof. apply cb_app. Qed.
Lemma cl_char p c : c <> 10 -> cl p [c] (solid c).
Proof. apply cb_char. Qed.

(* the cb state after s, from state p, when s has no LF *)
Fixpoint lastsolid (p : bool) (s : list Z) : bool :=
  match s with [] => p | c :: r => lastsolid (solid c) r end.

Lemma cl_text : forall s p, Forall (fun c => c <> 10) s -> cl p s (lastsolid p s).
Proof.
  induction s as [|c r IH]; intros p H.
  - apply cl_nil.
  - inversion H as [|c0 r0 Hc Hr]; subst. cbn [lastsolid].
    change (c :: r) with ([c] ++ r). eapply cl_app; [apply cl_char; exact Hc|apply IH; exact Hr].
Qed.

Lemma lastsolid_app p a c : lastsolid p (a ++ [c]) = solid c.
Proof. revert p. induction a as [|x a IH]; intros p; [reflexivity|]. cbn [app lastsolid]. apply IH. Qed.

Lemma lastsolid_all s p : s <> [] -> forallb solid s = true -> lastsolid p s = true.
Proof.
  revert p. induction s as [|c r IH]; intros p Hne H; [congruence|].
  cbn [forallb] in H. apply andb_true_iff in H. destruct H as [Hc Hr].
  cbn [lastsolid]. destruct r as [|d r']; [exact Hc|]. apply IH; [discriminate|exact Hr].
Qed.

Lemma solid_not_lf s : forallb solid s = true -> Forall (fun c => c <> 10) s.
Proof.
  induction s as [|c r IH]; intros H; [constructor|].
  cbn [forallb] in H. apply andb_true_iff in H. destruct H as [Hc Hr].
  constructor; [unfold solid in Hc; lia|apply IH; exact Hr].
Qed.

Lemma cl_solid s p : s <> [] -> forallb solid s = true -> cl p s true.
Proof.
  intros Hne H. rewrite <- (lastsolid_all s p Hne H). apply cl_text. apply solid_not_lf. exact H.
Qed.
Lemma cl_one c p : solid c = true -> cl p [c] true.
Proof. intros H. apply cl_solid; [discriminate|]. cbn [forallb]. rewrite H. reflexivity. Qed.

Lemma cl_spaces i : cl false (repeat 32 i) false.
Proof.
  induction i as [|i IH]; [apply cl_nil|].
  cbn [repeat]. change (32 :: repeat 32 i) with ([32] ++ repeat 32 i).
  eapply cl_app; [|exact IH]. apply (cl_char false 32). lia.
Qed.

Lemma cl_nl i : cl true (nl i) false.
Proof.
  unfold nl. change (10 :: repeat 32 i) with ([10] ++ repeat 32 i).
  eapply cl_app; [apply cb_lf|apply cl_spaces].
Qed.

Lemma cl_space p : cl p [32] false.
Proof. apply (cl_char p 32). lia. Qed.
Lemma cl_bar p : cl p [124; 32] false.
Proof. apply (cl_text [124; 32] p). repeat constructor; lia. Qed.
Lemma cl_arrow p : cl p [32; 61; 62; 32] false.
Proof. apply (cl_text [32; 61; 62; 32] p). repeat constructor; lia. Qed.

Definition tstart (c : Z) : bool :=
  (c =? 34) || is_digit c || (c =? 45) || is_upper c || (c =? 91) || (c =? 123) || is_lower c.

(* arithmetic on character codes, with the character classes unfolded *)
Ltac cc := unfold tstart, is_word, is_lower, is_upper, is_digit, is_msp, is_hsp, solid in *; lia.

(* stops p r: take_while p ends in front of r; misses c s: s does not begin with c (below) *)
Definition stops (p : Z -> bool) (r : list Z) : Prop :=
  match r with [] => True | x :: _ => p x = false end.

Lemma take_while_spec p : forall s a r,
  take_while p s = (a, r) -> s = a ++ r /\ forallb p a = true /\ stops p r.
Proof.
  induction s as [|c s IH]; intros a r H.
  - cbn [take_while] in H. inversion H; subst. repeat split.
  - cbn [take_while] in H. destruct (p c) eqn:Ec.
    + destruct (take_while p s) as [a' r'] eqn:E. inversion H; subst.
      destruct (IH a' r eq_refl) as [E1 [E2 E3]]. subst s.
      repeat split; [|exact E3]. cbn [forallb]. rewrite Ec, E2. reflexivity.
    + inversion H; subst. repeat split. exact Ec.
Qed.

Lemma take_while_app p a r : forallb p a = true -> stops p r -> take_while p (a ++ r) = (a, r).
Proof.
  intros Ha Hr. induction a as [|c a IH].
  - cbn [app]. destruct r as [|x r']; [reflexivity|]. cbn [take_while]. cbn [stops] in Hr. rewrite Hr. reflexivity.
  - cbn [forallb] in Ha. apply andb_true_iff in Ha. destruct Ha as [Hc Ha].
    cbn [app take_while]. rewrite Hc, (IH Ha). reflexivity.
Qed.

Definition misses (c : Z) (s : list Z) : Prop := match s with [] => True | x :: _ => x <> c end.

Lemma opt_char_hit c r : opt_char c (c :: r) = ([c], r).
Proof. cbn [opt_char]. rewrite Z.eqb_refl. reflexivity. Qed.
Lemma opt_char_miss c s : misses c s -> opt_char c s = ([], s).
Proof.
  destruct s as [|x r]; intros H; [reflexivity|]. cbn [opt_char]. cbn [misses] in H.
  apply Z.eqb_neq in H. rewrite H. reflexivity.
Qed.
Lemma opt_char_spec c s q r :
  opt_char c s = (q, r) -> s = q ++ r /\ (q = [] \/ q = [c]).
Proof.
  destruct s as [|x s']; cbn [opt_char]; intros H.
  - inversion H; subst. split; [reflexivity|left; reflexivity].
  - destruct (x =? c) eqn:E; inversion H; subst.
    + apply Z.eqb_eq in E. subst x. split; [reflexivity|right; reflexivity].
    + split; [reflexivity|left; reflexivity].
Qed.

Lemma wf_ident_inv n : wf_ident n = true ->
  exists c body q b, n = c :: body ++ q ++ b /\ is_lower c = true /\ forallb is_word body = true /\
                     (q = [] \/ q = [63]) /\ (b = [] \/ b = [33]).
Proof.
  unfold wf_ident, p_identifier. destruct n as [|c r]; [discriminate|].
  destruct (is_lower c) eqn:El; [|discriminate].
  destruct (take_while is_word r) as [body r1] eqn:Etw.
  destruct (opt_char 63 r1) as [q r2] eqn:Eq.
  destruct (opt_char 33 r2) as [b r3] eqn:Eb.
  intros H. destruct r3 as [|x r3]; [|discriminate].
  destruct (take_while_spec _ _ _ _ Etw) as [E1 [E2 _]].
  destruct (opt_char_spec _ _ _ _ Eq) as [E3 Hq].
  destruct (opt_char_spec _ _ _ _ Eb) as [E4 Hb].
  exists c, body, q, b. subst r r1 r2. rewrite app_nil_r. repeat split; assumption.
Qed.

Definition idfollow (rest : list Z) : Prop :=
  match rest with [] => True | x :: _ => is_word x = false /\ x <> 63 /\ x <> 33 end.

Lemma p_identifier_app n rest :
  wf_ident n = true -> idfollow rest -> p_identifier (n ++ rest) = Some (n, rest).
Proof.
  intros Hwf Hf. destruct (wf_ident_inv n Hwf) as (c & body & q & b & En & Hc & Hbody & Hq & Hb).
  subst n. cbn [app p_identifier]. rewrite Hc. rewrite <- !app_assoc.
  assert (Hst : stops is_word (q ++ b ++ rest)).
  { destruct Hq as [Hq|Hq]; destruct Hb as [Hb|Hb]; subst q b; cbn [app stops]; try reflexivity.
    destruct rest as [|x r]; [exact I|]. apply Hf. }
  rewrite (take_while_app is_word body _ Hbody Hst).
  destruct Hq as [Hq|Hq]; destruct Hb as [Hb|Hb]; subst q b; cbn [app].
  - rewrite (opt_char_miss 63 rest) by (destruct rest; [exact I|apply Hf]).
    rewrite (opt_char_miss 33 rest) by (destruct rest; [exact I|apply Hf]).
    rewrite !app_nil_r. reflexivity.
  - rewrite (opt_char_miss 63 (33 :: rest)) by (cbn [misses]; lia).
    rewrite opt_char_hit. rewrite app_nil_l. reflexivity.
  - rewrite opt_char_hit.
    rewrite (opt_char_miss 33 rest) by (destruct rest; [exact I|apply Hf]).
    rewrite !app_nil_r. reflexivity.
  - rewrite opt_char_hit, opt_char_hit. reflexivity.
Qed.

Lemma wf_tuple_name_inv n : wf_tuple_name n = true ->
  exists c body, n = c :: body /\ is_upper c = true /\ forallb is_word body = true.
Proof.
  unfold wf_tuple_name, p_tuple_name. destruct n as [|c r]; [discriminate|].
  destruct (is_upper c) eqn:El; [|discriminate].
  destruct (take_while is_word r) as [body r1] eqn:Etw.
  intros H. destruct r1 as [|x r1]; [|discriminate].
  destruct (take_while_spec _ _ _ _ Etw) as [E1 [E2 _]].
  exists c, body. subst r. rewrite app_nil_r. repeat split; assumption.
Qed.

Lemma p_tuple_name_app n rest :
  wf_tuple_name n = true -> stops is_word rest -> p_tuple_name (n ++ rest) = Some (n, rest).
Proof.
  intros Hwf Hf. destruct (wf_tuple_name_inv n Hwf) as (c & body & En & Hc & Hbody).
  subst n. cbn [app p_tuple_name]. rewrite Hc.
  rewrite (take_while_app is_word body _ Hbody Hf). reflexivity.
Qed.

Lemma chars_digits u : forallb is_digit (chars_of_uint u) = true.
Proof. induction u; cbn [chars_of_uint forallb]; try rewrite IHu; reflexivity. Qed.

Lemma uint_of_chars u : uint_of_digits (chars_of_uint u) = u.
Proof. induction u; cbn [chars_of_uint uint_of_digits]; try rewrite IHu; reflexivity. Qed.

Lemma chars_nonnil u : u <> Decimal.Nil -> exists d ds, chars_of_uint u = d :: ds /\ is_digit d = true.
Proof.
  intros Hu. pose proof (chars_digits u) as Hd.
  destruct (chars_of_uint u) as [|d ds] eqn:E.
  - destruct u; cbn [chars_of_uint] in E; congruence.
  - cbn [forallb] in Hd. apply andb_true_iff in Hd. exists d, ds. split; [reflexivity|apply Hd].
Qed.

Lemma to_int_cases z :
  exists u, u <> Decimal.Nil /\ (Z.to_int z = Decimal.Pos u \/ Z.to_int z = Decimal.Neg u).
Proof.
  destruct z as [|p|p]; cbn [Z.to_int].
  - exists (Decimal.D0 Decimal.Nil). split; [discriminate|left; reflexivity].
  - exists (Pos.to_uint p). split; [apply DecimalPos.Unsigned.to_uint_nonnil|left; reflexivity].
  - exists (Pos.to_uint p). split; [apply DecimalPos.Unsigned.to_uint_nonnil|right; reflexivity].
Qed.

Definition intfollow (rest : list Z) : Prop :=
  match rest with [] => True | x :: _ => is_digit x = false /\ x <> 46 /\ x <> 47 /\ x <> 120 end.

Lemma no_0x ds rest : forallb is_digit ds = true -> intfollow rest ->
  match ds ++ rest with a :: b :: _ => (a =? 48) && (b =? 120) | _ => false end = false.
Proof.
  intros Hd Hf. destruct ds as [|a [|b ds]]; cbn [app].
  - destruct rest as [|a [|b r]]; try reflexivity.
    destruct (b =? 120); [|apply andb_false_r].
    destruct (a =? 48) eqn:E; [|reflexivity]. exfalso. cbn [intfollow] in Hf. cc.
  - destruct rest as [|b r]; [reflexivity|]. cbn [intfollow] in Hf.
    assert (E : (b =? 120) = false) by lia. rewrite E. apply andb_false_r.
  - cbn [forallb] in Hd. assert (E : (b =? 120) = false) by cc. rewrite E. apply andb_false_r.
Qed.

Lemma outside1 rest : intfollow rest ->
  match rest with c :: r2 => ((c =? 46) || (c =? 47)) && starts_digit r2 | [] => false end = false.
Proof.
  destruct rest as [|c r2]; intros H; [reflexivity|]. cbn [intfollow] in H.
  assert (E : ((c =? 46) || (c =? 47)) = false) by lia. rewrite E. reflexivity.
Qed.

Lemma p_integer_app z rest : intfollow rest -> p_integer (int_text z ++ rest) = Some (z, rest).
Proof.
  intros Hf. pose proof (DecimalZ.of_to z) as Hz. unfold int_text.
  destruct (to_int_cases z) as [u [Hu [E|E]]]; rewrite E in *; cbn [Z.of_int] in Hz.
  - destruct (chars_nonnil u Hu) as [d [ds [Ed Hd]]].
    unfold p_integer.
    rewrite (opt_char_miss 45 (chars_of_uint u ++ rest)) by (rewrite Ed; cbn [app misses]; cc).
    rewrite (take_while_app is_digit (chars_of_uint u) rest (chars_digits u))
      by (destruct rest; [exact I|apply Hf]).
    rewrite (no_0x _ _ (chars_digits u) Hf), (outside1 _ Hf).
    rewrite Ed. cbn [orb]. rewrite <- Ed, uint_of_chars, Hz. reflexivity.
  - destruct (chars_nonnil u Hu) as [d [ds [Ed Hd]]].
    unfold p_integer. cbn [app]. rewrite opt_char_hit.
    rewrite (take_while_app is_digit (chars_of_uint u) rest (chars_digits u))
      by (destruct rest; [exact I|apply Hf]).
    rewrite (outside1 _ Hf). rewrite Ed. cbn [app orb].
    replace (45 =? 48) with false by exact eq_refl. cbn [andb].
    rewrite <- Ed, uint_of_chars, Hz. reflexivity.
Qed.

Lemma p_identifier_wf s n r : p_identifier s = Some (n, r) -> wf_ident n = true.
Proof.
  unfold p_identifier. destruct s as [|c r0]; [discriminate|].
  destruct (is_lower c) eqn:Hc; [|discriminate].
  destruct (take_while is_word r0) as [body r1] eqn:Etw.
  destruct (opt_char 63 r1) as [q r2] eqn:Eq.
  destruct (opt_char 33 r2) as [b r3] eqn:Eb.
  intros H. inversion H; subst.
  destruct (take_while_spec _ _ _ _ Etw) as [_ [Hbody _]].
  destruct (opt_char_spec _ _ _ _ Eq) as [_ Hq].
  destruct (opt_char_spec _ _ _ _ Eb) as [_ Hb].
  unfold wf_ident, p_identifier. rewrite Hc.
  assert (Hst : stops is_word (q ++ b))
    by (destruct Hq as [Hq|Hq]; destruct Hb as [Hb|Hb]; subst q b; exact eq_refl || exact I).
  rewrite (take_while_app is_word body (q ++ b) Hbody Hst).
  destruct Hq as [Hq|Hq]; destruct Hb as [Hb|Hb]; subst q b; reflexivity.
Qed.

Lemma p_tuple_name_wf s n r : p_tuple_name s = Some (n, r) -> wf_tuple_name n = true.
Proof.
  unfold p_tuple_name. destruct s as [|c r0]; [discriminate|].
  destruct (is_upper c) eqn:Hc; [|discriminate].
  destruct (take_while is_word r0) as [body r1] eqn:Etw.
  intros H. inversion H; subst.
  destruct (take_while_spec _ _ _ _ Etw) as [_ [Hbody _]].
  unfold wf_tuple_name, p_tuple_name. rewrite Hc.
  pose proof (take_while_app is_word body [] Hbody I) as E. rewrite app_nil_r in E. rewrite E. reflexivity.
Qed.

Definition starts (s : list Z) : Prop := match s with c :: _ => tstart c = true | [] => False end.

Lemma starts_app s r : starts s -> starts (s ++ r).
Proof. destruct s; [intros []|]. cbn [app starts]. auto. Qed.
Lemma starts_stops s r : starts s -> stops is_msp (s ++ r).
Proof. destruct s as [|c s]; [intros []|]. cbn [starts app stops]. intros H. cc. Qed.
Lemma starts_stops0 s : starts s -> stops is_msp s.
Proof. intros H. rewrite <- (app_nil_r s). apply starts_stops. exact H. Qed.
Lemma starts_fuel s fuel : starts s -> (length s <= fuel)%nat -> exists f, fuel = S f.
Proof.
  destruct s as [|c s]; [intros []|]. cbn [length]. intros _ H.
  destruct fuel as [|f]; [lia|]. exists f. reflexivity.
Qed.

Lemma int_first z : exists c s', int_text z = c :: s' /\ is_digit c || (c =? 45) = true.
Proof.
  unfold int_text. destruct (to_int_cases z) as [u [Hu [E|E]]]; rewrite E.
  - destruct (chars_nonnil u Hu) as [d [ds [Ed Hd]]]. exists d, ds. split; [exact Ed|]. rewrite Hd. reflexivity.
  - eexists _, _. split; reflexivity.
Qed.
Lemma wf_ident_first c n : wf_ident (c :: n) = true -> is_lower c = true.
Proof. unfold wf_ident, p_identifier. destruct (is_lower c); [reflexivity|discriminate]. Qed.
Lemma wf_name_first c n : wf_tuple_name (c :: n) = true -> is_upper c = true.
Proof. unfold wf_tuple_name, p_tuple_name. destruct (is_upper c); [reflexivity|discriminate]. Qed.

Lemma starts_int z : starts (int_text z).
Proof. destruct (int_first z) as (c & s' & E & Hc). rewrite E. cbn [starts]. cc. Qed.
Lemma starts_ident n : wf_ident n = true -> starts n.
Proof. destruct n as [|c n]; [discriminate|]. intros H. apply wf_ident_first in H. cbn [starts]. cc. Qed.
Lemma starts_name n : wf_tuple_name n = true -> starts n.
Proof. destruct n as [|c n]; [discriminate|]. intros H. apply wf_name_first in H. cbn [starts]. cc. Qed.

Definition gws (w : list Z) : Prop := w = [] \/ exists i, w = nl i.
Definition gsep (w : list Z) : Prop := w = [32] \/ exists i, w = nl i.
Definition gcsep (w : list Z) : Prop := w = [32] \/ exists i, w = nl i ++ [126; 62; 32].
(* between the steps of a sequence: `, `, one hard line, or the two hard lines around a tall step *)
Definition gssep (w : list Z) : Prop :=
  w = [44; 32] \/ (exists i, w = nl i) \/ (exists i j, w = nl i ++ nl j).
Definition topen (name : option (list Z)) : list Z :=
  match name with Some n => n ++ [91] | None => [91] end.
Definition name_ok (name : option (list Z)) : bool :=
  match name with Some n => wf_tuple_name n | None => true end.
Definition label_ok (label : option (list Z)) : bool :=
  match label with Some n => wf_ident n | None => true end.

Lemma starts_topen name : name_ok name = true -> starts (topen name).
Proof.
  destruct name as [n|]; cbn [name_ok topen]; intros H.
  - apply starts_app, starts_name, H.
  - reflexivity.
Qed.

Lemma skip_ws_stop s : stops is_msp s -> skip_ws s = s.
Proof.
  intros H. unfold skip_ws. pose proof (take_while_app is_msp [] s eq_refl H) as E.
  cbn [app] in E. rewrite E. reflexivity.
Qed.
Lemma skip_ws_app w r : forallb is_msp w = true -> stops is_msp r -> skip_ws (w ++ r) = r.
Proof. intros Hw H. unfold skip_ws. rewrite (take_while_app is_msp w r Hw H). reflexivity. Qed.

Lemma msp_spaces i : forallb is_msp (repeat 32 i) = true.
Proof. induction i as [|i IH]; [reflexivity|]. cbn [repeat forallb]. rewrite IH. reflexivity. Qed.
Lemma msp_nl i : forallb is_msp (nl i) = true.
Proof. unfold nl. cbn [forallb]. rewrite msp_spaces. reflexivity. Qed.
Lemma msp_gws w : gws w -> forallb is_msp w = true.
Proof. intros [E|[i E]]; subst w; [reflexivity|apply msp_nl]. Qed.
Lemma msp_gsep w : gsep w -> forallb is_msp w = true.
Proof. intros [E|[i E]]; subst w; [reflexivity|apply msp_nl]. Qed.
Lemma take_msp_nl i tail : stops is_msp tail -> take_while is_msp (nl i ++ tail) = (nl i, tail).
Proof. intros H. apply take_while_app; [apply msp_nl|exact H]. Qed.

Lemma solid_int z : int_text z <> [] /\ forallb solid (int_text z) = true.
Proof.
  assert (Hd : forall u, forallb solid (chars_of_uint u) = true)
    by (induction u; cbn [chars_of_uint forallb]; try rewrite IHu; reflexivity).
  unfold int_text. destruct (to_int_cases z) as [u [Hu [E|E]]]; rewrite E.
  - destruct (chars_nonnil u Hu) as [d [ds [Ed _]]]. split; [rewrite Ed; discriminate|apply Hd].
  - split; [discriminate|]. cbn [forallb]. rewrite Hd. reflexivity.
Qed.

Lemma word_solid body : forallb is_word body = true -> forallb solid body = true.
Proof.
  induction body as [|c r IH]; [reflexivity|]. cbn [forallb]. intros H.
  apply andb_true_iff in H. destruct H as [Hc Hr]. rewrite (IH Hr).
  assert (E : solid c = true) by cc. rewrite E. reflexivity.
Qed.

Lemma solid_ident n : wf_ident n = true -> n <> [] /\ forallb solid n = true.
Proof.
  intros H. destruct (wf_ident_inv n H) as (c & body & q & b & En & Hc & Hbody & Hq & Hb). subst n.
  split; [discriminate|]. cbn [forallb]. rewrite !forallb_app, (word_solid _ Hbody).
  assert (E : solid c = true) by cc. rewrite E.
  destruct Hq as [Hq|Hq]; destruct Hb as [Hb|Hb]; subst q b; reflexivity.
Qed.

Lemma solid_name n : wf_tuple_name n = true -> n <> [] /\ forallb solid n = true.
Proof.
  intros H. destruct (wf_tuple_name_inv n H) as (c & body & En & Hc & Hbody). subst n.
  split; [discriminate|]. cbn [forallb]. rewrite (word_solid _ Hbody).
  assert (E : solid c = true) by cc. rewrite E. reflexivity.
Qed.

Lemma escape_single_no_lf s : Forall (fun c => c <> 10) (escape_single s).
Proof.
  induction s as [|c t IH]; [constructor|]. cbn [escape_single]. apply Forall_app. split; [|exact IH].
  destruct (esc_single_char_spec c)
    as [[Hc He]|[[Hc He]|[[Hc He]|[[Hc He]|[[Hc He]|[[Hc He]|[H92 [H34 [H123 He]]]]]]]]];
    rewrite He; repeat constructor; try lia.
  intros E10. subst c. vm_compute in He. discriminate.
Qed.

Lemma cl_str s p : cl p (34 :: escape_single s ++ [34]) true.
Proof.
  change true with (solid 34) at 1.
  rewrite <- (lastsolid_app p (34 :: escape_single s) 34).
  change (34 :: escape_single s ++ [34]) with ((34 :: escape_single s) ++ [34]).
  apply cl_text. apply Forall_app. split.
  - constructor; [lia|apply escape_single_no_lf].
  - repeat constructor. lia.
Qed.

Lemma cl_topen name p : name_ok name = true -> cl p (topen name) true.
Proof.
  destruct name as [n|]; cbn [name_ok topen]; intros H.
  - destruct (solid_name n H) as [Hne Hs]. apply cl_solid.
    + destruct n; [congruence|discriminate].
    + rewrite forallb_app, Hs. reflexivity.
  - apply cl_one. reflexivity.
Qed.

Lemma gws_cl w : gws w -> exists q, cl true w q.
Proof.
  intros [E|[i E]]; subst w.
  - exists true. apply cl_nil.
  - exists false. apply cl_nl.
Qed.
Lemma gsep_cl w : gsep w -> cl true w false.
Proof. intros [E|[i E]]; subst w; [apply cl_space|apply cl_nl]. Qed.
Lemma gcsep_cl w : gcsep w -> cl true w false.
Proof.
  intros [E|[i E]]; subst w; [apply cl_space|].
  eapply cl_app; [apply cl_nl|].
  change false with (lastsolid false [126; 62; 32]) at 2. apply cl_text. repeat constructor; lia.
Qed.
Lemma oc_cl oc : (oc = [] \/ oc = [44]) -> cl true oc true.
Proof. intros [E|E]; subst oc; [apply cl_nil|apply cl_one; reflexivity]. Qed.

(* between two steps only the blank line of a tall step changes *)
Lemma gssep_cb sep : gssep sep -> exists sep', gssep sep' /\ cb true sep sep' false.
Proof.
  intros [E|[[i E]|[i [j E]]]]; subst sep.
  - exists [44; 32]. split; [left; reflexivity|].
    change [44; 32] with ([44] ++ [32]). eapply cl_app; [apply cl_one; reflexivity|apply cl_space].
  - exists (nl i). split; [right; left; exists i; reflexivity|]. apply cl_nl.
  - exists (nl 0 ++ nl j). split; [right; right; exists 0%nat, j; reflexivity|].
    replace (nl i ++ nl j) with ((nl i ++ [10]) ++ repeat 32 j)
      by (unfold nl; rewrite <- app_assoc; reflexivity).
    change (nl 0 ++ nl j) with ([10; 10] ++ repeat 32 j).
    eapply cb_app; [apply cb_blank|apply cl_spaces].
Qed.

(* follow sets: what may stand after a nonterminal in an output, enough for the parser to stop there.
   idfollow / intfollow / stops is_word: after an identifier / an integer (x <> 120, 46, 47: the `0x`, decimal and
   fraction tests of p_integer) / a tuple name. first_in: space, LF, `,` or `]`. tfollow, after a term: first_in and the
   next non-blank is not `(` (p_term's "Name not followed by `(`"). cfollow, after a chain: no chain separator can be
   read. fsfollow, after a field list: optional `,`, blanks, `]`. sfollow, after a sequence; bfollow, after a branch:
   blanks then `}` or `|`; blkfollow, after a branch list: blanks then `}`. Each implies the next one up:
   blkfollow -> bfollow -> sfollow -> cfollow -> tfollow -> idfollow, intfollow, stops is_word; fsfollow -> cfollow. *)
Definition first_in (rest : list Z) : Prop :=
  match rest with [] => True | x :: _ => x = 32 \/ x = 10 \/ x = 44 \/ x = 93 end.
Definition tfollow (rest : list Z) : Prop :=
  first_in rest /\ match skip_ws rest with y :: _ => y <> 40 | [] => True end.
Definition cfollow (rest : list Z) : Prop :=
  match rest with
  | [] => True
  | x :: r => x = 44 \/ x = 93 \/
              (x = 32 /\ exists y r', r = y :: r' /\ (y = 125 \/ y = 124 \/ y = 61)) \/
              (x = 10 /\ exists w tail, r = w ++ tail /\ forallb is_msp w = true /\
                         match tail with [] => True | y :: _ => is_msp y = false /\ y <> 126 /\ y <> 40 end)
  end.
Definition fsfollow (rest : list Z) : Prop :=
  exists oc w2 rest', rest = oc ++ w2 ++ 93 :: rest' /\ (oc = [] \/ oc = [44]) /\ gws w2.
Definition sfollow (rest : list Z) : Prop :=
  rest = [] \/
  (exists y r', rest = 32 :: y :: r' /\ (y = 125 \/ y = 124 \/ y = 61)) \/
  (exists w tail, rest = 10 :: w ++ tail /\ forallb is_msp w = true /\
                  match tail with [] => True | y :: _ => y = 125 \/ y = 124 end).
Definition bfollow (rest : list Z) : Prop :=
  exists w tail, rest = w ++ tail /\ gsep w /\ match tail with y :: _ => y = 125 \/ y = 124 | [] => False end.
Definition blkfollow (rest : list Z) : Prop :=
  exists w2 rest', rest = w2 ++ 125 :: rest' /\ gsep w2.

(* what the optional trailing separator of a sequence leaves *)
Definition seq_eat (rest : list Z) : list Z :=
  match p_seq_sep rest with Some r => r | None => rest end.

Lemma cfollow_tfollow rest : cfollow rest -> tfollow rest.
Proof.
  destruct rest as [|x r]; intros H.
  - split; exact I.
  - cbn [cfollow] in H.
    destruct H as [E|[E|[[E (y & r' & Er & Hy)]|[E (w & tail & Er & Hw & Ht)]]]]; subst x.
    + split; [cbn [first_in]; lia|]. rewrite skip_ws_stop by exact eq_refl. lia.
    + split; [cbn [first_in]; lia|]. rewrite skip_ws_stop by exact eq_refl. lia.
    + split; [cbn [first_in]; lia|]. subst r.
      change (32 :: y :: r') with ([32] ++ y :: r').
      rewrite skip_ws_app; [lia|reflexivity|cbn [stops]; cc].
    + split; [cbn [first_in]; lia|]. subst r.
      change (10 :: w ++ tail) with ((10 :: w) ++ tail).
      rewrite skip_ws_app; [|cbn [forallb]; rewrite Hw; reflexivity|destruct tail; [exact I|apply Ht]].
      destruct tail; [exact I|lia].
Qed.

Lemma sfollow_cfollow rest : sfollow rest -> cfollow rest.
Proof.
  intros [E|[(y & r' & E & Hy)|(w & tail & E & Hw & Ht)]]; subst rest.
  - exact I.
  - cbn [cfollow]. right. right. left. split; [reflexivity|]. exists y, r'. split; [reflexivity|exact Hy].
  - cbn [cfollow]. right. right. right. split; [reflexivity|]. exists w, tail.
    split; [reflexivity|]. split; [exact Hw|]. destruct tail as [|y t]; [exact I|]. cc.
Qed.

Lemma fsfollow_cfollow rest : fsfollow rest -> cfollow rest.
Proof.
  intros (oc & w2 & rest' & E & [Hoc|Hoc] & [Hw|[i Hw]]); subst; cbn [app cfollow nl]; try lia.
  right. right. right. split; [reflexivity|]. exists (repeat 32 i), (93 :: rest').
  split; [reflexivity|]. split; [apply msp_spaces|]. cc.
Qed.

Lemma tfollow_csep sep s rest : gcsep sep -> starts s -> tfollow (sep ++ s ++ rest).
Proof.
  intros [E|[i E]] Hs; subst sep.
  - split; [cbn [app first_in]; lia|].
    change ([32] ++ s ++ rest) with ([32] ++ (s ++ rest)).
    rewrite skip_ws_app; [|reflexivity|apply starts_stops; exact Hs].
    destruct s as [|c s]; [destruct Hs|]. cbn [starts] in Hs. cbn [app]. cc.
  - split; [cbn [nl app first_in]; lia|].
    rewrite <- app_assoc. rewrite skip_ws_app; [|apply msp_nl|reflexivity]. cbn [app]. lia.
Qed.

Lemma tfollow_idfollow rest : tfollow rest -> idfollow rest.
Proof. intros [H _]. destruct rest as [|x r]; [exact I|]. cbn [first_in] in H. cbn [idfollow]. cc. Qed.
Lemma tfollow_intfollow rest : tfollow rest -> intfollow rest.
Proof. intros [H _]. destruct rest as [|x r]; [exact I|]. cbn [first_in] in H. cbn [intfollow]. cc. Qed.
Lemma tfollow_word rest : tfollow rest -> stops is_word rest.
Proof. intros [H _]. destruct rest as [|x r]; [exact I|]. cbn [first_in] in H. cbn [stops]. cc. Qed.

Lemma chain_sep_stop rest :
  cfollow rest ->
  p_chain_sep rest = None \/ exists y r', p_chain_sep rest = Some (y :: r') /\ (y = 125 \/ y = 124 \/ y = 61).
Proof.
  destruct rest as [|x r]; intros H; [left; reflexivity|].
  cbn [cfollow] in H.
  destruct H as [E|[E|[[E (y & r' & Er & Hy)]|[E (w & tail & Er & Hw & Ht)]]]]; subst x.
  - left. reflexivity.
  - left. reflexivity.
  - right. exists y, r'. split; [|exact Hy]. subst r. unfold p_chain_sep.
    change (32 :: y :: r') with ([32] ++ y :: r').
    rewrite (take_while_app is_msp [32] (y :: r') eq_refl) by (cbn [stops]; cc).
    rewrite (take_while_app is_hsp [32] (y :: r') eq_refl) by (cbn [stops]; cc).
    destruct r' as [|b r2]; [reflexivity|].
    replace (y =? 126) with false by lia. reflexivity.
  - left. subst r. unfold p_chain_sep.
    change (10 :: w ++ tail) with ((10 :: w) ++ tail).
    rewrite (take_while_app is_msp (10 :: w) tail)
      by (first [cbn [forallb]; rewrite Hw; reflexivity | destruct tail; [exact I|apply Ht]]).
    cbn [app take_while]. replace (is_hsp 10) with false by exact eq_refl.
    destruct tail as [|a [|b r2]]; try reflexivity.
    replace (a =? 126) with false by lia. reflexivity.
Qed.

Lemma sep_space s : starts s -> p_chain_sep (32 :: s) = Some s.
Proof.
  intros Hs. unfold p_chain_sep.
  pose proof (starts_stops0 s Hs) as Hst.
  change (32 :: s) with ([32] ++ s).
  rewrite (take_while_app is_msp [32] s eq_refl Hst).
  assert (Hh : stops is_hsp s).
  { destruct s as [|c s']; [exact I|]. cbn [stops starts] in *. cc. }
  rewrite (take_while_app is_hsp [32] s eq_refl Hh).
  destruct s as [|a [|b r2]]; try reflexivity.
  cbn [starts] in Hs. replace (a =? 126) with false by cc. reflexivity.
Qed.

Lemma sep_arrow i s : starts s -> p_chain_sep ((nl i ++ [126; 62; 32]) ++ s) = Some s.
Proof.
  intros Hs. unfold p_chain_sep. rewrite <- app_assoc.
  rewrite take_msp_nl by exact eq_refl.
  unfold nl at 1. cbn [app].
  replace ((126 =? 126) && (62 =? 62)) with true by exact eq_refl.
  pose proof (starts_stops0 s Hs) as Hst.
  change (32 :: s) with ([32] ++ s).
  rewrite (take_while_app is_msp [32] s eq_refl Hst). reflexivity.
Qed.

Lemma gcsep_len sep : gcsep sep -> (1 <= length sep)%nat.
Proof. intros [E|[i E]]; subst sep; cbn [nl length app]; lia. Qed.

Lemma csep_parse sep s : gcsep sep -> starts s -> p_chain_sep (sep ++ s) = Some s.
Proof. intros [E|[i E]] Hs; subst sep; [apply sep_space|apply sep_arrow]; exact Hs. Qed.

Definition stopsc (tail : list Z) : Prop :=
  match tail with [] => True | y :: _ => is_msp y = false /\ y <> 44 end.

Lemma swc_app : forall w tail n,
  forallb is_msp w = true -> stopsc tail -> (length w <= n)%nat -> skip_ws_commas n (w ++ tail) = tail.
Proof.
  induction w as [|c w IH]; intros tail n Hw Ht Hn.
  - cbn [app]. destruct n as [|n']; [reflexivity|]. destruct tail as [|y t]; [reflexivity|].
    cbn [skip_ws_commas]. cbn [stopsc] in Ht. replace (is_msp y || (y =? 44)) with false by lia. reflexivity.
  - cbn [forallb] in Hw. apply andb_true_iff in Hw. destruct Hw as [Hc Hw].
    cbn [length] in Hn. destruct n as [|n']; [lia|]. cbn [app skip_ws_commas]. rewrite Hc. cbn [orb].
    apply IH; [exact Hw|exact Ht|lia].
Qed.

Lemma seq_sep_gen c w tail :
  (c = 44 \/ c = 10) -> forallb is_msp w = true -> stopsc tail -> p_seq_sep (c :: w ++ tail) = Some tail.
Proof.
  intros Hc Hw Ht. unfold p_seq_sep.
  assert (E : take_while is_hsp (c :: w ++ tail) = ([], c :: w ++ tail)).
  { cbn [take_while]. replace (is_hsp c) with false by cc. reflexivity. }
  rewrite E. replace ((c =? 44) || (c =? 10)) with true by lia.
  rewrite swc_app; [reflexivity|exact Hw|exact Ht|rewrite app_length; lia].
Qed.

Lemma starts_stopsc s r : starts s -> stopsc (s ++ r).
Proof. destruct s as [|c s]; [intros []|]. cbn [starts app stopsc]. intros H. cc. Qed.

Lemma gssep_shape sep : gssep sep -> exists c w, sep = c :: w /\ (c = 44 \/ c = 10) /\ forallb is_msp w = true.
Proof.
  intros [E|[[i E]|[i [j E]]]]; subst sep.
  - exists 44, [32]. repeat split. left. reflexivity.
  - exists 10, (repeat 32 i). repeat split; [right; reflexivity|apply msp_spaces].
  - exists 10, (repeat 32 i ++ nl j). repeat split; [right; reflexivity|].
    rewrite forallb_app, msp_spaces, msp_nl. reflexivity.
Qed.

Lemma ssep_parse sep s : gssep sep -> starts s -> p_seq_sep (sep ++ s) = Some s.
Proof.
  intros Hsep Hs. destruct (gssep_shape sep Hsep) as (c & w & E & Hc & Hw). subst sep.
  cbn [app]. apply seq_sep_gen; [exact Hc|exact Hw|].
  rewrite <- (app_nil_r s). apply starts_stopsc. exact Hs.
Qed.

Lemma ssep_cfollow sep s rest : gssep sep -> starts s -> cfollow (sep ++ s ++ rest).
Proof.
  intros Hsep Hs. destruct (gssep_shape sep Hsep) as (c & w & E & Hc & Hw). subst sep.
  cbn [app cfollow]. destruct Hc as [Hc|Hc]; [left; exact Hc|].
  right. right. right. split; [exact Hc|]. exists w, (s ++ rest). split; [reflexivity|]. split; [exact Hw|].
  destruct s as [|y s']; [destruct Hs|]. cbn [app starts] in *. cc.
Qed.

Lemma gssep_len sep : gssep sep -> (1 <= length sep)%nat.
Proof. intros H. destruct (gssep_shape sep H) as (c & w & E & _). subst sep. cbn [length]. lia. Qed.

Lemma seq_sep_sp y r : (y = 125 \/ y = 124 \/ y = 61) -> p_seq_sep (32 :: y :: r) = None.
Proof.
  intros Hy. unfold p_seq_sep. change (32 :: y :: r) with ([32] ++ y :: r).
  rewrite (take_while_app is_hsp [32] (y :: r) eq_refl) by (cbn [stops]; cc).
  replace ((y =? 44) || (y =? 10)) with false by lia. replace (y =? 13) with false by lia. reflexivity.
Qed.

Lemma seq_eat_sp y r : (y = 125 \/ y = 124 \/ y = 61) -> seq_eat (32 :: y :: r) = 32 :: y :: r.
Proof. intros Hy. unfold seq_eat. rewrite (seq_sep_sp y r Hy). reflexivity. Qed.

Definition blocked (tail : list Z) : Prop :=
  match tail with [] => True | y :: _ => y = 125 \/ y = 124 end.

Lemma blocked_stopsc tail : blocked tail -> stopsc tail.
Proof. destruct tail as [|y t]; [intros; exact I|]. cbn [blocked stopsc]. intros H. cc. Qed.

Lemma seq_sep_follow rest :
  sfollow rest -> p_seq_sep rest = None \/ exists tail, p_seq_sep rest = Some tail /\ blocked tail.
Proof.
  intros [E|[(y & r' & E & Hy)|(w & tail & E & Hw & Ht)]]; subst rest.
  - left. reflexivity.
  - left. apply seq_sep_sp. exact Hy.
  - right. exists tail. split; [|exact Ht].
    apply seq_sep_gen; [right; reflexivity|exact Hw|apply blocked_stopsc; exact Ht].
Qed.

Lemma blkfollow_bfollow rest : blkfollow rest -> bfollow rest.
Proof. intros (w2 & rest' & E & Hw). exists w2, (125 :: rest'). repeat split; [exact E|exact Hw|left; reflexivity]. Qed.

Lemma bfollow_sfollow rest : bfollow rest -> sfollow rest.
Proof.
  intros (w & tail & E & [Hw|[i Hw]] & Ht); subst rest w; destruct tail as [|y t]; try destruct Ht as [].
  - right. left. exists y, t. split; [reflexivity|]. lia.
  - right. left. exists y, t. split; [reflexivity|]. lia.
  - right. right. exists (repeat 32 i), (y :: t). split; [reflexivity|]. split; [apply msp_spaces|]. left. assumption.
  - right. right. exists (repeat 32 i), (y :: t). split; [reflexivity|]. split; [apply msp_spaces|]. right. assumption.
Qed.

Lemma seq_eat_bfollow w tail :
  gsep w -> match tail with y :: _ => y = 125 \/ y = 124 | [] => False end ->
  (seq_eat (w ++ tail) = w ++ tail \/ seq_eat (w ++ tail) = tail) /\ skip_ws (seq_eat (w ++ tail)) = tail.
Proof.
  intros Hw Ht. destruct tail as [|y t]; [destruct Ht|].
  assert (Hst : stops is_msp (y :: t)) by (cbn [stops]; cc).
  destruct Hw as [E|[i E]]; subst w.
  - cbn [app]. rewrite seq_eat_sp by lia. split; [left; reflexivity|].
    change (32 :: y :: t) with ([32] ++ y :: t). apply skip_ws_app; [reflexivity|exact Hst].
  - unfold seq_eat. unfold nl. cbn [app].
    rewrite (seq_sep_gen 10 (repeat 32 i) (y :: t)); [|right; reflexivity|apply msp_spaces|cbn [stopsc]; cc].
    split; [right; reflexivity|]. apply skip_ws_stop. exact Hst.
Qed.

Lemma seq_eat_len w tail :
  gsep w -> match tail with y :: _ => y = 125 \/ y = 124 | [] => False end ->
  (length tail <= length (seq_eat (w ++ tail)))%nat.
Proof.
  intros Hw Ht. destruct (seq_eat_bfollow w tail Hw Ht) as [[E|E] _]; rewrite E; [rewrite app_length|]; lia.
Qed.

Lemma cfollow_comma r : cfollow (44 :: r).
Proof. cbn [cfollow]. lia. Qed.

Lemma esc_no_triple s rest a b t :
  misses 34 rest -> escape_single s ++ 34 :: rest = a :: b :: t -> (a =? 34) && (b =? 34) = false.
Proof.
  intros Hr E. destruct s as [|c s].
  - cbn [escape_single app] in E. inversion E; subst. cbn [misses] in Hr. lia.
  - cbn [escape_single] in E.
    destruct (esc_single_char_spec c)
      as [[Hc He]|[[Hc He]|[[Hc He]|[[Hc He]|[[Hc He]|[[Hc He]|[H92 [H34 [H123 He]]]]]]]]];
      rewrite He in E; cbn [app] in E; inversion E; subst; try reflexivity.
    replace (a =? 34) with false by lia. reflexivity.
Qed.

(* a plain field is not mistaken for a labelled one *)
Definition nolabel (s : list Z) : Prop :=
  match p_identifier s with Some (n, c :: r) => c <> 58 | _ => True end.
Lemma nolabel_nonlower c s : is_lower c = false -> nolabel (c :: s).
Proof. intros H. unfold nolabel, p_identifier. rewrite H. exact I. Qed.

(* separated_list: after an item, a separator followed by an item continues the list; a separator not followed by
   an item is not consumed; `n` bounds the number of items. p_chain_rest, p_fields_rest, g_p_seq_rest, ... are this
   loop, by conversion. *)
Section SepRest.
  Context {X : Type}.
  Variables (sep : list Z -> option (list Z)) (item : list Z -> option (X * list Z)).

  Fixpoint Sep_rest (n : nat) (s : list Z) : list X * list Z :=
    match n with
    | O => ([], s)
    | S n' =>
        match sep s with
        | Some r => match item r with
                    | Some (x, r') => let (xs, r'') := Sep_rest n' r' in (x :: xs, r'')
                    | None => ([], s)
                    end
        | None => ([], s)
        end
    end.

  Lemma Sep_rest_forallb (P : X -> bool) : (forall s x r, item s = Some (x, r) -> P x = true) ->
    forall n s xs r, Sep_rest n s = (xs, r) -> forallb P xs = true.
  Proof.
    intros HP. induction n as [|n IH]; intros s xs r H; cbn [Sep_rest] in H.
    - inversion H; subst. reflexivity.
    - destruct (sep s) as [r1|]; [|inversion H; subst; reflexivity].
      destruct (item r1) as [[x r2]|] eqn:Ei; [|inversion H; subst; reflexivity].
      destruct (Sep_rest n r2) as [xs' r3] eqn:Er. inversion H; subst.
      cbn [forallb]. rewrite (HP _ _ _ Ei), (IH _ _ _ Er). reflexivity.
  Qed.

  Lemma Sep_rest_stop n s : sep s = None \/ (exists r, sep s = Some r /\ item r = None) -> Sep_rest n s = ([], s).
  Proof. destruct n; [reflexivity|]. cbn [Sep_rest]. intros [E|(r & E & Ei)]; rewrite E; [|rewrite Ei]; reflexivity. Qed.

  (* the text s ++ rest is read as the item x followed by the items xs, up to rest *)
  Definition sep_ok (x : X) (xs : list X) (s rest : list Z) : Prop :=
    exists s2, (length xs <= length s2)%nat /\ (length s2 <= length s)%nat /\
               item (s ++ rest) = Some (x, s2 ++ rest) /\
               forall n, (length xs <= n)%nat -> Sep_rest n (s2 ++ rest) = (xs, rest).

  Lemma sep_ok_one x s rest :
    item (s ++ rest) = Some (x, rest) -> (forall n, Sep_rest n rest = ([], rest)) -> sep_ok x [] s rest.
  Proof. intros Hi Hr. exists []. cbn [length app]. repeat split; try lia; [exact Hi|]. intros n _. apply Hr. Qed.

  Lemma sep_ok_cons x x' xs s w s' rest :
    item (s ++ w ++ s' ++ rest) = Some (x, w ++ s' ++ rest) -> (1 <= length w)%nat ->
    sep (w ++ s' ++ rest) = Some (s' ++ rest) -> sep_ok x' xs s' rest ->
    sep_ok x (x' :: xs) (s ++ w ++ s') rest.
  Proof.
    intros Hi Lw Hsep (s2 & K1 & K2 & Hi' & Hrest).
    exists (w ++ s'). rewrite !app_length. cbn [length]. repeat split; try lia.
    - rewrite <- !app_assoc. exact Hi.
    - intros n Hn. destruct n as [|n']; [lia|]. cbn [Sep_rest].
      rewrite <- app_assoc, Hsep, Hi', (Hrest n') by lia. reflexivity.
  Qed.

  Lemma sep_ok_run x xs s rest : sep_ok x xs s rest ->
    exists r, item (s ++ rest) = Some (x, r) /\ Sep_rest (length r) r = (xs, rest).
  Proof.
    intros (s2 & K1 & K2 & Hi & Hrest). exists (s2 ++ rest). split; [exact Hi|].
    apply Hrest. rewrite app_length. lia.
  Qed.
End SepRest.

(* the parser combinators of FormatFrag.v (Section WithTerm) and FormatFrag2.v (Section WithTerm2) at any term,
   field and branch type: p_chain, g_p_chain, ... are these, by conversion *)
Section Combinators.
  Context {T F B : Type}.
  Variable mkf : option (list Z) -> list T -> F.
  Variable mkb : list (list T) -> option (list (list T)) -> B.
  Variable pt : list Z -> option (T * list Z).

  Definition P_chain (s : list Z) : option (list T * list Z) :=
    match pt s with
    | Some (t, r) => let (ts, r') := Sep_rest p_chain_sep pt (length r) r in Some (t :: ts, r')
    | None => None
    end.

  Definition P_field (s : list Z) : option (F * list Z) :=
    let labelled :=
      match p_identifier s with
      | Some (n, c :: r) =>
          if c =? 58 then
            let (w, r') := take_while is_msp r in
            match w with
            | _ :: _ => match P_chain r' with Some (ts, r'') => Some (mkf (Some n) ts, r'') | None => None end
            | [] => None
            end
          else None
      | _ => None
      end in
    match labelled with
    | Some x => Some x
    | None => match P_chain s with Some (ts, r) => Some (mkf None ts, r) | None => None end
    end.

  Definition P_fields (s : list Z) : list F * list Z :=
    let (fs, r) :=
      match P_field s with
      | Some (f, r) => let (fs, r') := Sep_rest p_comma P_field (length r) r in (f :: fs, r')
      | None => ([], s)
      end in
    match p_comma r with
    | Some _ => (fs, match skip_ws r with _ :: r' => r' | [] => r end)
    | None => (fs, r)
    end.
  Definition P_bracket_body (s : list Z) : option (list F * list Z) :=
    let (fs, r) := P_fields (skip_ws s) in
    match skip_ws r with c :: r' => if c =? 93 then Some (fs, r') else None | [] => None end.

  Definition P_sequence (s : list Z) : option (list (list T) * list Z) :=
    match P_chain s with
    | Some (c, r) =>
        let (cs, r') := Sep_rest p_seq_sep P_chain (length r) r in
        Some (c :: cs, match p_seq_sep r' with Some r'' => r'' | None => r' end)
    | None => None
    end.

  Definition P_branch (s : list Z) : option (B * list Z) :=
    match P_sequence s with
    | Some (cond, r) =>
        match skip_ws r with
        | a :: b :: r1 =>
            if (a =? 61) && (b =? 62) then
              match P_sequence (skip_ws r1) with
              | Some (k, r2) => Some (mkb cond (Some k), r2)
              | None => Some (mkb cond None, r)
              end
            else Some (mkb cond None, r)
        | _ => Some (mkb cond None, r)
        end
    | None => None
    end.

  Fixpoint P_branches_rest (n : nat) (s : list Z) : list B * list Z :=
    match n with
    | O => ([], s)
    | S n' =>
        match skip_ws s with
        | c :: r => if c =? 124 then
                      match P_branch (skip_ws r) with
                      | Some (b, r') => let (bs, r'') := P_branches_rest n' r' in (b :: bs, r'')
                      | None => ([], s)
                      end
                    else ([], s)
        | [] => ([], s)
        end
    end.
  Definition P_expression (s : list Z) : option (list B * list Z) :=
    let s1 := match s with c :: r => if c =? 124 then skip_ws r else s | [] => s end in
    match P_branch s1 with
    | Some (b, r) => let (bs, r') := P_branches_rest (length r) r in Some (b :: bs, r')
    | None => None
    end.
  Definition P_block_body (s : list Z) : option (list B * list Z) :=
    match P_expression (skip_ws s) with
    | Some (bs, r) => match skip_ws r with c :: r' => if c =? 125 then Some (bs, r') else None | [] => None end
    | None => None
    end.
End Combinators.

(* `|` between branches, as a separator; P_branches_rest is the separated-list loop too, up to commuting two matches *)
Definition p_bar (s : list Z) : option (list Z) :=
  match skip_ws s with c :: r => if c =? 124 then Some (skip_ws r) else None | [] => None end.
Lemma P_branches_rest_eq {T B} (mkb : list (list T) -> option (list (list T)) -> B) pt n s :
  P_branches_rest mkb pt n s = Sep_rest p_bar (P_branch mkb pt) n s.
Proof.
  revert s. induction n as [|n IH]; intros s; [reflexivity|]. cbn [P_branches_rest Sep_rest]. unfold p_bar.
  destruct (skip_ws s) as [|c r]; [reflexivity|]. destruct (c =? 124); [|reflexivity].
  destruct (P_branch mkb pt (skip_ws r)) as [[b r']|]; [|reflexivity]. rewrite IH. reflexivity.
Qed.

(* where the conversions are checked *)
Lemma p_chain_rest_eq p n s : p_chain_rest p n s = Sep_rest p_chain_sep p n s.
Proof. reflexivity. Qed.
Lemma p_chain_eq p s : p_chain p s = P_chain p s.
Proof. reflexivity. Qed.
Lemma p_bracket_body_eq p s : p_bracket_body p s = P_bracket_body FField p s.
Proof. reflexivity. Qed.
Lemma g_p_bracket_body_eq p s : g_p_bracket_body p s = P_bracket_body GField p s.
Proof. reflexivity. Qed.
Lemma g_p_sequence_eq p s : g_p_sequence p s = P_sequence p s.
Proof. reflexivity. Qed.
Lemma g_p_block_body_eq p s : g_p_block_body p s = P_block_body GBranch p s.
Proof. reflexivity. Qed.

(* one step of p_term / g_p_term (the body under `S f`), over the parser of what stands between `[` and `]` and of
   what follows a `{` *)
Definition term_step {T F} (ti : Z -> T) (tid tstr : list Z -> T) (tt : option (list Z) -> list F -> T)
    (bracket : list Z -> option (list F * list Z)) (brace : list Z -> option (T * list Z))
    (s : list Z) : option (T * list Z) :=
  match s with
  | [] => None
  | c :: r =>
      if c =? 34 then
        match r with
        | a :: b :: _ => if (a =? 34) && (b =? 34) then None
                         else match scan_single r with ScanText t rest => Some (tstr t, rest) | _ => None end
        | _ => match scan_single r with ScanText t rest => Some (tstr t, rest) | _ => None end
        end
      else if is_digit c || (c =? 45) then
        match p_integer s with Some (z, rest) => Some (ti z, rest) | None => None end
      else if is_upper c then
        match p_tuple_name s with
        | Some (n, x :: r') =>
            if x =? 91 then
              match bracket r' with Some (fs, rest) => Some (tt (Some n) fs, rest) | None => None end
            else match skip_ws (x :: r') with
                 | y :: _ => if y =? 40 then None else Some (tt (Some n) [], x :: r')
                 | [] => Some (tt (Some n) [], x :: r')
                 end
        | Some (n, []) => Some (tt (Some n) [], [])
        | None => None
        end
      else if c =? 91 then
        match bracket r with Some (fs, rest) => Some (tt None fs, rest) | None => None end
      else if c =? 123 then brace r
      else if is_lower c then
        match p_identifier s with
        | Some (n, x :: r') => if (x =? 91) || (x =? 46) then None else Some (tid n, x :: r')
        | Some (n, []) => Some (tid n, [])
        | None => None
        end
      else None
  end.

(* a term type with its constructors; has_blocks: does the parser read `{ .. }` *)
Record lang := {
  Tm : Type; Fd : Type; Br : Type;
  t_int : Z -> Tm; t_ident : list Z -> Tm; t_str : list Z -> Tm;
  t_tuple : option (list Z) -> list Fd -> Tm;
  t_block : list Br -> Tm;
  mk_field : option (list Z) -> list Tm -> Fd;
  mk_branch : list (list Tm) -> option (list (list Tm)) -> Br;
  has_blocks : bool }.

Definition brace_of (L : lang) (p : list Z -> option (Tm L * list Z)) (r : list Z) : option (Tm L * list Z) :=
  if has_blocks L
  then match P_block_body (mk_branch L) p r with Some (bs, rest) => Some (t_block L bs, rest) | None => None end
  else None.
Definition step_of (L : lang) (p : list Z -> option (Tm L * list Z)) : list Z -> option (Tm L * list Z) :=
  term_step (t_int L) (t_ident L) (t_str L) (t_tuple L) (P_bracket_body (mk_field L) p) (brace_of L p).

(* the data-literal fragment (no blocks; its branch type and block constructor are never used) and the block fragment *)
Definition L1 : lang :=
  {| Tm := fterm; Fd := ffield; Br := unit; t_int := FInt; t_ident := FIdent; t_str := FStr; t_tuple := FTuple;
     t_block := fun _ => FTuple None []; mk_field := FField; mk_branch := fun _ _ => tt; has_blocks := false |}.
Definition L2 : lang :=
  {| Tm := gterm; Fd := gfield; Br := gbranch; t_int := GInt; t_ident := GIdent; t_str := GStr; t_tuple := GTuple;
     t_block := GBlock; mk_field := GField; mk_branch := GBranch; has_blocks := true |}.

Lemma p_term_step f s : p_term (S f) s = step_of L1 (p_term f) s.
Proof.
  destruct s as [|c r]; [reflexivity|]. unfold step_of, term_step, brace_of. cbn [p_term has_blocks L1].
  destruct (c =? 123) eqn:E; [apply Z.eqb_eq in E; subst c|]; reflexivity.
Qed.
Lemma g_p_term_step f s : g_p_term (S f) s = step_of L2 (g_p_term f) s.
Proof. destruct s; reflexivity. Qed.

Section Lang.
  Variable L : lang.
  Local Notation T := (Tm L).
  Local Notation F := (Fd L).
  Local Notation B := (Br L).

  (* the character-level grammar of the outputs, indexed by what the parser returns. In a tuple w1 / w2 are the soft
     lines after `[` and before `]`, oc the trailing comma of a broken tuple; in a block w1 / w2 are the lines after `{`
     and before `}`, bar the leading `| ` of a broken multi-branch block *)
  Inductive xterm : T -> list Z -> Prop :=
  | xt_int z : xterm (t_int L z) (int_text z)
  | xt_ident n : wf_ident n = true -> xterm (t_ident L n) n
  | xt_str s : xterm (t_str L s) (34 :: escape_single s ++ [34])
  | xt_unit : xterm (t_tuple L None []) [91; 93]
  | xt_name n : wf_tuple_name n = true -> xterm (t_tuple L (Some n) []) n
  | xt_tuple name f fs w1 body oc w2 :
      name_ok name = true -> gws w1 -> gws w2 -> (oc = [] \/ oc = [44]) -> xfields f fs body ->
      xterm (t_tuple L name (f :: fs)) (topen name ++ w1 ++ body ++ oc ++ w2 ++ [93])
  | xt_block b bs w1 bar body w2 :
      has_blocks L = true -> gsep w1 -> gsep w2 -> (bar = [] \/ bar = [124; 32]) -> xbranches b bs body ->
      xterm (t_block L (b :: bs)) (123 :: w1 ++ bar ++ body ++ w2 ++ [125])
  with xfields : F -> list F -> list Z -> Prop :=
  | xfs_one f s : xfield f s -> xfields f [] s
  | xfs_cons f f' fs s sep s' :
      xfield f s -> gsep sep -> xfields f' fs s' -> xfields f (f' :: fs) (s ++ 44 :: sep ++ s')
  with xfield : F -> list Z -> Prop :=
  | xf_plain t ts s : xchain t ts s -> xfield (mk_field L None (t :: ts)) s
  | xf_label n t ts s :
      wf_ident n = true -> xchain t ts s -> xfield (mk_field L (Some n) (t :: ts)) (n ++ 58 :: 32 :: s)
  with xchain : T -> list T -> list Z -> Prop :=
  | xc_one t s : xterm t s -> xchain t [] s
  | xc_cons t t' ts s sep s' :
      xterm t s -> gcsep sep -> xchain t' ts s' -> xchain t (t' :: ts) (s ++ sep ++ s')
  with xbranches : B -> list B -> list Z -> Prop :=
  | xbs_one b s : xbranch b s -> xbranches b [] s
  | xbs_cons b b' bs s sep s' :
      xbranch b s -> gsep sep -> xbranches b' bs s' -> xbranches b (b' :: bs) (s ++ sep ++ 124 :: 32 :: s')
  with xbranch : B -> list Z -> Prop :=
  | xb_plain c cs s : xseq c cs s -> xbranch (mk_branch L (c :: cs) None) s
  | xb_guard c cs k ks s s' :
      xseq c cs s -> xseq k ks s' ->
      xbranch (mk_branch L (c :: cs) (Some (k :: ks))) (s ++ [32; 61; 62; 32] ++ s')
  with xseq : list T -> list (list T) -> list Z -> Prop :=
  | xs_one t ts s : xchain t ts s -> xseq (t :: ts) [] s
  | xs_cons t ts c' cs s sep s' :
      xchain t ts s -> gssep sep -> xseq c' cs s' -> xseq (t :: ts) (c' :: cs) (s ++ sep ++ s').

  Scheme xterm_mind := Minimality for xterm Sort Prop
    with xfields_mind := Minimality for xfields Sort Prop
    with xfield_mind := Minimality for xfield Sort Prop
    with xchain_mind := Minimality for xchain Sort Prop
    with xbranches_mind := Minimality for xbranches Sort Prop
    with xbranch_mind := Minimality for xbranch Sort Prop
    with xseq_mind := Minimality for xseq Sort Prop.
  Combined Scheme x_mutind from xterm_mind, xfields_mind, xfield_mind, xchain_mind, xbranches_mind, xbranch_mind, xseq_mind.

  Definition xchainL (c : list T) (s : list Z) : Prop :=
    match c with [] => False | t :: ts => xchain t ts s end.
  Definition xseqL (cs : list (list T)) (s : list Z) : Prop :=
    match cs with [] => False | c :: r => xseq c r s end.

  Lemma xchainL_inv c s : xchainL c s -> exists t ts, c = t :: ts /\ xchain t ts s.
  Proof. destruct c as [|t ts]; [intros []|]. intros H. exists t, ts. split; [reflexivity|exact H]. Qed.
  Lemma xseqL_inv s t : xseqL s t -> exists c cs, s = c :: cs /\ xseq c cs t.
  Proof. destruct s as [|c cs]; [intros []|]. intros H. exists c, cs. split; [reflexivity|exact H]. Qed.

  Lemma x_starts :
    (forall t s, xterm t s -> starts s) /\
    (forall f fs s, xfields f fs s -> starts s) /\
    (forall f s, xfield f s -> starts s) /\
    (forall t ts s, xchain t ts s -> starts s) /\
    (forall b bs s, xbranches b bs s -> starts s) /\
    (forall b s, xbranch b s -> starts s) /\
    (forall c cs s, xseq c cs s -> starts s).
  Proof.
    apply x_mutind; intros;
      first [assumption | reflexivity | apply starts_app; assumption | idtac].
    - apply starts_int.
    - apply starts_ident; assumption.
    - apply starts_name; assumption.
    - apply starts_app, starts_topen. assumption.
    - apply starts_app, starts_ident. assumption.
  Qed.
  Lemma starts_fields f fs s : xfields f fs s -> starts s.
  Proof. apply (proj1 (proj2 x_starts)). Qed.
  Lemma starts_chain t ts s : xchain t ts s -> starts s.
  Proof. apply (proj1 (proj2 (proj2 (proj2 x_starts)))). Qed.
  Lemma starts_branches b bs s : xbranches b bs s -> starts s.
  Proof. apply (proj1 (proj2 (proj2 (proj2 (proj2 x_starts))))). Qed.
  Lemma starts_seq c cs s : xseq c cs s -> starts s.
  Proof. apply (proj2 (proj2 (proj2 (proj2 (proj2 (proj2 x_starts)))))). Qed.

  Definition cbok (s s' : list Z) : Prop := forall p, cb p s s' true.
  Lemma cbok_mid a a' w w' b b' : cbok a a' -> cb true w w' false -> cbok b b' -> cbok (a ++ w ++ b) (a' ++ w' ++ b').
  Proof. intros Ha Hw Hb p. eapply cb_app; [apply Ha|]. eapply cb_app; [exact Hw|apply Hb]. Qed.

  Lemma x_cb :
    (forall t s, xterm t s -> exists s', xterm t s' /\ cbok s s') /\
    (forall f fs s, xfields f fs s -> exists s', xfields f fs s' /\ cbok s s') /\
    (forall f s, xfield f s -> exists s', xfield f s' /\ cbok s s') /\
    (forall t ts s, xchain t ts s -> exists s', xchain t ts s' /\ cbok s s') /\
    (forall b bs s, xbranches b bs s -> exists s', xbranches b bs s' /\ cbok s s') /\
    (forall b s, xbranch b s -> exists s', xbranch b s' /\ cbok s s') /\
    (forall c cs s, xseq c cs s -> exists s', xseq c cs s' /\ cbok s s').
  Proof.
    apply x_mutind.
    - intros z. exists (int_text z). split; [constructor|]. intros p. apply cl_solid; apply solid_int.
    - intros n Hn. exists n. split; [constructor; exact Hn|]. intros p. apply cl_solid; apply solid_ident; exact Hn.
    - intros s. eexists. split; [constructor|]. intros p. apply cl_str.
    - eexists. split; [constructor|]. intros p. apply cl_solid; [discriminate|reflexivity].
    - intros n Hn. exists n. split; [constructor; exact Hn|]. intros p. apply cl_solid; apply solid_name; exact Hn.
    - intros name f fs w1 body oc w2 Hn Hw1 Hw2 Hoc _ (body' & Hx & Hcb).
      exists (topen name ++ w1 ++ body' ++ oc ++ w2 ++ [93]). split; [apply xt_tuple; assumption|]. intros p.
      destruct (gws_cl w1 Hw1) as [q1 H1]. destruct (gws_cl w2 Hw2) as [q2 H2].
      eapply cb_app; [apply cl_topen; exact Hn|].
      eapply cb_app; [exact H1|].
      eapply cb_app; [apply Hcb|].
      eapply cb_app; [apply oc_cl; exact Hoc|].
      eapply cb_app; [exact H2|].
      apply cl_one. reflexivity.
    - intros b bs w1 bar body w2 Hb Hw1 Hw2 Hbar _ (body' & Hx & Hcb).
      exists (123 :: w1 ++ bar ++ body' ++ w2 ++ [125]). split; [apply xt_block; assumption|]. intros p.
      apply (cb_app p true true [123] [123]); [apply cl_one; reflexivity|].
      eapply cb_app; [apply gsep_cl; exact Hw1|].
      eapply cb_app; [destruct Hbar as [E|E]; subst bar; [apply cl_nil|apply cl_bar]|].
      eapply cb_app; [apply Hcb|].
      eapply cb_app; [apply gsep_cl; exact Hw2|].
      apply cl_one. reflexivity.
    - intros f s _ (s1 & Hx1 & Hcb1). exists s1. split; [apply xfs_one; exact Hx1|exact Hcb1].
    - intros f f' fs s sep s' _ (s1 & Hx1 & Hcb1) Hsep _ (s2 & Hx2 & Hcb2).
      exists (s1 ++ 44 :: sep ++ s2). split; [apply xfs_cons; assumption|].
      apply (cbok_mid s s1 (44 :: sep) (44 :: sep)); [exact Hcb1| |exact Hcb2].
      apply (cl_app true true false [44] sep); [apply cl_one; reflexivity|apply gsep_cl; exact Hsep].
    - intros t ts s _ (s1 & Hx1 & Hcb1). exists s1. split; [apply xf_plain; exact Hx1|exact Hcb1].
    - intros n t ts s Hn _ (s1 & Hx1 & Hcb1).
      exists (n ++ 58 :: 32 :: s1). split; [apply xf_label; assumption|].
      apply (cbok_mid n n [58; 32] [58; 32]); [intros p; apply cl_solid; apply solid_ident; exact Hn| |exact Hcb1].
      apply (cl_app true true false [58] [32]); [apply cl_one; reflexivity|apply cl_space].
    - intros t s _ (s1 & Hx1 & Hcb1). exists s1. split; [apply xc_one; exact Hx1|exact Hcb1].
    - intros t t' ts s sep s' _ (s1 & Hx1 & Hcb1) Hsep _ (s2 & Hx2 & Hcb2).
      exists (s1 ++ sep ++ s2). split; [apply xc_cons; assumption|].
      apply cbok_mid; [exact Hcb1|apply gcsep_cl; exact Hsep|exact Hcb2].
    - intros b s _ (s1 & Hx1 & Hcb1). exists s1. split; [apply xbs_one; exact Hx1|exact Hcb1].
    - intros b b' bs s sep s' _ (s1 & Hx1 & Hcb1) Hsep _ (s2 & Hx2 & Hcb2).
      exists (s1 ++ sep ++ 124 :: 32 :: s2). split; [apply xbs_cons; assumption|].
      assert (E : forall a b : list Z, a ++ sep ++ 124 :: 32 :: b = a ++ (sep ++ [124; 32]) ++ b)
        by (intros; rewrite <- app_assoc; reflexivity).
      rewrite !E. apply cbok_mid; [exact Hcb1| |exact Hcb2]. eapply cl_app; [apply gsep_cl; exact Hsep|apply cl_bar].
    - intros c cs s _ (s1 & Hx1 & Hcb1). exists s1. split; [apply xb_plain; exact Hx1|exact Hcb1].
    - intros c cs k ks s s' _ (s1 & Hx1 & Hcb1) _ (s2 & Hx2 & Hcb2).
      exists (s1 ++ [32; 61; 62; 32] ++ s2). split; [apply xb_guard; assumption|].
      apply cbok_mid; [exact Hcb1|apply cl_arrow|exact Hcb2].
    - intros t ts s _ (s1 & Hx1 & Hcb1). exists s1. split; [apply xs_one; exact Hx1|exact Hcb1].
    - intros t ts c' cs s sep s' _ (s1 & Hx1 & Hcb1) Hsep _ (s2 & Hx2 & Hcb2).
      destruct (gssep_cb sep Hsep) as (sep' & Hsep' & Hcbs).
      exists (s1 ++ sep' ++ s2). split; [apply xs_cons; assumption|].
      apply cbok_mid; assumption.
  Qed.

  Lemma xterm_strip t s : xterm t s -> xterm t (strip_trailing_whitespace s).
  Proof. intros H. destruct (proj1 x_cb _ _ H) as (s' & Hx & Hcb). rewrite (cb_strip _ _ (Hcb false)). exact Hx. Qed.
  Lemma xchain_strip t ts s : xchain t ts s -> xchain t ts (strip_trailing_whitespace s).
  Proof.
    intros H. destruct (proj1 (proj2 (proj2 (proj2 x_cb))) _ _ _ H) as (s' & Hx & Hcb).
    rewrite (cb_strip _ _ (Hcb false)). exact Hx.
  Qed.
  Lemma xseq_strip c cs s : xseq c cs s -> xseq c cs (strip_trailing_whitespace s).
  Proof.
    intros H. destruct (proj2 (proj2 (proj2 (proj2 (proj2 (proj2 x_cb))))) _ _ _ H) as (s' & Hx & Hcb).
    rewrite (cb_strip _ _ (Hcb false)). exact Hx.
  Qed.

  Section Step.
    Variable p : list Z -> option (T * list Z).

    Lemma step_nil : step_of L p [] = None.
    Proof. reflexivity. Qed.
    (* the characters that end a chain *)
    Lemma step_stop c rest : In c [93; 125; 124; 61] -> step_of L p (c :: rest) = None.
    Proof. intros [<-|[<-|[<-|[<-|[]]]]]; reflexivity. Qed.

    Lemma step_bracket r :
      step_of L p (91 :: r) =
      match P_bracket_body (mk_field L) p r with Some (fs, rest) => Some (t_tuple L None fs, rest) | None => None end.
    Proof. reflexivity. Qed.
    Lemma step_brace r : has_blocks L = true ->
      step_of L p (123 :: r) =
      match P_block_body (mk_branch L) p r with Some (bs, rest) => Some (t_block L bs, rest) | None => None end.
    Proof. intros H. unfold step_of, brace_of. rewrite H. reflexivity. Qed.

    Lemma step_int z rest : tfollow rest -> step_of L p (int_text z ++ rest) = Some (t_int L z, rest).
    Proof.
      intros Hf. destruct (int_first z) as [c [s' [E Hc]]].
      pose proof (p_integer_app z rest (tfollow_intfollow _ Hf)) as Hi. rewrite E in *. cbn [app] in *.
      unfold step_of, term_step. cbv beta iota. replace (c =? 34) with false by cc. rewrite Hc, Hi. reflexivity.
    Qed.

    Lemma step_ident n rest :
      wf_ident n = true -> tfollow rest -> step_of L p (n ++ rest) = Some (t_ident L n, rest).
    Proof.
      intros Hwf Hf. pose proof (p_identifier_app _ rest Hwf (tfollow_idfollow _ Hf)) as Hi.
      destruct n as [|c n']; [discriminate|]. apply wf_ident_first in Hwf. cbn [app] in *.
      unfold step_of, term_step. cbv beta iota. replace (c =? 34) with false by cc.
      replace (is_digit c || (c =? 45)) with false by cc.
      replace (is_upper c) with false by cc. replace (c =? 91) with false by cc.
      replace (c =? 123) with false by cc. rewrite Hwf, Hi.
      destruct rest as [|x r]; [reflexivity|]. destruct Hf as [Hf _]. cbn [first_in] in Hf.
      replace ((x =? 91) || (x =? 46)) with false by lia. reflexivity.
    Qed.

    Lemma step_upper n rest : wf_tuple_name n = true -> stops is_word rest ->
      step_of L p (n ++ rest) =
      match rest with
      | x :: r' =>
          if x =? 91 then
            match P_bracket_body (mk_field L) p r' with
            | Some (fs, rest') => Some (t_tuple L (Some n) fs, rest') | None => None end
          else match skip_ws rest with
               | y :: _ => if y =? 40 then None else Some (t_tuple L (Some n) [], rest)
               | [] => Some (t_tuple L (Some n) [], rest)
               end
      | [] => Some (t_tuple L (Some n) [], [])
      end.
    Proof.
      intros Hwf Hr. pose proof (p_tuple_name_app _ rest Hwf Hr) as Hn.
      destruct n as [|c n']; [discriminate|]. apply wf_name_first in Hwf. cbn [app] in *.
      unfold step_of, term_step. cbv beta iota. replace (c =? 34) with false by cc.
      replace (is_digit c || (c =? 45)) with false by cc. rewrite Hwf, Hn.
      destruct rest; reflexivity.
    Qed.

    Lemma step_name n rest :
      wf_tuple_name n = true -> tfollow rest -> step_of L p (n ++ rest) = Some (t_tuple L (Some n) [], rest).
    Proof.
      intros Hwf Hf. rewrite (step_upper n rest Hwf (tfollow_word _ Hf)).
      destruct rest as [|x r]; [reflexivity|]. destruct Hf as [Hf1 Hf2]. cbn [first_in] in Hf1.
      replace (x =? 91) with false by lia.
      destruct (skip_ws (x :: r)) as [|y t]; [reflexivity|].
      replace (y =? 40) with false by lia. reflexivity.
    Qed.

    Lemma step_str s rest :
      tfollow rest -> step_of L p ((34 :: escape_single s ++ [34]) ++ rest) = Some (t_str L s, rest).
    Proof.
      intros [Hf _]. unfold step_of, term_step. cbn [app]. cbv beta iota. rewrite Z.eqb_refl. rewrite <- app_assoc. cbn [app].
      assert (Hm : misses 34 rest) by (destruct rest; [exact I|cbn [first_in] in Hf; cbn [misses]; lia]).
      pose proof (escape_single_scan s rest) as Hscan.
      destruct (escape_single s ++ 34 :: rest) as [|a [|b t]] eqn:E.
      - rewrite Hscan. reflexivity.
      - rewrite Hscan. reflexivity.
      - rewrite (esc_no_triple s rest a b t Hm E). rewrite Hscan. reflexivity.
    Qed.
  End Step.

  Section Complete.
    Variable p : list Z -> option (T * list Z).
    Hypothesis p_nil : p [] = None.
    Hypothesis p_stop : forall c rest, In c [93; 125; 124; 61] -> p (c :: rest) = None.

    Lemma chain_rest_stop n rest : cfollow rest -> Sep_rest p_chain_sep p n rest = ([], rest).
    Proof.
      intros H. apply Sep_rest_stop. destruct (chain_sep_stop _ H) as [E|(y & r' & E & Hy)]; [left; exact E|].
      right. exists (y :: r'). split; [exact E|]. apply p_stop. cbn [In]. lia.
    Qed.

    Lemma P_chain_complete t ts s rest :
      sep_ok p_chain_sep p t ts s rest -> P_chain p (s ++ rest) = Some (t :: ts, rest).
    Proof. intros H. destruct (sep_ok_run _ _ _ _ _ _ H) as (r & Hi & Hr). unfold P_chain. rewrite Hi, Hr. reflexivity. Qed.

    Lemma P_field_plain s ts rest :
      nolabel (s ++ rest) -> P_chain p (s ++ rest) = Some (ts, rest) ->
      P_field (mk_field L) p (s ++ rest) = Some (mk_field L None ts, rest).
    Proof.
      intros Hn Hc. unfold P_field. unfold nolabel in Hn. rewrite Hc.
      destruct (p_identifier (s ++ rest)) as [[n [|c r]]|]; try reflexivity.
      replace (c =? 58) with false by lia. reflexivity.
    Qed.

    Lemma P_field_label n s ts rest :
      wf_ident n = true -> starts s -> P_chain p (s ++ rest) = Some (ts, rest) ->
      P_field (mk_field L) p ((n ++ 58 :: 32 :: s) ++ rest) = Some (mk_field L (Some n) ts, rest).
    Proof.
      intros Hn Hs Hc. unfold P_field. rewrite <- app_assoc. cbn [app].
      rewrite (p_identifier_app n (58 :: 32 :: s ++ rest) Hn) by (cbn [idfollow]; split; [reflexivity|split; lia]).
      rewrite Z.eqb_refl.
      change (32 :: s ++ rest) with ([32] ++ (s ++ rest)).
      rewrite (take_while_app is_msp [32] (s ++ rest) eq_refl (starts_stops _ _ Hs)).
      rewrite Hc. reflexivity.
    Qed.

    Lemma P_field_rb rest : P_field (mk_field L) p (93 :: rest) = None.
    Proof. unfold P_field, P_chain. rewrite p_stop by (cbn [In]; lia). reflexivity. Qed.

    Lemma p_comma_hit sep s : forallb is_msp sep = true -> stops is_msp s -> p_comma (44 :: sep ++ s) = Some s.
    Proof.
      intros Hsep Hs. unfold p_comma. rewrite skip_ws_stop by exact eq_refl. rewrite Z.eqb_refl.
      rewrite skip_ws_app by assumption. reflexivity.
    Qed.

    Lemma p_comma_rb w rest : forallb is_msp w = true -> p_comma (w ++ 93 :: rest) = None.
    Proof. intros Hw. unfold p_comma. rewrite skip_ws_app; [reflexivity|exact Hw|reflexivity]. Qed.

    Lemma fields_rest_stop n rest : fsfollow rest -> Sep_rest p_comma (P_field (mk_field L) p) n rest = ([], rest).
    Proof.
      intros (oc & w2 & rest' & E & Hoc & Hw). apply Sep_rest_stop. subst rest.
      destruct Hoc as [Hoc|Hoc]; subst oc; cbn [app].
      - left. apply (p_comma_rb w2 rest' (msp_gws _ Hw)).
      - right. exists (93 :: rest'). split; [|apply P_field_rb].
        apply (p_comma_hit w2 (93 :: rest') (msp_gws _ Hw)). exact eq_refl.
    Qed.

    Lemma bracket_body_complete f fs w1 body oc w2 rest :
      gws w1 -> gws w2 -> (oc = [] \/ oc = [44]) -> starts body ->
      sep_ok p_comma (P_field (mk_field L) p) f fs body (oc ++ w2 ++ 93 :: rest) ->
      P_bracket_body (mk_field L) p (w1 ++ body ++ oc ++ w2 ++ 93 :: rest) = Some (f :: fs, rest).
    Proof.
      intros Hw1 Hw2 Hoc Hsb H. destruct (sep_ok_run _ _ _ _ _ _ H) as (r & Hpf & Hrest).
      unfold P_bracket_body.
      rewrite (skip_ws_app w1 _ (msp_gws _ Hw1) (starts_stops _ _ Hsb)).
      unfold P_fields. rewrite Hpf, Hrest.
      destruct Hoc as [E|E]; subst oc; cbn [app].
      - rewrite (p_comma_rb w2 rest (msp_gws _ Hw2)).
        rewrite (skip_ws_app w2 _ (msp_gws _ Hw2)) by exact eq_refl.
        rewrite Z.eqb_refl. reflexivity.
      - rewrite (p_comma_hit w2 (93 :: rest) (msp_gws _ Hw2)) by exact eq_refl.
        rewrite (skip_ws_stop (44 :: w2 ++ 93 :: rest)) by exact eq_refl.
        rewrite (skip_ws_app w2 _ (msp_gws _ Hw2)) by exact eq_refl.
        rewrite Z.eqb_refl. reflexivity.
    Qed.

    Lemma chain_blocked tail : blocked tail -> P_chain p tail = None.
    Proof.
      intros H. unfold P_chain. destruct tail as [|y t]; [rewrite p_nil; reflexivity|].
      cbn [blocked] in H. rewrite p_stop by (cbn [In]; lia). reflexivity.
    Qed.

    Lemma seq_rest_stop n rest : sfollow rest -> Sep_rest p_seq_sep (P_chain p) n rest = ([], rest).
    Proof.
      intros H. apply Sep_rest_stop. destruct (seq_sep_follow _ H) as [E|(tail & E & Ht)]; [left; exact E|].
      right. exists tail. split; [exact E|apply chain_blocked; exact Ht].
    Qed.

    Lemma P_sequence_complete c cs s rest :
      sep_ok p_seq_sep (P_chain p) c cs s rest -> P_sequence p (s ++ rest) = Some (c :: cs, seq_eat rest).
    Proof. intros H. destruct (sep_ok_run _ _ _ _ _ _ H) as (r & Hi & Hr). unfold P_sequence. rewrite Hi, Hr. reflexivity. Qed.

    Lemma P_branch_plain s cs rest :
      P_sequence p (s ++ rest) = Some (cs, seq_eat rest) -> bfollow rest ->
      P_branch (mk_branch L) p (s ++ rest) = Some (mk_branch L cs None, seq_eat rest).
    Proof.
      intros Hseq (w & tail & E & Hw & Ht). unfold P_branch. rewrite Hseq. subst rest.
      destruct (seq_eat_bfollow w tail Hw Ht) as [_ Esk]. rewrite Esk.
      destruct tail as [|y [|b t]]; try reflexivity.
      replace (y =? 61) with false by lia. reflexivity.
    Qed.

    Lemma P_branch_guard s s' cs ks rest r2 :
      P_sequence p (s ++ [32; 61; 62; 32] ++ s' ++ rest) = Some (cs, 32 :: 61 :: 62 :: 32 :: s' ++ rest) ->
      starts s' -> P_sequence p (s' ++ rest) = Some (ks, r2) ->
      P_branch (mk_branch L) p (s ++ [32; 61; 62; 32] ++ s' ++ rest) = Some (mk_branch L cs (Some ks), r2).
    Proof.
      intros Hseq Hs' Hseq'. unfold P_branch. rewrite Hseq.
      change (32 :: 61 :: 62 :: 32 :: s' ++ rest) with ([32] ++ 61 :: 62 :: 32 :: s' ++ rest).
      rewrite (skip_ws_app [32] (61 :: 62 :: 32 :: s' ++ rest) eq_refl) by exact eq_refl.
      replace ((61 =? 61) && (62 =? 62)) with true by exact eq_refl.
      change (32 :: s' ++ rest) with ([32] ++ (s' ++ rest)).
      rewrite (skip_ws_app [32] (s' ++ rest) eq_refl (starts_stops _ _ Hs')).
      rewrite Hseq'. reflexivity.
    Qed.

    (* like sep_ok for the `|`-separated branches, except that a branch leaves seq_eat rest, not rest: its last
       sequence swallows a trailing separator *)
    Definition branches_ok (b : B) (bs : list B) (s rest : list Z) : Prop :=
      (length bs <= length s)%nat /\
      exists r1, (length bs <= length r1)%nat /\
                 P_branch (mk_branch L) p (s ++ rest) = Some (b, r1) /\
                 forall n, (length bs <= n)%nat -> P_branches_rest (mk_branch L) p n r1 = (bs, seq_eat rest).

    Lemma branches_ok_one b s rest :
      P_branch (mk_branch L) p (s ++ rest) = Some (b, seq_eat rest) -> blkfollow rest -> branches_ok b [] s rest.
    Proof.
      intros Hb (w2 & rest' & E & Hw). split; [cbn [length]; lia|].
      exists (seq_eat rest). split; [cbn [length]; lia|]. split; [exact Hb|].
      intros n _. destruct n; [reflexivity|]. cbn [P_branches_rest]. subst rest.
      destruct (seq_eat_bfollow w2 (125 :: rest') Hw) as [_ Esk]; [left; reflexivity|].
      rewrite Esk. reflexivity.
    Qed.

    Lemma branches_ok_cons b b' bs s sep s' rest :
      P_branch (mk_branch L) p (s ++ sep ++ 124 :: 32 :: s' ++ rest) = Some (b, seq_eat (sep ++ 124 :: 32 :: s' ++ rest)) ->
      gsep sep -> starts s' -> branches_ok b' bs s' rest ->
      branches_ok b (b' :: bs) (s ++ sep ++ 124 :: 32 :: s') rest.
    Proof.
      intros Hb Hsep Hs' (K0 & r1' & K1 & Hb' & Hrest).
      assert (Ht : match 124 :: 32 :: s' ++ rest with y :: _ => y = 125 \/ y = 124 | [] => False end) by (right; reflexivity).
      split; [rewrite !app_length; cbn [length]; lia|].
      exists (seq_eat (sep ++ 124 :: 32 :: s' ++ rest)). split; [|split].
      - pose proof (seq_eat_len sep (124 :: 32 :: s' ++ rest) Hsep Ht) as K. cbn [length] in *. rewrite app_length in K. lia.
      - rewrite <- !app_assoc. cbn [app]. exact Hb.
      - intros n Hn. cbn [length] in Hn. destruct n as [|n']; [lia|]. cbn [P_branches_rest].
        destruct (seq_eat_bfollow sep (124 :: 32 :: s' ++ rest) Hsep Ht) as [_ Esk]. rewrite Esk.
        rewrite Z.eqb_refl.
        change (32 :: s' ++ rest) with ([32] ++ (s' ++ rest)).
        rewrite (skip_ws_app [32] (s' ++ rest) eq_refl (starts_stops _ _ Hs')).
        rewrite Hb'. rewrite (Hrest n') by lia. reflexivity.
    Qed.

    Lemma block_body_complete b bs w1 bar body w2 rest :
      gsep w1 -> gsep w2 -> (bar = [] \/ bar = [124; 32]) -> starts body ->
      branches_ok b bs body (w2 ++ 125 :: rest) ->
      P_block_body (mk_branch L) p (w1 ++ bar ++ body ++ w2 ++ 125 :: rest) = Some (b :: bs, rest).
    Proof.
      intros Hw1 Hw2 Hbar Hsb (K0 & r1 & K1 & Hb & Hrest).
      assert (Hexp : P_expression (mk_branch L) p (bar ++ body ++ w2 ++ 125 :: rest) = Some (b :: bs, seq_eat (w2 ++ 125 :: rest))).
      { unfold P_expression. destruct Hbar as [E|E]; subst bar.
        - cbn [app]. destruct body as [|c body']; [destruct Hsb|]. cbn [starts] in Hsb.
          cbn [app] in *. replace (c =? 124) with false by cc.
          rewrite Hb. rewrite Hrest by lia. reflexivity.
        - cbn [app]. rewrite Z.eqb_refl.
          change (32 :: body ++ w2 ++ 125 :: rest) with ([32] ++ (body ++ w2 ++ 125 :: rest)).
          rewrite (skip_ws_app [32] _ eq_refl (starts_stops _ _ Hsb)).
          rewrite Hb. rewrite Hrest by lia. reflexivity. }
      unfold P_block_body.
      rewrite (skip_ws_app w1 (bar ++ body ++ w2 ++ 125 :: rest) (msp_gsep _ Hw1)).
      - rewrite Hexp. destruct (seq_eat_bfollow w2 (125 :: rest) Hw2) as [_ Esk]; [left; reflexivity|].
        rewrite Esk. rewrite Z.eqb_refl. reflexivity.
      - destruct Hbar as [E|E]; subst bar; [cbn [app]; apply starts_stops; exact Hsb|reflexivity].
    Qed.
  End Complete.

  Lemma xterm_nolabel t s rest : xterm t s -> tfollow rest -> nolabel (s ++ rest).
  Proof.
    intros H Hf.
    destruct H as [z|n Hn|s0| |n Hn|name f fs w1 body oc w2 Hn _ _ _ _|b bs w1 bar body w2 _ _ _ _ _].
    - destruct (int_first z) as [c [s' [E Hc]]]. rewrite E. cbn [app]. apply nolabel_nonlower. cc.
    - unfold nolabel. rewrite (p_identifier_app n rest Hn (tfollow_idfollow _ Hf)).
      destruct rest as [|x r]; [exact I|]. destruct Hf as [Hf _]. cbn [first_in] in Hf. lia.
    - cbn [app]. apply nolabel_nonlower. reflexivity.
    - cbn [app]. apply nolabel_nonlower. reflexivity.
    - destruct n as [|c n']; [discriminate|]. cbn [app]. apply nolabel_nonlower.
      pose proof (wf_name_first _ _ Hn). cc.
    - destruct name as [[|c n']|]; cbn [name_ok topen] in *.
      + discriminate.
      + cbn [app]. apply nolabel_nonlower. pose proof (wf_name_first _ _ Hn). cc.
      + cbn [app]. apply nolabel_nonlower. reflexivity.
    - cbn [app]. apply nolabel_nonlower. reflexivity.
  Qed.

  Lemma xchain_nolabel t ts s rest : xchain t ts s -> cfollow rest -> nolabel (s ++ rest).
  Proof.
    intros H Hf. destruct H as [t s Ht|t t' ts s sep s' Ht Hsep Hc].
    - apply (xterm_nolabel t s rest Ht). apply cfollow_tfollow. exact Hf.
    - rewrite <- !app_assoc. apply (xterm_nolabel t s _ Ht).
      apply tfollow_csep; [exact Hsep|]. apply (starts_chain _ _ _ Hc).
  Qed.

  (* a term parser with fuel, each step of which is step_of: p_term, g_p_term *)
  Section Parser.
    Variable pt : nat -> list Z -> option (T * list Z).
    Hypothesis pt_0 : forall s, pt 0 s = None.
    Hypothesis pt_S : forall f s, pt (S f) s = step_of L (pt f) s.

    Lemma pt_nil fuel : pt fuel [] = None.
    Proof. destruct fuel; [apply pt_0|rewrite pt_S; apply step_nil]. Qed.
    Lemma pt_stop fuel c rest : In c [93; 125; 124; 61] -> pt fuel (c :: rest) = None.
    Proof. intros H. destruct fuel; [apply pt_0|rewrite pt_S; apply step_stop; exact H]. Qed.

    (* `fuel` bounds the nesting depth; the length of the text will do *)
    Lemma x_complete :
      (forall t s, xterm t s -> forall fuel rest, (length s <= fuel)%nat -> tfollow rest ->
                   pt fuel (s ++ rest) = Some (t, rest)) /\
      (forall f fs s, xfields f fs s -> forall fuel rest, (length s <= fuel)%nat -> fsfollow rest ->
                   sep_ok p_comma (P_field (mk_field L) (pt fuel)) f fs s rest) /\
      (forall f s, xfield f s -> forall fuel rest, (length s <= fuel)%nat -> cfollow rest ->
                   P_field (mk_field L) (pt fuel) (s ++ rest) = Some (f, rest)) /\
      (forall t ts s, xchain t ts s -> forall fuel rest, (length s <= fuel)%nat -> cfollow rest ->
                   sep_ok p_chain_sep (pt fuel) t ts s rest) /\
      (forall b bs s, xbranches b bs s -> forall fuel rest, (length s <= fuel)%nat -> blkfollow rest ->
                   branches_ok (pt fuel) b bs s rest) /\
      (forall b s, xbranch b s -> forall fuel rest, (length s <= fuel)%nat -> bfollow rest ->
                   P_branch (mk_branch L) (pt fuel) (s ++ rest) = Some (b, seq_eat rest)) /\
      (forall c cs s, xseq c cs s -> forall fuel rest, (length s <= fuel)%nat -> sfollow rest ->
                   sep_ok p_seq_sep (P_chain (pt fuel)) c cs s rest).
    Proof.
      apply x_mutind.
      - intros z fuel rest Hl Hf.
        destruct (starts_fuel _ _ (starts_int z) Hl) as [f E]. subst fuel. rewrite pt_S. apply step_int. exact Hf.
      - intros n Hn fuel rest Hl Hf.
        destruct (starts_fuel _ _ (starts_ident n Hn) Hl) as [f E]. subst fuel. rewrite pt_S.
        apply step_ident; assumption.
      - intros s fuel rest Hl Hf.
        destruct fuel as [|f]; [cbn [length] in Hl; lia|]. rewrite pt_S. apply step_str. exact Hf.
      - intros fuel rest Hl Hf.
        destruct fuel as [|f]; [cbn [length] in Hl; lia|]. cbn [app].
        rewrite pt_S, step_bracket. unfold P_bracket_body.
        rewrite (skip_ws_stop (93 :: rest)) by exact eq_refl.
        unfold P_fields. rewrite (P_field_rb _ (pt_stop f)).
        unfold p_comma. rewrite (skip_ws_stop (93 :: rest)) by exact eq_refl. reflexivity.
      - intros n Hn fuel rest Hl Hf.
        destruct (starts_fuel _ _ (starts_name n Hn) Hl) as [f E]. subst fuel. rewrite pt_S.
        apply step_name; assumption.
      - intros name f fs w1 body oc w2 Hn Hw1 Hw2 Hoc Hfs IH fuel rest Hl Hf.
        rewrite !app_length in Hl. cbn [length] in Hl.
        destruct fuel as [|fu]; [lia|].
        assert (Hbody : P_bracket_body (mk_field L) (pt fu) (w1 ++ body ++ oc ++ w2 ++ 93 :: rest) = Some (f :: fs, rest)).
        { apply bracket_body_complete; try assumption.
          - apply (starts_fields _ _ _ Hfs).
          - apply IH; [lia|]. exists oc, w2, rest. repeat split; assumption. }
        rewrite pt_S, <- !app_assoc. cbn [app].
        destruct name as [n|]; cbn [topen name_ok] in *.
        + rewrite <- app_assoc. cbn [app]. rewrite (step_upper _ n _ Hn) by exact eq_refl.
          cbv beta iota. rewrite Z.eqb_refl, Hbody. reflexivity.
        + cbn [app]. rewrite step_bracket, Hbody. reflexivity.
      - intros b bs w1 bar body w2 Hblk Hw1 Hw2 Hbar Hbs IH fuel rest Hl Hf.
        cbn [length] in Hl. rewrite !app_length in Hl. cbn [length] in Hl.
        destruct fuel as [|fu]; [lia|].
        assert (Hbody : P_block_body (mk_branch L) (pt fu) (w1 ++ bar ++ body ++ w2 ++ 125 :: rest) = Some (b :: bs, rest)).
        { apply block_body_complete; try assumption.
          - apply (starts_branches _ _ _ Hbs).
          - apply IH; [lia|]. exists w2, rest. split; [reflexivity|assumption]. }
        cbn [app]. rewrite pt_S, (step_brace _ _ Hblk). rewrite <- !app_assoc. cbn [app]. rewrite Hbody. reflexivity.
      - intros f s Hf IH fuel rest Hl Hfol.
        apply sep_ok_one; [apply IH; [exact Hl|apply fsfollow_cfollow; exact Hfol]|].
        intros n. apply fields_rest_stop; [apply pt_stop|exact Hfol].
      - intros f f' fs s sep s' Hf IH1 Hsep Hfs IH2 fuel rest Hl Hfol.
        rewrite !app_length in Hl. cbn [length] in Hl. rewrite !app_length in Hl.
        apply (sep_ok_cons _ _ f f' fs s (44 :: sep) s' rest); [|cbn [length]; lia| |apply IH2; [lia|exact Hfol]].
        + apply IH1; [lia|apply cfollow_comma].
        + apply p_comma_hit; [apply msp_gsep; exact Hsep|apply starts_stops, (starts_fields _ _ _ Hfs)].
      - intros t ts s Hc IH fuel rest Hl Hfol.
        apply P_field_plain; [apply (xchain_nolabel _ _ _ _ Hc Hfol)|].
        apply P_chain_complete. apply IH; assumption.
      - intros n t ts s Hn Hc IH fuel rest Hl Hfol.
        rewrite !app_length in Hl. cbn [length] in Hl.
        apply P_field_label; [exact Hn|apply (starts_chain _ _ _ Hc)|].
        apply P_chain_complete. apply IH; [lia|exact Hfol].
      - intros t s Ht IH fuel rest Hl Hfol.
        apply sep_ok_one; [apply IH; [exact Hl|apply cfollow_tfollow; exact Hfol]|].
        intros n. apply chain_rest_stop; [apply pt_stop|exact Hfol].
      - intros t t' ts s sep s' Ht IH1 Hsep Hc IH2 fuel rest Hl Hfol.
        rewrite !app_length in Hl.
        pose proof (starts_chain _ _ _ Hc) as Hs'.
        apply sep_ok_cons; [|apply gcsep_len; exact Hsep| |apply IH2; [lia|exact Hfol]].
        + apply IH1; [lia|]. apply tfollow_csep; assumption.
        + apply csep_parse; [exact Hsep|apply starts_app; exact Hs'].
      - intros b s Hb IH fuel rest Hl Hfol.
        apply branches_ok_one; [|exact Hfol].
        apply IH; [exact Hl|apply blkfollow_bfollow; exact Hfol].
      - intros b b' bs s sep s' Hb IH1 Hsep Hbs IH2 fuel rest Hl Hfol.
        rewrite !app_length in Hl. cbn [length] in Hl.
        apply branches_ok_cons; [|exact Hsep|apply (starts_branches _ _ _ Hbs)|apply IH2; [lia|exact Hfol]].
        apply IH1; [lia|]. exists sep, (124 :: 32 :: s' ++ rest). split; [reflexivity|]. split; [exact Hsep|right; reflexivity].
      - intros c cs s Hs IH fuel rest Hl Hfol.
        apply P_branch_plain; [|exact Hfol].
        apply P_sequence_complete. apply IH; [exact Hl|apply bfollow_sfollow; exact Hfol].
      - intros c cs k ks s s' Hs IH1 Hs' IH2 fuel rest Hl Hfol.
        rewrite !app_length in Hl. cbn [length] in Hl.
        rewrite <- !app_assoc. apply P_branch_guard.
        + assert (Hsf : sfollow ([32; 61; 62; 32] ++ s' ++ rest)).
          { right. left. exists 61, (62 :: 32 :: s' ++ rest). split; [reflexivity|lia]. }
          assert (Hl1 : (length s <= fuel)%nat) by lia.
          pose proof (P_sequence_complete _ _ _ _ _ (IH1 fuel _ Hl1 Hsf)) as H.
          cbn [app] in H. rewrite seq_eat_sp in H by lia. exact H.
        + apply (starts_seq _ _ _ Hs').
        + apply P_sequence_complete. apply IH2; [lia|apply bfollow_sfollow; exact Hfol].
      - intros t ts s Hc IH fuel rest Hl Hfol.
        apply sep_ok_one; [apply P_chain_complete, IH; [exact Hl|apply sfollow_cfollow; exact Hfol]|].
        intros n. apply seq_rest_stop; [apply pt_nil|apply pt_stop|exact Hfol].
      - intros t ts c' cs s sep s' Hc IH1 Hsep Hs IH2 fuel rest Hl Hfol.
        rewrite !app_length in Hl.
        pose proof (starts_seq _ _ _ Hs) as Hs'.
        apply sep_ok_cons; [|apply gssep_len; exact Hsep| |apply IH2; [lia|exact Hfol]].
        + apply P_chain_complete, IH1; [lia|]. apply ssep_cfollow; assumption.
        + apply ssep_parse; [exact Hsep|apply starts_app; exact Hs'].
    Qed.

    Lemma chain_text_complete t ts s :
      xchain t ts s -> P_chain (pt (length (s ++ [10]))) (s ++ [10]) = Some (t :: ts, [10]).
    Proof.
      intros H. apply P_chain_complete. apply (proj1 (proj2 (proj2 (proj2 x_complete))) _ _ _ H).
      - rewrite app_length. lia.
      - cbn [cfollow]. right. right. right. split; [reflexivity|]. exists [], []. repeat split.
    Qed.
    Lemma seq_text_complete c cs s :
      xseq c cs s -> P_sequence (pt (length (s ++ [10]))) (s ++ [10]) = Some (c :: cs, []).
    Proof.
      intros H. change (@nil Z) with (seq_eat [10]) at 2. apply P_sequence_complete.
      apply (proj2 (proj2 (proj2 (proj2 (proj2 (proj2 x_complete))))) _ _ _ H).
      - rewrite app_length. lia.
      - right. right. exists [], []. split; [reflexivity|]. split; [reflexivity|exact I].
    Qed.

    (* any notion of well-formedness that holds of the constructors' results holds of what the parser returns *)
    Section Sound.
      Variables (wft : T -> bool) (wff : F -> bool) (wfb : B -> bool).
      Definition wfc (c : list T) : bool := negb (match c with [] => true | _ => false end) && forallb wft c.
      Definition wfs (s : list (list T)) : bool := negb (match s with [] => true | _ => false end) && forallb wfc s.
      Lemma wfc_inv c : wfc c = true -> c <> [] /\ Forall (fun t => wft t = true) c.
      Proof.
        unfold wfc. intros H. apply andb_true_iff in H. destruct H as [Hne Hall].
        split; [destruct c; [discriminate|discriminate]|]. apply Forall_forall. apply forallb_forall. exact Hall.
      Qed.
      Lemma wfs_inv s : wfs s = true -> s <> [] /\ Forall (fun c => wfc c = true) s.
      Proof.
        unfold wfs. intros H. apply andb_true_iff in H. destruct H as [Hne Hall].
        split; [destruct s; [discriminate|discriminate]|]. apply Forall_forall. apply forallb_forall. exact Hall.
      Qed.

      Hypothesis wf_int : forall z, wft (t_int L z) = true.
      Hypothesis wf_str : forall s, wft (t_str L s) = true.
      Hypothesis wf_id : forall n, wf_ident n = true -> wft (t_ident L n) = true.
      Hypothesis wf_tup : forall name fs, name_ok name = true -> forallb wff fs = true -> wft (t_tuple L name fs) = true.
      Hypothesis wf_blk : forall b bs, forallb wfb (b :: bs) = true -> wft (t_block L (b :: bs)) = true.
      Hypothesis wf_fld : forall l v, label_ok l = true -> wfc v = true -> wff (mk_field L l v) = true.
      Hypothesis wf_brn : forall c k, wfs c = true -> match k with Some s => wfs s = true | None => True end ->
                                      wfb (mk_branch L c k) = true.

      Section SoundStep.
        Variable p : list Z -> option (T * list Z).
        Hypothesis p_wf : forall s t r, p s = Some (t, r) -> wft t = true.

        Lemma P_chain_wf s ts r : P_chain p s = Some (ts, r) -> wfc ts = true.
        Proof.
          unfold P_chain. destruct (p s) as [[t r1]|] eqn:Ept; [|discriminate].
          destruct (Sep_rest p_chain_sep p (length r1) r1) as [ts' r2] eqn:Er. intros H. inversion H; subst.
          unfold wfc. cbn [forallb negb andb].
          rewrite (p_wf _ _ _ Ept), (Sep_rest_forallb _ _ wft p_wf _ _ _ _ Er). reflexivity.
        Qed.

        Lemma P_field_wf s f r : P_field (mk_field L) p s = Some (f, r) -> wff f = true.
        Proof.
          unfold P_field. intros H.
          assert (Hplain : match P_chain p s with Some (ts, r0) => Some (mk_field L None ts, r0) | None => None end
                           = Some (f, r) -> wff f = true).
          { destruct (P_chain p s) as [[ts r0]|] eqn:Ec; [|discriminate]. intros H0. inversion H0; subst.
            apply wf_fld; [reflexivity|apply (P_chain_wf _ _ _ Ec)]. }
          destruct (p_identifier s) as [[n [|c r0]]|] eqn:Ei; try (apply Hplain; exact H).
          destruct (c =? 58); [|apply Hplain; exact H].
          destruct (take_while is_msp r0) as [w r1]. destruct w as [|w0 w]; [apply Hplain; exact H|].
          destruct (P_chain p r1) as [[ts r2]|] eqn:Ec; [|apply Hplain; exact H].
          inversion H; subst. apply wf_fld; [apply (p_identifier_wf _ _ _ Ei)|apply (P_chain_wf _ _ _ Ec)].
        Qed.

        Lemma P_fields_wf s fs r : P_fields (mk_field L) p s = (fs, r) -> forallb wff fs = true.
        Proof.
          unfold P_fields. destruct (P_field (mk_field L) p s) as [[f r1]|] eqn:Ef.
          - destruct (Sep_rest p_comma (P_field (mk_field L) p) (length r1) r1) as [fs1 r'] eqn:Er.
            destruct (p_comma r'); intros H; inversion H; subst; cbn [forallb];
              rewrite (P_field_wf _ _ _ Ef), (Sep_rest_forallb _ _ wff P_field_wf _ _ _ _ Er); reflexivity.
          - destruct (p_comma s); intros H; inversion H; subst; reflexivity.
        Qed.

        Lemma P_bracket_body_wf s fs r : P_bracket_body (mk_field L) p s = Some (fs, r) -> forallb wff fs = true.
        Proof.
          unfold P_bracket_body. destruct (P_fields (mk_field L) p (skip_ws s)) as [fs0 r0] eqn:E.
          destruct (skip_ws r0) as [|c r']; [discriminate|]. destruct (c =? 93); [|discriminate].
          intros H. inversion H; subst. apply (P_fields_wf _ _ _ E).
        Qed.

        Lemma P_sequence_wf s cs r : P_sequence p s = Some (cs, r) -> wfs cs = true.
        Proof.
          unfold P_sequence. destruct (P_chain p s) as [[c r1]|] eqn:Ec; [|discriminate].
          destruct (Sep_rest p_seq_sep (P_chain p) (length r1) r1) as [cs' r2] eqn:Er. intros H. inversion H; subst.
          unfold wfs. cbn [forallb negb andb].
          rewrite (P_chain_wf _ _ _ Ec), (Sep_rest_forallb _ _ wfc P_chain_wf _ _ _ _ Er). reflexivity.
        Qed.

        Lemma P_branch_wf s b r : P_branch (mk_branch L) p s = Some (b, r) -> wfb b = true.
        Proof.
          unfold P_branch. destruct (P_sequence p s) as [[cond r0]|] eqn:Es; [|discriminate].
          pose proof (P_sequence_wf _ _ _ Es) as Hc.
          assert (Hplain : wfb (mk_branch L cond None) = true) by (apply wf_brn; [exact Hc|exact I]).
          intros H.
          destruct (skip_ws r0) as [|a [|b0 r1]]; try (inversion H; subst; exact Hplain).
          destruct ((a =? 61) && (b0 =? 62)); [|inversion H; subst; exact Hplain].
          destruct (P_sequence p (skip_ws r1)) as [[k r2]|] eqn:Ek; [|inversion H; subst; exact Hplain].
          inversion H; subst. apply wf_brn; [exact Hc|apply (P_sequence_wf _ _ _ Ek)].
        Qed.

        Lemma P_branches_rest_wf n s bs r : P_branches_rest (mk_branch L) p n s = (bs, r) -> forallb wfb bs = true.
        Proof. rewrite P_branches_rest_eq. apply (Sep_rest_forallb _ _ wfb P_branch_wf). Qed.

        Lemma P_block_body_wf s bs r : P_block_body (mk_branch L) p s = Some (bs, r) -> wft (t_block L bs) = true.
        Proof.
          unfold P_block_body, P_expression.
          destruct (P_branch (mk_branch L) p _) as [[b r1]|] eqn:Eb; [|discriminate].
          destruct (P_branches_rest (mk_branch L) p (length r1) r1) as [bs' r2] eqn:Er.
          destruct (skip_ws r2) as [|c r']; [discriminate|]. destruct (c =? 125); [|discriminate].
          intros H. inversion H; subst. apply wf_blk. cbn [forallb].
          rewrite (P_branch_wf _ _ _ Eb), (P_branches_rest_wf _ _ _ _ Er). reflexivity.
        Qed.

        Lemma step_wf s t r : step_of L p s = Some (t, r) -> wft t = true.
        Proof.
          unfold step_of, term_step. destruct s as [|c r0]; [discriminate|].
          destruct (c =? 34).
          { intros H.
            assert (Hs : match scan_single r0 with ScanText t0 rest => Some (t_str L t0, rest) | _ => None end = Some (t, r)
                         -> wft t = true).
            { destruct (scan_single r0); try discriminate. intros H0. inversion H0. apply wf_str. }
            destruct r0 as [|a [|b r1]]; try (apply Hs; exact H).
            destruct ((a =? 34) && (b =? 34)); [discriminate|apply Hs; exact H]. }
          destruct (is_digit c || (c =? 45)).
          { destruct (p_integer (c :: r0)) as [[z rest]|]; [|discriminate]. intros H. inversion H. apply wf_int. }
          destruct (is_upper c).
          { destruct (p_tuple_name (c :: r0)) as [[n [|x r']]|] eqn:En; [| |discriminate];
              pose proof (p_tuple_name_wf _ _ _ En) as Hn.
            - intros H. inversion H. apply wf_tup; [exact Hn|reflexivity].
            - destruct (x =? 91).
              + destruct (P_bracket_body (mk_field L) p r') as [[fs rest]|] eqn:Eb; [|discriminate].
                intros H. inversion H. apply wf_tup; [exact Hn|apply (P_bracket_body_wf _ _ _ Eb)].
              + assert (Hok : wft (t_tuple L (Some n) []) = true) by (apply wf_tup; [exact Hn|reflexivity]).
                destruct (skip_ws (x :: r')) as [|y yr]; [intros H; inversion H; subst; exact Hok|].
                destruct (y =? 40); [discriminate|]. intros H. inversion H; subst; exact Hok. }
          destruct (c =? 91).
          { destruct (P_bracket_body (mk_field L) p r0) as [[fs rest]|] eqn:Eb; [|discriminate].
            intros H. inversion H. apply wf_tup; [reflexivity|apply (P_bracket_body_wf _ _ _ Eb)]. }
          destruct (c =? 123).
          { unfold brace_of. destruct (has_blocks L); [|discriminate].
            destruct (P_block_body (mk_branch L) p r0) as [[bs rest]|] eqn:Eb; [|discriminate].
            intros H. inversion H; subst. apply (P_block_body_wf _ _ _ Eb). }
          destruct (is_lower c); [|discriminate].
          destruct (p_identifier (c :: r0)) as [[n [|x r']]|] eqn:En; [| |discriminate];
            pose proof (p_identifier_wf _ _ _ En) as Hn.
          - intros H. inversion H. apply wf_id. exact Hn.
          - destruct ((x =? 91) || (x =? 46)); [discriminate|]. intros H. inversion H. apply wf_id. exact Hn.
        Qed.
      End SoundStep.

      Lemma pt_wf : forall fuel s t r, pt fuel s = Some (t, r) -> wft t = true.
      Proof.
        induction fuel as [|f IH]; intros s t r H; [rewrite pt_0 in H; discriminate|].
        rewrite pt_S in H. apply (step_wf _ IH _ _ _ H).
      Qed.
    End Sound.
  End Parser.
End Lang.
