(* LangCompileProofs.v — a compiler-correctness slice: for the fragment of lang/LangCompile.v the
   code the mirror emits, run on the VM model vm/Vm.v (shared with C07), SIMULATES the reference
   evaluator: whenever the evaluator yields a value and a scope, the machine started on the
   compiled code with a related flowing value on its stack and related locals reaches the end of
   that code with the related value on the stack (everything below it untouched) and locals
   related to the new scope.  Blocks: the input is stored in a fresh slot, every branch starts
   from it, the slots a branch bound and the block's own slot are released (Reset) — the locals
   after a block are the locals before it.  IEqual takes its verdict from outside in the VM model:
   the run exhibited here supplies the verdict of the evaluator's own equality (`lit_verdict`).
   Calls of non-capturing functions (`f = #T { body }`, `arg f`): the term-level theorem takes the
   simulation of calls at the evaluator's current fuel as a hypothesis (Hcf); Section Program
   discharges it for `call mods n`, every n, by induction on the fuel (`call_simulates`): Call
   pushes the callee's frame (its locals above the caller's), the callee's code runs by the
   term-level theorem at fuel n-1, the exhausted frame is popped and the caller resumes.
   Proofs go by induction on the rules `Cterm` .. `Cbranches` (`compile_sound`: every successful
   compilation is an instance); runs of the machine are stated with `exec`. *)
From Coq Require Import ZArith List Bool Lia.
From Quiver Require Import lang.Lang lang.LangProofs lang.LangCompile lang.LangSimplify lang.LangSimplifyProofs.
From Quiver Require vm.Vm.
Import ListNotations.
Open Scope Z_scope.

Notation mvalue := Quiver.vm.Bytecode.value.
Notation MInt := Quiver.vm.Bytecode.VInt.
Notation MTuple := Quiver.vm.Bytecode.VTuple.
Notation mis_nil := Quiver.vm.Bytecode.is_nil.
Notation mnil := Quiver.vm.Bytecode.vnil.
Notation mok := Quiver.vm.Bytecode.vok.
Notation mprogram := Quiver.vm.Bytecode.program.
Notation p_consts := Quiver.vm.Bytecode.p_consts.
Notation p_funcs := Quiver.vm.Bytecode.p_funcs.
Notation p_tuples := Quiver.vm.Bytecode.p_tuples.
Notation CInt := Quiver.vm.Bytecode.CInt.
Notation mk_func := Quiver.vm.Bytecode.Build_func.
Notation MFun := Quiver.vm.Bytecode.VFun.
Notation state := Quiver.vm.Vm.state.
Notation mk_state := Quiver.vm.Vm.Build_state.
Notation mk_frame := Quiver.vm.Vm.Build_frame.
Notation step := Quiver.vm.Vm.step.
Notation Next := Quiver.vm.Vm.Next.
Notation ext := Quiver.vm.Vm.ext.

Definition code_at (C : list instr) (pc : nat) (c : list instr) : Prop :=
  exists pre post, C = pre ++ c ++ post /\ length pre = pc.

Lemma code_at_head : forall {C pc i c}, code_at C pc (i :: c) -> nth_error C pc = Some i /\ code_at C (S pc) c.
Proof.
  intros C pc i c (pre & post & -> & <-). split.
  - rewrite nth_error_app2 by lia. rewrite Nat.sub_diag. reflexivity.
  - exists (pre ++ [i]), post. split; [rewrite <- app_assoc; reflexivity | rewrite app_length; cbn; lia].
Qed.
Lemma code_at_app : forall {C pc c1 c2},
  code_at C pc (c1 ++ c2) -> code_at C pc c1 /\ code_at C (pc + length c1) c2.
Proof.
  intros C pc c1 c2 (pre & post & -> & <-). split.
  - exists pre, (c2 ++ post). rewrite <- app_assoc. auto.
  - exists (pre ++ c1), post. split; [rewrite <- !app_assoc; reflexivity | rewrite app_length; reflexivity].
Qed.
Lemma code_at_bound : forall {C pc c}, code_at C pc c -> (pc + length c <= length C)%nat.
Proof. intros C pc c (pre & post & -> & <-). rewrite !app_length. lia. Qed.

Definition prefix {A} (a b : list A) : Prop := exists s, b = a ++ s.
Lemma prefix_refl : forall {A} (a : list A), prefix a a.
Proof. intros A a. exists []. symmetry. apply app_nil_r. Qed.
Lemma prefix_app : forall {A} (a s : list A), prefix a (a ++ s).
Proof. intros A a s. exists s. reflexivity. Qed.
Lemma prefix_trans : forall {A} {a b c : list A}, prefix a b -> prefix b c -> prefix a c.
Proof. intros A a b c [x ->] [y ->]. exists (x ++ y). symmetry. apply app_assoc. Qed.
Lemma prefix_snoc : forall A (a b : list A) m, prefix a b -> prefix a (b ++ [m]).
Proof. intros A a b m H. exact (prefix_trans H (prefix_app b [m])). Qed.
Lemma prefix_length : forall {A} {a b : list A}, prefix a b -> (length b <= length a)%nat -> b = a.
Proof.
  intros A a b [s ->] H. rewrite app_length in H. destruct s; [apply app_nil_r | cbn in H; lia].
Qed.

Lemma F2_length : forall {A B} {R : A -> B -> Prop} {a b}, Forall2 R a b -> length a = length b.
Proof. induction 1; cbn; congruence. Qed.
Lemma firstn_app_exact : forall A (a b : list A), firstn (length a) (a ++ b) = a.
Proof. intros A a b. rewrite firstn_app, Nat.sub_diag, firstn_all. cbn. apply app_nil_r. Qed.
Lemma nth_error_snoc : forall A (l : list A) x, nth_error (l ++ [x]) (length l) = Some x.
Proof. intros A l x. rewrite nth_error_app2 by lia. rewrite Nat.sub_diag. reflexivity. Qed.
Lemma nth_error_app_old : forall A (l s : list A) i x, nth_error l i = Some x -> nth_error (l ++ s) i = Some x.
Proof. intros A l s i x H. rewrite nth_error_app1; [exact H|]. apply nth_error_Some. congruence. Qed.

Section Sim.
  Variable P : mprogram.
  Variable fn : nat.
  Variable C : list instr.
  Variable caps : nat.
  Hypothesis Hfn : nth_error (p_funcs P) fn = Some (mk_func C caps).
  Variable pool : list Z.
  Variable shapes : list shape.
  (* the tables of the VM program resolve the indices the mirror emits *)
  Hypothesis Hpool : forall z k, const_index pool z = Some k -> nth_error (p_consts P) k = Some (CInt z).
  Hypothesis Hshapes : forall sh t, shape_index shapes sh = Some t -> nth_error (p_tuples P) t = Some (length (snd sh)).
  Hypothesis Hshapes0 : exists r, shapes = nil_shape :: ok_shape :: r.
  (* functions: which names are function variables, and where the function compiled from a body
     sits in the program's function table (no captures) *)
  Variable isfun : atom -> bool.
  Variable fnum : expression -> option nat.
  Hypothesis Hfuns : forall body k, fnum body = Some k ->
    exists code, function_code pool shapes isfun fnum body = Some code /\
                 nth_error (p_funcs P) k = Some (mk_func code 0).
  Variable base : nat.
  Variable rest : list Quiver.vm.Vm.frame.
  Variable pers : bool.

  (* the machine inside the function `fn`, at `pc` *)
  Definition st (pc : nat) (stk ls : list mvalue) : state :=
    mk_state stk ls (mk_frame fn base caps pc :: rest) pers.

  Inductive star : state -> state -> Prop :=
  | star_refl : forall s, star s s
  | star_step : forall s x s' s'', step P s x = Next s' -> star s' s'' -> star s s''.
  Lemma star_trans : forall {a b c}, star a b -> star b c -> star a c.
  Proof. intros a b c H. induction H; intros; [assumption|]. econstructor; eauto. Qed.
  Lemma star_one : forall s x s', step P s x = Next s' -> star s s'.
  Proof. intros. econstructor; [eassumption | constructor]. Qed.

  Definition x0 : ext := Quiver.vm.Vm.Build_ext None false.

  (* from `pc`, where the code holds `c`, the machine reaches the end of `c` in a state satisfying
     `Q`; only the rules below compute program counters *)
  Definition exec (pc : nat) (c : list instr) (stk ls : list mvalue)
                  (Q : list mvalue -> list mvalue -> Prop) : Prop :=
    code_at C pc c ->
    exists stk' ls', star (st pc stk ls) (st (pc + length c) stk' ls') /\ Q stk' ls'.

  Lemma exec_nil : forall {pc stk ls} {Q : list mvalue -> list mvalue -> Prop}, Q stk ls -> exec pc [] stk ls Q.
  Proof. intros pc stk ls Q H _. exists stk, ls. rewrite Nat.add_0_r. split; [constructor | exact H]. Qed.

  Lemma exec_app : forall pc c1 c2 stk ls Q,
    exec pc c1 stk ls (fun stk1 ls1 => exec (pc + length c1) c2 stk1 ls1 Q) -> exec pc (c1 ++ c2) stk ls Q.
  Proof.
    intros pc c1 c2 stk ls Q H Hat. destruct (code_at_app Hat) as [H1 H2].
    destruct (H H1) as (stk1 & ls1 & Hs1 & Hk). destruct (Hk H2) as (stk2 & ls2 & Hs2 & HQ).
    exists stk2, ls2. split; [|exact HQ]. rewrite app_length, Nat.add_assoc. eapply star_trans; eassumption.
  Qed.

  Lemma exec_step : forall x {pc i c stk ls stk1 ls1 Q},
    exec (S pc) c stk1 ls1 Q ->
    (nth_error C pc = Some i -> step P (st pc stk ls) x = Next (st (S pc) stk1 ls1)) ->
    exec pc (i :: c) stk ls Q.
  Proof.
    intros x pc i c stk ls stk1 ls1 Q Hk Hstep Hat. destruct (code_at_head Hat) as [Hi Hat'].
    destruct (Hk Hat') as (stk' & ls' & Hs & HQ). exists stk', ls'. split; [|exact HQ].
    cbn [length]. rewrite Nat.add_succ_r. eapply star_step; [exact (Hstep Hi) | exact Hs].
  Qed.

  Lemma exec_skip : forall x {pc i skipped c stk ls stk1 ls1 Q},
    exec (S pc + length skipped) c stk1 ls1 Q ->
    (nth_error C pc = Some i -> (S pc + length skipped <= length C)%nat ->
     step P (st pc stk ls) x = Next (st (S pc + length skipped) stk1 ls1)) ->
    exec pc (i :: skipped ++ c) stk ls Q.
  Proof.
    intros x pc i skipped c stk ls stk1 ls1 Q Hk Hstep Hat.
    pose proof (code_at_bound Hat) as Hb. cbn [length] in Hb. rewrite app_length in Hb.
    destruct (code_at_head Hat) as [Hi Hat1]. destruct (code_at_app Hat1) as [_ Hat2].
    destruct (Hk Hat2) as (stk' & ls' & Hs & HQ). exists stk', ls'. split; [|exact HQ].
    cbn [length]. rewrite app_length.
    replace (pc + S (length skipped + length c))%nat with (S pc + length skipped + length c)%nat by lia.
    eapply star_step; [apply Hstep; [exact Hi | lia] | exact Hs].
  Qed.

  Ltac stepper H :=
    unfold st, Quiver.vm.Vm.step; cbn [Quiver.vm.Vm.frames Quiver.vm.Vm.fr_fn Quiver.vm.Vm.fr_pc];
    unfold Quiver.vm.Vm.code_of; rewrite Hfn; cbn [option_map Quiver.vm.Bytecode.f_code]; rewrite H.

  Lemma x_pop : forall {pc c v stk ls Q}, exec (S pc) c stk ls Q -> exec pc (IPop :: c) (v :: stk) ls Q.
  Proof. intros pc c v stk ls Q Hk. apply (exec_step x0 Hk). intros H. stepper H. reflexivity. Qed.
  Lemma x_const : forall {pc c z k stk ls Q}, const_index pool z = Some k ->
    exec (S pc) c (MInt z :: stk) ls Q -> exec pc (IConstant k :: c) stk ls Q.
  Proof.
    intros pc c z k stk ls Q Hz Hk. apply (exec_step x0 Hk). intros H. stepper H.
    rewrite (Hpool _ _ Hz). reflexivity.
  Qed.
  Lemma x_dup : forall {pc c v stk ls Q}, exec (S pc) c (v :: v :: stk) ls Q -> exec pc (IDuplicate :: c) (v :: stk) ls Q.
  Proof. intros pc c v stk ls Q Hk. apply (exec_step x0 Hk). intros H. stepper H. reflexivity. Qed.
  Lemma x_pick : forall {pc c n} v {stk ls Q}, nth_error stk n = Some v ->
    exec (S pc) c (v :: stk) ls Q -> exec pc (IPick n :: c) stk ls Q.
  Proof.
    intros pc c n v stk ls Q Hn Hk. apply (exec_step x0 Hk). intros H. stepper H.
    cbn [Quiver.vm.Vm.stack]. rewrite Hn. reflexivity.
  Qed.
  Lemma x_load : forall {pc c i} v {stk ls Q}, nth_error ls (base + i) = Some v ->
    exec (S pc) c (v :: stk) ls Q -> exec pc (ILoad i :: c) stk ls Q.
  Proof.
    intros pc c i v stk ls Q Hn Hk. apply (exec_step x0 Hk). intros H. stepper H.
    cbn [Quiver.vm.Vm.locals Quiver.vm.Vm.fr_base]. rewrite Hn. reflexivity.
  Qed.
  Lemma x_store : forall {pc c v stk ls Q}, exec (S pc) c stk (ls ++ [v]) Q -> exec pc (IStore :: c) (v :: stk) ls Q.
  Proof. intros pc c v stk ls Q Hk. apply (exec_step x0 Hk). intros H. stepper H. reflexivity. Qed.
  Lemma x_get : forall {pc c i t fs v stk ls Q}, nth_error fs i = Some v ->
    exec (S pc) c (v :: stk) ls Q -> exec pc (IGet i :: c) (MTuple t fs :: stk) ls Q.
  Proof.
    intros pc c i t fs v stk ls Q Hn Hk. apply (exec_step x0 Hk). intros H. stepper H.
    cbn [Quiver.vm.Vm.stack]. rewrite Hn. reflexivity.
  Qed.
  Lemma x_not : forall {pc c v stk ls Q},
    exec (S pc) c ((if mis_nil v then mok else mnil) :: stk) ls Q -> exec pc (INot :: c) (v :: stk) ls Q.
  Proof. intros pc c v stk ls Q Hk. apply (exec_step x0 Hk). intros H. stepper H. reflexivity. Qed.
  Lemma x_tuple : forall pc c t vals stk ls Q,
    nth_error (p_tuples P) t = Some (length vals) ->
    exec (S pc) c (MTuple t vals :: stk) ls Q -> exec pc (ITuple t :: c) (rev vals ++ stk) ls Q.
  Proof.
    intros pc c t vals stk ls Q Ht Hk. apply (exec_step x0 Hk). intros H. stepper H.
    rewrite Ht. cbn [Quiver.vm.Vm.stack].
    assert (Hp : forall vs acc, Quiver.vm.Vm.popn (length vs) (rev vs ++ stk) acc = Some (vs ++ acc, stk)).
    { induction vs as [|a vs IH] using rev_ind; intros acc; [reflexivity|].
      rewrite rev_app_distr, app_length. cbn [rev app length]. rewrite Nat.add_1_r. cbn [Quiver.vm.Vm.popn].
      rewrite IH. rewrite <- app_assoc. reflexivity. }
    rewrite Hp, app_nil_r. reflexivity.
  Qed.
  Lemma x_rot2 : forall {pc c a b stk ls Q}, exec (S pc) c (b :: a :: stk) ls Q -> exec pc (IRotate 2 :: c) (a :: b :: stk) ls Q.
  Proof. intros pc c a b stk ls Q Hk. apply (exec_step x0 Hk). intros H. stepper H. reflexivity. Qed.
  Lemma x_reset : forall {pc c idx} L keep drop {stk Q}, length L = base -> length keep = idx ->
    exec (S pc) c stk (L ++ keep) Q -> exec pc (IReset idx :: c) stk (L ++ keep ++ drop) Q.
  Proof.
    intros pc c idx L keep drop stk Q HL Hkeep Hk. apply (exec_step x0 Hk). intros H. stepper H.
    cbn [Quiver.vm.Vm.locals Quiver.vm.Vm.fr_base]. rewrite <- HL, <- Hkeep, <- app_length, app_assoc, firstn_app_exact.
    destruct (length ((L ++ keep) ++ drop) <? length (L ++ keep))%nat eqn:Hb; [|reflexivity].
    apply Nat.ltb_lt in Hb. rewrite app_length in Hb. lia.
  Qed.
  (* Equal: the verdict is an outside input of the VM model; here it is supplied as `verdict` *)
  Lemma x_equal2 : forall {pc c a b stk ls} (verdict : bool) {Q},
    exec (S pc) c ((if verdict then mok else mnil) :: stk) ls Q -> exec pc (IEqual 2 :: c) (a :: b :: stk) ls Q.
  Proof.
    intros pc c a b stk ls verdict Q Hk. apply (exec_step (Quiver.vm.Vm.Build_ext None verdict) Hk).
    intros H. stepper H. reflexivity.
  Qed.
  Lemma x_function : forall {pc c k code stk ls Q}, nth_error (p_funcs P) k = Some (mk_func code 0) ->
    exec (S pc) c (MFun k [] :: stk) ls Q -> exec pc (IFunction k :: c) stk ls Q.
  Proof.
    intros pc c k code stk ls Q Hf Hk. apply (exec_step x0 Hk). intros H. stepper H.
    rewrite Hf. reflexivity.
  Qed.
  Lemma x_jumpif_fall : forall {pc c off v stk ls Q}, mis_nil v = true ->
    exec (S pc) c stk ls Q -> exec pc (IJumpIf off :: c) (v :: stk) ls Q.
  Proof.
    intros pc c off v stk ls Q Hn Hk. apply (exec_step x0 Hk). intros H. stepper H.
    cbn [Quiver.vm.Vm.stack]. rewrite Hn. reflexivity.
  Qed.

  Lemma jump_ok : forall pc off t, Z.of_nat t = Z.of_nat pc + off + 1 -> (t <= length C)%nat ->
    (Quiver.vm.Vm.jump_target pc off <? 0) || (Z.of_nat (length C) <? Quiver.vm.Vm.jump_target pc off) = false /\
    Z.to_nat (Quiver.vm.Vm.jump_target pc off) = t.
  Proof.
    intros pc off t Ht Hb. unfold Quiver.vm.Vm.jump_target. rewrite <- Ht. split; [|apply Nat2Z.id].
    apply orb_false_iff. split; apply Z.ltb_ge; lia.
  Qed.
  Lemma step_jump : forall {pc off t stk ls}, nth_error C pc = Some (IJump off) ->
    Z.of_nat t = Z.of_nat pc + off + 1 -> (t <= length C)%nat ->
    step P (st pc stk ls) x0 = Next (st t stk ls).
  Proof. intros pc off t stk ls H Ht Hb. stepper H. destruct (jump_ok pc off t Ht Hb) as [-> ->]. reflexivity. Qed.
  Lemma step_jumpif_take : forall {pc off t v stk ls}, nth_error C pc = Some (IJumpIf off) -> mis_nil v = false ->
    Z.of_nat t = Z.of_nat pc + off + 1 -> (t <= length C)%nat ->
    step P (st pc (v :: stk) ls) x0 = Next (st t stk ls).
  Proof.
    intros pc off t v stk ls H Hn Ht Hb. stepper H. cbn [Quiver.vm.Vm.stack]. rewrite Hn.
    destruct (jump_ok pc off t Ht Hb) as [-> ->]. reflexivity.
  Qed.

  (* `skipped`: the code jumped over; `c`: the code the jump lands on *)
  Lemma x_jump : forall {pc} n skipped c {code stk ls Q}, n = length skipped -> code = skipped ++ c ->
    exec (S pc + length skipped) c stk ls Q -> exec pc (IJump (Z.of_nat n) :: code) stk ls Q.
  Proof.
    intros pc n skipped c code stk ls Q -> -> Hk. apply (exec_skip x0 Hk).
    intros H Hb. apply (step_jump H); lia.
  Qed.
  Lemma x_jumpif_take : forall {pc n} skipped c {code v stk ls Q}, mis_nil v = false ->
    n = length skipped -> code = skipped ++ c ->
    exec (S pc + length skipped) c stk ls Q -> exec pc (IJumpIf (Z.of_nat n) :: code) (v :: stk) ls Q.
  Proof.
    intros pc n skipped c code v stk ls Q Hn -> -> Hk. apply (exec_skip x0 Hk).
    intros H Hb. apply (step_jumpif_take H Hn); lia.
  Qed.

  Inductive vrel : value -> mvalue -> Prop :=
  | vr_int : forall z, vrel (VInt z) (MInt z)
  | vr_tup : forall name fs t mfs,
      shape_index shapes (name, map fst fs) = Some t ->
      Forall2 (fun f m => vrel (snd f) m) fs mfs ->
      vrel (VTuple name fs) (MTuple t mfs).

  Lemma shape_index_nil : shape_index shapes nil_shape = Some Quiver.vm.Bytecode.NIL.
  Proof. destruct Hshapes0 as [r E]. rewrite E. reflexivity. Qed.
  Lemma shape_index_ok : shape_index shapes ok_shape = Some Quiver.vm.Bytecode.OK.
  Proof. destruct Hshapes0 as [r E]. rewrite E. reflexivity. Qed.
  Lemma vrel_nil : vrel vnil mnil.
  Proof. apply vr_tup; [apply shape_index_nil | constructor]. Qed.
  Lemma vrel_ok : vrel vok mok.
  Proof. apply vr_tup; [apply shape_index_ok | constructor]. Qed.

  Lemma index_from_ge : forall A (eqb : A -> A -> bool) l i x j, index_from eqb i l x = Some j -> (i <= j)%nat.
  Proof.
    induction l as [|y l IH]; intros i x j H; [discriminate|]. cbn [index_from] in H.
    destruct (eqb x y); [inversion H; lia | apply IH in H; lia].
  Qed.

  (* the shape table starts with the nil shape, so only nil has tuple id NIL *)
  Lemma vrel_is_nil : forall {v mv}, vrel v mv -> mis_nil mv = is_nil v.
  Proof.
    intros v mv H. inversion H as [z|name fs t mfs Hs Hf]; subst; [reflexivity|].
    destruct Hf as [|[l x] m fs' mfs' Hx Hr]; [|destruct name; reflexivity].
    destruct Hshapes0 as [r Hsh]. rewrite Hsh in Hs. destruct name as [a|].
    - change (index_from shape_eqb 1 (ok_shape :: r) (Some a, @nil (option atom)) = Some t) in Hs.
      apply index_from_ge in Hs. destruct t; [lia | reflexivity].
    - inversion Hs. reflexivity.
  Qed.

  Lemma vrel_not_callable : forall {v mv}, vrel v mv -> is_callable v = false.
  Proof. intros v mv H. inversion H; reflexivity. Qed.

  Lemma vrel_nth : forall {fs : list (option atom * value)} {mfs n l x}, Forall2 (fun f m => vrel (snd f) m) fs mfs ->
    nth_error fs n = Some (l, x) -> exists mx, nth_error mfs n = Some mx /\ vrel x mx.
  Proof.
    intros fs mfs n l x Hf. revert n. induction Hf as [|f m fs' mfs' Hfm _ IH]; intros [|n] Hn; try discriminate.
    - inversion Hn; subst f. exists m. split; [reflexivity | exact Hfm].
    - exact (IH n Hn).
  Qed.

  (* a function variable holds a non-nilary closure; the machine holds the function compiled from
     its body, without captures *)
  Definition funrel (v : value) (mv : mvalue) : Prop :=
    exists body cenv te k, v = VClos false (Some body) cenv te /\ mv = MFun k [] /\ fnum body = Some k.

  (* locals of the frame (from its base) against the scope: one slot per binding, oldest first *)
  Inductive erel : scope -> env -> list mvalue -> Prop :=
  | erel_nil : forall e0, erel [] e0 []     (* function entry: the captured scope e0 is not addressable *)
  | erel_push : forall sc e ls x v mv,
      erel sc e ls -> vrel v mv -> x <> a_star -> isfun x = false -> erel (sc ++ [Some x]) ((x, v) :: e) (ls ++ [mv])
  | erel_pushf : forall sc e ls f v mv,
      erel sc e ls -> funrel v mv -> f <> a_star -> isfun f = true -> erel (sc ++ [Some f]) ((f, v) :: e) (ls ++ [mv])
  | erel_anon : forall sc e ls mv,            (* the slot holding a block's input *)
      erel sc e ls -> erel (sc ++ [None]) e (ls ++ [mv]).

  Lemma erel_length : forall {sc e ls}, erel sc e ls -> length ls = length sc.
  Proof. induction 1; [reflexivity| | |]; rewrite !app_length; cbn; lia. Qed.
  Lemma erel_param : forall e0 mv, erel [None] e0 [mv].
  Proof. intros e0 mv. exact (erel_anon [] e0 [] mv (erel_nil e0)). Qed.
  Lemma erel_scope_eq : forall sc s e ls extra,
    erel (sc ++ s) e (ls ++ extra) -> length ls = length sc -> length s = length extra.
  Proof.
    intros sc s e ls extra H Hl. apply erel_length in H. rewrite !app_length in H. lia.
  Qed.

  Lemma scope_lookup_from_app : forall sc i x y,
    scope_lookup_from i (sc ++ [Some y]) x =
    if x =? y then Some (i + length sc)%nat else scope_lookup_from i sc x.
  Proof.
    induction sc as [|s r IH]; intros i x y; cbn [app scope_lookup_from length].
    - destruct (x =? y); [f_equal; lia | reflexivity].
    - rewrite IH. destruct (x =? y); [f_equal; lia | reflexivity].
  Qed.
  Lemma scope_lookup_from_app_none : forall sc i x,
    scope_lookup_from i (sc ++ [None]) x = scope_lookup_from i sc x.
  Proof.
    induction sc as [|s r IH]; intros i x; cbn [app scope_lookup_from]; [reflexivity|]. rewrite IH. reflexivity.
  Qed.


  (* a name the compiler resolves to slot i is, at run time, the newest binding of that name, and
     slot i holds the related machine value *)
  Lemma erel_lookup : forall {sc e ls}, erel sc e ls -> forall {x i v},
    scope_lookup sc x = Some i -> lookup_var x e = Some v ->
    exists mv, nth_error ls i = Some mv /\ (if isfun x then funrel v mv else vrel v mv).
  Proof.
    unfold scope_lookup. intros sc e ls H.
    induction H as [e0|sc e ls y w mv H IH Hv Hy Hf|sc e ls y w mv H IH Hv Hy Hf|sc e ls mv H IH]; intros x i v Hi Hl.
    - discriminate.
    - (* a slot holding a value: the newest binding of y, or an older slot *)
      rewrite scope_lookup_from_app in Hi. rewrite (lookup_var_push Hy) in Hl. destruct (x =? y) eqn:Hxy.
      + apply Z.eqb_eq in Hxy. subst y. inversion Hl; subst w. inversion Hi; subst i. rewrite Hf.
        exists mv. split; [|assumption]. rewrite <- (erel_length H). apply nth_error_snoc.
      + destruct (IH x i v Hi Hl) as (mv0 & Hn & Hr). exists mv0. split; [apply nth_error_app_old|]; assumption.
    - (* a slot holding a function: the same *)
      rewrite scope_lookup_from_app in Hi. rewrite (lookup_var_push Hy) in Hl. destruct (x =? y) eqn:Hxy.
      + apply Z.eqb_eq in Hxy. subst y. inversion Hl; subst w. inversion Hi; subst i. rewrite Hf.
        exists mv. split; [|assumption]. rewrite <- (erel_length H). apply nth_error_snoc.
      + destruct (IH x i v Hi Hl) as (mv0 & Hn & Hr). exists mv0. split; [apply nth_error_app_old|]; assumption.
    - rewrite scope_lookup_from_app_none in Hi. destruct (IH x i v Hi Hl) as (mv0 & Hn & Hr).
      exists mv0. split; [apply nth_error_app_old|]; assumption.
  Qed.

  Lemma erel_load : forall {sc e ls x i v L}, erel sc e ls -> length L = base ->
    scope_lookup sc x = Some i -> lookup_var x e = Some v ->
    exists mv, nth_error (L ++ ls) (base + i) = Some mv /\ (if isfun x then funrel v mv else vrel v mv).
  Proof.
    intros sc e ls x i v L Her HL Hi Hl. destruct (erel_lookup Her Hi Hl) as (mv & Hn & Hr).
    exists mv. split; [|exact Hr]. rewrite nth_error_app2 by lia. rewrite HL, Nat.add_comm, Nat.add_sub. exact Hn.
  Qed.

  Lemma gets_exec : forall {path c}, gets path = Some c ->
    forall {v v' w mv pc stk ls} {Q : list mvalue -> list mvalue -> Prop},
    access_all v path = Ret v' w -> vrel v mv ->
    (forall mv', vrel v' mv' -> Q (mv' :: stk) ls) -> exec pc c (mv :: stk) ls Q.
  Proof.
    induction path as [|p r IH]; intros c Hc v v' w mv pc stk ls Q Ha Hv HQ; cbn [gets] in Hc.
    - inversion Hc; subst c. inversion Ha; subst v'. apply exec_nil, HQ, Hv.
    - destruct p as [l|i]; [discriminate|]. destruct (i <? 0) eqn:Hi; [discriminate|].
      destruct (gets r) as [cr|] eqn:Hr; [|discriminate]. inversion Hc; subst c. clear Hc.
      cbn [access_all] in Ha. destruct (bind_inv Ha) as (x & w1 & w2 & H1 & H2).
      inversion Hv as [z|name fs t mfs Hs Hf]; subst; [discriminate|]. cbn [access_one] in H1. rewrite Hi in H1.
      destruct (nth_error fs (Z.to_nat i)) as [[lf xf]|] eqn:Hn; [|discriminate]. inversion H1; subst xf.
      destruct (vrel_nth Hf Hn) as (mx & Hmx & Hvx).
      apply (x_get Hmx). exact (IH cr eq_refl x v' w2 mx _ stk ls Q H2 Hvx HQ).
  Qed.

  Lemma x_tuple0 : forall {pc c name t stk ls Q}, shape_index shapes (name, []) = Some t ->
    exec (S pc) c (MTuple t [] :: stk) ls Q -> exec pc (ITuple t :: c) stk ls Q.
  Proof. intros pc c name t stk ls Q Ht Hk. exact (x_tuple pc c t [] stk ls Q (Hshapes _ _ Ht) Hk). Qed.

  Lemma binder_exec : forall pc mv stk ls (Q : list mvalue -> list mvalue -> Prop),
    Q (mok :: stk) (ls ++ [mv]) -> exec pc binder_code (mv :: stk) ls Q.
  Proof.
    intros pc mv stk ls Q HQ. unfold binder_code.
    apply (x_jump 1 [IJump 5] _ eq_refl eq_refl).
    apply x_dup, x_store, x_pop, (x_tuple0 shape_index_ok).
    apply (x_jump 4 [ITuple NIL; IStore; IPop; ITuple NIL] [] eq_refl eq_refl). apply exec_nil, HQ.
  Qed.

  (* the evaluator's own equality decides a literal match; it is the verdict handed to IEqual *)
  Definition lit_verdict (z : Z) (v : value) : bool := match v with VInt y => z =? y | _ => false end.
  Lemma do_match_lit : forall tf c e z v,
    do_match tf c e (MLiteral (LInteger z)) v =
    if lit_verdict z v then Ret (vok, e) st0 else Ret (vnil, e) ev_match_fail.
  Proof. intros tf c e z v. unfold do_match. cbn. destruct v; try reflexivity. cbn. destruct (z =? n); reflexivity. Qed.

  Lemma literal_match_exec : forall {pc z k mv stk ls} (verdict : bool) {Q : list mvalue -> list mvalue -> Prop},
    const_index pool z = Some k -> Q ((if verdict then mok else mnil) :: stk) ls ->
    exec pc (literal_match_code k) (mv :: stk) ls Q.
  Proof.
    intros pc z k mv stk ls verdict Q Hk HQ Hat. unfold literal_match_code in Hat |- *.
    destruct (code_at_head Hat) as [_ Hat1].
    revert Hat. apply (x_jump 1 [IJump 8] _ eq_refl eq_refl).
    apply x_dup, (x_const Hk), (x_equal2 verdict), x_not. destruct verdict.
    - (* equal: Not Ok = nil, the jump back is not taken *)
      apply x_jumpif_fall; [reflexivity|]. apply x_pop, (x_tuple0 shape_index_ok).
      apply (x_jump 2 [IPop; ITuple NIL] [] eq_refl eq_refl). apply exec_nil, HQ.
    - (* different: the jump back lands on the second instruction, which jumps to the failure path.
         `exec` only moves forward, so the run from the second instruction (Hs) is built first and
         the backward step put in front of it *)
      intros Hat6. destruct (code_at_head Hat6) as [Hj _].
      pose proof (code_at_bound Hat1) as Hb. cbn [length] in Hb.
      destruct (x_jump (pc := S pc) 8 [IDuplicate; IConstant k; IEqual 2; INot; IJumpIf (-6); IPop; ITuple OK; IJump 2] [IPop; ITuple NIL]
                  (stk := mv :: stk) (Q := fun s l => s = mnil :: stk /\ l = ls) eq_refl eq_refl
                  (x_pop (x_tuple0 shape_index_nil (exec_nil (conj eq_refl eq_refl)))) Hat1)
        as (stk' & ls' & Hs & -> & ->).
      exists (mnil :: stk), ls. split; [|exact HQ]. cbn [length] in Hj |- *.
      eapply star_step; [apply (step_jumpif_take (t := S pc) Hj); [reflexivity | lia | lia]|].
      cbn [length app] in Hs |- *.
      match goal with |- star _ (st ?p _ _) => replace p with (S pc + 11)%nat by lia end. exact Hs.
  Qed.

  (* the inner loops of the mirror, named, and the unfolding equations (by conversion).  The Block
     case of `compile_term` carries its own copy of `compile_seq` as a local fix: `seq_go` is that
     copy, `seq_go_eq` ties it to `compile_seq` *)
  Fixpoint fields_go (fs : list tuple_field) (i : nat) (sc : scope) (labels : list (option atom)) {struct fs}
    : option (list instr * scope * list (option atom)) :=
    match fs with
    | [] => Some ([], sc, labels)
    | TupleField l (FChain c) :: r =>
        if (match l with Some _ => existsb (oatom_eqb l) labels | None => false end) then None
        else
        match compile_chain pool shapes isfun fnum sc c with
        | Some (cc, sc1) =>
            match fields_go r (S i) sc1 (labels ++ [l]) with
            | Some (cr, sc2, ls) => Some (IPick i :: cc ++ cr, sc2, ls)
            | None => None
            end
        | None => None
        end
    | TupleField _ (FSpread _) :: _ => None
    end.
  Fixpoint terms_go (ts : list term) (sc : scope) {struct ts} : option (list instr * scope) :=
    match ts with
    | [] => Some ([], sc)
    | t :: r =>
        match compile_term pool shapes isfun fnum sc t with
        | Some (ct, sc1) =>
            match terms_go r sc1 with
            | Some (cr, sc2) => Some (ct ++ cr, sc2)
            | None => None
            end
        | None => None
        end
    end.
  Definition shape_name (name : tuple_name) : option atom := match name with Named a => Some a | _ => None end.
  Lemma compile_term_tuple : forall sc name fs,
    compile_term pool shapes isfun fnum sc (Tuple name fs) =
    match name with
    | Inherit => None
    | _ => match fields_go fs O sc [] with
           | Some (cf, sc', labels) =>
               match shape_index shapes (shape_name name, labels) with
               | Some t => Some (cf ++ [ITuple t; IRotate 2; IPop], sc')
               | None => None
               end
           | None => None
           end
    end.
  Proof. reflexivity. Qed.
  Fixpoint seq_go (cs : list chain) (sc : scope) {struct cs} : option (list instr * scope) :=
    match cs with
    | [] => None
    | c :: r =>
        match r with
        | [] => compile_chain pool shapes isfun fnum sc c
        | _ :: _ =>
            if ends_in_nil_literal c then None else
            match compile_chain pool shapes isfun fnum sc c with
            | Some (cc, sc1) =>
                match seq_go r sc1 with
                | Some (cr, sc2) => Some (cc ++ [IDuplicate; INot; IJumpIf (Z.of_nat (length cr))] ++ cr, sc2)
                | None => None
                end
            | None => None
            end
        end
    end.
  Definition reset_opt (b : nat) (sc1 : scope) : list instr :=
    if Nat.ltb (S b) (length sc1) then [IReset (S b)] else [].
  Section BrGo.
  Variable b : nat.
  Variable scb : scope.
  Fixpoint br_go (bs : list branch) {struct bs} : option (list instr) :=
    match bs with
    | [] => None
    | Branch (Sequence cs) k :: r =>
        match seq_go cs scb with
        | None => None
        | Some (cc, sc1) =>
            match k with
            | None =>
                let body := cc ++ reset_opt b sc1 in
                match r with
                | [] => Some body
                | _ :: _ =>
                    match br_go r with
                    | Some cr => Some (body ++ [IDuplicate; IJumpIf (Z.of_nat (2 + length cr)); IPop; ILoad b] ++ cr)
                    | None => None
                    end
                end
            | Some (Sequence ks) =>
                if Nat.ltb (S b) (length sc1) then None else
                match seq_go ks scb with
                | None => None
                | Some (ck, sc2) =>
                    let kb := ck ++ reset_opt b sc2 in
                    match r with
                    | [] => Some (cc ++ [IDuplicate; INot; IJumpIf (Z.of_nat (2 + length kb)); IPop; ILoad b] ++ kb)
                    | _ :: _ =>
                        match br_go r with
                        | Some cr =>
                            Some (cc ++ [IDuplicate; INot; IJumpIf (Z.of_nat (3 + length kb)); IPop; ILoad b] ++ kb
                                     ++ [IJump (Z.of_nat (2 + length cr)); IPop; ILoad b] ++ cr)
                        | None => None
                        end
                    end
                end
            end
        end
    end.
  End BrGo.
  Lemma compile_term_block : forall sc bs,
    compile_term pool shapes isfun fnum sc (Block (Expression bs)) =
    match br_go (length sc) (sc ++ [None]) bs with
    | Some cb => Some (IStore :: ILoad (length sc) :: cb ++ [IReset (length sc)], sc)
    | None => None
    end.
  Proof. reflexivity. Qed.
  Lemma seq_go_cons2 : forall sc c1 c2 r,
    seq_go (c1 :: c2 :: r) sc =
    if ends_in_nil_literal c1 then None else
    match compile_chain pool shapes isfun fnum sc c1 with
    | Some (cc, sc1) =>
        match seq_go (c2 :: r) sc1 with
        | Some (cr, sc2) => Some (cc ++ [IDuplicate; INot; IJumpIf (Z.of_nat (length cr))] ++ cr, sc2)
        | None => None
        end
    | None => None
    end.
  Proof. reflexivity. Qed.
  Lemma compile_seq_cons2 : forall sc c1 c2 r,
    compile_seq pool shapes isfun fnum sc (c1 :: c2 :: r) =
    if ends_in_nil_literal c1 then None else
    match compile_chain pool shapes isfun fnum sc c1 with
    | Some (cc, sc1) =>
        match compile_seq pool shapes isfun fnum sc1 (c2 :: r) with
        | Some (cr, sc2) => Some (cc ++ [IDuplicate; INot; IJumpIf (Z.of_nat (length cr))] ++ cr, sc2)
        | None => None
        end
    | None => None
    end.
  Proof. reflexivity. Qed.
  Lemma seq_go_eq : forall cs sc, seq_go cs sc = compile_seq pool shapes isfun fnum sc cs.
  Proof.
    induction cs as [|c r IH]; intros sc; [reflexivity|]. destruct r as [|c2 r']; [reflexivity|].
    rewrite seq_go_cons2, compile_seq_cons2. destruct (ends_in_nil_literal c); [reflexivity|].
    destruct (compile_chain pool shapes isfun fnum sc c) as [[cc sc1]|]; [|reflexivity]. rewrite IH. reflexivity.
  Qed.

  (* is the chain the binding of a function literal, `f = #T { body }`? *)
  Definition fun_binding (c : chain) : option (atom * ty * expression) :=
    match c with
    | Chain (Some (MIdentifier f)) [Function _ (Some pt) _ (Some body)] => Some (f, pt, body)
    | _ => None
    end.
  Lemma fun_binding_inv : forall c f pt body, fun_binding c = Some (f, pt, body) ->
    exists tps rt, c = Chain (Some (MIdentifier f)) [Function tps (Some pt) rt (Some body)].
  Proof.
    intros [mp ts] f pt body H. unfold fun_binding in H.
    destruct mp as [[x|l| | | | | | | | |]|]; try discriminate.
    destruct ts as [|[| | | | |tps [pt'|] rt [b|]| | | | | |] [|t2 ts']]; try discriminate. inversion H; subst. eauto.
  Qed.
  Lemma compile_chain_eq : forall sc mp ts, fun_binding (Chain mp ts) = None ->
    compile_chain pool shapes isfun fnum sc (Chain mp ts) =
    match terms_go ts sc with
    | Some (ct, sc1) =>
        match mp with
        | None => Some (ct, sc1)
        | Some (MIdentifier x) => if (x =? a_star) || isfun x then None else Some (ct ++ binder_code, sc1 ++ [Some x])
        | Some _ => None
        end
    | None => None
    end.
  Proof.
    intros sc mp ts H. unfold fun_binding in H.
    destruct mp as [[x|l| | | | | | | | |]|]; try reflexivity.
    destruct ts as [|[| | | | |tps [pt|] rt [b|]| | | | | |] [|t2 ts']]; try reflexivity. discriminate.
  Qed.

  (* what the mirror emits, one rule per construct: at scope sc the code is c and the scope
     afterwards sc' (fields: from position i, with the labels seen so far; branches: of a block
     whose input sits in slot b) *)
  Inductive Cterm : scope -> term -> list instr -> scope -> Prop :=
  | C_literal : forall sc z k, const_index pool z = Some k ->
      Cterm sc (Literal (LInteger z)) [IPop; IConstant k] sc
  | C_tuple : forall sc name fs cfs sc' labels t, name <> Inherit ->
      Cfields sc fs 0 [] cfs sc' labels -> shape_index shapes (shape_name name, labels) = Some t ->
      Cterm sc (Tuple name fs) (cfs ++ [ITuple t; IRotate 2; IPop]) sc'
  | C_flow : forall sc src path c, src = None \/ src = Some Ripple -> gets path = Some c ->
      Cterm sc (Access (mkAccess src path)) c sc
  | C_var : forall sc x path i c, isfun x = false -> scope_lookup sc x = Some i -> gets path = Some c ->
      Cterm sc (Access (mkAccess (Some (Identifier x)) path)) (IPop :: ILoad i :: c) sc
  | C_call : forall sc f i, isfun f = true -> scope_lookup sc f = Some i ->
      Cterm sc (Access (mkAccess (Some (Identifier f)) [])) [ILoad i; ICall] sc
  | C_binder : forall sc x, x <> a_star -> isfun x = false ->
      Cterm sc (Match (MIdentifier x)) binder_code (sc ++ [Some x])
  | C_literal_match : forall sc z k, const_index pool z = Some k ->
      Cterm sc (Match (MLiteral (LInteger z))) (literal_match_code k) sc
  | C_block : forall sc bs cb, Cbranches (length sc) (sc ++ [None]) bs cb ->
      Cterm sc (Block (Expression bs)) (IStore :: ILoad (length sc) :: cb ++ [IReset (length sc)]) sc
  with Cchain : scope -> chain -> list instr -> scope -> Prop :=
  | C_fun : forall sc f tps pt rt body k, isfun f = true -> f <> a_star -> nil_param pt = false -> fnum body = Some k ->
      Cchain sc (Chain (Some (MIdentifier f)) [Function tps (Some pt) rt (Some body)])
             ([IPop; IFunction k] ++ binder_code) (sc ++ [Some f])
  | C_chain : forall sc ts c sc', Cterms sc ts c sc' -> Cchain sc (Chain None ts) c sc'
  | C_chain_bind : forall sc ts c sc' x, Cterms sc ts c sc' -> x <> a_star -> isfun x = false ->
      Cchain sc (Chain (Some (MIdentifier x)) ts) (c ++ binder_code) (sc' ++ [Some x])
  with Cterms : scope -> list term -> list instr -> scope -> Prop :=
  | C_terms_nil : forall sc, Cterms sc [] [] sc
  | C_terms_cons : forall sc t r ct sc1 cr sc2, Cterm sc t ct sc1 -> Cterms sc1 r cr sc2 ->
      Cterms sc (t :: r) (ct ++ cr) sc2
  with Cfields : scope -> list tuple_field -> nat -> list (option atom) -> list instr -> scope -> list (option atom) -> Prop :=
  | C_fields_nil : forall sc i labels, Cfields sc [] i labels [] sc labels
  | C_fields_cons : forall sc l ch r i labels cc sc1 cr sc2 labels',
      (match l with Some _ => existsb (oatom_eqb l) labels | None => false end) = false ->
      Cchain sc ch cc sc1 -> Cfields sc1 r (S i) (labels ++ [l]) cr sc2 labels' ->
      Cfields sc (TupleField l (FChain ch) :: r) i labels (IPick i :: cc ++ cr) sc2 labels'
  with Cseq : scope -> list chain -> list instr -> scope -> Prop :=
  | C_seq_one : forall sc ch c sc', Cchain sc ch c sc' -> Cseq sc [ch] c sc'
  | C_seq_cons : forall sc ch c2 r cc sc1 cr sc2, Cchain sc ch cc sc1 -> Cseq sc1 (c2 :: r) cr sc2 ->
      Cseq sc (ch :: c2 :: r) (cc ++ [IDuplicate; INot; IJumpIf (Z.of_nat (length cr))] ++ cr) sc2
  with Cbranches : nat -> scope -> list branch -> list instr -> Prop :=
  | C_branch_last : forall b scb cs cc sc1, Cseq scb cs cc sc1 ->
      Cbranches b scb [Branch (Sequence cs) None] (cc ++ reset_opt b sc1)
  | C_branch_more : forall b scb cs cc sc1 b2 r cr, Cseq scb cs cc sc1 -> Cbranches b scb (b2 :: r) cr ->
      Cbranches b scb (Branch (Sequence cs) None :: b2 :: r)
                ((cc ++ reset_opt b sc1) ++ [IDuplicate; IJumpIf (Z.of_nat (2 + length cr)); IPop; ILoad b] ++ cr)
  | C_commit_last : forall b scb cs ks cc sc1 ck sc2,
      Cseq scb cs cc sc1 -> Nat.ltb (S b) (length sc1) = false -> Cseq scb ks ck sc2 ->
      Cbranches b scb [Branch (Sequence cs) (Some (Sequence ks))]
                (cc ++ [IDuplicate; INot; IJumpIf (Z.of_nat (2 + length (ck ++ reset_opt b sc2))); IPop; ILoad b]
                    ++ ck ++ reset_opt b sc2)
  | C_commit_more : forall b scb cs ks cc sc1 ck sc2 b2 r cr,
      Cseq scb cs cc sc1 -> Nat.ltb (S b) (length sc1) = false -> Cseq scb ks ck sc2 -> Cbranches b scb (b2 :: r) cr ->
      Cbranches b scb (Branch (Sequence cs) (Some (Sequence ks)) :: b2 :: r)
                (cc ++ [IDuplicate; INot; IJumpIf (Z.of_nat (3 + length (ck ++ reset_opt b sc2))); IPop; ILoad b]
                    ++ (ck ++ reset_opt b sc2) ++ [IJump (Z.of_nat (2 + length cr)); IPop; ILoad b] ++ cr).

  Scheme Cterm_rules := Minimality for Cterm Sort Prop
  with Cchain_rules := Minimality for Cchain Sort Prop
  with Cterms_rules := Minimality for Cterms Sort Prop
  with Cfields_rules := Minimality for Cfields Sort Prop
  with Cseq_rules := Minimality for Cseq Sort Prop
  with Cbranches_rules := Minimality for Cbranches Sort Prop.
  Combined Scheme compiled_ind from Cterm_rules, Cchain_rules, Cterms_rules, Cfields_rules, Cseq_rules, Cbranches_rules.

  Lemma fields_go_sound : forall fs,
    Forall (on_field (fun ch => forall sc c sc', compile_chain pool shapes isfun fnum sc ch = Some (c, sc') -> Cchain sc ch c sc')) fs ->
    forall i sc labels c sc' labels', fields_go fs i sc labels = Some (c, sc', labels') -> Cfields sc fs i labels c sc' labels'.
  Proof.
    intros fs H. induction H as [|[l [chn|x]] r Hf _ IH]; intros i sc labels c sc' labels' Hg; cbn [fields_go] in Hg.
    - inversion Hg. constructor.
    - destruct (match l with Some _ => existsb (oatom_eqb l) labels | None => false end) eqn:Hl; [discriminate|].
      destruct (compile_chain pool shapes isfun fnum sc chn) as [[cc sc1]|] eqn:Hc; [|discriminate].
      destruct (fields_go r (S i) sc1 (labels ++ [l])) as [[[cr sc2] ls2]|] eqn:Hr; [|discriminate].
      inversion Hg; subst. econstructor; eauto.
    - discriminate.
  Qed.
  Lemma terms_go_sound : forall ts,
    Forall (fun t => forall sc c sc', compile_term pool shapes isfun fnum sc t = Some (c, sc') -> Cterm sc t c sc') ts ->
    forall sc c sc', terms_go ts sc = Some (c, sc') -> Cterms sc ts c sc'.
  Proof.
    intros ts H. induction H as [|t r Ht _ IH]; intros sc c sc' Hg; cbn [terms_go] in Hg.
    - inversion Hg. constructor.
    - destruct (compile_term pool shapes isfun fnum sc t) as [[ct sc1]|] eqn:Hc; [|discriminate].
      destruct (terms_go r sc1) as [[cr sc2]|] eqn:Hr; [|discriminate]. inversion Hg; subst. econstructor; eauto.
  Qed.
  Lemma seq_go_sound : forall cs,
    Forall (fun ch => forall sc c sc', compile_chain pool shapes isfun fnum sc ch = Some (c, sc') -> Cchain sc ch c sc') cs ->
    forall sc c sc', seq_go cs sc = Some (c, sc') -> Cseq sc cs c sc'.
  Proof.
    intros cs H. induction H as [|chn r Hch _ IH]; intros sc c sc' Hg; [discriminate|]. destruct r as [|c2 r'].
    - constructor. exact (Hch _ _ _ Hg).
    - rewrite seq_go_cons2 in Hg. destruct (ends_in_nil_literal chn); [discriminate|].
      destruct (compile_chain pool shapes isfun fnum sc chn) as [[cc sc1]|] eqn:Hc; [|discriminate].
      destruct (seq_go (c2 :: r') sc1) as [[cr sc2]|] eqn:Hr; [|discriminate]. inversion Hg; subst.
      econstructor; eauto.
  Qed.
  Lemma br_go_sound : forall b scb bs,
    Forall (on_branch (fun s => forall sc c sc', seq_go (seq_chains s) sc = Some (c, sc') -> Cseq sc (seq_chains s) c sc')) bs ->
    forall cb, br_go b scb bs = Some cb -> Cbranches b scb bs cb.
  Proof.
    intros b scb bs H. induction H as [|[[cs] k] r [Hcd Hk] _ IH]; intros cb Hb; [discriminate|]. cbn [br_go] in Hb.
    destruct (seq_go cs scb) as [[cc sc1]|] eqn:Hcc; [|discriminate]. apply Hcd in Hcc. cbn [seq_chains] in Hcc.
    destruct k as [[ks]|].
    - destruct (Nat.ltb (S b) (length sc1)) eqn:Hbound; [discriminate|].
      destruct (seq_go ks scb) as [[ck sc2]|] eqn:Hck; [|discriminate]. apply Hk in Hck. cbn [seq_chains] in Hck.
      destruct r as [|b2 r2]; [inversion Hb; subst; econstructor; eassumption|].
      destruct (br_go b scb (b2 :: r2)) as [cr|] eqn:Hcr; [|discriminate]. inversion Hb; subst. econstructor; eauto.
    - destruct r as [|b2 r2]; [inversion Hb; subst; econstructor; eassumption|].
      destruct (br_go b scb (b2 :: r2)) as [cr|] eqn:Hcr; [|discriminate]. inversion Hb; subst. econstructor; eauto.
  Qed.

  (* sequences and expressions are phrased through `seq_chains` / the list of branches so that the
     four statements have the shape `ast_ind4` asks for *)
  Lemma compile_sound :
    (forall t sc c sc', compile_term pool shapes isfun fnum sc t = Some (c, sc') -> Cterm sc t c sc') /\
    (forall ch sc c sc', compile_chain pool shapes isfun fnum sc ch = Some (c, sc') -> Cchain sc ch c sc') /\
    (forall s sc c sc', seq_go (seq_chains s) sc = Some (c, sc') -> Cseq sc (seq_chains s) c sc') /\
    (forall ex b scb cb, br_go b scb (match ex with Expression bs => bs end) = Some cb ->
                         Cbranches b scb (match ex with Expression bs => bs end) cb).
  Proof.
    apply ast_ind4; try (intros; discriminate).
    - intros [z|bs] sc c sc' Hc; [|discriminate]. cbn [compile_term] in Hc.
      destruct (const_index pool z) eqn:Hk; [|discriminate]. inversion Hc; subst. constructor. exact Hk.
    - intros name fs Hfs sc c sc' Hc. rewrite compile_term_tuple in Hc.
      assert (Hn : name <> Inherit) by (intros ->; discriminate).
      destruct (fields_go fs 0 sc []) as [[[cfs sc1] labels]|] eqn:Hg; [|destruct name; discriminate].
      destruct (shape_index shapes (shape_name name, labels)) as [t|] eqn:Ht; [|destruct name; discriminate].
      assert (Hc' : Some (cfs ++ [ITuple t; IRotate 2; IPop], sc1) = Some (c, sc')) by (destruct name; [exact Hc | exact Hc | congruence]).
      inversion Hc'; subst. econstructor; [exact Hn | exact (fields_go_sound fs Hfs _ _ _ _ _ _ Hg) | exact Ht].
    - intros p sc c sc' Hc. destruct p as [x|l| | | | | | | | |]; try discriminate; cbn [compile_term] in Hc.
      + destruct (x =? a_star) eqn:Hx; [discriminate|]. destruct (isfun x) eqn:Hfx; [discriminate|]. inversion Hc; subst.
        constructor; [intros ->; discriminate | exact Hfx].
      + destruct l as [z|]; [|discriminate]. destruct (const_index pool z) eqn:Hk; [|discriminate]. inversion Hc; subst.
        constructor. exact Hk.
    - intros [bs] Hbs sc c sc' Hc. rewrite compile_term_block in Hc.
      destruct (br_go (length sc) (sc ++ [None]) bs) eqn:Hb; [|discriminate]. inversion Hc; subst.
      constructor. exact (Hbs _ _ _ Hb).
    - intros [src path] sc c sc' Hc. cbn [compile_term] in Hc.
      destruct src as [[y| | |p| |b|[y|]|]|]; try discriminate.
      + destruct (isfun y) eqn:Hfy.
        * destruct (scope_lookup sc y) eqn:Hi; [|discriminate]. destruct path; [|discriminate]. inversion Hc; subst.
          econstructor; eassumption.
        * destruct (scope_lookup sc y) eqn:Hi; [|discriminate]. destruct (gets path) eqn:Hg; [|discriminate].
          inversion Hc; subst. econstructor; eassumption.
      + destruct (gets path) eqn:Hg; [|discriminate]. inversion Hc; subst. econstructor; eauto.
      + destruct (gets path) eqn:Hg; [|discriminate]. inversion Hc; subst. econstructor; eauto.
    - intros mp ts Hts sc c sc' Hc. destruct (fun_binding (Chain mp ts)) as [[[f pt] body]|] eqn:Hfb.
      + destruct (fun_binding_inv _ _ _ _ Hfb) as (tps & rt & E). rewrite E in Hc |- *. cbn [compile_chain] in Hc.
        destruct (isfun f) eqn:Hff; [|discriminate]. destruct (f =? a_star) eqn:Hfs; [discriminate|].
        destruct (nil_param pt) eqn:Hnp; [discriminate|]. cbn [andb negb] in Hc.
        destruct (fnum body) eqn:Hk; [|discriminate]. inversion Hc; subst.
        constructor; [exact Hff | intros ->; discriminate | exact Hnp | exact Hk].
      + rewrite (compile_chain_eq _ _ _ Hfb) in Hc. destruct (terms_go ts sc) as [[ct sc1]|] eqn:Hg; [|discriminate].
        apply (terms_go_sound ts Hts) in Hg. destruct mp as [p|]; [|inversion Hc; subst; constructor; exact Hg].
        destruct p; try discriminate. destruct (x =? a_star) eqn:Hx; [discriminate|]. destruct (isfun x) eqn:Hfx; [discriminate|].
        inversion Hc; subst. constructor; [exact Hg | intros ->; discriminate | exact Hfx].
    - intros cs Hcs sc c sc' Hc. exact (seq_go_sound cs Hcs sc c sc' Hc).
    - intros bs Hbs b scb cb Hb. exact (br_go_sound b scb bs Hbs cb Hb).
  Qed.

  (* scopes only grow during compilation *)
  Lemma compiled_extends :
    (forall sc t c sc', Cterm sc t c sc' -> prefix sc sc') /\
    (forall sc ch c sc', Cchain sc ch c sc' -> prefix sc sc') /\
    (forall sc ts c sc', Cterms sc ts c sc' -> prefix sc sc') /\
    (forall sc fs i labels c sc' labels', Cfields sc fs i labels c sc' labels' -> prefix sc sc') /\
    (forall sc cs c sc', Cseq sc cs c sc' -> prefix sc sc') /\
    (forall b scb bs cb, Cbranches b scb bs cb -> True).   (* branches leave no scope: the scheme wants a clause *)
  Proof.
    apply compiled_ind; intros; eauto using prefix_refl, prefix_app, prefix_trans, prefix_snoc.
  Qed.

  Variable tf : nat.
  Variable cf : value -> value -> stats -> res value.
  Variable imf : list atom -> res value.
  (* calling a function value: whenever `cf` (the evaluator's call at the current fuel) returns a
     value, the machine — the function compiled from the closure's body on top of the argument,
     at a Call instruction of this frame — comes back to the next instruction with the related
     result in place of both, locals unchanged.  (Discharged for `call mods n` by induction on n:
     `call_simulates` below.) *)
  Hypothesis Hcf : forall body cenv te k a acc r w ma pc stk locs,
    fnum body = Some k -> cf (VClos false (Some body) cenv te) a acc = Ret r w -> vrel a ma ->
    nth_error C pc = Some ICall ->
    exists mr, star (st pc (MFun k [] :: ma :: stk) locs) (st (S pc) (mr :: stk) locs) /\ vrel r mr.

  Lemma x_call : forall {pc c body cenv te k a acc r w ma stk locs Q},
    fnum body = Some k -> cf (VClos false (Some body) cenv te) a acc = Ret r w -> vrel a ma ->
    (forall mr, vrel r mr -> exec (S pc) c (mr :: stk) locs Q) ->
    exec pc (ICall :: c) (MFun k [] :: ma :: stk) locs Q.
  Proof.
    intros pc c body cenv te k a acc r w ma stk locs Q Hk Hcall Hva Hc Hat.
    destruct (code_at_head Hat) as [Hi Hat'].
    destruct (Hcf _ _ _ _ _ _ _ _ _ pc stk locs Hk Hcall Hva Hi) as (mr & Hs & Hvr).
    destruct (Hc mr Hvr Hat') as (stk' & ls' & Hs' & HQ). exists stk', ls'. split; [|exact HQ].
    cbn [length]. rewrite Nat.add_succ_r. exact (star_trans Hs Hs').
  Qed.

  (* locals only grow while a term / chain / sequence runs (`grows` is `prefix`, on locals) *)
  Definition grows (ls ls' : list mvalue) : Prop := exists extra, ls' = ls ++ extra.

  (* `ev` (a judgement of the evaluator) is simulated by the code `c`, which turns scope sc into sc' *)
  Definition SIM (ev : env -> value -> res (value * env)) (c : list instr) (sc sc' : scope) : Prop :=
    forall e v v' e' w pc stk ls mv L,
      ev e v = Ret (v', e') w -> code_at C pc c -> erel sc e ls -> vrel v mv -> length L = base ->
      exists mv' ls',
        star (st pc (mv :: stk) (L ++ ls)) (st (pc + length c) (mv' :: stk) (L ++ ls')) /\
        vrel v' mv' /\ erel sc' e' ls' /\ grows ls ls'.

  Lemma sim_run : forall {ev c sc sc' e v v' e' w pc stk ls mv L} {Q : list mvalue -> list mvalue -> Prop},
    SIM ev c sc sc' -> ev e v = Ret (v', e') w -> erel sc e ls -> vrel v mv -> length L = base ->
    (forall mv' ls', vrel v' mv' -> erel sc' e' ls' -> prefix ls ls' -> Q (mv' :: stk) (L ++ ls')) ->
    exec pc c (mv :: stk) (L ++ ls) Q.
  Proof.
    intros ev c sc sc' e v v' e' w pc stk ls mv L Q Hsim Hev Her Hv HL HQ Hat.
    destruct (Hsim e v v' e' w pc stk ls mv L Hev Hat Her Hv HL) as (mv' & ls' & Hs & Hv' & Her' & Hg).
    exists (mv' :: stk), (L ++ ls'). split; [exact Hs | exact (HQ mv' ls' Hv' Her' Hg)].
  Qed.
  Lemma sim_intro : forall (ev : env -> value -> res (value * env)) c sc sc',
    (forall e v v' e' w pc stk ls mv L (Q : list mvalue -> list mvalue -> Prop),
       ev e v = Ret (v', e') w -> erel sc e ls -> vrel v mv -> length L = base ->
       (forall mv' ls', vrel v' mv' -> erel sc' e' ls' -> prefix ls ls' -> Q (mv' :: stk) (L ++ ls')) ->
       exec pc c (mv :: stk) (L ++ ls) Q) ->
    SIM ev c sc sc'.
  Proof.
    intros ev c sc sc' H e v v' e' w pc stk ls mv L Hev Hat Her Hv HL.
    destruct (H e v v' e' w pc stk ls mv L
                (fun stk' ls'' => exists mv' ls', stk' = mv' :: stk /\ ls'' = L ++ ls' /\ vrel v' mv' /\ erel sc' e' ls' /\ grows ls ls')
                Hev Her Hv HL) as (stk' & ls'' & Hs & mv' & ls' & -> & -> & Hrest); [|exact Hat|exists mv', ls'; auto].
    intros mv' ls' Hv' Her' Hg. exists mv', ls'. auto.
  Qed.

  (* sequences: after a short-circuit the later binders do not exist: the final scope is some
     scope between the initial one and the one the compiler computed *)
  Definition SIMseq (ev : env -> value -> res (value * env)) (c : list instr) (sc sc' : scope) : Prop :=
    forall e v v' e' w pc stk ls mv L (Q : list mvalue -> list mvalue -> Prop),
      ev e v = Ret (v', e') w -> erel sc e ls -> vrel v mv -> length L = base ->
      (forall mv' ls' sc'', vrel v' mv' -> erel sc'' e' ls' -> prefix ls ls' -> prefix sc sc'' -> prefix sc'' sc' ->
         Q (mv' :: stk) (L ++ ls')) ->
      exec pc c (mv :: stk) (L ++ ls) Q.

  (* the fields of a tuple literal, from position i: the values of the fields so far lie on the
     stack above the flowing value, which every field starts from *)
  Definition SIMfields (ctx : ctx) (fs : list tuple_field) (i : nat) (labels : list (option atom))
                       (c : list instr) (sc sc' : scope) (labels' : list (option atom)) : Prop :=
    forall e v acc inh r inh' e' w pc stk ls mvals mv L (Q : list mvalue -> list mvalue -> Prop),
      fields_with (eval_chain tf cf imf ctx) fs e v acc inh = Ret (r, inh', e') w ->
      erel sc e ls -> vrel v mv -> length L = base ->
      length mvals = i -> Forall2 (fun f m => vrel (snd f) m) acc mvals -> map fst acc = labels ->
      (forall mvals' ls', Forall2 (fun f m => vrel (snd f) m) r mvals' -> map fst r = labels' ->
         erel sc' e' ls' -> prefix ls ls' -> Q (rev mvals' ++ mv :: stk) (L ++ ls')) ->
      exec pc c (rev mvals ++ mv :: stk) (L ++ ls) Q.

  (* blocks: every branch starts from the block's input, kept in slot b, and leaves the locals as
     the block found them *)
  Definition SIMbr (ev : env -> value -> res value) (cb : list instr) (b : nat) (scb : scope) : Prop :=
    forall e v r w pc stk lsb mv L (Q : list mvalue -> list mvalue -> Prop),
      ev e v = Ret r w -> erel scb e lsb -> vrel v mv -> length L = base ->
      length lsb = S b -> nth_error lsb b = Some mv ->
      (forall mr, vrel r mr -> Q (mr :: stk) (L ++ lsb)) ->
      exec pc cb (mv :: stk) (L ++ lsb) Q.

  Lemma sim_literal : forall ctx sc z k, const_index pool z = Some k ->
    SIM (eval_term tf cf imf ctx (Literal (LInteger z))) [IPop; IConstant k] sc sc.
  Proof.
    intros ctx sc z k Hk. apply sim_intro. intros e v v' e' w pc stk ls mv L Q Hev Her Hv HL HQ.
    inversion Hev; subst v' e'. apply x_pop, (x_const Hk), exec_nil, HQ;
      [constructor | assumption | apply prefix_refl].
  Qed.

  Lemma sim_binder : forall ctx sc x, x <> a_star -> isfun x = false ->
    SIM (eval_term tf cf imf ctx (Match (MIdentifier x))) binder_code sc (sc ++ [Some x]).
  Proof.
    intros ctx sc x Hx Hfx. apply sim_intro. intros e v v' e' w pc stk ls mv L Q Hev Her Hv HL HQ.
    rewrite eval_term_match, bare_binder_always_succeeds in Hev. inversion Hev; subst v' e'.
    apply binder_exec. rewrite <- app_assoc.
    apply HQ; [apply vrel_ok | apply erel_push; assumption | apply prefix_app].
  Qed.

  Lemma sim_literal_match : forall ctx sc z k, const_index pool z = Some k ->
    SIM (eval_term tf cf imf ctx (Match (MLiteral (LInteger z)))) (literal_match_code k) sc sc.
  Proof.
    intros ctx sc z k Hk. apply sim_intro. intros e v v' e' w pc stk ls mv L Q Hev Her Hv HL HQ.
    rewrite eval_term_match, do_match_lit in Hev.
    apply (literal_match_exec (lit_verdict z v) Hk).
    destruct (lit_verdict z v); inversion Hev; subst v' e';
      (apply HQ; [apply vrel_ok || apply vrel_nil | assumption | apply prefix_refl]).
  Qed.

  Lemma sim_flow : forall ctx sc src path c, src = None \/ src = Some Ripple -> gets path = Some c ->
    SIM (eval_term tf cf imf ctx (Access (mkAccess src path))) c sc sc.
  Proof.
    intros ctx sc src path c Hsrc Hg. apply sim_intro. intros e v v' e' w pc stk ls mv L Q Hev Her Hv HL HQ.
    assert (Hev' : with_env e (access_all v path) = Ret (v', e') w) by (destruct Hsrc as [-> | ->]; exact Hev).
    destruct (with_env_inv Hev') as (-> & wx & Ha).
    apply (gets_exec Hg Ha Hv). intros mx Hvx.
    apply HQ; [assumption | assumption | apply prefix_refl].
  Qed.

  Lemma sim_var : forall ctx sc x path i c, isfun x = false -> scope_lookup sc x = Some i -> gets path = Some c ->
    SIM (eval_term tf cf imf ctx (Access (mkAccess (Some (Identifier x)) path))) (IPop :: ILoad i :: c) sc sc.
  Proof.
    intros ctx sc x path i c Hfx Hi Hg. apply sim_intro. intros e v v' e' w pc stk ls mv L Q Hev Her Hv HL HQ.
    cbn [Lang.eval_term] in Hev. destruct (lookup_var x e) as [bv|] eqn:Hl; [|discriminate].
    destruct (with_env_inv Hev) as (-> & w0 & Hev'). destruct (bind_inv Hev') as (y & w1 & w2 & Ha & Hap).
    destruct (erel_load Her HL Hi Hl) as (mb & Hn & Hvb). rewrite Hfx in Hvb.
    apply x_pop, (x_load _ Hn), (gets_exec Hg Ha Hvb). intros my Hvy.
    unfold apply_value in Hap. rewrite (vrel_not_callable Hvy) in Hap. inversion Hap; subst v'.
    apply HQ; [assumption | assumption | apply prefix_refl].
  Qed.

  Lemma sim_call : forall ctx sc f i, isfun f = true -> scope_lookup sc f = Some i ->
    SIM (eval_term tf cf imf ctx (Access (mkAccess (Some (Identifier f)) []))) [ILoad i; ICall] sc sc.
  Proof.
    intros ctx sc f i Hff Hi. apply sim_intro. intros e v v' e' w pc stk ls mv L Q Hev Her Hv HL HQ.
    cbn [Lang.eval_term] in Hev. destruct (lookup_var f e) as [bv|] eqn:Hl; [|discriminate].
    destruct (with_env_inv Hev) as (-> & w0 & Hev'). destruct (bind_inv Hev') as (y & w1 & w2 & Ha & Hap).
    inversion Ha; subst y.
    destruct (erel_load Her HL Hi Hl) as (mb & Hn & Hfr). rewrite Hff in Hfr.
    destruct Hfr as (body & cenv & te & k & -> & -> & Hk).
    apply (x_load _ Hn), (x_call Hk Hap Hv). intros mr Hvr.
    apply exec_nil, HQ; [assumption | assumption | apply prefix_refl].
  Qed.


  Lemma sim_fields_nil : forall ctx sc i labels, SIMfields ctx [] i labels [] sc sc labels.
  Proof.
    intros ctx sc i labels e v acc inh r inh' e' w pc stk ls mvals mv L Q Hev Her Hv HL Hlen Hacc Hlab HQ.
    inversion Hev; subst. apply exec_nil, HQ; [assumption | reflexivity | assumption | apply prefix_refl].
  Qed.
  Lemma sim_fields_cons : forall ctx sc l ch r i labels cc sc1 cr sc2 labels',
    (match l with Some _ => existsb (oatom_eqb l) labels | None => false end) = false ->
    SIM (eval_chain tf cf imf ctx ch) cc sc sc1 -> SIMfields ctx r (S i) (labels ++ [l]) cr sc1 sc2 labels' ->
    SIMfields ctx (TupleField l (FChain ch) :: r) i labels (IPick i :: cc ++ cr) sc sc2 labels'.
  Proof.
    intros ctx sc l ch r i labels cc sc1 cr sc2 labels' Hfresh Hch Hr
           e v acc inh r0 inh' e' w pc stk ls mvals mv L Q Hev Her Hv HL Hlen Hacc Hlab HQ.
    cbn [fields_with] in Hev. destruct (bind_inv Hev) as ([x e1] & w1 & w2 & Hx & Hrest). cbn [fst snd] in Hrest.
    rewrite <- Hlab in Hfresh. rewrite (add_field_fresh acc l x Hfresh) in Hrest.
    apply (x_pick mv).
    { rewrite nth_error_app2 by (rewrite rev_length; lia). rewrite rev_length, Hlen, Nat.sub_diag. reflexivity. }
    apply exec_app, (sim_run Hch Hx Her Hv HL). intros mx ls1 Hvx Her1 Hg1.
    change (mx :: rev mvals ++ mv :: stk) with (rev [mx] ++ rev mvals ++ mv :: stk). rewrite app_assoc, <- rev_app_distr.
    apply (Hr _ _ _ _ _ _ _ _ _ _ _ _ _ _ _ Hrest Her1 Hv HL).
    - rewrite app_length, Hlen. cbn. lia.
    - apply Forall2_app; [assumption | constructor; [exact Hvx | constructor]].
    - rewrite map_app, Hlab. reflexivity.
    - intros mvals' ls' Hr' Hlab' Her' Hg2. apply HQ; [assumption | assumption | assumption | exact (prefix_trans Hg1 Hg2)].
  Qed.
  Lemma sim_tuple : forall ctx sc name fs cfs sc' labels t, name <> Inherit ->
    SIMfields ctx fs 0 [] cfs sc sc' labels -> shape_index shapes (shape_name name, labels) = Some t ->
    SIM (eval_term tf cf imf ctx (Tuple name fs)) (cfs ++ [ITuple t; IRotate 2; IPop]) sc sc'.
  Proof.
    intros ctx sc name fs cfs sc' labels t Hn Hfs Ht. apply sim_intro. intros e v v' e' w pc stk ls mv L Q Hev Her Hv HL HQ.
    rewrite eval_term_tuple in Hev. destruct (bind_inv Hev) as ([[r inh] e1] & w1 & w2 & Hf & Hret).
    assert (Hval : v' = VTuple (shape_name name) r /\ e' = e1).
    { destruct name as [|a|]; [| |congruence]; inversion Hret; auto. }
    destruct Hval as [-> ->].
    apply exec_app, (Hfs _ _ _ _ _ _ _ _ _ _ _ [] _ _ _ Hf Her Hv HL eq_refl (Forall2_nil _) eq_refl).
    intros mvals ls' Hr Hlab Her' Hg.
    apply x_tuple. { rewrite (Hshapes _ _ Ht). cbn [snd]. rewrite <- Hlab, map_length. f_equal. exact (F2_length Hr). }
    apply x_rot2, x_pop, exec_nil, HQ; [|assumption|assumption].
    apply vr_tup; [rewrite Hlab; exact Ht | exact Hr].
  Qed.

  Lemma sim_terms_nil : forall (ev : term -> env -> value -> res (value * env)) sc, SIM (terms_with ev []) [] sc sc.
  Proof.
    intros ev sc. apply sim_intro. intros e v v' e' w pc stk ls mv L Q Hev Her Hv HL HQ. inversion Hev; subst.
    apply exec_nil, HQ; [assumption | assumption | apply prefix_refl].
  Qed.
  Lemma sim_terms_cons : forall (ev : term -> env -> value -> res (value * env)) sc t r ct sc1 cr sc2,
    SIM (ev t) ct sc sc1 -> SIM (terms_with ev r) cr sc1 sc2 -> SIM (terms_with ev (t :: r)) (ct ++ cr) sc sc2.
  Proof.
    intros ev sc t r ct sc1 cr sc2 Ht Hr. apply sim_intro. intros e v v' e' w pc stk ls mv L Q Hev Her Hv HL HQ.
    cbn [terms_with] in Hev. destruct (bind_inv Hev) as ([x e1] & w1 & w2 & Hx & Hrest).
    destruct (tick_inv Hrest) as (w3 & Hrest').
    apply exec_app, (sim_run Ht Hx Her Hv HL). intros mx ls1 Hvx Her1 Hg1.
    apply (sim_run Hr Hrest' Her1 Hvx HL). intros my ls2 Hvy Her2 Hg2.
    apply HQ; [assumption | assumption | exact (prefix_trans Hg1 Hg2)].
  Qed.
  Lemma sim_chain : forall ctx sc ts c sc', SIM (terms_with (eval_term tf cf imf ctx) ts) c sc sc' ->
    SIM (eval_chain tf cf imf ctx (Chain None ts)) c sc sc'.
  Proof. intros ctx sc ts c sc' H. exact H. Qed.
  Lemma sim_chain_bind : forall ctx sc ts c sc' x, SIM (terms_with (eval_term tf cf imf ctx) ts) c sc sc' ->
    x <> a_star -> isfun x = false ->
    SIM (eval_chain tf cf imf ctx (Chain (Some (MIdentifier x)) ts)) (c ++ binder_code) sc (sc' ++ [Some x]).
  Proof.
    intros ctx sc ts c sc' x Hts Hx Hfx. apply sim_intro. intros e v v' e' w pc stk ls mv L Q Hev Her Hv HL HQ.
    rewrite eval_chain_some in Hev. destruct (bind_inv Hev) as ([y e1] & w1 & w2 & Hy & Hm).
    cbn [fst snd] in Hm. rewrite bare_binder_always_succeeds in Hm. inversion Hm; subst v' e'.
    apply exec_app, (sim_run Hts Hy Her Hv HL). intros my ls1 Hvy Her1 Hg1.
    apply binder_exec. rewrite <- app_assoc.
    apply HQ; [apply vrel_ok | apply erel_push; assumption | apply prefix_snoc, Hg1].
  Qed.
  Lemma sim_fun : forall ctx sc f tps pt rt body k, isfun f = true -> f <> a_star -> nil_param pt = false -> fnum body = Some k ->
    SIM (eval_chain tf cf imf ctx (Chain (Some (MIdentifier f)) [Function tps (Some pt) rt (Some body)]))
        ([IPop; IFunction k] ++ binder_code) sc (sc ++ [Some f]).
  Proof.
    intros ctx sc f tps pt rt body k Hff Hfs Hnp Hk. apply sim_intro. intros e v v' e' w pc stk ls mv L Q Hev Her Hv HL HQ.
    assert (Hnl : nilary_of (c_tenv ctx) (Some pt) = false).
    { unfold nilary_of. destruct pt as [p|nm part fts|i o|ts|ts|x args|d| | |mo mem args|args]; try reflexivity; try discriminate.
      cbn [is_nil_ty]. destruct nm; [reflexivity|]. destruct part; [reflexivity|]. destruct fts; [discriminate | reflexivity]. }
    rewrite eval_chain_some in Hev. cbn [terms_with Lang.eval_term bind ret fst snd tick] in Hev.
    rewrite Hnl, bare_binder_always_succeeds in Hev. inversion Hev; subst v' e'.
    destruct (Hfuns _ _ Hk) as (fcode & _ & Hfk).
    apply x_pop, (x_function Hfk), binder_exec. rewrite <- app_assoc.
    apply HQ; [apply vrel_ok | | apply prefix_app].
    apply erel_pushf; [assumption | | assumption | assumption]. exists body, e, (c_tenv ctx), k. auto.
  Qed.

  Lemma sim_seq_one : forall (ev : chain -> env -> value -> res (value * env)) sc ch c sc',
    prefix sc sc' -> SIM (ev ch) c sc sc' -> SIMseq (seq_with ev [ch]) c sc sc'.
  Proof.
    intros ev sc ch c sc' Hext Hch e v v' e' w pc stk ls mv L Q Hev Her Hv HL HQ.
    cbn [seq_with] in Hev. destruct (bind_inv Hev) as ([x e1] & w1 & w2 & Hx & Hret). inversion Hret; subst v' e'.
    apply (sim_run Hch Hx Her Hv HL). intros mx ls1 Hvx Her1 Hg1.
    exact (HQ mx ls1 sc' Hvx Her1 Hg1 Hext (prefix_refl _)).
  Qed.
  Lemma sim_seq_cons : forall (ev : chain -> env -> value -> res (value * env)) sc ch c2 r cc sc1 cr sc2,
    prefix sc sc1 -> prefix sc1 sc2 ->
    SIM (ev ch) cc sc sc1 -> SIMseq (seq_with ev (c2 :: r)) cr sc1 sc2 ->
    SIMseq (seq_with ev (ch :: c2 :: r)) (cc ++ [IDuplicate; INot; IJumpIf (Z.of_nat (length cr))] ++ cr) sc sc2.
  Proof.
    intros ev sc ch c2 r cc sc1 cr sc2 Hext1 Hext2 Hch Hr e v v' e' w pc stk ls mv L Q Hev Her Hv HL HQ.
    rewrite seq_with_cons2 in Hev. destruct (bind_inv Hev) as ([x e1] & w1 & w2 & Hx & Hrest). cbn [fst snd] in Hrest.
    apply exec_app, (sim_run Hch Hx Her Hv HL). intros mx ls1 Hvx Her1 Hg1.
    apply x_dup, x_not. rewrite (vrel_is_nil Hvx). destruct (is_nil x) eqn:Hnil.
    - inversion Hrest; subst v' e'. apply is_nil_true in Hnil. subst x.
      apply (x_jumpif_take cr []); [reflexivity | reflexivity | symmetry; apply app_nil_r|]. apply exec_nil.
      exact (HQ mx ls1 sc1 Hvx Her1 Hg1 Hext1 Hext2).
    - apply x_jumpif_fall; [reflexivity|].
      apply (Hr _ _ _ _ _ _ _ _ _ _ _ Hrest Her1 Hvx HL). intros my ls2 sc'' Hvy Her2 Hg2 Hs1 Hs2.
      exact (HQ my ls2 sc'' Hvy Her2 (prefix_trans Hg1 Hg2) (prefix_trans Hext1 Hs1) Hs2).
  Qed.

  Lemma seq_unbound_exec : forall {ev c scb sc1 b}, SIMseq ev c scb sc1 -> Nat.ltb (S b) (length sc1) = false ->
    forall {e v x e1 w1 pc stk lsb mv L} {Q : list mvalue -> list mvalue -> Prop},
      ev e v = Ret (x, e1) w1 -> erel scb e lsb -> vrel v mv -> length L = base -> length lsb = S b ->
      (forall mx, vrel x mx -> erel scb e1 lsb -> Q (mx :: stk) (L ++ lsb)) ->
      exec pc c (mv :: stk) (L ++ lsb) Q.
  Proof.
    intros ev c scb sc1 b Hsim Hbound e v x e1 w1 pc stk lsb mv L Q Hev Her Hv HL Hlb HQ.
    apply (Hsim _ _ _ _ _ _ _ _ _ _ _ Hev Her Hv HL). intros mx ls1 sc'' Hvx Her1 Hg1 Hs1 Hs2.
    apply Nat.ltb_ge in Hbound. pose proof (erel_length Her) as Hl0. pose proof (erel_length Her1) as Hl1.
    assert (Hsc : sc'' = scb).
    { apply (prefix_length Hs1). destruct Hs2 as [s2 ->]. rewrite app_length in Hbound. lia. }
    subst sc''. rewrite (prefix_length Hg1) by lia. rewrite (prefix_length Hg1) in Her1 by lia.
    exact (HQ mx Hvx Her1).
  Qed.
  (* a sequence run inside a block, followed by the reset to the block's slots when it bound
     something: the locals are back to the block's slots afterwards *)
  Lemma seq_reset_exec : forall {ev c scb sc1 b}, SIMseq ev c scb sc1 ->
    forall {e v x e1 w1 pc stk lsb mv L} {Q : list mvalue -> list mvalue -> Prop},
      ev e v = Ret (x, e1) w1 -> erel scb e lsb -> vrel v mv -> length L = base -> length lsb = S b ->
      (forall mx, vrel x mx -> Q (mx :: stk) (L ++ lsb)) ->
      exec pc (c ++ reset_opt b sc1) (mv :: stk) (L ++ lsb) Q.
  Proof.
    intros ev c scb sc1 b Hsim e v x e1 w1 pc stk lsb mv L Q Hev Her Hv HL Hlb HQ. apply exec_app. unfold reset_opt.
    destruct (Nat.ltb (S b) (length sc1)) eqn:Hbound.
    - apply (Hsim _ _ _ _ _ _ _ _ _ _ _ Hev Her Hv HL). intros mx ls1 sc'' Hvx Her1 [extra ->] _ _.
      apply (x_reset L lsb extra HL Hlb), exec_nil, HQ, Hvx.
    - apply (seq_unbound_exec Hsim Hbound Hev Her Hv HL Hlb). intros mx Hvx _.
      apply exec_nil, HQ, Hvx.
  Qed.

  Lemma sim_block : forall ctx sc bs cb,
    SIMbr (branches_with (eval_sequence tf cf imf ctx) bs) cb (length sc) (sc ++ [None]) ->
    SIM (eval_term tf cf imf ctx (Block (Expression bs))) (IStore :: ILoad (length sc) :: cb ++ [IReset (length sc)]) sc sc.
  Proof.
    intros ctx sc bs cb Hbs. apply sim_intro. intros e v v' e' w pc stk ls mv L Q Hev Her Hv HL HQ.
    rewrite eval_term_block in Hev. destruct (with_env_inv Hev) as (-> & wr & Hex).
    pose proof (erel_length Her) as Hlen.
    apply x_store, (x_load mv).
    { rewrite <- app_assoc, nth_error_app2 by lia. rewrite HL, Nat.add_comm, Nat.add_sub, <- Hlen. apply nth_error_snoc. }
    rewrite <- app_assoc.
    apply exec_app, (Hbs _ _ _ _ _ _ _ _ _ _ Hex (erel_anon _ _ _ mv Her) Hv HL).
    - rewrite app_length, Hlen. cbn. lia.
    - rewrite <- Hlen. apply nth_error_snoc.
    - intros mr Hvr. apply (x_reset L ls [mv] HL Hlen), exec_nil, HQ; [assumption | assumption | apply prefix_refl].
  Qed.

  Lemma sim_branch_last : forall ctx b scb cs cc sc1,
    SIMseq (seq_with (eval_chain tf cf imf ctx) cs) cc scb sc1 ->
    SIMbr (branches_with (eval_sequence tf cf imf ctx) [Branch (Sequence cs) None]) (cc ++ reset_opt b sc1) b scb.
  Proof.
    intros ctx b scb cs cc sc1 Hc e v r w pc stk lsb mv L Q Hev Her Hv HL Hlb Hnth HQ.
    rewrite branches_with_cons in Hev. destruct (bind_inv Hev) as ([x e1] & w1 & w2 & Hx & Hk). cbn [fst snd] in Hk.
    apply (seq_reset_exec Hc Hx Her Hv HL Hlb). intros mx Hvx. apply HQ.
    destruct (is_nil x) eqn:Hn; inversion Hk; subst r; [apply is_nil_true in Hn; subst x|]; exact Hvx.
  Qed.
  Lemma sim_branch_more : forall ctx b scb cs cc sc1 b2 r cr,
    SIMseq (seq_with (eval_chain tf cf imf ctx) cs) cc scb sc1 -> SIMbr (branches_with (eval_sequence tf cf imf ctx) (b2 :: r)) cr b scb ->
    SIMbr (branches_with (eval_sequence tf cf imf ctx) (Branch (Sequence cs) None :: b2 :: r))
          ((cc ++ reset_opt b sc1) ++ [IDuplicate; IJumpIf (Z.of_nat (2 + length cr)); IPop; ILoad b] ++ cr) b scb.
  Proof.
    intros ctx b scb cs cc sc1 b2 r cr Hc Hr e v r0 w pc stk lsb mv L Q Hev Her Hv HL Hlb Hnth HQ.
    rewrite branches_with_cons in Hev. destruct (bind_inv Hev) as ([x e1] & w1 & w2 & Hx & Hk). cbn [fst snd] in Hk.
    apply exec_app, (seq_reset_exec Hc Hx Her Hv HL Hlb). intros mx Hvx.
    apply x_dup. destruct (is_nil x) eqn:Hn.
    - destruct (tick_inv Hk) as (w3 & Hrest).
      apply x_jumpif_fall; [rewrite (vrel_is_nil Hvx); exact Hn|]. apply x_pop, (x_load mv).
      { rewrite nth_error_app2 by lia. rewrite HL, Nat.add_comm, Nat.add_sub. exact Hnth. }
      exact (Hr _ _ _ _ _ _ _ _ _ _ Hrest Her Hv HL Hlb Hnth HQ).
    - inversion Hk; subst r0.
      apply (x_jumpif_take (IPop :: ILoad b :: cr) []); [rewrite (vrel_is_nil Hvx); exact Hn | reflexivity | symmetry; apply app_nil_r|].
      apply exec_nil, HQ, Hvx.
  Qed.
  Lemma commit_exec : forall {ctx b scb ks ck sc2},
    SIMseq (seq_with (eval_chain tf cf imf ctx) ks) ck scb sc2 ->
    forall {e1 v y e2 w2 mx pc c stk lsb mv L} {Q : list mvalue -> list mvalue -> Prop},
      seq_with (eval_chain tf cf imf ctx) ks e1 v = Ret (y, e2) w2 -> erel scb e1 lsb -> vrel v mv -> length L = base ->
      length lsb = S b -> nth_error lsb b = Some mv ->
      (forall my, vrel y my -> exec (S (S pc) + length (ck ++ reset_opt b sc2)) c (my :: stk) (L ++ lsb) Q) ->
      exec pc (IPop :: ILoad b :: (ck ++ reset_opt b sc2) ++ c) (mx :: stk) (L ++ lsb) Q.
  Proof.
    intros ctx b scb ks ck sc2 Hk e1 v y e2 w2 mx pc c stk lsb mv L Q Hy Her1 Hv HL Hlb Hnth HQ.
    apply x_pop, (x_load mv).
    { rewrite nth_error_app2 by lia. rewrite HL, Nat.add_comm, Nat.add_sub. exact Hnth. }
    apply exec_app, (seq_reset_exec Hk Hy Her1 Hv HL Hlb). exact HQ.
  Qed.
  Lemma sim_commit_last : forall ctx b scb cs ks cc sc1 ck sc2,
    SIMseq (seq_with (eval_chain tf cf imf ctx) cs) cc scb sc1 -> Nat.ltb (S b) (length sc1) = false -> SIMseq (seq_with (eval_chain tf cf imf ctx) ks) ck scb sc2 ->
    SIMbr (branches_with (eval_sequence tf cf imf ctx) [Branch (Sequence cs) (Some (Sequence ks))])
          (cc ++ [IDuplicate; INot; IJumpIf (Z.of_nat (2 + length (ck ++ reset_opt b sc2))); IPop; ILoad b]
              ++ ck ++ reset_opt b sc2) b scb.
  Proof.
    intros ctx b scb cs ks cc sc1 ck sc2 Hc Hbound Hk e v r0 w pc stk lsb mv L Q Hev Her Hv HL Hlb Hnth HQ.
    rewrite branches_with_cons in Hev. destruct (bind_inv Hev) as ([x e1] & w1 & w2 & Hx & Hrest). cbn [fst snd] in Hrest.
    apply exec_app, (seq_unbound_exec Hc Hbound Hx Her Hv HL Hlb). intros mx Hvx Her1.
    apply x_dup, x_not. rewrite (vrel_is_nil Hvx). destruct (is_nil x) eqn:Hn.
    - inversion Hrest; subst r0. apply is_nil_true in Hn. subst x.
      apply (x_jumpif_take (IPop :: ILoad b :: ck ++ reset_opt b sc2) []); [reflexivity | reflexivity | symmetry; apply app_nil_r|].
      apply exec_nil, HQ, Hvx.
    - destruct (tick_inv Hrest) as (w3 & Hrest'). destruct (bind_inv Hrest') as ([y e2] & w4 & w5 & Hy & Hret).
      inversion Hret; subst r0. apply x_jumpif_fall; [reflexivity|].
      rewrite <- (app_nil_r (ck ++ reset_opt b sc2)).
      apply (commit_exec Hk Hy Her1 Hv HL Hlb Hnth). intros my Hvy.
      apply exec_nil, HQ, Hvy.
  Qed.
  Lemma sim_commit_more : forall ctx b scb cs ks cc sc1 ck sc2 b2 r cr,
    SIMseq (seq_with (eval_chain tf cf imf ctx) cs) cc scb sc1 -> Nat.ltb (S b) (length sc1) = false -> SIMseq (seq_with (eval_chain tf cf imf ctx) ks) ck scb sc2 ->
    SIMbr (branches_with (eval_sequence tf cf imf ctx) (b2 :: r)) cr b scb ->
    SIMbr (branches_with (eval_sequence tf cf imf ctx) (Branch (Sequence cs) (Some (Sequence ks)) :: b2 :: r))
          (cc ++ [IDuplicate; INot; IJumpIf (Z.of_nat (3 + length (ck ++ reset_opt b sc2))); IPop; ILoad b]
              ++ (ck ++ reset_opt b sc2) ++ [IJump (Z.of_nat (2 + length cr)); IPop; ILoad b] ++ cr) b scb.
  Proof.
    intros ctx b scb cs ks cc sc1 ck sc2 b2 r cr Hc Hbound Hk Hr e v r0 w pc stk lsb mv L Q Hev Her Hv HL Hlb Hnth HQ.
    rewrite branches_with_cons in Hev. destruct (bind_inv Hev) as ([x e1] & w1 & w2 & Hx & Hrest). cbn [fst snd] in Hrest.
    apply exec_app, (seq_unbound_exec Hc Hbound Hx Her Hv HL Hlb). intros mx Hvx Her1.
    apply x_dup, x_not. rewrite (vrel_is_nil Hvx). destruct (is_nil x) eqn:Hn.
    - destruct (tick_inv Hrest) as (w3 & Hrest').
      apply (x_jumpif_take (IPop :: ILoad b :: (ck ++ reset_opt b sc2) ++ [IJump (Z.of_nat (2 + length cr))]) ([IPop; ILoad b] ++ cr));
        [reflexivity | cbn [length]; rewrite !app_length; cbn [length]; lia | cbn [app]; rewrite <- (app_assoc (ck ++ reset_opt b sc2)); reflexivity|].
      apply x_pop, (x_load mv).
      { rewrite nth_error_app2 by lia. rewrite HL, Nat.add_comm, Nat.add_sub. exact Hnth. }
      exact (Hr _ _ _ _ _ _ _ _ _ _ Hrest' Her Hv HL Hlb Hnth HQ).
    - destruct (tick_inv Hrest) as (w3 & Hrest'). destruct (bind_inv Hrest') as ([y e2] & w4 & w5 & Hy & Hret).
      inversion Hret; subst r0. apply x_jumpif_fall; [reflexivity|].
      apply (commit_exec Hk Hy Her1 Hv HL Hlb Hnth). intros my Hvy.
      apply (x_jump _ (IPop :: ILoad b :: cr) [] eq_refl (eq_sym (app_nil_r _))), exec_nil, HQ, Hvy.
  Qed.

  Theorem compiled_simulates :
    (forall sc t c sc', Cterm sc t c sc' -> forall ctx, SIM (eval_term tf cf imf ctx t) c sc sc') /\
    (forall sc ch c sc', Cchain sc ch c sc' -> forall ctx, SIM (eval_chain tf cf imf ctx ch) c sc sc') /\
    (forall sc ts c sc', Cterms sc ts c sc' -> forall ctx, SIM (terms_with (eval_term tf cf imf ctx) ts) c sc sc') /\
    (forall sc fs i labels c sc' labels', Cfields sc fs i labels c sc' labels' -> forall ctx, SIMfields ctx fs i labels c sc sc' labels') /\
    (forall sc cs c sc', Cseq sc cs c sc' -> forall ctx, SIMseq (seq_with (eval_chain tf cf imf ctx) cs) c sc sc') /\
    (forall b scb bs cb, Cbranches b scb bs cb -> forall ctx, SIMbr (branches_with (eval_sequence tf cf imf ctx) bs) cb b scb).
  Proof.
    destruct compiled_extends as (_ & Hxc & _ & _ & Hxs & _).
    apply compiled_ind; intros.
    - apply sim_literal; assumption.
    - eapply sim_tuple; eauto.
    - apply sim_flow; assumption.
    - apply sim_var; assumption.
    - apply sim_call; assumption.
    - apply sim_binder; assumption.
    - apply sim_literal_match; assumption.
    - apply sim_block; auto.
    - apply sim_fun; assumption.
    - apply sim_chain; auto.
    - apply sim_chain_bind; auto.
    - apply sim_terms_nil.
    - eapply sim_terms_cons; eauto.
    - apply sim_fields_nil.
    - eapply sim_fields_cons; eauto.
    - apply sim_seq_one; eauto.
    - eapply sim_seq_cons; eauto.
    - apply sim_branch_last; auto.
    - apply sim_branch_more; auto.
    - eapply sim_commit_last; eauto.
    - eapply sim_commit_more; eauto.
  Qed.

  Corollary compile_simulates :
    (forall t ctx sc c sc', compile_term pool shapes isfun fnum sc t = Some (c, sc') -> SIM (eval_term tf cf imf ctx t) c sc sc') /\
    (forall ch ctx sc c sc', compile_chain pool shapes isfun fnum sc ch = Some (c, sc') -> SIM (eval_chain tf cf imf ctx ch) c sc sc').
  Proof.
    destruct compile_sound as (Ht & Hc & _). destruct compiled_simulates as (St & Sc & _).
    split; intros; [apply St, Ht | apply Sc, Hc]; assumption.
  Qed.

  Corollary compile_seq_simulates : forall ctx cs sc c sc',
    compile_seq pool shapes isfun fnum sc cs = Some (c, sc') -> SIMseq (seq_with (eval_chain tf cf imf ctx) cs) c sc sc'.
  Proof.
    intros ctx cs sc c sc' Hc. rewrite <- seq_go_eq in Hc.
    destruct compile_sound as (_ & _ & Hs & _). destruct compiled_simulates as (_ & _ & _ & _ & Ss & _).
    exact (Ss _ _ _ _ (Hs (Sequence cs) _ _ _ Hc) ctx).
  Qed.

  (* a block as a term: its input goes to a fresh slot, the branches run, the slots are released *)
  Corollary compile_block_simulates : forall bs ctx sc c sc',
    compile_term pool shapes isfun fnum sc (Block (Expression bs)) = Some (c, sc') ->
    SIM (eval_term tf cf imf ctx (Block (Expression bs))) c sc sc'.
  Proof. intros bs ctx. exact (proj1 compile_simulates (Block (Expression bs)) ctx). Qed.

  (* a compiled term never makes a tail call (the mirror refuses `^`, `^f`, `^~`), provided the
     evaluator's call does not return one *)
  Hypothesis Hcf_nt : forall f a acc g b w, cf f a acc <> TailC g b w.

  Definition nt {A} (r : res A) : Prop := forall g b w, r <> TailC g b w.
  Lemma nt_bind : forall A B (a : res A) (f : A -> res B), nt a -> (forall x, nt (f x)) -> nt (bind a f).
  Proof.
    intros A B a f Ha Hf g b w. destruct a as [x wx|g0 b0 w0| |]; cbn [bind]; try discriminate.
    - specialize (Hf x g b). destruct (f x); cbn; try discriminate. intros H. inversion H; subst. eapply Hf; reflexivity.
    - exfalso. eapply Ha; reflexivity.
  Qed.
  Lemma nt_tick : forall A s (r : res A), nt r -> nt (tick s r).
  Proof. intros A s r H g b w. destruct r; cbn; try discriminate. intros E. inversion E; subst. eapply H; reflexivity. Qed.
  Lemma nt_ret : forall A (a : A) w, nt (Ret a w).
  Proof. intros A a w g b w'. discriminate. Qed.
  Lemma nt_error : forall A e, nt (@Error A e).
  Proof. intros A e g b w. discriminate. Qed.
  Lemma nt_with_env : forall A e (r : res A), nt r -> nt (with_env e r).
  Proof. intros. unfold with_env. apply nt_bind; [assumption | intros; apply nt_ret]. Qed.
  Lemma nt_access_all : forall path v, nt (access_all v path).
  Proof.
    induction path as [|p r IH]; intros v; cbn [access_all]; [apply nt_ret|]. apply nt_bind; [|intros; apply IH].
    intros g b w. destruct v as [| |nm fs| |]; cbn; try discriminate.
    destruct p as [l|i]; [destruct (find_field l fs) | destruct (i <? 0); [|destruct (nth_error fs (Z.to_nat i)) as [[? ?]|]]]; discriminate.
  Qed.
  Lemma nt_do_match : forall c e p v, nt (do_match tf c e p v).
  Proof. intros c e p v g b w. unfold do_match. destruct (pmatch tf (c_tenv c) e [] p v); discriminate. Qed.
  Lemma nt_identifier : forall ctx x path e v, nt (eval_term tf cf imf ctx (Access (mkAccess (Some (Identifier x)) path)) e v).
  Proof.
    intros ctx x path e v. cbn [Lang.eval_term]. destruct (lookup_var x e); [|apply nt_error].
    apply nt_with_env, nt_bind; [apply nt_access_all|]. intros y. unfold apply_value.
    destruct (is_callable y); [intros ? ? ?; apply Hcf_nt | apply nt_ret].
  Qed.

  Lemma compiled_no_tail :
    (forall sc t c sc', Cterm sc t c sc' -> forall ctx e v, nt (eval_term tf cf imf ctx t e v)) /\
    (forall sc ch c sc', Cchain sc ch c sc' -> forall ctx e v, nt (eval_chain tf cf imf ctx ch e v)) /\
    (forall sc ts c sc', Cterms sc ts c sc' -> forall ctx e v, nt (terms_with (eval_term tf cf imf ctx) ts e v)) /\
    (forall sc fs i labels c sc' labels', Cfields sc fs i labels c sc' labels' ->
       forall ctx e v acc inh, nt (fields_with (eval_chain tf cf imf ctx) fs e v acc inh)) /\
    (forall sc cs c sc', Cseq sc cs c sc' -> forall ctx e v, nt (seq_with (eval_chain tf cf imf ctx) cs e v)) /\
    (forall b scb bs cb, Cbranches b scb bs cb -> forall ctx e v, nt (branches_with (eval_sequence tf cf imf ctx) bs e v)).
  Proof.
    apply compiled_ind; intros.
    - apply nt_ret.
    - rewrite eval_term_tuple. apply nt_bind; [auto|]. intros [[fs' inh'] e'].
      destruct name; [apply nt_ret | apply nt_ret | contradiction].
    - destruct H as [-> | ->]; apply nt_with_env, nt_access_all.
    - apply nt_identifier.
    - apply nt_identifier.
    - apply nt_do_match.
    - apply nt_do_match.
    - rewrite eval_term_block, eval_expr_eq. apply nt_with_env. auto.
    - rewrite eval_chain_some. apply nt_bind; [|intros; apply nt_do_match].
      cbn [terms_with]. apply nt_bind; [apply nt_ret | intros; apply nt_tick, nt_ret].
    - rewrite eval_chain_none. auto.
    - rewrite eval_chain_some. apply nt_bind; [auto | intros; apply nt_do_match].
    - apply nt_ret.
    - cbn [terms_with]. apply nt_bind; [auto | intros; apply nt_tick; auto].
    - apply nt_ret.
    - cbn [fields_with]. apply nt_bind; [auto | intros; auto].
    - cbn [seq_with]. apply nt_bind; [auto | intros; apply nt_ret].
    - rewrite seq_with_cons2. apply nt_bind; [auto|]. intros x. destruct (is_nil (fst x)); [apply nt_ret | auto].
    - rewrite branches_with_cons, eval_sequence_eq. apply nt_bind; [auto|]. intros x.
      destruct (is_nil (fst x)); [apply nt_tick, nt_ret | apply nt_ret].
    - rewrite branches_with_cons, eval_sequence_eq. apply nt_bind; [auto|]. intros x.
      destruct (is_nil (fst x)); [apply nt_tick; auto | apply nt_ret].
    - rewrite branches_with_cons, eval_sequence_eq. apply nt_bind; [auto|]. intros x.
      destruct (is_nil (fst x)); [apply nt_tick, nt_ret|]. rewrite eval_sequence_eq.
      apply nt_tick, nt_bind; [auto | intros; apply nt_ret].
    - rewrite branches_with_cons, eval_sequence_eq. apply nt_bind; [auto|]. intros x.
      destruct (is_nil (fst x)); [apply nt_tick; auto|]. rewrite eval_sequence_eq.
      apply nt_tick, nt_bind; [auto | intros; apply nt_ret].
  Qed.

  Lemma step_call : forall pc k fd ma stk locs,
    nth_error C pc = Some ICall -> nth_error (p_funcs P) k = Some fd ->
    step P (st pc (MFun k [] :: ma :: stk) locs) x0 =
    Next (mk_state (ma :: stk) (locs ++ []) (mk_frame k (length locs) 0 0 :: mk_frame fn base caps pc :: rest) pers).
  Proof. intros pc k fd ma stk locs H Hk. stepper H. cbn [Quiver.vm.Vm.stack]. rewrite Hk. reflexivity. Qed.

  Lemma step_return : forall stk ls x,
    step P (st (length C) stk ls) x =
    Next (Quiver.vm.Vm.bump (mk_state stk (if pers && match rest with [] => true | _ => false end then ls else firstn base ls)
                                      rest pers)).
  Proof.
    intros stk ls x. unfold st, Quiver.vm.Vm.step. cbn [Quiver.vm.Vm.frames Quiver.vm.Vm.fr_fn Quiver.vm.Vm.fr_pc].
    unfold Quiver.vm.Vm.code_of. rewrite Hfn. cbn [option_map Quiver.vm.Bytecode.f_code].
    rewrite (proj2 (nth_error_None C (length C))) by lia. reflexivity.
  Qed.
End Sim.

Lemma call_no_tail : forall mods n f a acc g x w, call mods n f a acc <> TailC g x w.
Proof.
  intros mods. induction n as [|n IH]; intros f a acc g x w; [discriminate|]. rewrite call_S.
  destruct f as [z0|bs0|nm0 fs0|nl body cenv te|b]; try discriminate.
  - destruct body as [body|]; [|discriminate].
    destruct (eval_expr n (call mods n) (eval_import mods n) _ body cenv a); try discriminate. apply IH.
  - pose proof (apply_builtin_plain b a) as Hb. destruct (apply_builtin b a); cbn; try discriminate. destruct Hb.
Qed.

(* Calls: the evaluator's `call mods n` is simulated by Call / the callee's frame / the frame
   pop, for every fuel n (induction on n; at each level the simulation of the callee's body is
   `compile_block_simulates` instantiated at the callee's function). *)
Section Program.
  Variable P : mprogram.
  Variable pool : list Z.
  Variable shapes : list shape.
  Variable isfun : atom -> bool.
  Variable fnum : expression -> option nat.
  Hypothesis Hpool : forall z k, const_index pool z = Some k -> nth_error (p_consts P) k = Some (CInt z).
  Hypothesis Hshapes : forall sh t, shape_index shapes sh = Some t -> nth_error (p_tuples P) t = Some (length (snd sh)).
  Hypothesis Hsh0 : exists r, shapes = nil_shape :: ok_shape :: r.
  Hypothesis Hfuns : forall body k, fnum body = Some k ->
    exists code, function_code pool shapes isfun fnum body = Some code /\ nth_error (p_funcs P) k = Some (mk_func code 0).
  Variable mods : list (list atom * program).

  (* the statement `Hcf` of the simulation, for one fuel level and EVERY caller frame *)
  Definition call_simulated (n : nat) : Prop :=
    forall fn C caps base rest pers, nth_error (p_funcs P) fn = Some (mk_func C caps) ->
    forall body cenv te k a acc r w ma pc stk locs,
      fnum body = Some k -> call mods n (VClos false (Some body) cenv te) a acc = Ret r w -> vrel shapes a ma ->
      nth_error C pc = Some ICall ->
      exists mr, star P (st fn caps base rest pers pc (MFun k [] :: ma :: stk) locs)
                        (st fn caps base rest pers (S pc) (mr :: stk) locs) /\ vrel shapes r mr.

  Theorem call_simulates : forall n, call_simulated n.
  Proof.
    induction n as [|n IH]; intros fn C caps base rest pers Hfn body cenv te k a acc r w ma pc stk locs Hk Hcall Hva Hpc;
      [discriminate|].
    rewrite call_S in Hcall. destruct body as [bs].
    destruct (Hfuns _ _ Hk) as (code & Hcode & Hfk). unfold function_code in Hcode.
    destruct (compile_term pool shapes isfun fnum [] (Block (Expression bs))) as [[c sc']|] eqn:Hcb; [|discriminate].
    inversion Hcode; subst code. clear Hcode.
    (* the body never makes a tail call, so the call returns the body's value *)
    set (ctx := mkCtx a (Some (VClos false (Some (Expression bs)) cenv te)) te) in Hcall.
    pose proof (proj1 (compiled_no_tail pool shapes isfun fnum n (call mods n) (eval_import mods n) (call_no_tail mods n))
                  _ _ _ _ (proj1 (compile_sound pool shapes isfun fnum) _ _ _ _ Hcb) ctx cenv a) as Hnt.
    rewrite eval_term_block in Hnt.
    destruct (eval_expr n (call mods n) (eval_import mods n) ctx (Expression bs) cenv a) as [r' w'|g x w0| |] eqn:Hbody;
      try discriminate; [|destruct (Hnt g x w0 eq_refl)].
    inversion Hcall; subst r'. clear Hcall Hnt.
    assert (Hterm : eval_term n (call mods n) (eval_import mods n) ctx (Block (Expression bs)) cenv a = Ret (r, cenv) (st_add w' st0)).
    { rewrite eval_term_block, Hbody. reflexivity. }
    (* the machine: Call pushes the callee's frame, its code runs, the exhausted frame is popped *)
    assert (Hat : code_at c 0 c). { exists [], []. rewrite app_nil_r. split; reflexivity. }
    pose proof (compile_block_simulates P k c 0 Hfk pool shapes Hpool Hshapes Hsh0 isfun fnum Hfuns (length locs)
                  (mk_frame fn base caps pc :: rest) pers n (call mods n) (eval_import mods n)
                  (IH k c 0%nat (length locs) _ pers Hfk) bs ctx [] c sc' Hcb) as Hsim.
    destruct (Hsim cenv a r cenv _ 0%nat stk [] ma locs Hterm Hat (erel_nil shapes isfun fnum cenv) Hva eq_refl)
      as (mr & ls' & Hst & Hvr & Her & _).
    assert (Hsc : sc' = []).
    { rewrite compile_term_block in Hcb.
      destruct (br_go pool shapes isfun fnum (length (@nil (option atom))) ([] ++ [None]) bs); [|discriminate]. inversion Hcb; reflexivity. }
    subst sc'. apply erel_length in Her. destruct ls'; [|discriminate].
    exists mr. split; [|exact Hvr].
    eapply star_step; [exact (step_call P fn C caps Hfn base rest pers pc k _ ma stk locs Hpc Hfk)|].
    eapply star_trans; [exact Hst|]. eapply star_step; [apply step_return with (x := x0); exact Hfk | ].
    cbn. rewrite Bool.andb_false_r, !app_nil_r, firstn_all. constructor.
  Qed.

  (* Whole programs of the fragment: the VM started on the compiled entry function (as
     `spawn_process` starts it: the nil argument on the stack, no locals) reaches the end of the
     code with the evaluator's value on the stack, pops the frame and finishes with that value. *)
  Theorem compile_program_correct :
    forall (fn : nat) (p : program) (code : list instr) (pers : bool),
      compile_program pool shapes isfun fnum p = Some code ->
      nth_error (p_funcs P) fn = Some (mk_func code 0) ->
      forall n v w, eval_program mods n p = Ret v w ->
      exists mv ls,
        vrel shapes v mv /\
        star P (Quiver.vm.Vm.init_state fn [] mnil pers) (st fn 0 0 [] pers (length code) [mv] ls) /\
        (forall x, step P (st fn 0 0 [] pers (length code) [mv] ls) x =
                   Next (mk_state [mv] (if pers then ls else []) [] pers)) /\
        (forall x, step P (mk_state [mv] (if pers then ls else []) [] pers) x =
                   Quiver.vm.Vm.Finished mv (mk_state [] (if pers then ls else []) [] pers)).
  Proof.
    intros fn [ss] code pers Hc Hfn n v w Hev.
    destruct n as [|n]; [discriminate|]. unfold eval_program, run_program in Hev.
    unfold compile_program in Hc. destruct (collect_aliases ss) eqn:Hal; [|discriminate].
    destruct (compile_seq pool shapes isfun fnum [None] (collect_chains ss)) as [[c sc']|] eqn:Hcs; [|discriminate].
    inversion Hc; subst code. clear Hc.
    destruct (seq_with (eval_chain n (call mods n) (eval_import mods n) (mkCtx vnil None [])) (collect_chains ss) [] vnil)
      as [[v' e'] w'| | |] eqn:Hs; try discriminate.
    cbn in Hev. inversion Hev; subst v'. clear Hev.
    set (C := IStore :: ILoad 0 :: c) in *.
    assert (Hat : code_at C 0 C). { exists [], []. rewrite app_nil_r. split; reflexivity. }
    (* store the argument in slot 0, load it, run the sequence *)
    assert (Hrun : exec P fn C 0 0 [] pers 0 C [mnil] [] (fun stk' ls' => exists mv, stk' = [mv] /\ vrel shapes v mv)).
    { apply (x_store P fn C 0 Hfn), (x_load P fn C 0 Hfn 0%nat [] pers mnil); [reflexivity|].
      eapply (compile_seq_simulates P fn C 0 Hfn pool shapes Hpool Hshapes Hsh0 isfun fnum Hfuns 0%nat [] pers
                n (call mods n) (eval_import mods n) (call_simulates n fn C 0%nat 0%nat [] pers Hfn) _ _ _ _ _ Hcs);
        [exact Hs | apply erel_param | exact (vrel_nil shapes Hsh0) | reflexivity|].
      intros mv' ls' sc'' Hv _ _ _ _. exists mv'. auto. }
    destruct (Hrun Hat) as (stk' & ls & Hst & mv & -> & Hv).
    exists mv, ls. split; [exact Hv|]. split; [exact Hst|]. split.
    - intros x. rewrite (step_return P fn C 0 Hfn 0%nat [] pers). destruct pers; reflexivity.
    - intros x. reflexivity.
  Qed.
End Program.
(* non-vacuity: `x = 5, [x, A[l: 2, ~]] .1` compiles (33 instructions, the ones the real compiler
   emits) and evaluates to A[l: 2, Ok] *)
Definition ex_slice_prog : program :=
  Program [StmtExpression (Sequence
    [Chain (Some (MIdentifier 100)) [Literal (LInteger 5)];
     Chain None [Tuple Anonymous
                   [TupleField None (FChain (Chain None [Access (mkAccess (Some (Identifier 100)) [])]));
                    TupleField None (FChain (Chain None
                      [Tuple (Named 200) [TupleField (Some 101) (FChain (Chain None [Literal (LInteger 2)]));
                                          TupleField None (FChain (Chain None [Access (mkAccess (Some Ripple) [])]))]]))];
                 Access (mkAccess None [Index 1])]])].
Example ex_slice :
  exists code, compile_program [5; 2] [nil_shape; ok_shape; (Some 200, [Some 101; None]); (None, [None; None])] (fun _ => false) (fun _ => None) ex_slice_prog = Some code /\
               length code = 33%nat /\
  exists w, eval_program [] 3 ex_slice_prog = Ret (VTuple (Some 200) [(Some 101, VInt 2); (None, vok)]) w.
Proof. eexists. split; [vm_compute; reflexivity|]. split; [reflexivity|]. eexists. vm_compute. reflexivity. Qed.

(* non-vacuity for blocks: `5 { | =6 => 1 | =x, [x, x] }` (a literal condition with a consequence
   that falls through, then a binder condition with the reset of its slot) compiles to 53
   instructions, evaluates to [5, 5]; `7 { y = ~, [y] }` (single branch: store, load, reset 2, reset 1) *)
Definition ex_block_prog : program :=
  Program [StmtExpression (Sequence
    [Chain None [Literal (LInteger 5);
                 Block (Expression
                   [Branch (Sequence [Chain None [Match (MLiteral (LInteger 6))]]) (Some (Sequence [Chain None [Literal (LInteger 1)]]));
                    Branch (Sequence [Chain None [Match (MIdentifier 100)];
                                      Chain None [Tuple Anonymous [TupleField None (FChain (Chain None [Access (mkAccess (Some (Identifier 100)) [])]));
                                                                   TupleField None (FChain (Chain None [Access (mkAccess (Some (Identifier 100)) [])]))]]]) None])]])].
Definition ex_block1_prog : program :=
  Program [StmtExpression (Sequence
    [Chain None [Literal (LInteger 7);
                 Block (Expression
                   [Branch (Sequence [Chain (Some (MIdentifier 101)) [Access (mkAccess (Some Ripple) [])];
                                      Chain None [Tuple Anonymous [TupleField None (FChain (Chain None [Access (mkAccess (Some (Identifier 101)) [])]))]]]) None])]])].
Example ex_blocks :
  (exists code, compile_program [5; 6; 1] [nil_shape; ok_shape; (None, [None; None])] (fun _ => false) (fun _ => None) ex_block_prog = Some code /\
                In (IEqual 2) code /\ In (IReset 2) code /\ In (IReset 1) code) /\
  (exists w, eval_program [] 3 ex_block_prog = Ret (VTuple None [(None, VInt 5); (None, VInt 5)]) w /\ n_fallthrough w = 1) /\
  (exists code, compile_program [7] [nil_shape; ok_shape; (None, [None])] (fun _ => false) (fun _ => None) ex_block1_prog = Some code /\
                skipn (length code - 2) code = [IReset 2; IReset 1]) /\
  (exists w, eval_program [] 3 ex_block1_prog = Ret (VTuple None [(None, VInt 7)]) w).
Proof.
  split; [eexists; split; [vm_compute; reflexivity | cbn; intuition]|].
  split; [eexists; vm_compute; split; reflexivity|].
  split; [eexists; split; [vm_compute; reflexivity | reflexivity]|].
  eexists. vm_compute. reflexivity.
Qed.

(* non-vacuity for calls: `f = #'int { [~, ~] }, 5 f` — the function literal (function 0 of the
   table: store; load 0; pick 0; pick 1; tuple; rotate 2; pop; reset 0), the binder, `load 1; call` *)
Definition ex_call_prog : program :=
  Program [StmtExpression (Sequence
    [Chain (Some (MIdentifier 102))
       [Function [] (Some (TPrimitive PInt)) None
          (Some (Expression [Branch (Sequence [Chain None [Tuple Anonymous [TupleField None (FChain (Chain None [Access (mkAccess (Some Ripple) [])]));
                                                                            TupleField None (FChain (Chain None [Access (mkAccess (Some Ripple) [])]))]]]) None]))];
     Chain None [Literal (LInteger 5); Access (mkAccess (Some (Identifier 102)) [])]])].
Example ex_call :
  (exists code, compile_program [5] [nil_shape; ok_shape; (None, [None; None])] (fun x => x =? 102) (fun _ => Some 0%nat) ex_call_prog = Some code /\
                In (IFunction 0) code /\ skipn (length code - 2) code = [ILoad 1; ICall]) /\
  (exists fc, function_code [5] [nil_shape; ok_shape; (None, [None; None])] (fun x => x =? 102) (fun _ => Some 0%nat)
                (Expression [Branch (Sequence [Chain None [Tuple Anonymous [TupleField None (FChain (Chain None [Access (mkAccess (Some Ripple) [])]));
                                                                            TupleField None (FChain (Chain None [Access (mkAccess (Some Ripple) [])]))]]]) None]) = Some fc /\
              fc = [IStore; ILoad 0; IPick 0; IPick 1; ITuple 2; IRotate 2; IPop; IReset 0]) /\
  (exists w, eval_program [] 3 ex_call_prog = Ret (VTuple None [(None, VInt 5); (None, VInt 5)]) w /\ n_closure_call w = 1).
Proof.
  split; [eexists; split; [vm_compute; reflexivity | split; [cbn; intuition | reflexivity]]|].
  split; [eexists; split; [vm_compute; reflexivity | reflexivity]|].
  eexists. vm_compute. split; reflexivity.
Qed.

(* ... and, composed with `normalize_preserves_value`: what the compiler does — normalise the
   blocks, then generate code — computes the value the reference evaluator assigns to the ORIGINAL
   program (for results without function values, which is all the fragment has) *)
Theorem normalize_then_compile_correct :
  forall (P : mprogram) (pool : list Z) (shapes : list shape) (isfun : atom -> bool) (fnum : expression -> option nat),
    (forall z k, const_index pool z = Some k -> nth_error (p_consts P) k = Some (CInt z)) ->
    (forall sh t, shape_index shapes sh = Some t -> nth_error (p_tuples P) t = Some (length (snd sh))) ->
    (exists r, shapes = nil_shape :: ok_shape :: r) ->
    (forall body k, fnum body = Some k ->
       exists code, function_code pool shapes isfun fnum body = Some code /\ nth_error (p_funcs P) k = Some (mk_func code 0)) ->
    forall (fn : nat) (p : program) (code : list instr) (pers : bool),
    compile_program pool shapes isfun fnum (normalize p) = Some code ->
    nth_error (p_funcs P) fn = Some (mk_func code 0) ->
    forall mods n v w, eval_program mods n p = Ret v w -> closure_free v ->
    exists mv ls,
      vrel shapes v mv /\
      star P (Quiver.vm.Vm.init_state fn [] mnil pers) (st fn 0 0 [] pers (length code) [mv] ls) /\
      (forall x, step P (st fn 0 0 [] pers (length code) [mv] ls) x =
                 Next (mk_state [mv] (if pers then ls else []) [] pers)) /\
      (forall x, step P (mk_state [mv] (if pers then ls else []) [] pers) x =
                 Quiver.vm.Vm.Finished mv (mk_state [] (if pers then ls else []) [] pers)).
Proof.
  intros P pool shapes isfun fnum Hpool Hshapes Hsh0 Hfuns fn p code pers Hc Hfn mods n v w Hev Hcf.
  destruct (normalize_preserves_value mods n p v w Hev Hcf) as [w' Hn].
  exact (compile_program_correct P pool shapes isfun fnum Hpool Hshapes Hsh0 Hfuns (nmods mods) fn (normalize p) code pers Hc Hfn n v w' Hn).
Qed.
