(* LangProofs.v — laws of the reference evaluator of Lang.v and the non-vacuity Examples.  The
   property file props/C02.v restates the theorems.  The evaluator is structurally recursive on
   the AST (fuel is consumed only by function calls and imports), so the laws are equations at
   one fuel level. *)
From Coq Require Import ZArith List Bool Lia.
From Quiver Require Import lang.Lang.
Import ListNotations.
Open Scope Z_scope.

(* Small facts about the outcome monad. *)
Lemma is_nil_true : forall v, is_nil v = true -> v = vnil.
Proof.
  intros v H. destruct v as [| |nm fs| |]; try discriminate.
  destruct nm; try discriminate. destruct fs; try discriminate. reflexivity.
Qed.

Lemma tick_ret : forall A s (a : A) w, tick s (Ret a w) = Ret a (st_add s w).
Proof. reflexivity. Qed.

Lemma bind_ret : forall A B (a : A) w (k : A -> res B), bind (Ret a w) k = tick w (k a).
Proof. reflexivity. Qed.

Lemma bind_inv : forall A B (r : res A) (k : A -> res B) b w,
  bind r k = Ret b w -> exists a w1 w2, r = Ret a w1 /\ k a = Ret b w2.
Proof.
  intros A B r k b w H. destruct r as [a w1| | |]; try discriminate. cbn [bind] in H.
  destruct (k a) as [b' w2| | |] eqn:Hk; try discriminate. inversion H; subst. eauto.
Qed.
Lemma tick_inv : forall A s (r : res A) a w, tick s r = Ret a w -> exists w', r = Ret a w'.
Proof. intros A s r a w H. destruct r; try discriminate. inversion H; subst. eauto. Qed.
Lemma with_env_inv : forall A e (r : res A) x e' w,
  with_env e r = Ret (x, e') w -> e' = e /\ exists w', r = Ret x w'.
Proof.
  intros A e r x e' w H. destruct (bind_inv _ _ _ _ _ _ H) as (a & w1 & w2 & -> & Hk).
  inversion Hk; subst. eauto.
Qed.
Arguments bind_inv {A B r k b w}.
Arguments tick_inv {A s r a w}.
Arguments with_env_inv {A e r x e' w}.

(* one step of the walkers over sequences and branches *)
Lemma seq_with_cons2 : forall ev c1 c2 r e v,
  seq_with ev (c1 :: c2 :: r) e v =
  (do x <- ev c1 e v ;; if is_nil (fst x) then Ret (vnil, snd x) ev_short else seq_with ev (c2 :: r) (snd x) (fst x)).
Proof. reflexivity. Qed.
Lemma branches_with_cons : forall ev cd k r e v,
  branches_with ev (Branch cd k :: r) e v =
  (do x <- ev cd e v ;;
   if is_nil (fst x) then tick ev_fallthrough (branches_with ev r e v)
   else match k with
        | None => ret (fst x)
        | Some ks => tick ev_commit (do y <- ev ks (snd x) v ;; ret (fst y))
        end).
Proof. reflexivity. Qed.

Lemma lookup_var_push : forall {x y} {w : value} {e}, y <> a_star ->
  lookup_var x ((y, w) :: e) = if x =? y then Some w else lookup_var x e.
Proof.
  intros x y w e Hy. unfold lookup_var. cbn [lookup]. destruct (x =? y); [reflexivity|].
  destruct (a_star =? y) eqn:Hs; [apply Z.eqb_eq in Hs; congruence | reflexivity].
Qed.

Lemma add_field_fresh : forall acc l w,
  (match l with Some _ => existsb (oatom_eqb l) (map fst acc) | None => false end) = false ->
  add_field acc l w = acc ++ [(l, w)].
Proof.
  intros acc [x|] w H; [|reflexivity]. unfold add_field.
  assert (Hr : replace_field x w acc = None).
  { induction acc as [|[[k|] v] r IH]; [reflexivity| |].
    - cbn [map fst existsb oatom_eqb] in H. apply orb_false_iff in H. destruct H as [Hk Hr].
      cbn [replace_field]. rewrite Hk. rewrite (IH Hr). reflexivity.
    - cbn [map fst existsb oatom_eqb] in H. cbn [replace_field]. rewrite (IH H). reflexivity. }
  rewrite Hr. reflexivity.
Qed.

(* the outcomes of builtins: an integer, a binary or an error (no function value, tail call or
   timeout), which is what `call` and the normalisation of function bodies need to know *)
Definition plain (r : res value) : Prop :=
  match r with Ret (VInt _) _ | Ret (VBin _) _ | Error _ => True | _ => False end.
Lemma int2_plain : forall arg f, (forall x y, plain (f x y)) -> plain (int2 arg f).
Proof.
  intros arg f H. unfold int2.
  destruct arg as [| |n [|[l1 [| | | |]] [|[l2 [| | | |]] [|]]]| |]; try exact I. apply H.
Qed.
Lemma apply_builtin_plain : forall b arg, plain (apply_builtin b arg).
Proof.
  intros b arg. unfold apply_builtin.
  repeat match goal with |- plain (if b =? ?k then _ else _) => destruct (b =? k) end.
  (* the table's order: seven binary integer operations, then abs, sqrt, concat, length *)
  1-7: apply int2_plain; intros x y; try destruct (y =? 0); exact I.
  - destruct arg; exact I.
  - destruct arg as [x| | | |]; try exact I. destruct (x <? 0); exact I.
  - destruct arg as [| |n [|[l1 [| | | |]] [|[l2 [| | | |]] [|]]]| |]; exact I.
  - destruct arg; exact I.
  - exact I.
Qed.

Section Laws.
  Variable tf : nat.
  Variable callf : value -> value -> stats -> res value.
  Variable importf : list atom -> res value.
  Notation eval_term := (eval_term tf callf importf).
  Notation eval_chain := (eval_chain tf callf importf).
  Notation eval_sequence := (eval_sequence tf callf importf).
  Notation eval_expr := (eval_expr tf callf importf).


  (* unfolding equations of the structural evaluator (all by conversion) *)
  Lemma eval_chain_none : forall c ts e v, eval_chain c (Chain None ts) e v = terms_with (eval_term c) ts e v.
  Proof. reflexivity. Qed.
  Lemma eval_chain_some : forall c p ts e v,
    eval_chain c (Chain (Some p) ts) e v = (do x <- terms_with (eval_term c) ts e v ;; do_match tf c (snd x) p (fst x)).
  Proof. reflexivity. Qed.
  Lemma eval_sequence_eq : forall c cs e v, eval_sequence c (Sequence cs) e v = seq_with (eval_chain c) cs e v.
  Proof. reflexivity. Qed.
  Lemma eval_expr_eq : forall c bs e v, eval_expr c (Expression bs) e v = branches_with (eval_sequence c) bs e v.
  Proof. reflexivity. Qed.
  Lemma eval_term_block : forall c b e v, eval_term c (Block b) e v = with_env e (eval_expr c b e v).
  Proof. reflexivity. Qed.
  Lemma eval_term_string : forall c segs e v,
    eval_term c (String segs) e v = (do bs <- segments_with (eval_expr c) segs e v [] ;; ret (vstr bs, e)).
  Proof. reflexivity. Qed.
  Lemma eval_term_match : forall c p e v, eval_term c (Match p) e v = do_match tf c e p v.
  Proof. reflexivity. Qed.
  Lemma eval_term_tuple : forall c name fields e v,
    eval_term c (Tuple name fields) e v =
    (do r <- fields_with (eval_chain c) fields e v [] None ;;
     let '(fs, inh, e') := r in
     match name with
     | Anonymous => ret (VTuple None fs, e')
     | Named a => ret (VTuple (Some a) fs, e')
     | Inherit => match inh with
                  | Some nm => ret (VTuple nm fs, e')
                  | None => Error (EStuck s_inherit)
                  end
     end).
  Proof. reflexivity. Qed.

  (* chain = infallible pipe: whatever a term evaluates to (nil included) flows into the next
     term; the only effect of a nil is the event counter. *)
  Lemma chain_infallible : forall c e t ts v x e1 w,
    eval_term c t e v = Ret (x, e1) w ->
    eval_chain c (Chain None (t :: ts)) e v =
    tick w (tick (match t, ts with
                  | Match _, _ :: _ => if is_nil x then ev_mid_fail else st0
                  | _, _ => st0
                  end) (eval_chain c (Chain None ts) e1 x)).
  Proof.
    intros c e t ts v x e1 w H. rewrite !eval_chain_none. cbn [terms_with]. rewrite H. reflexivity.
  Qed.

  Corollary chain_nil_flows : forall c e t ts v e1 w,
    eval_term c t e v = Ret (vnil, e1) w ->
    exists s1 s2, eval_chain c (Chain None (t :: ts)) e v = tick s1 (tick s2 (eval_chain c (Chain None ts) e1 vnil)).
  Proof.
    intros c e t ts v e1 w H. rewrite (chain_infallible _ _ _ ts _ _ _ _ H). eauto.
  Qed.

  (* sequence = fallible pipe: a nil step ends the sequence with nil; the remaining steps do not
     matter (they are not evaluated: the equation holds for every `rest`). *)
  Lemma sequence_short_circuit : forall c e ch rest v x e1 w,
    rest <> [] ->
    eval_chain c ch e v = Ret (x, e1) w -> is_nil x = true ->
    eval_sequence c (Sequence (ch :: rest)) e v = Ret (vnil, e1) (st_add w ev_short).
  Proof.
    intros c e ch rest v x e1 w Hne H Hnil. rewrite ?eval_sequence_eq. cbn [seq_with].
    destruct rest as [|r0 rest]; [congruence|]. rewrite H. cbn [bind fst snd]. rewrite Hnil. reflexivity.
  Qed.

  Lemma sequence_continues : forall c e ch r0 rest v x e1 w,
    eval_chain c ch e v = Ret (x, e1) w -> is_nil x = false ->
    eval_sequence c (Sequence (ch :: r0 :: rest)) e v = tick w (eval_sequence c (Sequence (r0 :: rest)) e1 x).
  Proof.
    intros c e ch r0 rest v x e1 w H Hnil. rewrite ?eval_sequence_eq. cbn [seq_with]. rewrite H.
    cbn [bind fst snd]. rewrite Hnil. reflexivity.
  Qed.

  (* a branch whose condition is nil is abandoned: the next branch starts from the block's input
     in the scope the block was entered with; the consequence is not evaluated *)
  Lemma branch_fallthrough : forall c e cond conseq rest v x e1 w,
    eval_sequence c cond e v = Ret (x, e1) w -> is_nil x = true ->
    eval_expr c (Expression (Branch cond conseq :: rest)) e v =
    tick w (tick ev_fallthrough (eval_expr c (Expression rest) e v)).
  Proof.
    intros c e cond conseq rest v x e1 w H Hnil. rewrite ?eval_expr_eq. cbn [branches_with]. rewrite <- ?eval_expr_eq. rewrite H.
    cbn [bind fst snd]. rewrite Hnil. reflexivity.
  Qed.

  Lemma block_without_match_is_nil : forall c e v, eval_expr c (Expression []) e v = Ret vnil st0.
  Proof. reflexivity. Qed.

  (* a condition that is not nil commits: the block's value is the consequence's value even when
     that is nil; the remaining branches do not matter *)
  Lemma consequence_commits : forall c e cond k rest v x e1 w y e2 w2,
    eval_sequence c cond e v = Ret (x, e1) w -> is_nil x = false ->
    eval_sequence c k e1 v = Ret (y, e2) w2 ->
    exists w', eval_expr c (Expression (Branch cond (Some k) :: rest)) e v = Ret y w'.
  Proof.
    intros c e cond k rest v x e1 w y e2 w2 H Hnil H2. rewrite ?eval_expr_eq. cbn [branches_with]. rewrite <- ?eval_expr_eq. rewrite H.
    cbn [bind fst snd]. rewrite Hnil, H2. cbn. eexists. reflexivity.
  Qed.

  Lemma condition_without_consequence : forall c e cond rest v x e1 w,
    eval_sequence c cond e v = Ret (x, e1) w -> is_nil x = false ->
    exists w', eval_expr c (Expression (Branch cond None :: rest)) e v = Ret x w'.
  Proof.
    intros c e cond rest v x e1 w H Hnil. rewrite ?eval_expr_eq. cbn [branches_with]. rewrite <- ?eval_expr_eq. rewrite H.
    cbn [bind fst snd]. rewrite Hnil. cbn. eexists. reflexivity.
  Qed.

  (* blocks and string holes are scopes: the bindings after them are the
     bindings before them *)
  Lemma block_scoping : forall c e b v r e' w,
    eval_term c (Block b) e v = Ret (r, e') w -> e' = e.
  Proof.
    intros c e b v r e' w H. rewrite eval_term_block in H. exact (proj1 (with_env_inv H)).
  Qed.

  Lemma string_scoping : forall c e segs v r e' w,
    eval_term c (String segs) e v = Ret (r, e') w -> e' = e.
  Proof.
    intros c e segs v r e' w H. rewrite eval_term_string in H.
    destruct (bind_inv H) as (bs & w1 & w2 & _ & Hr). inversion Hr. reflexivity.
  Qed.

  (* a function literal captures the whole scope BY VALUE at its definition ... *)
  Lemma closure_captures_scope : forall c e tps pt rt body v,
    eval_term c (Function tps pt rt body) e v =
    Ret (VClos (nilary_of (c_tenv c) pt) body e (c_tenv c), e) st0.
  Proof. reflexivity. Qed.

  (* ... and applying a variable that holds a function consults the caller's scope only to find
     the function: the body runs in the captured scope (a call has no scope argument), and the
     caller's bindings are unchanged afterwards *)
  Lemma closure_captures_by_value : forall c e f clo v,
    lookup_var f e = Some clo ->
    eval_term c (Access (mkAccess (Some (Identifier f)) [])) e v =
    with_env e (tick st0 (if is_callable clo then callf clo (tail_arg clo v) st0 else ret clo)).
  Proof.
    intros c e f clo v H.
    change (eval_term c (Access (mkAccess (Some (Identifier f)) [])) e v) with
      (match lookup_var f e with
       | Some base => with_env e (do w <- access_all base [] ;; apply_value callf w v)
       | None => Error (EStuck s_unbound)
       end).
    rewrite H. reflexivity.
  Qed.

  Corollary call_independent_of_caller_scope : forall c1 c2 e1 e2 f clo v,
    lookup_var f e1 = Some clo -> lookup_var f e2 = Some clo ->
    bind (eval_term c1 (Access (mkAccess (Some (Identifier f)) [])) e1 v) (fun x => ret (fst x)) =
    bind (eval_term c2 (Access (mkAccess (Some (Identifier f)) [])) e2 v) (fun x => ret (fst x)).
  Proof.
    intros c1 c2 e1 e2 f clo v H1 H2.
    rewrite (closure_captures_by_value c1 _ _ _ _ H1), (closure_captures_by_value c2 _ _ _ _ H2).
    unfold with_env. destruct (tick st0 _); reflexivity.
  Qed.
End Laws.

(* Fuel monotonicity: an outcome other than Timeout is stable under more fuel, for every
   judgement of the evaluator.  Hence `eval` defines a partial function (the outcome, when
   there is one, does not depend on the fuel). *)
Definition le_res {A} (r1 r2 : res A) : Prop := r1 = Timeout \/ r1 = r2.

Lemma le_refl : forall A (r : res A), le_res r r.
Proof. intros; right; reflexivity. Qed.
Lemma le_timeout : forall A (r : res A), le_res Timeout r.
Proof. intros; left; reflexivity. Qed.
Lemma le_tick : forall A s (a b : res A), le_res a b -> le_res (tick s a) (tick s b).
Proof. intros A s a b [-> | ->]; [left | right]; reflexivity. Qed.
Lemma le_bind : forall A B (a b : res A) (f g : A -> res B),
  le_res a b -> (forall x, le_res (f x) (g x)) -> le_res (bind a f) (bind b g).
Proof.
  intros A B a b f g [-> | ->] H; [left; reflexivity|].
  destruct b; cbn [bind]; auto using le_tick, le_refl.
Qed.
Lemma le_with_env : forall A e (a b : res A), le_res a b -> le_res (with_env e a) (with_env e b).
Proof. intros. unfold with_env. apply le_bind; auto using le_refl. Qed.
#[local] Hint Resolve le_refl le_timeout le_tick le_with_env : le.

Lemma any_res_le : forall (f g : ty -> res bool) ts,
  (forall t, le_res (f t) (g t)) -> le_res (any_res f ts) (any_res g ts).
Proof.
  intros f g ts H. induction ts as [|t r IH]; cbn [any_res]; auto with le.
  apply le_bind; auto. intros [|]; auto with le.
Qed.
Lemma all_res_le : forall (f g : ty -> res bool) ts,
  (forall t, le_res (f t) (g t)) -> le_res (all_res f ts) (all_res g ts).
Proof.
  intros f g ts H. induction ts as [|t r IH]; cbn [all_res]; auto with le.
  apply le_bind; auto. intros [|]; auto with le.
Qed.
Lemma full_fields_le : forall (f g : ty -> value -> res bool) fts vs,
  (forall t v, le_res (f t v) (g t v)) -> le_res (full_fields f fts vs) (full_fields g fts vs).
Proof.
  intros f g fts. induction fts as [|ft r IH]; intros vs H; destruct vs as [|[k v] vs]; cbn [full_fields]; auto with le.
  destruct ft as [l t|]; auto with le. destruct (oatom_eqb l k); auto with le.
  apply le_bind; auto. intros [|]; auto with le.
Qed.
Lemma partial_fields_le : forall (f g : ty -> value -> res bool) fts vs,
  (forall t v, le_res (f t v) (g t v)) -> le_res (partial_fields f fts vs) (partial_fields g fts vs).
Proof.
  intros f g fts vs H. induction fts as [|ft r IH]; cbn [partial_fields]; auto with le.
  destruct ft as [[l|] t|]; auto with le. destruct (find_field l vs); auto with le.
  apply le_bind; auto. intros [|]; auto with le.
Qed.

Lemma inhab_mono : forall n m te root t v, (n <= m)%nat ->
  le_res (inhab n te root t v) (inhab m te root t v).
Proof.
  induction n as [|n IH]; intros m te root t v Hle; [apply le_timeout|].
  destruct m as [|m]; [lia|]. assert (Hle' : (n <= m)%nat) by lia.
  cbn [inhab]. destruct t as [p|name part fts|i o|ts|ts|x args|d| | |mo mem args|args]; auto with le.
  - destruct v as [| |vn vfs| |]; auto with le. destruct part.
    + destruct (match name with None => true | Some _ => oatom_eqb name vn end); auto with le.
      apply partial_fields_le. intros; apply IH; assumption.
    + destruct (oatom_eqb name vn); auto with le. apply full_fields_le. intros; apply IH; assumption.
  - apply any_res_le. intros; apply IH; assumption.
  - apply all_res_le. intros; apply IH; assumption.
  - destruct (lookup_alias (Some x) te) as [[ps body]|]; auto with le.
    destruct (existsb has_cycle args); auto with le. destruct (zip_params ps args); auto with le.
  - destruct d as [d|]; auto with le. destruct (d =? 0); auto with le.
  - destruct (lookup_alias None te) as [[ps body]|]; auto with le.
    destruct (existsb has_cycle args); auto with le. destruct (zip_params ps args); auto with le.
Qed.

(* induction principle for the nested pattern type *)
Section PatternInd.
  Variable P : pattern -> Prop.
  Hypothesis HId : forall x, P (MIdentifier x).
  Hypothesis HLit : forall l, P (MLiteral l).
  Hypothesis HStr : forall b, P (MString b).
  Hypothesis HTup : forall n fs, Forall (fun f => match f with MatchField _ q => P q end) fs -> P (MTuple n fs).
  Hypothesis HPar : forall n fs,
    Forall (fun f => match f with PartialPatternField _ (Some q) => P q | _ => True end) fs -> P (MPartial n fs).
  Hypothesis HStar : forall n, P (MStar n).
  Hypothesis HPh : P MPlaceholder.
  Hypothesis HRef : forall x, P (MReference x).
  Hypothesis HTy : forall t, P (MType t).
  Hypothesis HOr : forall ps, Forall P ps -> P (MOr ps).
  Hypothesis HAs : forall t x, P (MAs t x).

  Fixpoint pattern_ind' (p : pattern) : P p :=
    match p with
    | MIdentifier x => HId x
    | MLiteral l => HLit l
    | MString b => HStr b
    | MTuple n fs =>
        HTup n fs ((fix go (l : list match_field) : Forall (fun f => match f with MatchField _ q => P q end) l :=
                      match l with
                      | [] => Forall_nil _
                      | MatchField k q :: r => Forall_cons (MatchField k q) (pattern_ind' q) (go r)
                      end) fs)
    | MPartial n fs =>
        HPar n fs ((fix go (l : list partial_field)
                      : Forall (fun f => match f with PartialPatternField _ (Some q) => P q | _ => True end) l :=
                      match l with
                      | [] => Forall_nil _
                      | PartialPatternField k (Some q) :: r =>
                          Forall_cons (PartialPatternField k (Some q)) (pattern_ind' q) (go r)
                      | PartialPatternField k None :: r => Forall_cons (PartialPatternField k None) I (go r)
                      end) fs)
    | MStar n => HStar n
    | MPlaceholder => HPh
    | MReference x => HRef x
    | MType t => HTy t
    | MOr ps => HOr ps ((fix go (l : list pattern) : Forall P l :=
                           match l with [] => Forall_nil _ | q :: r => Forall_cons q (pattern_ind' q) (go r) end) ps)
    | MAs t x => HAs t x
    end.
End PatternInd.

Definition le_pres (p1 p2 : pres) : Prop := p1 = PTimeout \/ p1 = p2.
Lemma le_pres_refl : forall p, le_pres p p.
Proof. intros; right; reflexivity. Qed.
#[local] Hint Resolve le_pres_refl : le.

Lemma type_verdict_mono : forall n m te t v k, (n <= m)%nat ->
  le_pres (type_verdict n te t v k) (type_verdict m te t v k).
Proof.
  intros n m te t v k Hle. unfold type_verdict.
  destruct (inhab_mono n m te t t v Hle) as [-> | ->]; [left; reflexivity | right; reflexivity].
Qed.

Lemma pmatch_mono : forall n m te outer, (n <= m)%nat ->
  forall p b v, le_pres (pmatch n te outer b p v) (pmatch m te outer b p v).
Proof.
  intros n m te outer Hle p. induction p as [x|l|bs|name fs IH|name fs IH|name| |x|t|ps IH|t x] using pattern_ind';
    intros b v; cbn [pmatch]; auto with le.
  - destruct v as [| |vn vfs| |]; auto with le. destruct (oatom_eqb name vn); auto with le.
    revert b vfs. induction IH as [|[l q] fs' Hq _ IHfs]; intros b vfs; destruct vfs as [|[k w] ws]; auto with le.
    destruct (oatom_eqb l k); auto with le.
    destruct (Hq b w) as [-> | ->]; [left; reflexivity|].
    destruct (pmatch m te outer b q w); auto with le.
  - destruct v as [| |vn vfs| |]; auto with le. destruct (name_ok name vn); auto with le.
    revert b. induction IH as [|[l [q|]] fs' Hq _ IHfs]; intros b; auto with le.
    + destruct (find_field l vfs) as [w|]; auto with le.
      destruct (Hq b w) as [-> | ->]; [left; reflexivity|].
      destruct (pmatch m te outer b q w); auto with le.
    + destruct (find_field l vfs) as [w|]; auto with le.
      destruct (bind_var b l w); auto with le.
  - apply type_verdict_mono; assumption.
  - induction IH as [|q ps' Hq _ IHps]; auto with le.
    destruct (Hq b v) as [-> | ->]; [left; reflexivity|].
    destruct (pmatch m te outer b q v); auto with le.
  - apply type_verdict_mono; assumption.
Qed.

Lemma do_match_mono : forall n m c e p v, (n <= m)%nat ->
  le_res (do_match n c e p v) (do_match m c e p v).
Proof.
  intros n m c e p v Hle. unfold do_match.
  destruct (pmatch_mono n m (c_tenv c) e Hle p [] v) as [-> | ->]; [left; reflexivity | right; reflexivity].
Qed.


(* Induction principle for the nested mutual AST: predicates on terms, chains, sequences and
   expressions; tuple fields, string segments and branches inherit theirs. *)
Definition Popt {A} (P : A -> Prop) (o : option A) : Prop := match o with Some a => P a | None => True end.
Definition on_field (Pc : chain -> Prop) (f : tuple_field) : Prop :=
  match f with TupleField _ (FChain c) => Pc c | _ => True end.
Definition on_segment (Pe : expression -> Prop) (g : str_segment) : Prop :=
  match g with Hole e => Pe e | Text _ => True end.
Definition on_branch (Ps : sequence -> Prop) (b : branch) : Prop :=
  match b with Branch c k => Ps c /\ Popt Ps k end.

Section AstInd.
  Variables (Pt : term -> Prop) (Pc : chain -> Prop) (Ps : sequence -> Prop) (Pe : expression -> Prop).
  Hypothesis HLiteral : forall l, Pt (Literal l).
  Hypothesis HTuple : forall n fs, Forall (on_field Pc) fs -> Pt (Tuple n fs).
  Hypothesis HString : forall segs, Forall (on_segment Pe) segs -> Pt (String segs).
  Hypothesis HMatch : forall p, Pt (Match p).
  Hypothesis HBlock : forall e, Pe e -> Pt (Block e).
  Hypothesis HFunction : forall tps pt rt body, Popt Pe body -> Pt (Function tps pt rt body).
  Hypothesis HAccess : forall a, Pt (Access a).
  Hypothesis HSpawn : forall t, Pt t -> Pt (Spawn t).
  Hypothesis HSelf : Pt Self_.
  Hypothesis HSelect : forall cs, Popt (Forall Pc) cs -> Pt (Select cs).
  Hypothesis HProcess : forall n, Pt (Process n).
  Hypothesis HReference : forall a, Pt (Reference a).
  Hypothesis HChain : forall mp ts, Forall Pt ts -> Pc (Chain mp ts).
  Hypothesis HSequence : forall cs, Forall Pc cs -> Ps (Sequence cs).
  Hypothesis HExpression : forall bs, Forall (on_branch Ps) bs -> Pe (Expression bs).

  Fixpoint term_ind' (t : term) : Pt t :=
    match t with
    | Literal l => HLiteral l
    | Tuple n fs => HTuple n fs ((fix go (l : list tuple_field) : Forall (on_field Pc) l :=
                      match l with [] => Forall_nil _ | x :: r => Forall_cons x (field_ind' x) (go r) end) fs)
    | String segs => HString segs ((fix go (l : list str_segment) : Forall (on_segment Pe) l :=
                      match l with [] => Forall_nil _ | x :: r => Forall_cons x (segment_ind' x) (go r) end) segs)
    | Match p => HMatch p
    | Block e => HBlock e (expression_ind' e)
    | Function tps pt rt body => HFunction tps pt rt body (match body with Some e => expression_ind' e | None => I end)
    | Access a => HAccess a
    | Spawn t' => HSpawn t' (term_ind' t')
    | Self_ => HSelf
    | Select None => HSelect None I
    | Select (Some cs) => HSelect (Some cs) ((fix go (l : list chain) : Forall Pc l :=
                      match l with [] => Forall_nil _ | x :: r => Forall_cons x (chain_ind' x) (go r) end) cs)
    | Process n => HProcess n
    | Reference a => HReference a
    end
  with field_ind' (f : tuple_field) : on_field Pc f :=
    match f with
    | TupleField n (FChain c) => chain_ind' c
    | TupleField n (FSpread x) => I
    end
  with segment_ind' (g : str_segment) : on_segment Pe g :=
    match g with Text b => I | Hole e => expression_ind' e end
  with chain_ind' (c : chain) : Pc c :=
    match c with Chain mp ts => HChain mp ts ((fix go (l : list term) : Forall Pt l :=
                      match l with [] => Forall_nil _ | x :: r => Forall_cons x (term_ind' x) (go r) end) ts) end
  with sequence_ind' (s : sequence) : Ps s :=
    match s with Sequence cs => HSequence cs ((fix go (l : list chain) : Forall Pc l :=
                      match l with [] => Forall_nil _ | x :: r => Forall_cons x (chain_ind' x) (go r) end) cs) end
  with branch_ind' (b : branch) : on_branch Ps b :=
    match b with Branch c k => conj (sequence_ind' c) (match k return Popt Ps k with Some s => sequence_ind' s | None => I end) end
  with expression_ind' (e : expression) : Pe e :=
    match e with Expression bs => HExpression bs ((fix go (l : list branch) : Forall (on_branch Ps) l :=
                      match l with [] => Forall_nil _ | x :: r => Forall_cons x (branch_ind' x) (go r) end) bs) end.

  Lemma ast_ind4 :
    (forall t, Pt t) /\ (forall c, Pc c) /\ (forall s, Ps s) /\ (forall e, Pe e).
  Proof.
    repeat split; [apply term_ind' | apply chain_ind' | apply sequence_ind' | apply expression_ind'].
  Qed.
End AstInd.

(* Monotonicity of one level in what consumes fuel. *)
  Lemma terms_with_le : forall (ev ev' : term -> env -> value -> res (value * env)) ts,
    Forall (fun t => forall e v, le_res (ev t e v) (ev' t e v)) ts ->
    forall e v, le_res (terms_with ev ts e v) (terms_with ev' ts e v).
  Proof.
    intros ev ev' ts H. induction H as [|t r Ht _ IH]; intros e v; cbn [terms_with]; [apply le_refl|].
    apply le_bind; [apply Ht | intros x; apply le_tick, IH].
  Qed.
  Lemma seq_with_le : forall (ev ev' : chain -> env -> value -> res (value * env)) cs,
    Forall (fun c => forall e v, le_res (ev c e v) (ev' c e v)) cs ->
    forall e v, le_res (seq_with ev cs e v) (seq_with ev' cs e v).
  Proof.
    intros ev ev' cs H. induction H as [|c r Hc _ IH]; intros e v; cbn [seq_with]; [apply le_refl|].
    apply le_bind; [apply Hc|]. intros x. destruct r; [apply le_refl|].
    destruct (is_nil (fst x)); [apply le_refl | apply IH].
  Qed.
  Lemma fields_with_le : forall (ev ev' : chain -> env -> value -> res (value * env)) fs,
    Forall (on_field (fun c => forall e v, le_res (ev c e v) (ev' c e v))) fs ->
    forall e v acc inh, le_res (fields_with ev fs e v acc inh) (fields_with ev' fs e v acc inh).
  Proof.
    intros ev ev' fs H. induction H as [|[l [c|x]] r Hc _ IH]; intros e v acc inh; cbn [fields_with].
    - apply le_refl.
    - apply le_bind; [apply Hc | intros; apply IH].
    - destruct (match x with Some x0 => lookup_var x0 e | None => Some v end) as [[| | | |]|]; try apply le_refl. apply IH.
  Qed.
  Lemma branches_with_le : forall (ev ev' : sequence -> env -> value -> res (value * env)) bs,
    Forall (on_branch (fun s => forall e v, le_res (ev s e v) (ev' s e v))) bs ->
    forall e v, le_res (branches_with ev bs e v) (branches_with ev' bs e v).
  Proof.
    intros ev ev' bs H. induction H as [|[c k] r [Hc Hk] _ IH]; intros e v; cbn [branches_with]; [apply le_refl|].
    apply le_bind; [apply Hc|]. intros x. destruct (is_nil (fst x)); [apply le_tick, IH|].
    destruct k as [k|]; [|apply le_refl]. apply le_tick, le_bind; [apply Hk | intros; apply le_refl].
  Qed.
  Lemma segments_with_le : forall (ev ev' : expression -> env -> value -> res value) segs,
    Forall (on_segment (fun b => forall e v, le_res (ev b e v) (ev' b e v))) segs ->
    forall e v acc, le_res (segments_with ev segs e v acc) (segments_with ev' segs e v acc).
  Proof.
    intros ev ev' segs H. induction H as [|[bs|b] r Hg _ IH]; intros e v acc; cbn [segments_with].
    - apply le_refl.
    - apply IH.
    - apply le_bind; [apply Hg|]. intros h.
      destruct h as [| |[nm|] [|[[l|] [| bs| | |]] [|f2 fs]]| |]; try apply le_refl.
      destruct (nm =? a_Str); [apply IH | apply le_refl].
  Qed.

Section LevelMono.
  Variables (tf tf' : nat) (cf cf' : value -> value -> stats -> res value) (imf imf' : list atom -> res value).
  Hypothesis Htf : (tf <= tf')%nat.
  Hypothesis Hcf : forall f a acc, le_res (cf f a acc) (cf' f a acc).
  Hypothesis Himf : forall p, le_res (imf p) (imf' p).

  Lemma apply_value_le : forall w v, le_res (apply_value cf w v) (apply_value cf' w v).
  Proof. intros w v. unfold apply_value. destruct (is_callable w); [apply Hcf | apply le_refl]. Qed.

  Lemma level_mono :
    (forall t c e v, le_res (eval_term tf cf imf c t e v) (eval_term tf' cf' imf' c t e v)) /\
    (forall ch c e v, le_res (eval_chain tf cf imf c ch e v) (eval_chain tf' cf' imf' c ch e v)) /\
    (forall s c e v, le_res (eval_sequence tf cf imf c s e v) (eval_sequence tf' cf' imf' c s e v)) /\
    (forall b c e v, le_res (eval_expr tf cf imf c b e v) (eval_expr tf' cf' imf' c b e v)).
  Proof.
    pose proof apply_value_le as Hap. apply ast_ind4.
    - intros; apply le_refl.
    - intros n fs H c e v. rewrite !eval_term_tuple. apply le_bind.
      + apply fields_with_le. eapply Forall_impl; [|exact H]. intros [l [ch|x]] Hf; cbn [on_field] in *; [intros; apply Hf | exact I].
      + intros [[fs' inh] e']. apply le_refl.
    - intros segs H c e v. rewrite !eval_term_string. apply le_bind; [|intros; apply le_refl].
      apply segments_with_le. eapply Forall_impl; [|exact H]. intros [bs|b] Hg; cbn [on_segment] in *; [exact I | intros; apply Hg].
    - intros p c e v. rewrite !eval_term_match. apply do_match_mono; assumption.
    - intros b H c e v. rewrite !eval_term_block. apply le_with_env, H.
    - intros; apply le_refl.
    - intros [src path] c e v. cbn [eval_term].
      destruct src as [[y| | |p| |b|[y|]|]|]; try apply le_refl.
      + destruct (lookup_var y e); [|apply le_refl]. apply le_with_env, le_bind; [apply le_refl | intros; apply Hap].
      + apply le_with_env, le_bind; [apply le_refl | intros; apply Hap].
      + apply le_with_env, le_bind; [apply Himf|]. intros base. apply le_bind; [apply le_refl | intros; apply Hap].
      + apply le_with_env, le_bind; [apply le_refl | intros; apply Hap].
    - intros; apply le_refl.
    - intros; apply le_refl.
    - intros; apply le_refl.
    - intros; apply le_refl.
    - intros [src path] c e v. cbn [eval_term].
      destruct src as [[y| | |p| |b|[y|]|]|]; try apply le_refl.
      apply le_with_env, le_bind; [apply Himf | intros; apply le_refl].
    - intros mp ts H c e v. destruct mp as [p|]; [rewrite !eval_chain_some | rewrite !eval_chain_none].
      + apply le_bind; [|intros; apply do_match_mono; assumption].
        apply terms_with_le. eapply Forall_impl; [|exact H]. intros t Ht e0 v0. apply Ht.
      + apply terms_with_le. eapply Forall_impl; [|exact H]. intros t Ht e0 v0. apply Ht.
    - intros cs H c e v. rewrite !eval_sequence_eq. apply seq_with_le.
      eapply Forall_impl; [|exact H]. intros ch Hc e0 v0. apply Hc.
    - intros bs H c e v. rewrite !eval_expr_eq. apply branches_with_le.
      eapply Forall_impl; [|exact H]. intros [cd k] [Hc Hk]. cbn [on_branch]. split; [intros; apply Hc|].
      destruct k; cbn in *; auto.
  Qed.
End LevelMono.

(* Fuel monotonicity of the whole evaluator: calls, imports, programs, expressions. *)
Definition mono_at (mods : list (list atom * program)) (n m : nat) : Prop :=
  (forall f a acc, le_res (call mods n f a acc) (call mods m f a acc)) /\
  (forall path, le_res (eval_import mods n path) (eval_import mods m path)).

Lemma run_program_le : forall tf tf' cf cf' imf imf' p,
  (tf <= tf')%nat -> (forall f a acc, le_res (cf f a acc) (cf' f a acc)) -> (forall q, le_res (imf q) (imf' q)) ->
  le_res (run_program tf cf imf p) (run_program tf' cf' imf' p).
Proof.
  intros tf tf' cf cf' imf imf' [ss] Htf Hcf Him. unfold run_program.
  destruct (level_mono tf tf' cf cf' imf imf' Htf Hcf Him) as (_ & Hchain & _ & _).
  assert (H : le_res (seq_with (eval_chain tf cf imf (mkCtx vnil None (collect_aliases ss))) (collect_chains ss) [] vnil)
                     (seq_with (eval_chain tf' cf' imf' (mkCtx vnil None (collect_aliases ss))) (collect_chains ss) [] vnil)).
  { apply seq_with_le. apply Forall_forall. intros ch _ e v. apply Hchain. }
  destruct H as [-> | ->]; [apply le_timeout | apply le_refl].
Qed.

Lemma call_S : forall mods m f arg acc,
  call mods (S m) f arg acc =
  match f with
  | VBuiltin b => tick acc (apply_builtin b arg)
  | VClos _ None _ _ => Ret arg acc
  | VClos _ (Some body) cenv te =>
      match eval_expr m (call mods m) (eval_import mods m) (mkCtx arg (Some f) te) body cenv arg with
      | Ret r w => Ret r (st_add acc (st_add ev_closure_call w))
      | TailC g a w => call mods m g a (st_add acc (st_add ev_closure_call (st_add w ev_tail_call)))
      | Error err => Error err
      | Timeout => Timeout
      end
  | _ => Error (EStuck s_notfun)
  end.
Proof. reflexivity. Qed.

Lemma eval_import_S : forall mods m path,
  eval_import mods (S m) path =
  match find_module path mods with
  | Some p => run_program m (call mods m) (eval_import mods m) p
  | None => Error (EUnsupported u_module)
  end.
Proof. reflexivity. Qed.

Lemma mono_all : forall mods n m, (n <= m)%nat -> mono_at mods n m.
Proof.
  intros mods. induction n as [|n IH]; intros m Hle.
  - split; intros; apply le_timeout.
  - destruct m as [|m]; [lia|]. assert (Hle' : (n <= m)%nat) by lia.
    destruct (IH m Hle') as (Hcall & Himp). split.
    + intros f a acc. rewrite !call_S. destruct f as [z0|bs0|nm0 fs0|nl body cenv te|b]; try apply le_refl.
      destruct body as [body|]; [|apply le_refl].
      destruct (level_mono n m _ _ _ _ Hle' Hcall Himp) as (_ & _ & _ & Hexpr).
      destruct (Hexpr body (mkCtx a (Some (VClos nl (Some body) cenv te)) te) cenv a) as [-> | ->]; [apply le_timeout|].
      destruct (eval_expr m (call mods m) (eval_import mods m) _ body cenv a); try apply le_refl. apply Hcall.
    + intros path. rewrite !eval_import_S. destruct (find_module path mods); [|apply le_refl].
      apply run_program_le; assumption.
Qed.

Theorem eval_fuel_mono : forall mods n m c e b v r,
  (n <= m)%nat -> eval mods n c e b v = r -> r <> Timeout -> eval mods m c e b v = r.
Proof.
  intros mods n m c e b v r Hle H Hr. destruct n as [|n]; [cbn in H; congruence|].
  destruct m as [|m]; [lia|]. assert (Hle' : (n <= m)%nat) by lia. unfold eval in *.
  destruct (mono_all mods n m Hle') as (Hcall & Himp).
  destruct (level_mono n m _ _ _ _ Hle' Hcall Himp) as (_ & _ & _ & Hexpr).
  destruct (Hexpr b c e v) as [Ht | Heq]; congruence.
Qed.

Theorem eval_program_fuel_mono : forall mods n m p r,
  (n <= m)%nat -> eval_program mods n p = r -> r <> Timeout -> eval_program mods m p = r.
Proof.
  intros mods n m p r Hle H Hr. destruct n as [|n]; [cbn in H; congruence|].
  destruct m as [|m]; [lia|]. assert (Hle' : (n <= m)%nat) by lia. unfold eval_program in *.
  destruct (mono_all mods n m Hle') as (Hcall & Himp).
  destruct (run_program_le n m _ _ _ _ p Hle' Hcall Himp) as [Ht | Heq]; congruence.
Qed.

Theorem call_fuel_mono : forall mods n m f a acc r,
  (n <= m)%nat -> call mods n f a acc = r -> r <> Timeout -> call mods m f a acc = r.
Proof.
  intros mods n m f a acc r Hle H Hr. destruct (mono_all mods n m Hle) as (Hcall & _).
  destruct (Hcall f a acc) as [Ht | Heq]; congruence.
Qed.

(* the semantics is a partial function: two fuels that both finish agree *)
Corollary eval_deterministic : forall mods n m c e b v,
  eval mods n c e b v <> Timeout -> eval mods m c e b v <> Timeout ->
  eval mods n c e b v = eval mods m c e b v.
Proof.
  intros mods n m c e b v Hn Hm. destruct (Nat.le_ge_cases n m) as [H | H].
  - symmetry. apply (eval_fuel_mono mods n m); auto.
  - apply (eval_fuel_mono mods m n); auto.
Qed.

(* A match evaluates to Ok or [].  On success the scope is extended by the bindings the pattern
   made; on failure by its static binders, all nil (reading R3); nothing else changes. *)
Theorem match_verdict : forall n c e p v r e' w,
  do_match n c e p v = Ret (r, e') w ->
  (r = vok /\ exists b, pmatch n (c_tenv c) e [] p v = POk b /\ e' = b ++ e) \/
  (r = vnil /\ pmatch n (c_tenv c) e [] p v = PFail /\ e' = nil_fill (binders p) ++ e).
Proof.
  intros n c e p v r e' w H. unfold do_match in H.
  destruct (pmatch n (c_tenv c) e [] p v) as [b| | |] eqn:Hp; try discriminate.
  - left. inversion H; subst. split; [reflexivity|]. exists b. auto.
  - right. inversion H; subst. auto.
Qed.

Corollary match_term_verdict : forall tf cf imf c e p v r e' w,
  eval_term tf cf imf c (Match p) e v = Ret (r, e') w -> r = vok \/ r = vnil.
Proof.
  intros tf cf imf c e p v r e' w H. rewrite eval_term_match in H. apply match_verdict in H. tauto.
Qed.

(* a bare binder always succeeds and binds exactly that name, nil included *)
Lemma bare_binder_always_succeeds : forall n c e x v,
  do_match n c e (MIdentifier x) v = Ret (vok, (x, v) :: e) st0.
Proof. reflexivity. Qed.

(* which names a successful match binds: the pattern's static binders (for patterns without `*`,
   whose binders depend on the value, and whose alternatives bind the same names) *)
Fixpoint star_free (p : pattern) : Prop :=
  match p with
  | MStar _ => False
  | MTuple _ fs => (fix go (l : list match_field) : Prop :=
                      match l with [] => True | MatchField _ q :: r => star_free q /\ go r end) fs
  | MPartial _ fs => (fix go (l : list partial_field) : Prop :=
                        match l with
                        | [] => True
                        | PartialPatternField _ (Some q) :: r => star_free q /\ go r
                        | PartialPatternField _ None :: r => go r
                        end) fs
  | MOr ps => (fix go (l : list pattern) : Prop :=
                 match l with [] => True | q :: r => star_free q /\ go r end) ps
  | _ => True
  end.

Definition extends (b b' : env) : Prop := exists d, b' = d ++ b.

Lemma eq_verdict_ok : forall b w v b', eq_verdict b w v = POk b' -> b' = b.
Proof. intros b w v b' H. unfold eq_verdict in H. destruct (value_eqb w v) as [[|]|]; inversion H; reflexivity. Qed.

Lemma type_verdict_ok : forall n te t v k b', type_verdict n te t v k = POk b' -> k = POk b'.
Proof.
  intros n te t v k b' H. unfold type_verdict in H.
  destruct (inhab n te t t v) as [[|] ?| | |]; try discriminate; assumption.
Qed.

(* patterns whose binders are static: no `*` (its binders depend on the value) and every
   alternative of an or-pattern binds names of the first one (the compiler demands the same set) *)
Fixpoint wf_pat (p : pattern) : Prop :=
  match p with
  | MStar _ => False
  | MTuple _ fs => (fix go (l : list match_field) : Prop :=
                      match l with [] => True | MatchField _ q :: r => wf_pat q /\ go r end) fs
  | MPartial _ fs => (fix go (l : list partial_field) : Prop :=
                        match l with
                        | [] => True
                        | PartialPatternField _ (Some q) :: r => wf_pat q /\ go r
                        | PartialPatternField _ None :: r => go r
                        end) fs
  | MOr ps => match ps with
              | [] => True
              | q0 :: _ => (fix go (l : list pattern) : Prop :=
                              match l with [] => True | q :: r => (wf_pat q /\ incl (binders q) (binders q0)) /\ go r end) ps
              end
  | _ => True
  end.

(* a successful (part of a) match puts new bindings in front of those made so far; when the
   pattern's binders are static (`W`), their names are among `xs` *)
Definition adds (W : Prop) (xs : list atom) (b b' : env) : Prop :=
  exists d, b' = d ++ b /\ (W -> incl (map fst d) xs).
Lemma adds_refl : forall W xs b, adds W xs b b.
Proof. intros W xs b. exists []. split; [reflexivity | intros _ y []]. Qed.
Lemma adds_step : forall (W W1 W2 : Prop) xs ys b b1 b2,
  adds W1 xs b b1 -> adds W2 ys b1 b2 -> (W -> W1 /\ W2) -> adds W (xs ++ ys) b b2.
Proof.
  intros W W1 W2 xs ys b b1 b2 (d1 & -> & H1) (d2 & -> & H2) HW. exists (d2 ++ d1). split; [apply app_assoc|].
  intros Hw. destruct (HW Hw) as [Hw1 Hw2]. rewrite map_app.
  apply incl_app; [apply incl_appr, H2, Hw2 | apply incl_appl, H1, Hw1].
Qed.
Lemma adds_mono : forall (W W' : Prop) xs ys b b', adds W xs b b' -> (W' -> W /\ incl xs ys) -> adds W' ys b b'.
Proof.
  intros W W' xs ys b b' (d & -> & H) HW. exists d. split; [reflexivity|].
  intros Hw. destruct (HW Hw) as [Hw1 Hi]. exact (incl_tran (H Hw1) Hi).
Qed.

Lemma bind_var_adds : forall b x v b', bind_var b x v = POk b' -> adds True [x] b b'.
Proof.
  intros b x v b' H. unfold bind_var in H. destruct (lookup x b).
  - apply eq_verdict_ok in H. subst. apply adds_refl.
  - inversion H. exists [(x, v)]. split; [reflexivity | intros _; apply incl_refl].
Qed.

(* or-patterns; the loop of `pmatch` is written out so that the lemma applies by conversion *)
Lemma or_adds : forall n te outer q0 b v b' (alts : list pattern),
  Forall (fun p => forall b v b', pmatch n te outer b p v = POk b' -> adds (wf_pat p) (binders p) b b') alts ->
  (fix go (ps : list pattern) : pres :=
     match ps with
     | [] => PFail
     | q :: ps' => match pmatch n te outer b q v with PFail => go ps' | other => other end
     end) alts = POk b' ->
  adds ((fix go (l : list pattern) : Prop :=
           match l with [] => True | q :: r => (wf_pat q /\ incl (binders q) (binders q0)) /\ go r end) alts)
       (binders q0) b b'.
Proof.
  intros n te outer q0 b v b' alts IH. induction IH as [|q ps' Hq _ IHps]; intros H; [discriminate|].
  destruct (pmatch n te outer b q v) as [b1| | |] eqn:Hq1; try discriminate.
  - inversion H; subst. exact (adds_mono _ _ _ _ _ _ (Hq _ _ _ Hq1) (fun Hw => proj1 Hw)).
  - exact (adds_mono _ _ _ _ _ _ (IHps H) (fun Hw => conj (proj2 Hw) (incl_refl _))).
Qed.

Lemma pmatch_adds : forall n te outer p b v b',
  pmatch n te outer b p v = POk b' -> adds (wf_pat p) (binders p) b b'.
Proof.
  intros n te outer p. induction p as [x|l|bs|name fs IH|name fs IH|name| |x|t|ps IH|t x] using pattern_ind';
    intros b v b' H; cbn [pmatch] in H.
  - exact (adds_mono _ _ _ _ _ _ (bind_var_adds _ _ _ _ H) (fun _ => conj I (incl_refl _))).
  - apply eq_verdict_ok in H; subst; apply adds_refl.
  - apply eq_verdict_ok in H; subst; apply adds_refl.
  - destruct v as [| |vn vfs| |]; try discriminate. destruct (oatom_eqb name vn); try discriminate.
    cbn [binders wf_pat].
    revert b vfs H. induction IH as [|[l q] fs' Hq _ IHfs]; intros b vfs H; destruct vfs as [|[k w] ws]; try discriminate.
    + inversion H; apply adds_refl.
    + destruct (oatom_eqb l k); try discriminate.
      destruct (pmatch n te outer b q w) as [b1| | |] eqn:Hq1; try discriminate.
      exact (adds_step _ _ _ _ _ _ _ _ (Hq _ _ _ Hq1) (IHfs _ _ H) (fun Hw => Hw)).
  - destruct v as [| |vn vfs| |]; try discriminate. destruct (name_ok name vn); try discriminate.
    cbn [binders wf_pat].
    revert b H. induction IH as [|[l [q|]] fs' Hq _ IHfs]; intros b H.
    + inversion H; apply adds_refl.
    + destruct (find_field l vfs) as [w|]; try discriminate.
      destruct (pmatch n te outer b q w) as [b1| | |] eqn:Hq1; try discriminate.
      exact (adds_step _ _ _ _ _ _ _ _ (Hq _ _ _ Hq1) (IHfs _ H) (fun Hw => Hw)).
    + destruct (find_field l vfs) as [w|]; try discriminate.
      destruct (bind_var b l w) as [b1| | |] eqn:Hq1; try discriminate.
      exact (adds_step _ _ _ _ _ _ _ _ (bind_var_adds _ _ _ _ Hq1) (IHfs _ H) (fun Hw => conj I Hw)).
  - (* `*`: one binding per labelled field, then the marker; nothing is claimed about the names *)
    destruct v as [| |vn vfs| |]; try discriminate. destruct (name_ok name vn); try discriminate.
    destruct (bind_star b vfs) as [b2| | |] eqn:Hs; try discriminate. inversion H; subst b'.
    assert (He : extends b b2).
    { clear H. revert b Hs. induction vfs as [|[[l|] w] r IHr]; intros b H; cbn [bind_star] in H.
      - inversion H. exists []. reflexivity.
      - destruct (bind_var b l w) as [b1| | |] eqn:Hb; try discriminate.
        destruct (bind_var_adds _ _ _ _ Hb) as (d1 & -> & _). destruct (IHr _ H) as [d2 ->].
        exists (d2 ++ d1). apply app_assoc.
      - exact (IHr _ H). }
    destruct He as [d ->]. exists ((a_star, vnil) :: d). split; [reflexivity | intros []].
  - inversion H; apply adds_refl.
  - destruct (lookup_var x outer); try discriminate. apply eq_verdict_ok in H; subst; apply adds_refl.
  - apply type_verdict_ok in H. inversion H; apply adds_refl.
  - destruct ps as [|q0 ps0]; [discriminate|]. exact (or_adds n te outer q0 b v b' (q0 :: ps0) IH H).
  - apply type_verdict_ok in H.
    exact (adds_mono _ _ _ _ _ _ (bind_var_adds _ _ _ _ H) (fun _ => conj I (incl_refl _))).
Qed.

(* a successful match only ADDS bindings (it never drops or changes one made earlier in the same
   pattern) *)
Lemma pmatch_extends : forall n te outer p b v b',
  pmatch n te outer b p v = POk b' -> extends b b'.
Proof.
  intros n te outer p b v b' H. destruct (pmatch_adds _ _ _ _ _ _ _ H) as (d & -> & _). exists d. reflexivity.
Qed.

(* after a successful match every binding of the enclosing scope is still there *)
Corollary match_preserves_scope : forall n c e p v e' w,
  do_match n c e p v = Ret (vok, e') w -> exists b, e' = b ++ e.
Proof.
  intros n c e p v e' w H. apply match_verdict in H. destruct H as [(_ & b & _ & ->) | (Hr & _)].
  - eauto.
  - discriminate.
Qed.

(* the names a successful match adds to the scope are static binders of the pattern *)
Theorem match_binds_only_binders : forall n c e p v e' w,
  wf_pat p -> do_match n c e p v = Ret (vok, e') w ->
  exists d, e' = d ++ e /\ incl (map fst d) (binders p).
Proof.
  intros n c e p v e' w Hwf H. apply match_verdict in H.
  destruct H as [(_ & b & Hp & ->) | (Hr & _)]; [|discriminate].
  destruct (pmatch_adds _ _ _ _ _ _ _ Hp) as (d & -> & Hd).
  exists d. rewrite app_nil_r. auto.
Qed.

(* Non-vacuity: concrete programs (the spec's own examples with their documented results),
   evaluated by vm_compute.  Atoms: identifiers/tuple names are arbitrary numbers >= 13. *)
Definition x_ : atom := 100. Definition y_ : atom := 101. Definition f_ : atom := 102.
Definition a_ : atom := 103. Definition b_ : atom := 104.
Definition A_ : atom := 200. Definition B_ : atom := 201. Definition Done_ : atom := 202.

Definition int (n : Z) : term := Literal (LInteger n).
Definition nil_t : term := Tuple Anonymous [].
Definition ch (ts : list term) : chain := Chain None ts.
Definition bindc (p : pattern) (ts : list term) : chain := Chain (Some p) ts.
Definition var (x : atom) : term := Access (mkAccess (Some (Identifier x)) []).
Definition fld (ts : list term) : tuple_field := TupleField None (FChain (ch ts)).
Definition prog (cs : list chain) : program := Program [StmtExpression (Sequence cs)].
Definition val_of {A} (r : res A) : option A := match r with Ret a _ => Some a | _ => None end.

(* spec "Control flow": `[] 5` is 5 (nil flows through a chain); `[], 5` is [] (short-circuit) *)
Example ex_chain_vs_sequence :
  val_of (eval_program [] 20 (prog [ch [nil_t; int 5]])) = Some (VInt 5) /\
  eval_program [] 20 (prog [ch [nil_t]; ch [int 5]]) = Ret vnil ev_short.
Proof. split; vm_compute; reflexivity. Qed.

(* spec "Blocks": `B[42] { =A[a] => 1 | =B[b] => 2 }` is 2: the first branch falls through, the
   second commits *)
Definition ex_block : term :=
  Block (Expression [Branch (Sequence [ch [Match (MTuple (Some A_) [MatchField None (MIdentifier a_)])]]) (Some (Sequence [ch [int 1]]));
                     Branch (Sequence [ch [Match (MTuple (Some B_) [MatchField None (MIdentifier b_)])]]) (Some (Sequence [ch [int 2]]))]).
Example ex_fallthrough_then_commit :
  exists w, eval_program [] 30 (prog [ch [Tuple (Named B_) [fld [int 42]]; ex_block]]) = Ret (VInt 2) w /\
            n_fallthrough w = 1 /\ n_commit w = 1.
Proof. eexists. vm_compute. repeat split. Qed.

(* spec "Condition-consequence": `{ 1 => [], 10 | 2 => 20 }` is []: a failing consequence commits *)
Example ex_consequence_commits :
  val_of (eval_program [] 30 (prog [ch [Block (Expression
      [Branch (Sequence [ch [int 1]]) (Some (Sequence [ch [nil_t]; ch [int 10]]));
       Branch (Sequence [ch [int 2]]) (Some (Sequence [ch [int 20]]))])]])) = Some vnil.
Proof. vm_compute; reflexivity. Qed.

(* spec "Variable scoping": `x = 42, { x = 5 }, x` is 42 *)
Example ex_block_scoping :
  val_of (eval_program [] 30 (prog [bindc (MIdentifier x_) [int 42];
                                    ch [Block (Expression [Branch (Sequence [bindc (MIdentifier x_) [int 5]]) None])];
                                    ch [var x_]])) = Some (VInt 42).
Proof. vm_compute; reflexivity. Qed.

(* closures capture by value: `x = 1, f = #{ x }, x = 2, [] f` is 1 *)
Example ex_closure_by_value :
  val_of (eval_program [] 30 (prog [bindc (MIdentifier x_) [int 1];
                                    bindc (MIdentifier f_) [Function [] None None (Some (Expression [Branch (Sequence [ch [var x_]]) None]))];
                                    bindc (MIdentifier x_) [int 2];
                                    ch [nil_t; var f_]])) = Some (VInt 1).
Proof. vm_compute; reflexivity. Qed.

(* spec "Pattern matching": `[5, 5] =[x, x]` is Ok, `[5, 6] =[x, x]` is []; a failed match
   leaves its binders nil: `[1, 2] =[a, 3] [~, a]` is [[], []] *)
Definition pair (p q : Z) : term := Tuple Anonymous [fld [int p]; fld [int q]].
Definition ripple : term := Access (mkAccess (Some Ripple) []).
Example ex_match_verdict :
  val_of (eval_program [] 30 (prog [ch [pair 5 5; Match (MTuple None [MatchField None (MIdentifier x_); MatchField None (MIdentifier x_)])]])) = Some vok /\
  val_of (eval_program [] 30 (prog [ch [pair 5 6; Match (MTuple None [MatchField None (MIdentifier x_); MatchField None (MIdentifier x_)])]])) = Some vnil /\
  val_of (eval_program [] 30 (prog [ch [pair 1 2; Match (MTuple None [MatchField None (MIdentifier a_); MatchField None (MLiteral (LInteger 3))]);
                                        Tuple Anonymous [fld [ripple]; fld [var a_]]]])) = Some (VTuple None [(None, vnil); (None, vnil)]).
Proof. repeat split; vm_compute; reflexivity. Qed.

(* spec "Tail recursion": `f = #'int { | =0 => Done | [~, 1] __integer_subtract__ ^ }, 3 f`
   is Done after three tail calls *)
Definition ex_countdown : term :=
  Function [] (Some (TPrimitive PInt)) None (Some (Expression
    [Branch (Sequence [ch [Match (MLiteral (LInteger 0))]]) (Some (Sequence [ch [Tuple (Named Done_) []]]));
     Branch (Sequence [ch [Tuple Anonymous [fld [ripple]; fld [int 1]];
                           Access (mkAccess (Some (Builtin b_integer_subtract)) []);
                           Access (mkAccess (Some (TailCall None)) [])]]) None])).
Example ex_tail_calls :
  exists w, eval_program [] 40 (prog [bindc (MIdentifier f_) [ex_countdown]; ch [int 3; var f_]]) = Ret (VTuple (Some Done_) []) w /\
            n_tail_call w = 3.
Proof. eexists. vm_compute. split; reflexivity. Qed.

(* fuel monotonicity is not vacuous: the countdown needs fuel; with too little it times out, with
   enough it finishes, and more fuel does not change the outcome *)
Example ex_fuel :
  eval_program [] 3 (prog [bindc (MIdentifier f_) [ex_countdown]; ch [int 3; var f_]]) = Timeout /\
  val_of (eval_program [] 40 (prog [bindc (MIdentifier f_) [ex_countdown]; ch [int 3; var f_]])) =
  val_of (eval_program [] 400 (prog [bindc (MIdentifier f_) [ex_countdown]; ch [int 3; var f_]])).
Proof. split; vm_compute; reflexivity. Qed.

(* the binder theorem is not vacuous: `Point[x, &y]`-like pattern with a literal, a pin and an
   or-pattern is well-formed and binds exactly `a_` *)
Example ex_wf_pattern :
  wf_pat (MTuple (Some A_) [MatchField None (MIdentifier a_); MatchField None (MOr [MLiteral (LInteger 1); MLiteral (LInteger 2)]); MatchField None (MReference y_)]) /\
  binders (MTuple (Some A_) [MatchField None (MIdentifier a_); MatchField None (MOr [MLiteral (LInteger 1); MLiteral (LInteger 2)]); MatchField None (MReference y_)]) = [a_].
Proof. split; [cbn; intuition; intros z [] | reflexivity]. Qed.
