(* LangSimplifyProofs.v — simplify.rs block normalisation (model: LangSimplify.v) preserves the
   reference semantics (Lang.v): `eval (normalize p) = eval p` at every fuel, up to
   (a) the event counters (evidence only: a removed block changes how often a short-circuit is
       counted), and
   (b) the function values inside the result: a closure made by the normalised program carries the
       normalised body (`nv`).
   Two facts: the evaluator does not see a redundant / liftable block (`splice`,
   `lift_chains` are no-ops for the walkers), and evaluation commutes with normalising every
   function body (`nv`). *)
From Coq Require Import ZArith List Bool Lia.
From Quiver Require Import lang.Lang lang.LangProofs lang.LangSimplify.
Import ListNotations.
Open Scope Z_scope.

(* Outcomes up to the event counters. *)
Definition erase {A} (r : res A) : res A :=
  match r with
  | Ret a _ => Ret a st0
  | TailC f a _ => TailC f a st0
  | Error e => Error e
  | Timeout => Timeout
  end.
Definition eqv {A} (r1 r2 : res A) : Prop := erase r1 = erase r2.

Lemma eqv_refl : forall A (r : res A), eqv r r.
Proof. reflexivity. Qed.
Lemma eqv_sym : forall A (a b : res A), eqv a b -> eqv b a.
Proof. unfold eqv; intros; congruence. Qed.
Lemma eqv_trans : forall A (a b c : res A), eqv a b -> eqv b c -> eqv a c.
Proof. unfold eqv; intros; congruence. Qed.
Lemma erase_tick : forall A s (r : res A), erase (tick s r) = erase r.
Proof. intros A s [a w|f a w|e|]; reflexivity. Qed.
Lemma eqv_tick : forall A s (r : res A), eqv (tick s r) r.
Proof. exact erase_tick. Qed.
Lemma eqv_bind : forall A B (a a' : res A) (f f' : A -> res B),
  eqv a a' -> (forall x, eqv (f x) (f' x)) -> eqv (bind a f) (bind a' f').
Proof.
  unfold eqv. intros A B a a' f f' Ha Hf.
  destruct a as [x w|g y w|e|], a' as [x' w'|g' y' w'|e'|]; cbn in Ha; try discriminate; cbn [bind].
  - inversion Ha; subst. rewrite !erase_tick. apply Hf.
  - inversion Ha; subst. reflexivity.
  - inversion Ha; subst. reflexivity.
  - reflexivity.
Qed.
Lemma eqv_with_env : forall A e (a a' : res A), eqv a a' -> eqv (with_env e a) (with_env e a').
Proof. intros. unfold with_env. apply eqv_bind; [assumption | intros; apply eqv_refl]. Qed.
Lemma eqv_bind_assoc : forall A B C (a : res A) (f : A -> res B) (g : B -> res C),
  eqv (bind (bind a f) g) (bind a (fun x => bind (f x) g)).
Proof.
  intros A B C [x w|h y w|e|] f g; cbn [bind]; try reflexivity.
  destruct (f x) as [b w2|h y w2|e|]; cbn [tick bind]; try reflexivity.
  unfold eqv. rewrite !erase_tick. reflexivity.
Qed.
Lemma eqv_bind_ret : forall A (a : res A), eqv (bind a (fun x => ret x)) a.
Proof. intros A [x w|h y w|e|]; reflexivity. Qed.

#[local] Hint Resolve eqv_refl eqv_tick : eqv.

(* A frame-free term / chain / sequence leaves the scope unchanged. *)
Section FrameFree.
  Variable tf : nat.
  Variable cf : value -> value -> stats -> res value.
  Variable imf : list atom -> res value.
  Notation eval_term := (eval_term tf cf imf).
  Notation eval_chain := (eval_chain tf cf imf).

  Definition keeps_scope_t (t : term) : Prop :=
    forall c e v x e' w, contains_match t = false -> eval_term c t e v = Ret (x, e') w -> e' = e.
  Definition keeps_scope_c (ch : chain) : Prop :=
    forall c e v x e' w, is_frame_free_chain ch = true -> eval_chain c ch e v = Ret (x, e') w -> e' = e.

  Lemma terms_keep_scope : forall c ts,
    Forall keeps_scope_t ts -> existsb contains_match ts = false ->
    forall e v x e' w, terms_with (eval_term c) ts e v = Ret (x, e') w -> e' = e.
  Proof.
    intros c ts H. induction H as [|t r Ht _ IH]; intros Hex e v x e' w Hr; cbn [terms_with] in Hr.
    - inversion Hr; reflexivity.
    - cbn [existsb] in Hex. apply orb_false_iff in Hex. destruct Hex as [Hct Hcr].
      destruct (bind_inv Hr) as ([y e1] & w1 & w2 & Ht1 & Hr2). destruct (tick_inv Hr2) as (w3 & Hr3).
      cbn [fst snd] in Hr3. rewrite (Ht _ _ _ _ _ _ Hct Ht1) in Hr3. exact (IH Hcr _ _ _ _ _ Hr3).
  Qed.

  Lemma fields_keep_scope : forall c fs,
    Forall (on_field keeps_scope_c) fs ->
    existsb (fun f => match f with
                      | TupleField _ (FChain (Chain mp ts)) => is_some mp || existsb contains_match ts
                      | TupleField _ (FSpread _) => false
                      end) fs = false ->
    forall e v acc inh r e' w, fields_with (eval_chain c) fs e v acc inh = Ret (r, e') w -> e' = e.
  Proof.
    intros c fs H. induction H as [|[l [ch|src]] r Hf _ IH]; intros Hex e v acc inh r0 e' w Hr; cbn [fields_with] in Hr.
    - inversion Hr; reflexivity.
    - cbn [existsb] in Hex. apply orb_false_iff in Hex. destruct Hex as [Hc Hrest].
      destruct (bind_inv Hr) as ([y e1] & w1 & w2 & Hc1 & Hr2). cbn [fst snd] in Hr2.
      assert (e1 = e).
      { eapply Hf; [|eassumption]. destruct ch as [mp ts]. cbn. apply orb_false_iff in Hc. destruct Hc as [-> ->]. reflexivity. }
      subst e1. exact (IH Hrest _ _ _ _ _ _ _ Hr2).
    - cbn [existsb] in Hex. cbn in Hex.
      destruct (match src with Some x => lookup_var x e | None => Some v end) as [[| |sname sfs| |]|]; try discriminate.
      eapply IH; eassumption.
  Qed.

  Lemma frame_free_keeps_scope :
    (forall t, keeps_scope_t t) /\ (forall ch, keeps_scope_c ch).
  Proof.
    assert (H : (forall t, keeps_scope_t t) /\ (forall ch, keeps_scope_c ch) /\ (forall s : sequence, True) /\ (forall b : expression, True)).
    { apply ast_ind4; try (intros; exact I).
      - intros l c e v x e' w _ H. cbn in H. inversion H; reflexivity.
      - intros n fs Hfs c e v x e' w Hcm H. rewrite eval_term_tuple in H. cbn [contains_match] in Hcm.
        destruct (fields_with (eval_chain c) fs e v [] None) as [[[fs' inh] e1] w1| | |] eqn:Hf; try discriminate.
        assert (e1 = e) by (eapply fields_keep_scope; eassumption). subst e1.
        cbn [bind] in H. destruct n as [|a|]; [| |destruct inh]; cbn in H; try discriminate; inversion H; reflexivity.
      - intros segs _ c e v x e' w _ H. eapply string_scoping; eassumption.
      - intros p c e v x e' w Hcm. discriminate.
      - intros b _ c e v x e' w _ H. eapply block_scoping; eassumption.
      - intros tps pt rt body _ c e v x e' w _ H. cbn in H. inversion H; reflexivity.
      - intros [src path] c e v x e' w _ H. cbn [Lang.eval_term] in H.
        destruct src as [[y| | |p| |b|[y|]|]|]; try exact (proj1 (with_env_inv H)); try discriminate.
        + destruct (lookup_var y e); [exact (proj1 (with_env_inv H)) | discriminate].
        + destruct (lookup_var y e) as [base|]; [|discriminate]. destruct (access_all base path) as [f wf| | |]; try discriminate.
          cbn in H. destruct (is_callable f); discriminate.
        + destruct (c_self c); [destruct path|]; discriminate.
        + destruct (is_callable v && is_nilary v); discriminate.
      - intros t _ c e v x e' w _ H. discriminate.
      - intros c e v x e' w _ H. discriminate.
      - intros cs _ c e v x e' w _ H. discriminate.
      - intros n c e v x e' w _ H. discriminate.
      - intros [src path] c e v x e' w _ H. cbn [Lang.eval_term] in H.
        destruct src as [[y| | |p| |b|[y|]|]|]; try exact (proj1 (with_env_inv H)); try discriminate.
        destruct (lookup_var y e); [exact (proj1 (with_env_inv H)) | discriminate].
      - intros mp ts Hts c e v x e' w Hff H. cbn [is_frame_free_chain] in Hff.
        apply andb_true_iff in Hff. destruct Hff as [Hmp Hcm]. destruct mp; [discriminate|].
        rewrite eval_chain_none in H. apply negb_true_iff in Hcm. eapply terms_keep_scope; eassumption. }
    tauto.
  Qed.
End FrameFree.

(* The evaluator does not see a redundant block spliced into its chain, nor a liftable
   block lifted into its sequence. *)
Section NoOps.
  Variable tf : nat.
  Variable cf : value -> value -> stats -> res value.
  Variable imf : list atom -> res value.
  Notation eval_term := (eval_term tf cf imf).
  Notation eval_chain := (eval_chain tf cf imf).
  Notation eval_sequence := (eval_sequence tf cf imf).
  Notation eval_expr := (eval_expr tf cf imf).

  Lemma terms_app : forall ev ts1 ts2 e v,
    eqv (terms_with ev (ts1 ++ ts2) e v)
        (do x <- terms_with ev ts1 e v ;; terms_with ev ts2 (snd x) (fst x)).
  Proof.
    intros ev ts1. induction ts1 as [|t r IH]; intros ts2 e v; cbn [app terms_with].
    - cbn. apply eqv_sym, eqv_tick.
    - eapply eqv_trans; [|apply eqv_sym, eqv_bind_assoc].
      apply eqv_bind; [apply eqv_refl|]. intros x.
      eapply eqv_trans; [apply eqv_tick|]. eapply eqv_trans; [apply IH|].
      apply eqv_bind; [apply eqv_sym, eqv_tick | intros; apply eqv_refl].
  Qed.

  (* the value a sequence of steps hands on (the walker returns nil itself when it short-circuits) *)
  Definition nil_norm (x : value * env) : value * env := (if is_nil (fst x) then vnil else fst x, snd x).
  Lemma nil_norm_id : forall x, nil_norm x = x.
  Proof.
    intros [v e]. unfold nil_norm. cbn. destruct (is_nil v) eqn:H; [|reflexivity].
    apply is_nil_true in H. subst. reflexivity.
  Qed.

  (* a block of one consequence-less branch: the value of its sequence, in the outer scope *)
  Lemma single_branch_block : forall c cs e v,
    eqv (eval_term c (Block (Expression [Branch (Sequence cs) None])) e v)
        (do x <- seq_with (eval_chain c) cs e v ;; ret (fst x, e)).
  Proof.
    intros c cs e v. rewrite eval_term_block, eval_expr_eq. cbn [branches_with]. rewrite eval_sequence_eq.
    unfold with_env. eapply eqv_trans; [apply eqv_bind_assoc|].
    apply eqv_bind; [apply eqv_refl|]. intros x.
    destruct (is_nil (fst x)) eqn:Hn.
    - apply is_nil_true in Hn. rewrite Hn. reflexivity.
    - reflexivity.
  Qed.

  Lemma redundant_block_noop : forall c t body e v,
    redundant_body t = Some body ->
    eqv (eval_term c t e v) (terms_with (eval_term c) (chain_terms body) e v).
  Proof.
    intros c t body e v H. unfold redundant_body in H.
    destruct t as [| | | |[bs]| | | | | | |]; try discriminate.
    destruct bs as [|[[cs] k] bs']; try discriminate.
    destruct k; destruct bs'; destruct cs as [|chn [|c2 cs']]; try discriminate.
    destruct (is_inlinable_chain chn) eqn:Hin; [|discriminate]. inversion H; subst body. clear H.
    eapply eqv_trans; [apply single_branch_block|]. cbn [seq_with].
    eapply eqv_trans; [apply eqv_bind; [apply eqv_bind_ret | intros; apply eqv_refl]|].
    unfold is_inlinable_chain in Hin. apply andb_true_iff in Hin. destruct Hin as [Hin _].
    apply andb_true_iff in Hin. destruct Hin as [_ Hff].
    destruct chn as [mp ts]. pose proof Hff as Hff'. cbn [is_frame_free_chain] in Hff'.
    apply andb_true_iff in Hff'. destruct Hff' as [Hmp _]. destruct mp; [discriminate|].
    cbn [chain_terms]. rewrite eval_chain_none.
    destruct (terms_with (eval_term c) ts e v) as [[x e1] w| | |] eqn:Ht; try reflexivity.
    assert (e1 = e).
    { destruct (frame_free_keeps_scope tf cf imf) as [_ Hc].
      eapply (Hc (Chain None ts)); [exact Hff|]. rewrite eval_chain_none. exact Ht. }
    subst. reflexivity.
  Qed.

  Lemma should_strip_body : forall t l ts,
    should_strip t l = Some ts -> exists body, redundant_body t = Some body /\ ts = chain_terms body.
  Proof.
    intros t l ts H. unfold should_strip in H. destruct (redundant_body t) as [body|]; [|discriminate].
    destruct (negb _ || l); [|discriminate]. inversion H. eauto.
  Qed.

  Theorem splice_noop : forall c ts e v,
    eqv (terms_with (eval_term c) (splice ts) e v) (terms_with (eval_term c) ts e v).
  Proof.
    intros c ts. induction ts as [|t r IH]; intros e v; [apply eqv_refl|]. cbn [splice].
    destruct (should_strip t (null r)) as [body_terms|] eqn:Hs.
    - destruct (should_strip_body _ _ _ Hs) as (body & Hb & ->).
      eapply eqv_trans; [apply terms_app|]. cbn [terms_with].
      apply eqv_bind.
      + apply eqv_sym, redundant_block_noop, Hb.
      + intros x. eapply eqv_trans; [apply IH|]. apply eqv_sym, eqv_tick.
    - cbn [terms_with]. apply eqv_bind; [apply eqv_refl|]. intros x.
      eapply eqv_trans; [apply eqv_tick|]. eapply eqv_trans; [apply IH|]. apply eqv_sym, eqv_tick.
  Qed.

  (* sequences *)
  Lemma seq_keeps_scope : forall c cs,
    forallb is_frame_free_chain cs = true ->
    forall e v x e' w, seq_with (eval_chain c) cs e v = Ret (x, e') w -> e' = e.
  Proof.
    intros c cs. induction cs as [|chn r IH]; intros Hff e v x e' w H; cbn [seq_with] in H.
    - inversion H; reflexivity.
    - cbn [forallb] in Hff. apply andb_true_iff in Hff. destruct Hff as [Hc Hr].
      destruct (bind_inv H) as ([y e1] & w1 & w2 & Hc1 & H2). cbn [fst snd] in H2.
      rewrite (proj2 (frame_free_keeps_scope tf cf imf) chn _ _ _ _ _ _ Hc Hc1) in H2.
      destruct r as [|c2 r]; [inversion H2; reflexivity|].
      destruct (is_nil y); [inversion H2; reflexivity | exact (IH Hr _ _ _ _ _ H2)].
  Qed.

  Definition seq_then (ev : chain -> env -> value -> res (value * env)) (cs2 : list chain) (x : value * env)
    : res (value * env) :=
    match cs2 with
    | [] => ret x
    | _ :: _ => if is_nil (fst x) then Ret (vnil, snd x) ev_short else seq_with ev cs2 (snd x) (fst x)
    end.

  Lemma seq_nil_result : forall ev cs e v x e' w,
    seq_with ev cs e v = Ret (x, e') w -> True.
  Proof. trivial. Qed.

  Lemma seq_app : forall ev cs1 cs2 e v,
    cs1 <> [] ->
    eqv (seq_with ev (cs1 ++ cs2) e v) (do x <- seq_with ev cs1 e v ;; seq_then ev cs2 x).
  Proof.
    intros ev cs1. induction cs1 as [|chn r IH]; intros cs2 e v Hne; [congruence|]. clear Hne.
    cbn [app seq_with]. destruct r as [|c2 r].
    - cbn [app]. eapply eqv_trans; [|apply eqv_sym, eqv_bind_assoc].
      apply eqv_bind; [apply eqv_refl|]. intros x. cbn [bind ret]. unfold seq_then.
      destruct cs2 as [|d cs2]; [apply eqv_sym, eqv_tick|].
      destruct (is_nil (fst x)); apply eqv_sym, eqv_tick.
    - eapply eqv_trans; [|apply eqv_sym, eqv_bind_assoc].
      apply eqv_bind; [apply eqv_refl|]. intros x. cbn [app].
      destruct (is_nil (fst x)) eqn:Hn.
      + cbn [bind]. unfold seq_then. destruct cs2; [reflexivity|]. cbn. reflexivity.
      + apply (IH cs2 (snd x) (fst x)). discriminate.
  Qed.

  Lemma should_lift_block : forall chn inner,
    should_lift chn = Some inner ->
    chn = Chain None [Block (Expression [Branch (Sequence inner) None])] /\ inner <> [] /\
    forallb is_frame_free_chain inner = true.
  Proof.
    intros [mp ts] inner H. unfold should_lift in H. destruct mp; [discriminate|].
    destruct ts as [|t [|t2 ts]]; try discriminate. unfold liftable_chains in H.
    destruct t as [| | | |[bs]| | | | | | |]; try discriminate.
    destruct bs as [|[[cs] k] bs']; try discriminate.
    destruct k; destruct bs'; try discriminate.
    destruct (negb (null cs) && forallb is_frame_free_chain cs) eqn:Hc; [|discriminate].
    inversion H; subst. apply andb_true_iff in Hc. destruct Hc as [Hn Hff].
    repeat split; [|exact Hff]. destruct inner; [discriminate | discriminate].
  Qed.

  Lemma lift_chains_nil : forall cs, lift_chains cs = [] -> cs = [].
  Proof.
    intros [|chn r] H; [reflexivity|]. cbn [lift_chains] in H. destruct (should_lift chn) as [inner|] eqn:Hl; [|discriminate].
    destruct (should_lift_block _ _ Hl) as (_ & Hne & _). destruct inner; [congruence | discriminate].
  Qed.

  Theorem lift_noop : forall c cs e v,
    eqv (seq_with (eval_chain c) (lift_chains cs) e v) (seq_with (eval_chain c) cs e v).
  Proof.
    intros c cs. induction cs as [|chn r IH]; intros e v; [apply eqv_refl|]. cbn [lift_chains].
    destruct (should_lift chn) as [inner|] eqn:Hl.
    - destruct (should_lift_block _ _ Hl) as (-> & Hne & Hff).
      eapply eqv_trans; [apply seq_app; exact Hne|].
      (* on the right, the first step is the block: rewrite it to
         `do x <- seq_with inner ;; <the rest from (fst x, e)>`, the shape `seq_app` gave the left *)
      cbn [seq_with]. rewrite eval_chain_none. cbn [terms_with].
      eapply eqv_trans; [|apply eqv_bind; [apply eqv_sym; eapply eqv_trans;
                                            [apply eqv_bind; [apply single_branch_block | intros; apply eqv_tick]
                                            | apply eqv_bind_assoc]
                                          | intros; apply eqv_refl]].
      eapply eqv_trans; [|apply eqv_sym, eqv_bind_assoc].
      destruct (seq_with (eval_chain c) inner e v) as [[x e1] w| | |] eqn:Hi; try reflexivity.
      assert (e1 = e) by (eapply seq_keeps_scope; eassumption). subst e1.
      cbn [bind ret fst snd tick]. unfold eqv. rewrite !erase_tick. unfold seq_then.
      destruct (lift_chains r) as [|d l] eqn:Hlr.
      + apply lift_chains_nil in Hlr. subst r. reflexivity.
      + destruct r as [|c2 r']; [discriminate|].
        cbn [fst snd]. destruct (is_nil x); [reflexivity|]. apply IH.
    - cbn [seq_with]. apply eqv_bind; [apply eqv_refl|]. intros x.
      destruct r as [|c2 r'].
      + cbn [lift_chains]. reflexivity.
      + destruct (lift_chains (c2 :: r')) as [|d l] eqn:Hlr.
        * apply lift_chains_nil in Hlr. discriminate.
        * destruct (is_nil (fst x)); [reflexivity|]. apply IH.
  Qed.
End NoOps.

(* Evaluation commutes with normalising the body of every function value. *)
Fixpoint nv (v : value) : value :=
  match v with
  | VTuple n fs => VTuple n (map (fun f => (fst f, nv (snd f))) fs)
  | VClos nl body cenv te =>
      VClos nl (match body with Some b => Some (strip_expression b) | None => None end)
            (map (fun b => (fst b, nv (snd b))) cenv) te
  | other => other
  end.
Definition nfs (fs : list (option atom * value)) : list (option atom * value) := map (fun f => (fst f, nv (snd f))) fs.
Definition nenv (e : env) : env := map (fun b => (fst b, nv (snd b))) e.
Definition nctx (c : ctx) : ctx :=
  mkCtx (nv (c_param c)) (match c_self c with Some f => Some (nv f) | None => None end) (c_tenv c).
Definition nvp (x : value * env) : value * env := (nv (fst x), nenv (snd x)).
Definition rmap {A B} (g : A -> B) (r : res A) : res B :=
  match r with
  | Ret a w => Ret (g a) w
  | TailC f a w => TailC (nv f) (nv a) w
  | Error e => Error e
  | Timeout => Timeout
  end.
(* `r'` (normalised world) simulates `r` *)
Definition sim {A B} (g : A -> B) (r' : res B) (r : res A) : Prop := eqv r' (rmap g r).

Lemma sim_bind : forall A B A' B' (g : A -> A') (h : B -> B') (a : res A) (a' : res A') (f : A -> res B) (f' : A' -> res B'),
  sim g a' a -> (forall x, sim h (f' (g x)) (f x)) -> sim h (bind a' f') (bind a f).
Proof.
  unfold sim, eqv. intros A B A' B' g h a a' f f' Ha Hf.
  destruct a as [x w|k y w|e|], a' as [x' w'|k' y' w'|e'|]; cbn in Ha; try discriminate; cbn [bind rmap].
  - inversion Ha; subst. rewrite erase_tick. rewrite Hf. destruct (f x); reflexivity.
  - inversion Ha; subst. reflexivity.
  - inversion Ha; subst. reflexivity.
  - reflexivity.
Qed.
Lemma sim_ret : forall A B (g : A -> B) x, sim g (ret (g x)) (ret x).
Proof. reflexivity. Qed.
Lemma sim_tick : forall A B (g : A -> B) s s' r' r, sim g r' r -> sim g (tick s' r') (tick s r).
Proof.
  unfold sim, eqv. intros A B g s s' r' r H. rewrite erase_tick. rewrite H. destruct r; reflexivity.
Qed.
Lemma sim_tick_l : forall A B (g : A -> B) s' r' r, sim g r' r -> sim g (tick s' r') r.
Proof. unfold sim, eqv. intros. rewrite erase_tick. assumption. Qed.
Lemma sim_eqv_l : forall A B (g : A -> B) r'' r' r, eqv r'' r' -> sim g r' r -> sim g r'' r.
Proof. unfold sim. intros. eapply eqv_trans; eassumption. Qed.
Lemma sim_eqv_r : forall A B (g : A -> B) r' r r0, sim g r' r -> eqv r r0 -> sim g r' r0.
Proof.
  unfold sim, eqv. intros A B g r' r r0 H H0. rewrite H.
  destruct r, r0; cbn in *; try discriminate; inversion H0; subst; reflexivity.
Qed.
Lemma sim_with_env : forall A B (g : A -> B) e r' r,
  sim g r' r -> sim (fun x => (g (fst x), nenv (snd x))) (with_env (nenv e) r') (with_env e r).
Proof.
  intros. unfold with_env. eapply sim_bind; [eassumption|]. intros x. reflexivity.
Qed.

(* value-level facts *)
Lemma nv_nil : nv vnil = vnil. Proof. reflexivity. Qed.
Lemma nv_is_nil : forall v, is_nil (nv v) = is_nil v.
Proof. intros [| |[n|] [|f fs]| |]; reflexivity. Qed.
Lemma nv_is_callable : forall v, is_callable (nv v) = is_callable v.
Proof. intros [| | | |]; reflexivity. Qed.
Lemma nv_is_nilary : forall v, is_nilary (nv v) = is_nilary v.
Proof. intros [| | | |]; reflexivity. Qed.
Lemma nv_tail_arg : forall f v, tail_arg (nv f) (nv v) = nv (tail_arg f v).
Proof. intros f v. unfold tail_arg. rewrite nv_is_nilary. destruct (is_nilary f); reflexivity. Qed.

Lemma lookup_nenv : forall x e, lookup x (nenv e) = match lookup x e with Some v => Some (nv v) | None => None end.
Proof.
  intros x e. induction e as [|[y v] r IH]; [reflexivity|]. cbn. destruct (x =? y); [reflexivity | exact IH].
Qed.
Lemma lookup_var_nenv : forall x e,
  lookup_var x (nenv e) = match lookup_var x e with Some v => Some (nv v) | None => None end.
Proof.
  intros x e. unfold lookup_var. rewrite !lookup_nenv. destruct (lookup x e); [reflexivity|].
  destruct (lookup a_star e); reflexivity.
Qed.
Lemma find_field_nfs : forall l fs,
  find_field l (nfs fs) = match find_field l fs with Some v => Some (nv v) | None => None end.
Proof.
  intros l fs. induction fs as [|[[k|] v] r IH]; [reflexivity| |exact IH]. cbn. destruct (l =? k); [reflexivity | exact IH].
Qed.
Lemma nth_error_nfs : forall fs n,
  nth_error (nfs fs) n = match nth_error fs n with Some f => Some (fst f, nv (snd f)) | None => None end.
Proof. intros fs n. unfold nfs. rewrite nth_error_map. destruct (nth_error fs n); reflexivity. Qed.

Lemma access_one_nv : forall v p, access_one (nv v) p = rmap nv (access_one v p).
Proof.
  intros v p. destruct v as [| |n fs| |]; try reflexivity. cbn [nv access_one]. fold (nfs fs). destruct p as [l|i].
  - rewrite find_field_nfs. destruct (find_field l fs); reflexivity.
  - destruct (i <? 0); [reflexivity|]. rewrite nth_error_nfs. destruct (nth_error fs (Z.to_nat i)) as [[k w]|]; reflexivity.
Qed.
Lemma access_all_nv : forall path v, sim nv (access_all (nv v) path) (access_all v path).
Proof.
  induction path as [|p r IH]; intros v; cbn [access_all]; [reflexivity|].
  eapply sim_bind; [|intros x; apply IH]. unfold sim. rewrite access_one_nv. apply eqv_refl.
Qed.

(* induction principle for the nested value type *)
Section ValueInd.
  Variable P : value -> Prop.
  Hypothesis HInt : forall n, P (VInt n).
  Hypothesis HBin : forall b, P (VBin b).
  Hypothesis HTup : forall n fs, Forall (fun f => P (snd f)) fs -> P (VTuple n fs).
  Hypothesis HClos : forall nl body cenv te, Forall (fun b => P (snd b)) cenv -> P (VClos nl body cenv te).
  Hypothesis HBi : forall b, P (VBuiltin b).
  Fixpoint value_ind' (v : value) : P v :=
    match v with
    | VInt n => HInt n
    | VBin b => HBin b
    | VTuple n fs => HTup n fs ((fix go (l : list (option atom * value)) : Forall (fun f => P (snd f)) l :=
                                   match l with [] => Forall_nil _ | (k, x) :: r => Forall_cons (k, x) (value_ind' x) (go r) end) fs)
    | VClos nl body cenv te =>
        HClos nl body cenv te ((fix go (l : list (atom * value)) : Forall (fun b => P (snd b)) l :=
                                  match l with [] => Forall_nil _ | (k, x) :: r => Forall_cons (k, x) (value_ind' x) (go r) end) cenv)
    | VBuiltin b => HBi b
    end.
End ValueInd.

Lemma value_eqb_nv : forall a b, value_eqb (nv a) (nv b) = value_eqb a b.
Proof.
  induction a as [n|bs|n fs IH|nl body cenv te _|x] using value_ind'; intros b; destruct b as [m|cs|m gs|nl2 body2 cenv2 te2|y]; try reflexivity.
  cbn [nv value_eqb]. destruct (oatom_eqb n m); [|reflexivity].
  revert gs. induction IH as [|[l x] fs' Hx _ IHfs]; intros gs; destruct gs as [|[k y] gs']; try reflexivity.
  cbn [map fst snd]. destruct (oatom_eqb l k); [|reflexivity]. cbn in Hx. rewrite Hx.
  destruct (value_eqb x y) as [[|]|]; try reflexivity. apply IHfs.
Qed.

Lemma full_fields_nfs : forall (f : ty -> value -> res bool) fts vs,
  (forall t v, f t (nv v) = f t v) -> full_fields f fts (nfs vs) = full_fields f fts vs.
Proof.
  intros f fts. induction fts as [|ft r IH]; intros vs H; destruct vs as [|[k v] vs]; try reflexivity;
    try (destruct ft; reflexivity).
  cbn [nfs map fst snd full_fields]. destruct ft as [l t|]; [|reflexivity]. destruct (oatom_eqb l k); [|reflexivity].
    rewrite H. destruct (f t v) as [[|] w| | |]; try reflexivity. cbn [bind]. f_equal. apply IH, H.
Qed.
Lemma partial_fields_nfs : forall (f : ty -> value -> res bool) fts vs,
  (forall t v, f t (nv v) = f t v) -> partial_fields f fts (nfs vs) = partial_fields f fts vs.
Proof.
  intros f fts vs H. induction fts as [|ft r IH]; [reflexivity|]. cbn [partial_fields].
  destruct ft as [[l|] t|]; try reflexivity. rewrite find_field_nfs. destruct (find_field l vs) as [v|]; [|reflexivity].
  rewrite H. destruct (f t v) as [[|] w| | |]; try reflexivity. cbn [bind]. f_equal. exact IH.
Qed.
Lemma any_res_ext : forall (f g : ty -> res bool) ts, (forall t, f t = g t) -> any_res f ts = any_res g ts.
Proof. intros f g ts H. induction ts as [|t r IH]; [reflexivity|]. cbn. rewrite H. destruct (g t) as [[|] w| | |]; try reflexivity. cbn. f_equal. exact IH. Qed.
Lemma all_res_ext : forall (f g : ty -> res bool) ts, (forall t, f t = g t) -> all_res f ts = all_res g ts.
Proof. intros f g ts H. induction ts as [|t r IH]; [reflexivity|]. cbn. rewrite H. destruct (g t) as [[|] w| | |]; try reflexivity. cbn. f_equal. exact IH. Qed.

Lemma inhab_nv : forall n te root t v, inhab n te root t (nv v) = inhab n te root t v.
Proof.
  induction n as [|n IH]; intros te root t v; [reflexivity|]. cbn [inhab].
  destruct t as [p|name part fts|i o|ts|ts|x args|d| | |mo mem args|args]; try reflexivity.
  - destruct p; destruct v; reflexivity.
  - destruct v as [| |vn vfs| |]; try reflexivity. cbn [nv]. fold (nfs vfs). destruct part.
    + destruct (match name with Some _ => oatom_eqb name vn | None => true end); [|reflexivity].
      apply partial_fields_nfs. intros; apply IH.
    + destruct (oatom_eqb name vn); [|reflexivity]. apply full_fields_nfs. intros; apply IH.
  - apply any_res_ext. intros; apply IH.
  - apply all_res_ext. intros; apply IH.
  - destruct (lookup_alias (Some x) te) as [[ps body]|]; [|reflexivity].
    destruct (existsb has_cycle args); [reflexivity|]. destruct (zip_params ps args); [apply IH | reflexivity].
  - destruct d as [d|]; [destruct (d =? 0); [apply IH | reflexivity] | apply IH].
  - destruct (lookup_alias None te) as [[ps body]|]; [|reflexivity].
    destruct (existsb has_cycle args); [reflexivity|]. destruct (zip_params ps args); [apply IH | reflexivity].
Qed.

Lemma replace_field_nfs : forall l w fs,
  replace_field l (nv w) (nfs fs) = match replace_field l w fs with Some r => Some (nfs r) | None => None end.
Proof.
  intros l w fs. induction fs as [|[[k|] v] r IH]; [reflexivity| |].
  - cbn. destruct (l =? k); [reflexivity|]. fold (nfs r). rewrite IH. destruct (replace_field l w r); reflexivity.
  - cbn. fold (nfs r). rewrite IH. destruct (replace_field l w r); reflexivity.
Qed.
Lemma add_field_nfs : forall acc l w, add_field (nfs acc) l (nv w) = nfs (add_field acc l w).
Proof.
  intros acc [x|] w; unfold add_field.
  - rewrite replace_field_nfs. destruct (replace_field x w acc); [reflexivity|]. unfold nfs. rewrite map_app. reflexivity.
  - unfold nfs. rewrite map_app. reflexivity.
Qed.
Lemma add_fields_nfs : forall fs acc, add_fields (nfs acc) (nfs fs) = nfs (add_fields acc fs).
Proof.
  unfold add_fields. induction fs as [|[l v] r IH]; intros acc; [reflexivity|]. cbn [nfs map fold_left fst snd].
  rewrite add_field_nfs. apply IH.
Qed.

(* patterns *)
Definition pmap (p : pres) : pres := match p with POk b => POk (nenv b) | other => other end.

Lemma eq_verdict_nv : forall b w v, eq_verdict (nenv b) (nv w) (nv v) = pmap (eq_verdict b w v).
Proof. intros. unfold eq_verdict. rewrite value_eqb_nv. destruct (value_eqb w v) as [[|]|]; reflexivity. Qed.
Lemma bind_var_nv : forall b x v, bind_var (nenv b) x (nv v) = pmap (bind_var b x v).
Proof.
  intros. unfold bind_var. rewrite lookup_nenv. destruct (lookup x b); [apply eq_verdict_nv | reflexivity].
Qed.
Lemma bind_star_nv : forall fs b, bind_star (nenv b) (nfs fs) = pmap (bind_star b fs).
Proof.
  induction fs as [|[[l|] v] r IH]; intros b; [reflexivity| |apply IH].
  cbn [nfs map fst snd bind_star]. rewrite bind_var_nv. destruct (bind_var b l v); try reflexivity. apply IH.
Qed.
Lemma type_verdict_nv : forall n te t v k, type_verdict n te t (nv v) (pmap k) = pmap (type_verdict n te t v k).
Proof.
  intros. unfold type_verdict. rewrite inhab_nv. destruct (inhab n te t t v) as [[|] w| | |]; reflexivity.
Qed.
Lemma nv_lit : forall l, nv (val_of_lit l) = val_of_lit l.
Proof. intros [n|b]; reflexivity. Qed.

Lemma pmatch_nv : forall n te outer p b v,
  pmatch n te (nenv outer) (nenv b) p (nv v) = pmap (pmatch n te outer b p v).
Proof.
  intros n te outer p. induction p as [x|l|bs|name fs IH|name fs IH|name| |x|t|ps IH|t x] using pattern_ind';
    intros b v; cbn [pmatch].
  - apply bind_var_nv.
  - rewrite <- (nv_lit l) at 1. apply eq_verdict_nv.
  - change (vstr bs) with (nv (vstr bs)) at 1. apply eq_verdict_nv.
  - destruct v as [| |vn vfs| |]; try reflexivity. cbn [nv]. fold (nfs vfs).
    destruct (oatom_eqb name vn); [|reflexivity].
    revert b vfs. induction IH as [|[l q] fs' Hq _ IHfs]; intros b vfs; destruct vfs as [|[k w] ws]; try reflexivity.
    cbn [nfs map fst snd]. destruct (oatom_eqb l k); [|reflexivity]. rewrite Hq.
    destruct (pmatch n te outer b q w); try reflexivity. apply IHfs.
  - destruct v as [| |vn vfs| |]; try reflexivity. cbn [nv]. fold (nfs vfs).
    destruct (name_ok name vn); [|reflexivity].
    revert b. induction IH as [|[l [q|]] fs' Hq _ IHfs]; intros b; try reflexivity.
    + rewrite find_field_nfs. destruct (find_field l vfs) as [w|]; [|reflexivity]. rewrite Hq.
      destruct (pmatch n te outer b q w); try reflexivity. apply IHfs.
    + rewrite find_field_nfs. destruct (find_field l vfs) as [w|]; [|reflexivity]. rewrite bind_var_nv.
      destruct (bind_var b l w); try reflexivity. apply IHfs.
  - destruct v as [| |vn vfs| |]; try reflexivity. cbn [nv]. fold (nfs vfs).
    destruct (name_ok name vn); [|reflexivity]. rewrite bind_star_nv. destruct (bind_star b vfs); reflexivity.
  - reflexivity.
  - rewrite lookup_var_nenv. destruct (lookup_var x outer); [apply eq_verdict_nv | reflexivity].
  - change (POk (nenv b)) with (pmap (POk b)). apply type_verdict_nv.
  - induction IH as [|q ps' Hq _ IHps]; [reflexivity|]. rewrite Hq.
    destruct (pmatch n te outer b q v); try reflexivity. apply IHps.
  - rewrite bind_var_nv. apply type_verdict_nv.
Qed.

Lemma nenv_app : forall a b, nenv (a ++ b) = nenv a ++ nenv b.
Proof. intros. unfold nenv. apply map_app. Qed.
Lemma nenv_nil_fill : forall xs, nenv (nil_fill xs) = nil_fill xs.
Proof. induction xs as [|x r IH]; [reflexivity|]. cbn. f_equal. exact IH. Qed.

Lemma do_match_nv : forall tf c e p v,
  do_match tf (nctx c) (nenv e) p (nv v) = rmap nvp (do_match tf c e p v).
Proof.
  intros. unfold do_match. cbn [nctx c_tenv]. change (@nil (atom * value)) with (nenv []) at 1.
  rewrite pmatch_nv. destruct (pmatch tf (c_tenv c) e [] p v) as [b| | |]; cbn [pmap rmap ret]; try reflexivity.
  - unfold nvp. cbn [fst snd]. rewrite nenv_app. reflexivity.
  - unfold nvp. cbn [fst snd]. rewrite nenv_app, nenv_nil_fill. reflexivity.
Qed.

(* a builtin looks at integers and binaries at depth at most two, which `nv` leaves alone *)
Lemma int2_nv : forall arg f, int2 (nv arg) f = int2 arg f.
Proof. intros arg f. destruct arg as [| |n [|[l1 [| | | |]] [|[l2 [| | | |]] [|]]]| |]; reflexivity. Qed.
Lemma apply_builtin_nv : forall b arg, apply_builtin b (nv arg) = rmap nv (apply_builtin b arg).
Proof.
  intros b arg. transitivity (apply_builtin b arg).
  - unfold apply_builtin. rewrite !int2_nv.
    repeat match goal with |- context [if b =? ?k then _ else _] => destruct (b =? k) end; try reflexivity.
    (* left: abs, sqrt, concat, length, in the table's order *)
    + destruct arg; reflexivity.
    + destruct arg; reflexivity.
    + destruct arg as [| |n [|[l1 [| | | |]] [|[l2 [| | | |]] [|]]]| |]; reflexivity.
    + destruct arg; reflexivity.
  - pose proof (apply_builtin_plain b arg) as H.
    destruct (apply_builtin b arg) as [[| | | |] w| | |]; try reflexivity; destruct H.
Qed.

(* walkers *)
Lemma terms_sim : forall (ev ev' : term -> env -> value -> res (value * env)) ts,
  Forall (fun t => forall e v, sim nvp (ev' (strip_term t) (nenv e) (nv v)) (ev t e v)) ts ->
  forall e v, sim nvp (terms_with ev' (map strip_term ts) (nenv e) (nv v)) (terms_with ev ts e v).
Proof.
  intros ev ev' ts H. induction H as [|t r Ht _ IH]; intros e v; cbn [map terms_with]; [reflexivity|].
  eapply sim_bind; [apply Ht|]. intros x. apply sim_tick. apply IH.
Qed.

Lemma seq_sim : forall (ev ev' : chain -> env -> value -> res (value * env)) cs,
  Forall (fun c => forall e v, sim nvp (ev' (strip_chain c) (nenv e) (nv v)) (ev c e v)) cs ->
  forall e v, sim nvp (seq_with ev' (map strip_chain cs) (nenv e) (nv v)) (seq_with ev cs e v).
Proof.
  intros ev ev' cs H. induction H as [|c r Hc _ IH]; intros e v; cbn [map seq_with]; [reflexivity|].
  eapply sim_bind; [apply Hc|]. intros x. destruct r as [|c2 r']; [reflexivity|]. cbn [map].
  unfold nvp at 1 2. cbn [fst snd]. rewrite nv_is_nil. destruct (is_nil (fst x)); [reflexivity|]. apply IH.
Qed.

Definition nv3 (x : list (option atom * value) * option (option atom) * env) :=
  (nfs (fst (fst x)), snd (fst x), nenv (snd x)).

Lemma fields_sim : forall (ev ev' : chain -> env -> value -> res (value * env)) fs,
  Forall (on_field (fun c => forall e v, sim nvp (ev' (strip_chain c) (nenv e) (nv v)) (ev c e v))) fs ->
  forall e v acc inh,
    sim nv3 (fields_with ev' (map strip_field fs) (nenv e) (nv v) (nfs acc) inh) (fields_with ev fs e v acc inh).
Proof.
  intros ev ev' fs H. induction H as [|[l [c|src]] r Hf _ IH]; intros e v acc inh; cbn [map strip_field fields_with].
  - reflexivity.
  - eapply sim_bind; [apply Hf|]. intros x. unfold nvp. cbn [fst snd]. rewrite add_field_nfs. apply IH.
  - assert (Hs : match src with Some x => lookup_var x (nenv e) | None => Some (nv v) end =
                 match (match src with Some x => lookup_var x e | None => Some v end) with
                 | Some w => Some (nv w) | None => None end).
    { destruct src; [apply lookup_var_nenv | reflexivity]. }
    rewrite Hs. destruct (match src with Some x => lookup_var x e | None => Some v end) as [[| |sname sfs| |]|]; try reflexivity.
    cbn [nv]. fold (nfs sfs). rewrite add_fields_nfs. apply IH.
Qed.

Lemma branches_sim : forall (ev ev' : sequence -> env -> value -> res (value * env)) bs,
  Forall (on_branch (fun s => forall e v, sim nvp (ev' (strip_sequence s) (nenv e) (nv v)) (ev s e v))) bs ->
  forall e v, sim nv (branches_with ev' (map strip_branch bs) (nenv e) (nv v)) (branches_with ev bs e v).
Proof.
  intros ev ev' bs H. induction H as [|[c k] r [Hc Hk] _ IH]; intros e v; cbn [map strip_branch branches_with]; [reflexivity|].
  eapply sim_bind; [apply Hc|]. intros x. unfold nvp at 1. cbn [fst snd]. rewrite nv_is_nil.
  destruct (is_nil (fst x)); [apply sim_tick, IH|]. destruct k as [k|]; [|reflexivity].
  apply sim_tick. eapply sim_bind; [apply Hk|]. intros y. reflexivity.
Qed.

Lemma segments_sim : forall (ev ev' : expression -> env -> value -> res value) segs,
  Forall (on_segment (fun b => forall e v, sim nv (ev' (strip_expression b) (nenv e) (nv v)) (ev b e v))) segs ->
  forall e v acc, sim (fun x : list Z => x) (segments_with ev' (map strip_segment segs) (nenv e) (nv v) acc)
                      (segments_with ev segs e v acc).
Proof.
  intros ev ev' segs H. induction H as [|[bs|b] r Hg _ IH]; intros e v acc; cbn [map strip_segment segments_with].
  - reflexivity.
  - apply IH.
  - eapply sim_bind; [apply Hg|]. intros h.
    destruct h as [| |[nm|] [|[[l|] [| bs| | |]] [|f2 fs]]| |]; try reflexivity.
    cbn [nv map fst snd]. destruct (nm =? a_Str); [apply IH | reflexivity].
Qed.

(* one level *)
Section LevelNorm.
  Variable tf : nat.
  Variables (cf cf' : value -> value -> stats -> res value) (imf imf' : list atom -> res value).
  Hypothesis Hcf : forall f a acc acc', sim nv (cf' (nv f) (nv a) acc') (cf f a acc).
  Hypothesis Himf : forall p, sim nv (imf' p) (imf p).

  Lemma apply_value_sim : forall w v, sim nv (apply_value cf' (nv w) (nv v)) (apply_value cf w v).
  Proof.
    intros w v. unfold apply_value. rewrite nv_is_callable. destruct (is_callable w); [|reflexivity].
    rewrite nv_tail_arg. apply Hcf.
  Qed.

  Lemma access_apply_sim : forall base path v,
    sim nv (do w <- access_all (nv base) path ;; apply_value cf' w (nv v))
           (do w <- access_all base path ;; apply_value cf w v).
  Proof.
    intros. eapply sim_bind; [apply access_all_nv|]. intros w. apply apply_value_sim.
  Qed.

  (* `sim_with_env` at `nv`, stated with `nvp` so that it applies to the evaluator's judgements *)
  Lemma sim_with_env' : forall e (r' r : res value),
    sim nv r' r -> sim nvp (with_env (nenv e) r') (with_env e r).
  Proof. intros e r' r H. exact (sim_with_env _ _ nv e r' r H). Qed.

  Lemma level_norm :
    (forall t c e v, sim nvp (eval_term tf cf' imf' (nctx c) (strip_term t) (nenv e) (nv v)) (eval_term tf cf imf c t e v)) /\
    (forall ch c e v, sim nvp (eval_chain tf cf' imf' (nctx c) (strip_chain ch) (nenv e) (nv v)) (eval_chain tf cf imf c ch e v)) /\
    (forall s c e v, sim nvp (eval_sequence tf cf' imf' (nctx c) (strip_sequence s) (nenv e) (nv v)) (eval_sequence tf cf imf c s e v)) /\
    (forall b c e v, sim nv (eval_expr tf cf' imf' (nctx c) (strip_expression b) (nenv e) (nv v)) (eval_expr tf cf imf c b e v)).
  Proof.
    apply ast_ind4.
    - (* Literal *) intros l c e v. destruct l; reflexivity.
    - (* Tuple *) intros n fs H c e v. cbn [strip_term]. rewrite !eval_term_tuple.
      eapply sim_bind.
      + change (@nil (option atom * value)) with (nfs []) at 1. apply fields_sim.
        eapply Forall_impl; [|exact H]. intros [l [chn|x]] Hf; cbn [on_field] in *; auto.
      + intros [[fs' inh] e']. unfold nv3. cbn [fst snd].
        destruct n as [|a|]; [reflexivity | reflexivity | destruct inh; reflexivity].
    - (* String *) intros segs H c e v. cbn [strip_term]. rewrite !eval_term_string.
      eapply sim_bind; [|intros bs; reflexivity].
      apply segments_sim. eapply Forall_impl; [|exact H]. intros [bs|b] Hg; cbn [on_segment] in *; auto.
    - (* Match *) intros p c e v. cbn [strip_term]. rewrite !eval_term_match. unfold sim. rewrite do_match_nv. apply eqv_refl.
    - (* Block *) intros b H c e v. cbn [strip_term]. rewrite !eval_term_block. apply sim_with_env', H.
    - (* Function *) intros tps pt rt body _ c e v. cbn [strip_term Lang.eval_term]. destruct body; reflexivity.
    - (* Access *) intros [src path] c e v. cbn [strip_term Lang.eval_term].
      destruct src as [[y| | |p| |b|[y|]|]|].
      + rewrite lookup_var_nenv. destruct (lookup_var y e) as [base|]; [|reflexivity].
        apply sim_with_env', access_apply_sim.
      + apply sim_with_env'. exact (access_apply_sim (c_param c) path v).
      + apply sim_with_env', access_all_nv.
      + apply sim_with_env'. eapply sim_bind; [apply Himf|]. intros base. apply access_apply_sim.
      + reflexivity.
      + apply sim_with_env'. exact (access_apply_sim (VBuiltin b) path v).
      + rewrite lookup_var_nenv. destruct (lookup_var y e) as [base|]; [|reflexivity].
        eapply sim_bind; [apply access_all_nv|]. intros f. rewrite nv_is_callable.
        destruct (is_callable f); [|reflexivity]. unfold sim. cbn [rmap]. rewrite nv_tail_arg. apply eqv_refl.
      + cbn [nctx c_self]. destruct (c_self c) as [f|]; [|reflexivity]. destruct path; [|reflexivity].
        unfold sim. cbn [rmap]. rewrite nv_tail_arg. apply eqv_refl.
      + rewrite nv_is_callable, nv_is_nilary. destruct (is_callable v && is_nilary v); reflexivity.
      + apply sim_with_env', access_all_nv.
    - intros; reflexivity.
    - intros; reflexivity.
    - intros [cs|] _ c e v; reflexivity.
    - intros; reflexivity.
    - (* Reference *) intros [src path] c e v. cbn [strip_term Lang.eval_term].
      destruct src as [[y| | |p| |b|[y|]|]|]; try reflexivity.
      + rewrite lookup_var_nenv. destruct (lookup_var y e) as [base|]; [|reflexivity].
        apply sim_with_env', access_all_nv.
      + apply sim_with_env'. exact (access_all_nv path (c_param c)).
      + apply sim_with_env', access_all_nv.
      + apply sim_with_env'. eapply sim_bind; [apply Himf|]. intros base. apply access_all_nv.
      + apply sim_with_env'. exact (access_all_nv path (VBuiltin b)).
    - (* Chain *) intros mp ts H c e v. cbn [strip_chain].
      assert (Hts : forall e0 v0, sim nvp (terms_with (eval_term tf cf' imf' (nctx c)) (splice (map strip_term ts)) (nenv e0) (nv v0))
                                       (terms_with (eval_term tf cf imf c) ts e0 v0)).
      { intros e0 v0. eapply sim_eqv_l; [apply splice_noop|]. apply terms_sim.
        eapply Forall_impl; [|exact H]. intros t Ht e1 v1. apply Ht. }
      destruct mp as [p|]; [rewrite !eval_chain_some | rewrite !eval_chain_none; apply Hts].
      eapply sim_bind; [apply Hts|]. intros x.
      change (snd (nvp x)) with (nenv (snd x)). change (fst (nvp x)) with (nv (fst x)).
      unfold sim. rewrite do_match_nv. apply eqv_refl.
    - (* Sequence *) intros cs H c e v. cbn [strip_sequence]. rewrite !eval_sequence_eq.
      eapply sim_eqv_l; [apply lift_noop|]. apply seq_sim.
      eapply Forall_impl; [|exact H]. intros chn Hc e0 v0. apply Hc.
    - (* Expression *) intros bs H c e v. cbn [strip_expression]. rewrite !eval_expr_eq. apply branches_sim.
      eapply Forall_impl; [|exact H]. intros [cd k] [Hc Hk]. cbn [on_branch]. split; [intros; apply Hc|].
      destruct k; cbn in *; auto.
  Qed.
End LevelNorm.

(* The whole evaluator. *)
Definition nmods (mods : list (list atom * program)) : list (list atom * program) :=
  map (fun m => (fst m, normalize (snd m))) mods.

Lemma find_module_nmods : forall path mods,
  find_module path (nmods mods) = match find_module path mods with Some p => Some (normalize p) | None => None end.
Proof.
  intros path mods. induction mods as [|[q m] r IH]; [reflexivity|]. cbn [nmods map find_module fst snd].
  match goal with |- context [if ?b then _ else _] => destruct b end; [reflexivity | exact IH].
Qed.

Lemma lift_chains_app : forall a b, lift_chains (a ++ b) = lift_chains a ++ lift_chains b.
Proof.
  induction a as [|c r IH]; intros b; [reflexivity|]. cbn [app lift_chains].
  destruct (should_lift c); rewrite IH; [rewrite app_assoc|]; reflexivity.
Qed.

Lemma collect_aliases_normalize : forall ss,
  collect_aliases (map (fun s => match s with StmtExpression sq => StmtExpression (strip_sequence sq) | alias => alias end) ss)
  = collect_aliases ss.
Proof. induction ss as [|[n ps t|sq] r IH]; cbn; [reflexivity | f_equal; exact IH | exact IH]. Qed.

Lemma collect_chains_normalize : forall ss,
  collect_chains (map (fun s => match s with StmtExpression sq => StmtExpression (strip_sequence sq) | alias => alias end) ss)
  = lift_chains (map strip_chain (collect_chains ss)).
Proof.
  induction ss as [|[n ps t|[cs]] r IH]; cbn [map collect_chains]; [reflexivity | exact IH |].
  cbn [strip_sequence seq_chains]. rewrite map_app, lift_chains_app, IH. reflexivity.
Qed.

Lemma run_program_norm : forall tf cf cf' imf imf' p,
  (forall f a acc acc', sim nv (cf' (nv f) (nv a) acc') (cf f a acc)) ->
  (forall q, sim nv (imf' q) (imf q)) ->
  sim nv (run_program tf cf' imf' (normalize p)) (run_program tf cf imf p).
Proof.
  intros tf cf cf' imf imf' [ss] Hcf Him. unfold run_program, normalize.
  rewrite collect_aliases_normalize, collect_chains_normalize.
  destruct (level_norm tf cf cf' imf imf' Hcf Him) as (_ & Hchain & _ & _).
  assert (H : sim nvp (seq_with (eval_chain tf cf' imf' (mkCtx vnil None (collect_aliases ss)))
                                (lift_chains (map strip_chain (collect_chains ss))) [] vnil)
                      (seq_with (eval_chain tf cf imf (mkCtx vnil None (collect_aliases ss))) (collect_chains ss) [] vnil)).
  { eapply sim_eqv_l; [apply lift_noop|].
    refine (seq_sim (eval_chain tf cf imf (mkCtx vnil None (collect_aliases ss)))
                    (eval_chain tf cf' imf' (mkCtx vnil None (collect_aliases ss))) (collect_chains ss) _ [] vnil).
    apply Forall_forall. intros chn _ e v.
    exact (Hchain chn (mkCtx vnil None (collect_aliases ss)) e v). }
  unfold sim, eqv in *.
  destruct (seq_with (eval_chain tf cf imf _) (collect_chains ss) [] vnil) as [x w|g y w|err|];
  destruct (seq_with (eval_chain tf cf' imf' _) _ [] vnil) as [x' w'|g' y' w'|err'|];
  cbn in H; try discriminate; inversion H; subst; reflexivity.
Qed.

Lemma call_acc_irrelevant : forall mods n f a acc acc', eqv (call mods n f a acc) (call mods n f a acc').
Proof.
  intros mods. induction n as [|n IH]; intros f a acc acc'; [reflexivity|]. rewrite !call_S.
  destruct f as [z0|bs0|nm0 fs0|nl body cenv te|b]; try reflexivity.
  - destruct body as [body|]; [|reflexivity].
    destruct (eval_expr n (call mods n) (eval_import mods n) _ body cenv a); try reflexivity. apply IH.
  - unfold eqv. rewrite !erase_tick. reflexivity.
Qed.

Theorem call_import_norm : forall mods n,
  (forall f a acc acc', sim nv (call (nmods mods) n (nv f) (nv a) acc') (call mods n f a acc)) /\
  (forall path, sim nv (eval_import (nmods mods) n path) (eval_import mods n path)).
Proof.
  intros mods. induction n as [|n [IHc IHi]]; [split; intros; reflexivity|]. split.
  - intros f a acc acc'. rewrite !call_S.
    destruct f as [z0|bs0|nm0 fs0|nl body cenv te|b]; try reflexivity.
    + destruct body as [body|]; [|reflexivity]. cbn [nv].
      destruct (level_norm n _ _ _ _ IHc IHi) as (_ & _ & _ & Hexpr).
      pose proof (Hexpr body (mkCtx a (Some (VClos nl (Some body) cenv te)) te) cenv a) as H.
      cbn [nctx c_param c_self c_tenv nv] in H. fold (nenv cenv) in *.
      unfold sim, eqv in H.
      destruct (eval_expr n (call mods n) (eval_import mods n) _ body cenv a) as [x w|g y w|err|];
      destruct (eval_expr n (call (nmods mods) n) (eval_import (nmods mods) n) _ (strip_expression body) (nenv cenv) (nv a)) as [x' w'|g' y' w'|err'|];
      cbn in H; try discriminate; inversion H; subst; try reflexivity.
      apply IHc.
    + cbn [nv]. unfold sim, eqv. rewrite erase_tick, apply_builtin_nv.
      destruct (apply_builtin b a); reflexivity.
  - intros path. rewrite !eval_import_S, find_module_nmods.
    destruct (find_module path mods) as [p|]; [|reflexivity]. apply run_program_norm; assumption.
Qed.

(* simplify.rs's normalize_blocks (compiler options) preserves the reference semantics: at every
   fuel the normalised program — with normalised modules — evaluates to the same outcome
   (value / error / out of fuel), up to the event counters and to normalising the bodies of the
   function values in the result *)
Theorem normalize_preserves_eval : forall mods n p,
  erase (eval_program (nmods mods) n (normalize p)) = erase (rmap nv (eval_program mods n p)).
Proof.
  intros mods n p. destruct n as [|n]; [reflexivity|]. unfold eval_program.
  destruct (call_import_norm mods n) as [Hc Hi]. exact (run_program_norm n _ _ _ _ p Hc Hi).
Qed.

(* ... in particular a result without function values is the same value *)
Fixpoint closure_free (v : value) : Prop :=
  match v with
  | VTuple _ fs => (fix go (l : list (option atom * value)) : Prop :=
                      match l with [] => True | f :: r => closure_free (snd f) /\ go r end) fs
  | VClos _ _ _ _ => False
  | _ => True
  end.
Lemma nv_closure_free : forall v, closure_free v -> nv v = v.
Proof.
  induction v as [n|bs|n fs IH|nl body cenv te _|x] using value_ind'; intros H; try reflexivity; [|destruct H].
  cbn [nv]. f_equal. cbn [closure_free] in H. induction IH as [|[l x] r Hx _ IHr]; [reflexivity|].
  destruct H as [H1 H2]. cbn [map fst snd] in *. rewrite (Hx H1). f_equal. apply IHr, H2.
Qed.

Corollary normalize_preserves_value : forall mods n p v w,
  eval_program mods n p = Ret v w -> closure_free v ->
  exists w', eval_program (nmods mods) n (normalize p) = Ret v w'.
Proof.
  intros mods n p v w H Hcf. pose proof (normalize_preserves_eval mods n p) as Hn. rewrite H in Hn.
  cbn [rmap erase] in Hn. rewrite (nv_closure_free v Hcf) in Hn.
  destruct (eval_program (nmods mods) n (normalize p)) as [v' w'| | |]; cbn in Hn; try discriminate.
  inversion Hn; subst. eauto.
Qed.

Corollary normalize_preserves_termination : forall mods n p,
  eval_program (nmods mods) n (normalize p) = Timeout <-> eval_program mods n p = Timeout.
Proof.
  intros mods n p. pose proof (normalize_preserves_eval mods n p) as Hn.
  destruct (eval_program mods n p), (eval_program (nmods mods) n (normalize p)); cbn in Hn; split; intros H; try discriminate; reflexivity.
Qed.

(* non-vacuity: `x = { 1, { 2 } }, { x { [~, 3] } }` is changed by the normalisation (both the
   splice and the lift fire) and evaluates to [2, 3] before and after *)
Definition ex_norm_prog : program :=
  Program [StmtExpression (Sequence
    [Chain (Some (MIdentifier 100)) [Block (Expression [Branch (Sequence [Chain None [Literal (LInteger 1)];
                                                                            Chain None [Block (Expression [Branch (Sequence [Chain None [Literal (LInteger 2)]]) None])]]) None])];
     Chain None [Block (Expression [Branch (Sequence
       [Chain None [Access (mkAccess (Some (Identifier 100)) []);
                    Block (Expression [Branch (Sequence [Chain None [Tuple Anonymous [TupleField None (FChain (Chain None [Access (mkAccess (Some Ripple) [])]));
                                                                                        TupleField None (FChain (Chain None [Literal (LInteger 3)]))]]]) None])]]) None])]])].
Example ex_normalize :
  normalize ex_norm_prog <> ex_norm_prog /\
  erase (eval_program [] 5 ex_norm_prog) = Ret (VTuple None [(None, VInt 2); (None, VInt 3)]) st0 /\
  erase (eval_program [] 5 (normalize ex_norm_prog)) = Ret (VTuple None [(None, VInt 2); (None, VInt 3)]) st0.
Proof. split; [vm_compute; discriminate | split; vm_compute; reflexivity]. Qed.
