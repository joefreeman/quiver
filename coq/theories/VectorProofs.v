(* VectorProofs.v — the packed-vector kernels agree with their reference specs. *)
From Quiver Require Import BuiltinWf.

Lemma checked_width_spec w :
  checked_width w = if width_ok w then Val w else Err InvalidArgument.
Proof.
  unfold checked_width, to_i64_checked, width_ok.
  destruct (Z.eqb_spec w 4) as [->|H4]; [reflexivity|].
  destruct (Z.eqb_spec w 8) as [->|H8]; [reflexivity|].
  destruct (in_i64 w); cbn [obind]; [|reflexivity].
  destruct (Z.eqb_spec w 4) as [?|_]; [contradiction|].
  destruct (Z.eqb_spec w 8) as [?|_]; [contradiction|]. reflexivity.
Qed.

Lemma width_ok_cases w : width_ok w = true -> w = 4 \/ w = 8.
Proof.
  unfold width_ok. intros H. apply orb_true_iff in H.
  destruct H as [H|H]; apply Z.eqb_eq in H; auto.
Qed.

Lemma width_pos w : w = 4 \/ w = 8 -> 0 < w.
Proof. lia. Qed.

Lemma MAX_lt_two64 : MAX_BINARY_SIZE < two64 - 1.
Proof. reflexivity. Qed.

Lemma lane_bound L w i : 0 < w -> L mod w = 0 -> i < L / w -> (i + 1) * w <= L.
Proof.
  intros Hw Hm Hi. pose proof (Z_div_exact_full_2 L w ltac:(lia) Hm) as E.
  set (q := L / w) in *. rewrite E. nia.
Qed.

Lemma div_nonneg_len L w : 0 < w -> 0 <= L -> 0 <= L / w <= L.
Proof.
  intros Hw HL. split; [apply Z.div_pos; lia|].
  apply Z.div_le_upper_bound; [lia|]. nia.
Qed.

Lemma chunk_length (x : list Z) w i : 0 < w -> 0 <= i -> (i + 1) * w <= blen x ->
  length (firstn (Z.to_nat w) (skipn (Z.to_nat (i * w)) x)) = Z.to_nat w.
Proof.
  unfold blen. intros Hw Hi Hb.
  assert (H0 : 0 <= i * w) by (apply Z.mul_nonneg_nonneg; lia).
  replace ((i + 1) * w) with (i * w + w) in Hb by ring.
  rewrite firstn_length, skipn_length. lia.
Qed.

Lemma lane_val_idx x w i : 0 < w -> blen x mod w = 0 -> 0 <= i < blen x / w ->
  lane x w i = Val (spec_lane w x i).
Proof.
  intros Hw Hm Hi. unfold lane, spec_lane.
  rewrite chunk_length by (try lia; apply lane_bound; (assumption || lia)).
  rewrite Z2Nat.id, Z.eqb_refl by lia. reflexivity.
Qed.

Lemma vector_sum_good r w : wf r ->
  flatten_out (impl_vector_sum (BTup [BBin r; BInt w]))
  = spec_vector_sum (FTup [FBin (bytes_of r); FInt w])
  /\ wf_out (impl_vector_sum (BTup [BBin r; BInt w])).
Proof.
  intros Hr. unfold impl_vector_sum, spec_vector_sum.
  rewrite checked_width_spec.
  destruct (width_ok w) eqn:Hw; cbn [negb obind]; [|ill].
  apply width_ok_cases, width_pos in Hw.
  fold (blen (bytes_of r)).
  destruct (Z.eqb_spec (blen (bytes_of r) mod w) 0) as [Hm|Hm]; cbn [negb]; [|ill].
  rewrite (ofold_val _ (fun acc i => acc + spec_lane w (bytes_of r) i)).
  2:{ intros st i Hi. apply zrange_In in Hi. rewrite lane_val_idx by assumption. reflexivity. }
  cbn [obind flatten_out flatten wf_out wf_bval]. split; [|exact I].
  rewrite fold_left_add_map. unfold spec_lanes. reflexivity.
Qed.

Theorem vector_sum_correct : agrees impl_vector_sum spec_vector_sum.
Proof.
  intros a Ha. d_tup a fs. d_cons fs x. d_bin x r. d_cons fs y. d_int y w. d_nil fs.
  destruct Ha as (Hr & _). apply vector_sum_good. exact Hr.
Qed.

(* elementwise, compare and dot treat their argument alike (width, equal lengths, whole lanes) and
   then run a loop that sees only the two byte strings *)
Lemma two_vectors_agree (body : list Z -> list Z -> Z -> outcome bval)
                        (sbody : list Z -> list Z -> Z -> outcome fval) :
  (forall a b w, w = 4 \/ w = 8 -> blen a = blen b -> blen a mod w = 0 -> 0 <= blen a <= MAX_BINARY_SIZE ->
     flatten_out (body a b w) = sbody a b w /\ wf_out (body a b w)) ->
  agrees (fun arg => match arg with
          | BTup [BBin ra; BBin rb; BInt w] =>
              w <- checked_width w ;;
              let a := bytes_of ra in let b := bytes_of rb in
              if negb (blen a =? blen b) || negb (blen a mod w =? 0) then Val bnil else body a b w
          | _ => Err TypeMismatch
          end)
         (fun arg => match arg with
          | FTup [FBin x; FBin y; FInt w] =>
              if negb (width_ok w) then Err InvalidArgument else
              if negb (blen x =? blen y) || negb (blen x mod w =? 0) then Val fnil else sbody x y w
          | _ => Err TypeMismatch
          end).
Proof.
  intros Hbody arg Ha. d_tup arg fs. d_cons fs x. d_bin x ra. d_cons fs y. d_bin y rb.
  d_cons fs z. d_int z w. d_nil fs. destruct Ha as (Ha & Hb & _).
  cbn [flatten map]. rewrite checked_width_spec.
  destruct (width_ok w) eqn:Hw; cbn [negb obind]; [|ill]. apply width_ok_cases in Hw.
  destruct (Z.eqb_spec (blen (bytes_of ra)) (blen (bytes_of rb))) as [He|He]; cbn [negb orb]; [|ill].
  destruct (Z.eqb_spec (blen (bytes_of ra) mod w) 0) as [Hm|Hm]; cbn [negb]; [|ill].
  exact (Hbody _ _ w Hw He Hm (wf_blen ra Ha)).
Qed.

Lemma lane_pair_val a b w i : 0 < w -> blen a = blen b -> blen a mod w = 0 -> 0 <= i < blen a / w ->
  lane a w i = Val (spec_lane w a i) /\ lane b w i = Val (spec_lane w b i).
Proof.
  intros Hw He Hm Hi. split; apply lane_val_idx; try rewrite <- He; assumption.
Qed.

Theorem vector_dot_correct : agrees impl_vector_dot spec_vector_dot.
Proof.
  apply (two_vectors_agree
           (fun a b w => acc <- ofold (fun acc i => x <- lane a w i ;; y <- lane b w i ;; Val (acc + x * y))
                                      (zrange (blen a / w)) 0 ;; Val (BInt acc))
           (fun x y w => Val (FInt (fold_right Z.add 0 (map2 Z.mul (spec_lanes w x) (spec_lanes w y)))))).
  intros a b w Hw He Hm _. apply width_pos in Hw.
  rewrite (ofold_val _ (fun acc i => acc + spec_lane w a i * spec_lane w b i)).
  2:{ intros st i Hi. apply zrange_In in Hi.
      destruct (lane_pair_val a b w i Hw He Hm Hi) as [-> ->]. reflexivity. }
  split; [|exact I]. cbn [obind flatten_out flatten].
  rewrite (fold_left_add_map (fun i => spec_lane w a i * spec_lane w b i)).
  unfold spec_lanes. rewrite <- He, map2_map. reflexivity.
Qed.

Lemma vector_dot_good ra rb w : wf ra -> wf rb ->
  flatten_out (impl_vector_dot (BTup [BBin ra; BBin rb; BInt w]))
  = spec_vector_dot (FTup [FBin (bytes_of ra); FBin (bytes_of rb); FInt w])
  /\ wf_out (impl_vector_dot (BTup [BBin ra; BBin rb; BInt w])).
Proof.
  intros Ha Hb. exact (vector_dot_correct (BTup [BBin ra; BBin rb; BInt w]) (conj Ha (conj Hb (conj I I)))).
Qed.

Lemma compare_correct pred : agrees (compare_kernel pred) (spec_compare pred).
Proof.
  apply (two_vectors_agree
           (fun a b w => out <- omap (fun i => x <- lane a w i ;; y <- lane b w i ;;
                                               Val (if pred x y then 1 else 0))
                                     (zrange (blen a / w)) ;; alloc_bytes out)
           (fun x y w => Val (FBin (map2 (fun p q => if pred p q then 1 else 0)
                                         (spec_lanes w x) (spec_lanes w y))))).
  intros a b w Hw He Hm Hla. apply width_pos in Hw.
  rewrite (omap_val _ (fun i => if pred (spec_lane w a i) (spec_lane w b i) then 1 else 0)).
  2:{ intros i Hi. apply zrange_In in Hi.
      destruct (lane_pair_val a b w i Hw He Hm Hi) as [-> ->]. reflexivity. }
  cbn [obind].
  pose proof (div_nonneg_len (blen a) w Hw (proj1 Hla)) as Hq.
  rewrite alloc_bytes_ok by (rewrite map_length, zrange_length; lia).
  cbn [flatten_out flatten bytes_of wf_out wf_bval wf]. split.
  - unfold spec_lanes. rewrite <- He, map2_map. reflexivity.
  - split; [|rewrite map_length, zrange_length; lia].
    unfold bytes_ok. apply Forall_forall. intros c Hc. apply in_map_iff in Hc.
    destruct Hc as (i & <- & _). destruct (pred _ _); lia.
Qed.

Theorem vector_less_than_correct : agrees impl_vector_less_than spec_vector_less_than.
Proof. exact (compare_correct Z.ltb). Qed.
Theorem vector_equal_correct : agrees impl_vector_equal spec_vector_equal.
Proof. exact (compare_correct Z.eqb). Qed.
Theorem vector_greater_than_correct : agrees impl_vector_greater_than spec_vector_greater_than.
Proof. exact (compare_correct Z.gtb). Qed.

Lemma get_guard L w i : w = 4 \/ w = 8 -> 0 <= L <= MAX_BINARY_SIZE ->
  in_u64 i && ((L mod w =? 0) && (sat_u64 (sat_u64 (i + 1) * w) <=? L))
  = (L mod w =? 0) && (0 <=? i) && (i <? L / w).
Proof.
  (* L = w * (L / w) <= MAX, so (i + 1) * w <= L decides i < L / w; an i large enough for either
     product to saturate at 2^64 - 1 fails both tests *)
  intros Hw HL.
  destruct (Z.eqb_spec (L mod w) 0) as [Hm|Hm]; [|apply andb_false_r].
  pose proof (Z_div_exact_full_2 L w ltac:(lia) Hm) as E.
  unfold in_u64, sat_u64, two64, MAX_BINARY_SIZE in *.
  destruct Hw; subst w; zcmp; reflexivity.
Qed.

Lemma vector_get_good r w i : wf r ->
  flatten_out (impl_vector_get (BTup [BBin r; BInt w; BInt i]))
  = spec_vector_get (FTup [FBin (bytes_of r); FInt w; FInt i])
  /\ wf_out (impl_vector_get (BTup [BBin r; BInt w; BInt i])).
Proof.
  intros Hr. unfold impl_vector_get, spec_vector_get.
  rewrite checked_width_spec.
  destruct (width_ok w) eqn:Hw; cbn [negb obind]; [|ill].
  apply width_ok_cases in Hw.
  fold (blen (bytes_of r)).
  rewrite (get_guard _ _ _ Hw (wf_blen r Hr)).
  destruct (Z.eqb_spec (blen (bytes_of r) mod w) 0) as [Hm|Hm]; cbn [andb];
    [|ill].
  destruct (Z.leb_spec 0 i) as [H0|H0]; cbn [andb]; [|ill].
  destruct (Z.ltb_spec i (blen (bytes_of r) / w)) as [H1|H1]; [|ill].
  rewrite lane_val_idx by (try apply width_pos; auto).
  cbn [obind]. ill.
Qed.

Theorem vector_get_correct : agrees impl_vector_get spec_vector_get.
Proof.
  intros a Ha. d_tup a fs. d_cons fs x. d_bin x r. d_cons fs y. d_int y w.
  d_cons fs z. d_int z i. d_nil fs.
  destruct Ha as (Hr & _). apply vector_get_good; assumption.
Qed.

Lemma le_bytes_length n v : length (le_bytes n v) = n.
Proof. revert v. induction n as [|n IH]; intros v; cbn [le_bytes length]; [reflexivity|]. rewrite IH. reflexivity. Qed.

Lemma le_bytes_ok n v : bytes_ok (le_bytes n v).
Proof.
  unfold bytes_ok. revert v. induction n as [|n IH]; intros v; cbn [le_bytes]; constructor.
  - apply Z.mod_pos_bound. lia.
  - apply IH.
Qed.

Lemma push_lane_length w v : 0 <= w -> blen (push_lane w v) = w.
Proof. intros Hw. unfold blen, push_lane. rewrite le_bytes_length. lia. Qed.

Lemma push_lane_ok w v : bytes_ok (push_lane w v).
Proof. apply le_bytes_ok. Qed.

Lemma encode_lanes_cons w v vs : encode_lanes w (v :: vs) = push_lane w v ++ encode_lanes w vs.
Proof. reflexivity. Qed.

Lemma encode_lanes_length w vs : 0 <= w -> blen (encode_lanes w vs) = Z.of_nat (length vs) * w.
Proof.
  intros Hw. unfold blen. induction vs as [|v vs IH]; [reflexivity|].
  rewrite encode_lanes_cons, app_length, Nat2Z.inj_add, IH.
  fold (blen (push_lane w v)). rewrite push_lane_length by exact Hw.
  cbn [length]. lia.
Qed.

Lemma encode_lanes_ok w vs : bytes_ok (encode_lanes w vs).
Proof.
  unfold bytes_ok. induction vs as [|v vs IH]; [constructor|].
  rewrite encode_lanes_cons. apply Forall_app. split; [apply push_lane_ok | exact IH].
Qed.

Lemma lane_ok_fits w v : w = 4 \/ w = 8 -> in_i64 v && fits v w = lane_ok w v.
Proof.
  intros [->| ->]; unfold lane_ok, in_i64, fits, two63.
  - change (8 * 4 - 1) with 31. cbn [Z.eqb Pos.eqb].
    destruct (Z.leb_spec (- 2 ^ 31) v); destruct (Z.ltb_spec v (2 ^ 31));
      destruct (Z.leb_spec (- 2 ^ 63) v); destruct (Z.ltb_spec v (2 ^ 63)); try reflexivity; lia.
  - change (8 * 8 - 1) with 63. cbn [Z.eqb Pos.eqb]. apply andb_true_r.
Qed.

Lemma vector_push_good r w v : wf r ->
  flatten_out (impl_vector_push (BTup [BBin r; BInt w; BInt v]))
  = spec_vector_push (FTup [FBin (bytes_of r); FInt w; FInt v])
  /\ wf_out (impl_vector_push (BTup [BBin r; BInt w; BInt v])).
Proof.
  intros Hr. unfold impl_vector_push, spec_vector_push.
  rewrite checked_width_spec.
  destruct (width_ok w) eqn:Hw; cbn [negb obind]; [|ill].
  apply width_ok_cases in Hw. pose proof (width_pos w Hw) as Hwp.
  rewrite (lane_ok_fits w v Hw).
  rewrite <- (blen_bytes_of r Hr).
  pose proof (wf_blen r Hr) as HL.
  destruct (lane_ok w v); cbn [negb andb]; [|ill].
  destruct (Z.eqb_spec (blen (bytes_of r) mod w) 0) as [Hm|Hm]; cbn [negb]; [|ill].
  pose proof (push_lane_length w v ltac:(lia)) as Hpl.
  assert (Henc : encode_lanes w [v] = push_lane w v) by apply app_nil_r.
  rewrite Henc.
  destruct (Z.eqb_spec (blen (bytes_of r)) 0) as [Hz|Hz].
  - (* empty vector: the lane alone *)
    rewrite alloc_ok by (cbn [rlen]; fold (blen (push_lane w v)); unfold MAX_BINARY_SIZE; lia).
    apply (Nat2Z.inj _ 0%nat), length_zero_iff_nil in Hz. rewrite Hz. change (blen []) with 0.
    destruct (Z.leb_spec (0 + w) MAX_BINARY_SIZE) as [_|Hbad]; [|unfold MAX_BINARY_SIZE in Hbad; lia].
    split; [reflexivity|]. split; [apply push_lane_ok | fold (blen (push_lane w v)); unfold MAX_BINARY_SIZE; lia].
  - rewrite in_u64_true by (unfold two64, MAX_BINARY_SIZE in *; lia). cbn [negb].
    destruct (alloc_concat r (push_lane w v) Hr (push_lane_ok w v)) as [E W].
    rewrite (blen_bytes_of r Hr), E, Hpl. split; [reflexivity | exact W].
Qed.

Theorem vector_push_correct : agrees impl_vector_push spec_vector_push.
Proof.
  intros a Ha. d_tup a fs. d_cons fs x. d_bin x r. d_cons fs y. d_int y w.
  d_cons fs z. d_int z v. d_nil fs.
  destruct Ha as (Hr & _). apply vector_push_good; assumption.
Qed.

Lemma concat_map_blen_le {A} (g : A -> list Z) (l : list A) (k : Z) :
  (forall x, In x l -> blen (g x) <= k) -> blen (concat (map g l)) <= Z.of_nat (length l) * k.
Proof.
  unfold blen. induction l as [|x t IH]; intros H; cbn [map concat length]; [lia|].
  rewrite app_length.
  pose proof (H x (or_introl eq_refl)).
  specialize (IH (fun y Hy => H y (or_intror Hy))). lia.
Qed.

(* the loop body of spec_vector_take, named *)
Definition take_chunk (w : Z) (d : list Z) (p : Z * Z) : list Z :=
  if snd p =? 0 then [] else firstn (Z.to_nat w) (skipn (Z.to_nat (fst p * w)) d).

Lemma vector_take_good rd w rm : wf rd -> wf rm ->
  flatten_out (impl_vector_take (BTup [BBin rd; BInt w; BBin rm]))
  = spec_vector_take (FTup [FBin (bytes_of rd); FInt w; FBin (bytes_of rm)])
  /\ wf_out (impl_vector_take (BTup [BBin rd; BInt w; BBin rm])).
Proof.
  intros Hd Hm'. unfold impl_vector_take, spec_vector_take.
  rewrite checked_width_spec.
  destruct (width_ok w) eqn:Hw; cbn [negb obind]; [|ill].
  apply width_ok_cases, width_pos in Hw.
  fold (blen (bytes_of rd)). fold (blen (bytes_of rm)).
  destruct (Z.eqb_spec (blen (bytes_of rd) mod w) 0) as [Hm|Hm]; cbn [negb orb]; [|ill].
  destruct (Z.eqb_spec (blen (bytes_of rm)) (blen (bytes_of rd) / w)) as [He|He]; cbn [negb]; [|ill].
  fold (take_chunk w (bytes_of rd)).
  rewrite (omap_val _ (take_chunk w (bytes_of rd))).
  2:{ intros [i s] Hp. apply in_combine_l in Hp. apply zrange_In in Hp.
      unfold take_chunk. cbn [fst snd]. destruct (s =? 0); [reflexivity|].
      rewrite chunk_length; [| exact Hw | lia | apply lane_bound; [exact Hw|exact Hm|lia]].
      rewrite Z2Nat.id by lia. rewrite Z.eqb_refl. reflexivity. }
  cbn [obind].
  pose proof (wf_blen rd Hd) as HLd.
  assert (Hlen : Z.of_nat (length (concat (map (take_chunk w (bytes_of rd))
                    (combine (zrange (blen (bytes_of rm))) (bytes_of rm))))) <= MAX_BINARY_SIZE).
  { (* at most one lane per mask byte: w * (|data| / w) <= |data| *)
    eapply Z.le_trans; [apply (concat_map_blen_le _ _ w)|].
    - intros x _. unfold take_chunk, blen. destruct (snd x =? 0); cbn [length]; [lia|].
      rewrite firstn_length. lia.
    - rewrite combine_length, zrange_length.
      pose proof (Z.mul_div_le (blen (bytes_of rd)) w Hw) as Hdm.
      assert (Hq : 0 <= blen (bytes_of rd) / w) by (apply Z.div_pos; lia).
      assert (Z.of_nat (Nat.min (Z.to_nat (blen (bytes_of rm))) (length (bytes_of rm)))
              <= blen (bytes_of rd) / w) by lia.
      nia. }
  rewrite alloc_bytes_ok by exact Hlen.
  cbn [flatten_out flatten bytes_of wf_out wf_bval wf]. split; [reflexivity|].
  split; [|exact Hlen].
  apply Forall_concat, Forall_map, Forall_forall. intros x _.
  unfold take_chunk. destruct (snd x =? 0); [constructor|].
  apply Forall_firstn_keep, Forall_skipn_keep. apply bytes_of_ok. exact Hd.
Qed.

Theorem vector_take_correct : agrees impl_vector_take spec_vector_take.
Proof.
  intros a Ha. d_tup a fs. d_cons fs x. d_bin x rd. d_cons fs y. d_int y w.
  d_cons fs z. d_bin z rm. d_nil fs.
  destruct Ha as (Hd & _ & Hm & _). apply vector_take_good; assumption.
Qed.

Lemma elementwise_loop_spec opZ a b w idxs out : w = 4 \/ w = 8 ->
  (forall i, In i idxs -> lane a w i = Val (spec_lane w a i) /\ lane b w i = Val (spec_lane w b i)) ->
  elementwise_loop (checked_i64 opZ) a b w idxs out
  = Val (if forallb (lane_ok w) (map (fun i => opZ (spec_lane w a i) (spec_lane w b i)) idxs)
         then Some (out ++ encode_lanes w (map (fun i => opZ (spec_lane w a i) (spec_lane w b i)) idxs))
         else None).
Proof.
  intros Hw. revert out. induction idxs as [|i rest IH]; intros out H.
  - cbn [elementwise_loop map forallb encode_lanes flat_map]. rewrite app_nil_r. reflexivity.
  - cbn [elementwise_loop map forallb].
    destruct (H i (or_introl eq_refl)) as [Ea Eb]. rewrite Ea, Eb. cbn [obind].
    unfold checked_i64. rewrite <- (lane_ok_fits w _ Hw).
    destruct (in_i64 (opZ (spec_lane w a i) (spec_lane w b i))); cbn [andb]; [|reflexivity].
    destruct (fits (opZ (spec_lane w a i) (spec_lane w b i)) w); cbn [andb]; [|reflexivity].
    rewrite IH by (intros j Hj; apply H; right; exact Hj).
    rewrite encode_lanes_cons, app_assoc. reflexivity.
Qed.

Lemma elementwise_correct opZ : agrees (elementwise (checked_i64 opZ)) (spec_elementwise opZ).
Proof.
  apply (two_vectors_agree
           (fun a b w => res <- elementwise_loop (checked_i64 opZ) a b w (zrange (blen a / w)) [] ;;
                         match res with Some out => alloc_bytes out | None => Val bnil end)
           (fun x y w => let r := map2 opZ (spec_lanes w x) (spec_lanes w y) in
                         if forallb (lane_ok w) r then Val (FBin (encode_lanes w r)) else Val fnil)).
  intros a b w Hw He Hm Hla. pose proof (width_pos w Hw) as Hwp.
  rewrite (elementwise_loop_spec opZ _ _ w _ _ Hw)
    by (intros i Hi; apply zrange_In in Hi; apply lane_pair_val; assumption).
  cbn [obind app]. cbv zeta.
  unfold spec_lanes. rewrite <- He, map2_map.
  set (rs := map (fun i => opZ (spec_lane w a i) (spec_lane w b i)) (zrange (blen a / w))).
  destruct (forallb (lane_ok w) rs); [|ill].
  assert (Hlen : Z.of_nat (length (encode_lanes w rs)) <= MAX_BINARY_SIZE).
  { fold (blen (encode_lanes w rs)). rewrite encode_lanes_length by lia.
    unfold rs. rewrite map_length, zrange_length.
    assert (Hq : 0 <= blen a / w) by (apply Z.div_pos; lia).
    rewrite Z2Nat.id by exact Hq.
    pose proof (Z.mul_div_le (blen a) w Hwp). lia. }
  rewrite alloc_bytes_ok by exact Hlen.
  split; [reflexivity|]. split; [apply encode_lanes_ok | exact Hlen].
Qed.

Theorem vector_add_correct : agrees impl_vector_add spec_vector_add.
Proof. exact (elementwise_correct Z.add). Qed.
Theorem vector_subtract_correct : agrees impl_vector_subtract spec_vector_subtract.
Proof. exact (elementwise_correct Z.sub). Qed.
Theorem vector_multiply_correct : agrees impl_vector_multiply spec_vector_multiply.
Proof. exact (elementwise_correct Z.mul). Qed.

(* non-vacuity: concrete evaluations *)
Example vector_add_example :
  flatten_out (impl_vector_add (BTup [BBin (Owned [1;0;0;0; 255;255;255;127]); BBin (Concat (Owned [2;0;0;0]) (Zeroed 4) 8); BInt 4]))
  = Val (FBin [3;0;0;0; 255;255;255;127]).
Proof. vm_compute; reflexivity. Qed.
Example vector_add_overflow_example :
  impl_vector_add (BTup [BBin (Owned [255;255;255;127]); BBin (Owned [1;0;0;0]); BInt 4]) = Val bnil.
Proof. vm_compute; reflexivity. Qed.
