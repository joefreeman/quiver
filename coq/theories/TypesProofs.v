(* TypesProofs.v — registry monotonicity: register_type / register_tuple only append (or find),
   never change an existing entry, return an id that denotes exactly the registered entry, and
   therefore never change the meaning (`inhab`) of an existing id.  First, that the structural
   equality tests of Types.v decide equality. *)
From Quiver Require Import Base Types Sem.
From Coq Require Import Arith Lia.
Close Scope Z_scope.
Open Scope nat_scope.

Lemma opt_eqb_true o1 o2 : opt_eqb o1 o2 = true -> o1 = o2.
Proof. destruct o1, o2; cbn; intros H; try discriminate; [apply Nat.eqb_eq in H; congruence|reflexivity]. Qed.

Lemma opt_eqb_refl o : opt_eqb o o = true.
Proof. destruct o; cbn; [apply Nat.eqb_refl|reflexivity]. Qed.

Lemma list_eqb_true {A} (eqb : A -> A -> bool) :
  (forall x y, eqb x y = true -> x = y) -> forall l1 l2, list_eqb eqb l1 l2 = true -> l1 = l2.
Proof.
  intros Heq. induction l1 as [|x l1 IH]; intros [|y l2] H; cbn in H; try discriminate; [reflexivity|].
  apply andb_true_iff in H. destruct H as [H1 H2]. f_equal; [apply Heq; exact H1|apply IH; exact H2].
Qed.

Lemma pfield_eqb_true f1 f2 : pfield_eqb f1 f2 = true -> f1 = f2.
Proof.
  destruct f1, f2. unfold pfield_eqb. cbn. intros H. apply andb_true_iff in H. destruct H as [H1 H2].
  apply Nat.eqb_eq in H1. apply Nat.eqb_eq in H2. congruence.
Qed.

Lemma tfield_eqb_true f1 f2 : tfield_eqb f1 f2 = true -> f1 = f2.
Proof.
  destruct f1, f2. unfold tfield_eqb. cbn. intros H. apply andb_true_iff in H. destruct H as [H1 H2].
  apply opt_eqb_true in H1. apply Nat.eqb_eq in H2. congruence.
Qed.

Lemma ty_eqb_true t1 t2 : ty_eqb t1 t2 = true -> t1 = t2.
Proof.
  destruct t1, t2; cbn; intros H; try discriminate; try reflexivity.
  - apply Nat.eqb_eq in H. congruence.
  - apply andb_true_iff in H. destruct H as [Hn Hf].
    apply opt_eqb_true in Hn. apply (list_eqb_true _ pfield_eqb_true) in Hf. congruence.
  - apply andb_true_iff in H. destruct H as [H Hc]. apply andb_true_iff in H. destruct H as [Hp Hr].
    apply Nat.eqb_eq in Hp. apply Nat.eqb_eq in Hr. apply Nat.eqb_eq in Hc. congruence.
  - apply Nat.eqb_eq in H. congruence.
  - apply (list_eqb_true _ (fun x y => proj1 (Nat.eqb_eq x y))) in H. congruence.
  - apply andb_true_iff in H. destruct H as [Hs Hr]. apply opt_eqb_true in Hs. apply opt_eqb_true in Hr. congruence.
  - apply Nat.eqb_eq in H. congruence.
  - apply Nat.eqb_eq in H. congruence.
Qed.

Lemma list_eqb_refl {A} (eqb : A -> A -> bool) : (forall x, eqb x x = true) -> forall l, list_eqb eqb l l = true.
Proof. intros H. induction l as [|a l IH]; cbn; [reflexivity|]. rewrite H, IH. reflexivity. Qed.

Lemma ty_eqb_refl t : ty_eqb t t = true.
Proof.
  destruct t; cbn; rewrite ?Nat.eqb_refl, ?opt_eqb_refl; cbn; try reflexivity.
  - apply list_eqb_refl. intros [a b]. unfold pfield_eqb. cbn. rewrite !Nat.eqb_refl. reflexivity.
  - apply list_eqb_refl. apply Nat.eqb_refl.
Qed.

Lemma position_spec {A} (pred : A -> bool) l i :
  position pred l = Some i -> exists x, nth_error l i = Some x /\ pred x = true.
Proof.
  revert i. induction l as [|a l IH]; intros i H; cbn in H; [discriminate|].
  destruct (pred a) eqn:Hp.
  - inversion H; subst. exists a. split; [reflexivity|exact Hp].
  - destruct (position pred l) as [j|] eqn:Hj; [|discriminate]. cbn in H. inversion H; subst.
    destruct (IH j eq_refl) as [x [Hx Hpx]]. exists x. split; assumption.
Qed.

(* P' extends P: every existing entry is unchanged *)
Definition extends (P P' : registry) : Prop :=
  (forall i t, lookup_type P i = Some t -> lookup_type P' i = Some t) /\
  (forall i t, lookup_tuple P i = Some t -> lookup_tuple P' i = Some t).

Lemma extends_refl P : extends P P.
Proof. split; auto. Qed.

Lemma extends_trans P1 P2 P3 : extends P1 P2 -> extends P2 P3 -> extends P1 P3.
Proof. intros [A1 B1] [A2 B2]. split; auto. Qed.

Lemma nth_error_app_some {A} (l l' : list A) i x : nth_error l i = Some x -> nth_error (l ++ l') i = Some x.
Proof. intros H. rewrite nth_error_app1; [exact H|]. apply nth_error_Some. congruence. Qed.

Theorem register_type_spec P t P' id :
  register_type P t = (P', id) -> extends P P' /\ lookup_type P' id = Some t.
Proof.
  unfold register_type. destruct (position (ty_eqb t) (types P)) as [i|] eqn:Hpos; intros H; inversion H; subst.
  - split; [apply extends_refl|]. destruct (position_spec _ _ _ Hpos) as [x [Hx Hp]].
    apply ty_eqb_true in Hp. subst x. exact Hx.
  - split.
    + split; cbn; [intros i t0 Hl; apply nth_error_app_some; exact Hl|auto].
    + unfold lookup_type. cbn. rewrite nth_error_app2 by lia. rewrite Nat.sub_diag. reflexivity.
Qed.

Theorem register_tuple_spec P name fields P' id :
  register_tuple P name fields = (P', id) ->
  extends P P' /\ lookup_tuple P' id = Some (mk_tuple name fields).
Proof.
  unfold register_tuple. destruct (position (tuple_eqb name fields) (tuples P)) as [i|] eqn:Hpos; intros H; inversion H; subst.
  - split; [apply extends_refl|]. destruct (position_spec _ _ _ Hpos) as [x [Hx Hp]].
    unfold tuple_eqb in Hp. apply andb_true_iff in Hp. destruct Hp as [Hn Hf].
    apply opt_eqb_true in Hn. apply (list_eqb_true _ tfield_eqb_true) in Hf.
    destruct x as [xn xf]. cbn in Hn, Hf. subst. exact Hx.
  - split.
    + split; cbn; [auto|intros i t0 Hl; apply nth_error_app_some; exact Hl].
    + unfold lookup_tuple. cbn. rewrite nth_error_app2 by lia. rewrite Nat.sub_diag. reflexivity.
Qed.

(* first-order values: no function / process value inside *)
Fixpoint fov (v : value) : bool :=
  match v with
  | VTup _ fs => (fix go (l : list (option nat * value)) : bool :=
                    match l with [] => true | (_, x) :: l' => fov x && go l' end) fs
  | VFun _ | VProc _ => false
  | _ => true
  end.

Lemma fov_fields name fs : fov (VTup name fs) = true -> forall f, In f fs -> fov (snd f) = true.
Proof.
  induction fs as [|[l x] fs IH]; intros H f Hin; [destruct Hin|]. cbn in H.
  apply andb_true_iff in H. destruct H as [Hx Hr]. destruct Hin as [<-|Hin]; [exact Hx|apply IH; assumption].
Qed.

Lemma Forall2_field_ok_vals (R1 R2 : value -> nat -> Prop) fs vs :
  (forall (f : option nat * nat) (fv : option nat * value), In fv vs -> R1 (snd fv) (snd f) -> R2 (snd fv) (snd f)) ->
  Forall2 (field_ok R1) fs vs -> Forall2 (field_ok R2) fs vs.
Proof.
  intros Himp HF. induction HF as [|f fv fs' vs' [Hl Hr] HF IH]; constructor.
  - split; [exact Hl|]. apply Himp; [left; reflexivity|exact Hr].
  - apply IH. intros f0 fv0 Hin. apply Himp. right; exact Hin.
Qed.

(* the meaning of an id is preserved by every extension of the registry (first-order values) *)
Theorem inhab_extends P P' : extends P P' ->
  forall n E v t, fov v = true -> inhab P n E v t -> inhab P' n E v t.
Proof.
  intros [HT HU] n. induction n as [|m IH]; intros E v t Hfo H; [exact H|]. cbn [inhab] in *.
  induction H.
  - apply Inh_int; auto.
  - apply Inh_bin; auto.
  - apply Inh_ref; auto.
  - apply Inh_res; auto.
  - eapply Inh_union; [apply HT; eassumption|eassumption|]. apply IHInh. exact Hfo.
  - eapply Inh_cycle; [apply HT; eassumption|eassumption|]. apply IHInh. exact Hfo.
  - eapply Inh_dangling; [apply HT; eassumption|assumption].
  - eapply Inh_tuple; [apply HT; eassumption|apply HU; eassumption|].
    pose proof (fov_fields _ _ Hfo) as Hf.
    eapply Forall2_field_ok_vals; [|eassumption].
    intros f0 fv Hin Hr. apply IH; [apply Hf; exact Hin|exact Hr].
  - eapply Inh_partial; [apply HT; eassumption|assumption|].
    intros l ft Hin. match goal with Hall : forall l ft, In (l, ft) _ -> _ |- _ => destruct (Hall l ft Hin) as [fv [Hfv Hr]] end.
    exists fv. split; [exact Hfv|]. apply IH; [apply (fov_fields _ _ Hfo (Some l, fv)); exact Hfv|exact Hr].
  - discriminate.
  - discriminate.
Qed.
