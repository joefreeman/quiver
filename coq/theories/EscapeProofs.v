(* EscapeProofs.v — round-trip theorems between the formatter's string escaping and the parser's
   un-escaping (model in Escape.v). *)
From Quiver Require Import Base.
From Quiver Require Import Escape.

(* case split on c =? k with the outcome as a proposition; c is replaced by k when they are equal *)
Local Ltac zcase c k E :=
  destruct (Z.eqb c k) eqn:E; [apply Z.eqb_eq in E; subst c | apply Z.eqb_neq in E].

Lemma esc_single_char_spec c :
  (c = 92 /\ esc_single_char c = [92; 92]) \/
  (c = 34 /\ esc_single_char c = [92; 34]) \/
  (c = 123 /\ esc_single_char c = [92; 123]) \/
  (c = 10 /\ esc_single_char c = [92; 110]) \/
  (c = 13 /\ esc_single_char c = [92; 114]) \/
  (c = 9 /\ esc_single_char c = [92; 116]) \/
  (c <> 92 /\ c <> 34 /\ c <> 123 /\ esc_single_char c = [c]).
Proof.
  unfold esc_single_char.
  zcase c 92 E92; [auto|].
  zcase c 34 E34; [auto|].
  zcase c 123 E123; [auto|].
  zcase c 10 E10; [auto 6|].
  zcase c 13 E13; [auto 7|].
  zcase c 9 E9; [auto 8|].
  auto 10.
Qed.

Lemma unescape_plain c t : c <> 92 -> unescape (c :: t) = option_map (cons c) (unescape t).
Proof.
  intros Hc. cbn [unescape]. apply Z.eqb_neq in Hc. rewrite Hc. reflexivity.
Qed.

Lemma unescape_esc_char c t :
  unescape (esc_single_char c ++ t) = option_map (cons c) (unescape t).
Proof.
  destruct (esc_single_char_spec c)
    as [[Hc He]|[[Hc He]|[[Hc He]|[[Hc He]|[[Hc He]|[[Hc He]|[Hc [_ [_ He]]]]]]]]];
    rewrite He; try (subst c; reflexivity).
  cbn [app]. apply unescape_plain. exact Hc.
Qed.

Theorem escape_single_roundtrip : forall s, unescape (escape_single s) = Some s.
Proof.
  induction s as [|c t IH].
  - reflexivity.
  - cbn [escape_single]. rewrite unescape_esc_char, IH. reflexivity.
Qed.

Example escape_single_roundtrip_ex :
  escape_single [97; 32; 32; 10; 9; 34; 123; 92; 13; 32]
    = [97; 32; 32; 92; 110; 92; 116; 92; 34; 92; 123; 92; 92; 92; 114; 32]
  /\ unescape (escape_single [97; 32; 32; 10; 9; 34; 123; 92; 13; 32])
    = Some [97; 32; 32; 10; 9; 34; 123; 92; 13; 32]
  /\ unescape [92; 115] = None          (* \s is not a single-line escape *)
  /\ unescape [97; 92] = None.
Proof. vm_compute. repeat split. Qed.

Lemma scan_single_plain c t :
  c <> 92 -> c <> 34 -> c <> 123 -> scan_single (c :: t) = scan_cons c (scan_single t).
Proof.
  intros H92 H34 H123. cbn [scan_single].
  apply Z.eqb_neq in H92. apply Z.eqb_neq in H34. apply Z.eqb_neq in H123.
  rewrite H92, H34, H123. reflexivity.
Qed.

Lemma scan_single_esc_char c t :
  scan_single (esc_single_char c ++ t) = scan_cons c (scan_single t).
Proof.
  destruct (esc_single_char_spec c)
    as [[Hc He]|[[Hc He]|[[Hc He]|[[Hc He]|[[Hc He]|[[Hc He]|[H92 [H34 [H123 He]]]]]]]]];
    rewrite He; try (subst c; reflexivity).
  cbn [app]. apply scan_single_plain; assumption.
Qed.

Theorem escape_single_scan :
  forall s rest, scan_single (escape_single s ++ 34 :: rest) = ScanText s rest.
Proof.
  induction s as [|c t IH]; intros rest.
  - reflexivity.
  - cbn [escape_single]. rewrite <- app_assoc, scan_single_esc_char, IH. reflexivity.
Qed.

Example escape_single_scan_ex :
  scan_single (escape_single [97; 32; 32; 10; 9; 34; 123; 92; 13; 32] ++ 34 :: [41; 123])
    = ScanText [97; 32; 32; 10; 9; 34; 123; 92; 13; 32] [41; 123]
  /\ scan_single [97; 123; 98; 125; 34] = ScanHole [97] [123; 98; 125; 34]
  /\ scan_single [97; 92; 34] = ScanErr.
Proof. vm_compute. repeat split. Qed.

Inductive esc_multi_view (c : Z) : list Z -> Prop :=
| emv_backslash : c = 92 -> esc_multi_view c [92; 92]
| emv_quote : c = 34 -> esc_multi_view c [92; 34]
| emv_brace : c = 123 -> esc_multi_view c [92; 123]
| emv_cr : c = 13 -> esc_multi_view c [92; 114]
| emv_tab : c = 9 -> esc_multi_view c [92; 116]
| emv_plain : c <> 92 -> c <> 34 -> c <> 123 -> c <> 13 -> c <> 9 -> esc_multi_view c [c].

Lemma esc_multi_char_spec c : esc_multi_view c (esc_multi_char c).
Proof.
  unfold esc_multi_char.
  zcase c 92 E92; [constructor; reflexivity|].
  zcase c 34 E34; [constructor; reflexivity|].
  zcase c 123 E123; [constructor; reflexivity|].
  zcase c 13 E13; [constructor; reflexivity|].
  zcase c 9 E9; [constructor; reflexivity|].
  constructor; assumption.
Qed.

Lemma all_space_esc l : all_space (escape_multiline_text l) = all_space l.
Proof.
  induction l as [|c t IH]; [reflexivity|]. cbn [escape_multiline_text].
  destruct (esc_multi_char_spec c) as [->| ->| ->| ->| ->|_ _ _ _ _]; try reflexivity.
  cbn [app all_space]. rewrite IH. reflexivity.
Qed.

Lemma render_line_cons c l :
  render_line (c :: l)
  = if all_space (c :: l) then 92 :: 115 :: render_line l else esc_multi_char c ++ render_line l.
Proof.
  unfold render_line. cbn [escape_multiline_text all_space].
  destruct (esc_multi_char_spec c) as [->| ->| ->| ->| ->|_ _ _ _ _]; try reflexivity.
  cbn [app protect_trailing_spaces]. rewrite all_space_esc.
  destruct ((c =? 32) && all_space l); reflexivity.
Qed.

Lemma proc_esc_multi_char c pend x :
  c <> 32 -> c <> 10 ->
  process_escapes_aux false pend (esc_multi_char c ++ x)
  = option_map (fun r => pend ++ c :: r) (process_escapes_aux false [] x).
Proof.
  intros H32 H10.
  destruct (esc_multi_char_spec c) as [->| ->| ->| ->| ->|H92 _ _ _ H9]; try reflexivity.
  cbn [app process_escapes_aux]. unfold is_hspace.
  apply Z.eqb_neq in H32, H9, H10, H92. rewrite H32, H9, H10, H92. reflexivity.
Qed.

Definition no_lf (l : list Z) : Prop := Forall (fun c => c <> 10) l.

(* Blanks are buffered in `pend` until a non-blank arrives, so the buffer is general in the induction;
   an empty line flushes nothing, hence the side condition. *)
Lemma proc_line l : forall pend tail,
  no_lf l -> (l = [] -> pend = []) ->
  process_escapes_aux false pend (render_line l ++ tail)
  = option_map (fun r => pend ++ l ++ r) (process_escapes_aux false [] tail).
Proof.
  induction l as [|c t IH]; intros pend tail Hlf Hp.
  - rewrite (Hp eq_refl). change (render_line [] ++ tail) with tail.
    destruct (process_escapes_aux false [] tail); reflexivity.
  - inversion Hlf as [|? ? Hc Ht]; subst. rewrite render_line_cons.
    destruct (all_space (c :: t)) eqn:Esp; [|zcase c 32 E32].
    + cbn [all_space] in Esp. apply andb_prop in Esp as [Ec _]. apply Z.eqb_eq in Ec. subst c.
      change (process_escapes_aux false pend ((92 :: 115 :: render_line t) ++ tail))
        with (option_map (fun r => pend ++ 32 :: r) (process_escapes_aux false [] (render_line t ++ tail))).
      rewrite (IH [] tail Ht) by reflexivity.
      destruct (process_escapes_aux false [] tail); reflexivity.
    + change (process_escapes_aux false pend ((esc_multi_char 32 ++ render_line t) ++ tail))
        with (process_escapes_aux false (pend ++ [32]) (render_line t ++ tail)).
      rewrite IH; [|exact Ht|intros ->; discriminate Esp].
      destruct (process_escapes_aux false [] tail); cbn [option_map]; [rewrite <- app_assoc|]; reflexivity.
    + rewrite <- app_assoc, proc_esc_multi_char, (IH [] tail Ht) by auto.
      destruct (process_escapes_aux false [] tail); reflexivity.
Qed.

Lemma split_lf_nonempty s : split_lf s <> [].
Proof.
  destruct s as [|c t]; [discriminate|].
  cbn [split_lf]. destruct (c =? 10); [discriminate|].
  destruct (split_lf t); discriminate.
Qed.

Lemma split_lf_no_lf s : Forall no_lf (split_lf s).
Proof.
  induction s as [|c t IH].
  - repeat constructor.
  - cbn [split_lf]. zcase c 10 E10.
    + constructor; [constructor | exact IH].
    + destruct (split_lf t) as [|l ls].
      * repeat constructor. exact E10.
      * inversion IH as [|l' ls' Hl Hls]; subst l' ls'.
        constructor; [constructor; assumption | exact Hls].
Qed.

Lemma join_lf_cons2 a b ls : join_lf (a :: b :: ls) = a ++ 10 :: join_lf (b :: ls).
Proof. reflexivity. Qed.

Lemma join_split_lf s : join_lf (split_lf s) = s.
Proof.
  induction s as [|c t IH]; [reflexivity|].
  cbn [split_lf]. pose proof (split_lf_nonempty t) as Hne.
  destruct (split_lf t) as [|l ls]; [contradiction|].
  zcase c 10 E10.
  - rewrite join_lf_cons2, IH. reflexivity.
  - rewrite <- IH. destruct ls; reflexivity.
Qed.

Lemma split_lf_single a : no_lf a -> split_lf a = [a].
Proof.
  intros Ha. induction Ha as [|c t Hc Ht IH]; [reflexivity|].
  cbn [split_lf]. apply Z.eqb_neq in Hc. rewrite Hc, IH. reflexivity.
Qed.

Lemma split_lf_app a x : no_lf a -> split_lf (a ++ 10 :: x) = a :: split_lf x.
Proof.
  intros Ha. induction Ha as [|c t Hc Ht IH]; [reflexivity|].
  cbn [app split_lf]. apply Z.eqb_neq in Hc. rewrite Hc, IH. reflexivity.
Qed.

Lemma split_join_lf ls : ls <> [] -> Forall no_lf ls -> split_lf (join_lf ls) = ls.
Proof.
  induction ls as [|l ls IH]; intros Hne Hlf; [contradiction|].
  inversion Hlf as [|l' ls' Hl Hls]; subst l' ls'.
  destruct ls as [|l2 ls'].
  - cbn [join_lf]. apply split_lf_single. exact Hl.
  - rewrite join_lf_cons2, split_lf_app by exact Hl.
    rewrite IH by (discriminate || exact Hls). reflexivity.
Qed.

Lemma proc_lines ls :
  ls <> [] -> Forall no_lf ls ->
  process_escapes_aux false [] (join_lf (map render_line ls)) = Some (join_lf ls).
Proof.
  induction ls as [|l ls IH]; intros Hne Hlf; [contradiction|].
  inversion Hlf as [|l' ls' Hl Hls]; subst l' ls'.
  destruct ls as [|l2 ls'].
  - cbn [map join_lf]. rewrite <- (app_nil_r (render_line l)), proc_line by auto.
    cbn. rewrite app_nil_r. reflexivity.
  - cbn [map] in *. rewrite !join_lf_cons2, proc_line by auto.
    change (process_escapes_aux false [] (10 :: ?x)) with (option_map (cons 10) (process_escapes_aux false [] x)).
    rewrite IH by (discriminate || exact Hls). reflexivity.
Qed.

Theorem escape_multiline_text_roundtrip : forall s, process_escapes (render_text s) = Some s.
Proof.
  intros s. unfold process_escapes, render_text, render_lines.
  rewrite proc_lines.
  - rewrite join_split_lf. reflexivity.
  - apply split_lf_nonempty.
  - apply split_lf_no_lf.
Qed.

Example escape_multiline_text_roundtrip_ex :
  render_text [97; 32; 32; 10; 9; 34; 123; 92; 13; 32]
    = [97; 92; 115; 92; 115; 10; 92; 116; 92; 34; 92; 123; 92; 92; 92; 114; 92; 115]
  /\ process_escapes (render_text [97; 32; 32; 10; 9; 34; 123; 92; 13; 32])
    = Some [97; 32; 32; 10; 9; 34; 123; 92; 13; 32]
  (* unprotected trailing blanks are dropped, inner ones kept, continuation joins lines *)
  /\ process_escapes [97; 32; 98; 32; 9; 10; 99; 92; 10; 32; 32; 100] = Some [97; 32; 98; 10; 99; 100].
Proof. vm_compute. repeat split. Qed.

Lemma escape_multiline_forall (P : Z -> Prop) l :
  P 92 -> P 34 -> P 123 -> P 114 -> P 116 ->
  Forall (fun c => c <> 13 -> c <> 9 -> P c) l -> Forall P (escape_multiline_text l).
Proof.
  intros P92 P34 P123 P114 P116 Hl.
  induction Hl as [|c t Hc Ht IH]; [constructor|].
  cbn [escape_multiline_text]. apply Forall_app. split; [|exact IH].
  destruct (esc_multi_char_spec c); repeat constructor; auto.
Qed.

Lemma protect_forall (P : Z -> Prop) x :
  P 92 -> P 115 -> Forall P x -> Forall P (protect_trailing_spaces x).
Proof.
  intros P92 P115 Hx. induction Hx as [|c t Hc Ht IH]; [constructor|].
  cbn [protect_trailing_spaces].
  destruct ((c =? 32) && all_space t); repeat constructor; assumption.
Qed.

Lemma render_line_forall (P : Z -> Prop) l :
  P 92 -> P 34 -> P 123 -> P 114 -> P 116 -> P 115 ->
  Forall (fun c => c <> 13 -> c <> 9 -> P c) l -> Forall P (render_line l).
Proof.
  intros P92 P34 P123 P114 P116 P115 Hl. unfold render_line.
  apply protect_forall; [assumption|assumption|].
  apply escape_multiline_forall; assumption.
Qed.

Lemma render_line_no_cr l : Forall (fun c => c <> 13) (render_line l).
Proof. apply render_line_forall; try lia. apply Forall_forall. intros c _ H13 _. exact H13. Qed.

Lemma render_line_no_lf l : no_lf l -> no_lf (render_line l).
Proof.
  intros Hl. apply render_line_forall; try lia.
  eapply Forall_impl; [|exact Hl]. intros c Hc _ _. exact Hc.
Qed.

Lemma escape_multiline_no_tab l : Forall (fun c => c <> 9) (escape_multiline_text l).
Proof. apply escape_multiline_forall; try lia. apply Forall_forall. intros c _ _ H9. exact H9. Qed.

Lemma render_lines_forall (P : list Z -> Prop) s :
  (forall l, no_lf l -> P (render_line l)) -> Forall P (render_lines s).
Proof.
  intros H. apply Forall_map. eapply Forall_impl; [|apply split_lf_no_lf]. exact H.
Qed.

Lemma repeat_forall {A} (P : A -> Prop) c n : P c -> Forall P (repeat c n).
Proof. intros Hc. induction n; cbn [repeat]; constructor; assumption. Qed.

Lemma indent_line_forall (P : Z -> Prop) m l : P 32 -> Forall P l -> Forall P (indent_line m l).
Proof.
  intros P32 Hl. destruct l as [|c t]; [constructor|].
  apply Forall_app. split; [apply repeat_forall; exact P32 | exact Hl].
Qed.

Lemma render_multiline_no_cr s m : Forall (fun c => c <> 13) (render_multiline s m).
Proof.
  constructor; [lia|]. apply Forall_app. split; [|apply repeat_forall; lia].
  apply Forall_flat_map, render_lines_forall. intros l _.
  apply Forall_app. split; [|repeat constructor; lia].
  apply indent_line_forall; [lia|apply render_line_no_cr].
Qed.

Lemma replace_crlf_id x : Forall (fun c => c <> 13) x -> replace_crlf x = x.
Proof.
  intros Hx. induction Hx as [|c t Hc Ht IH]; [reflexivity|].
  destruct t as [|d t']; [reflexivity|].
  change (replace_crlf (c :: d :: t'))
    with (if (c =? 13) && (d =? 10) then 10 :: replace_crlf t' else c :: replace_crlf (d :: t')).
  apply Z.eqb_neq in Hc. rewrite Hc. cbn [andb]. rewrite IH. reflexivity.
Qed.

Lemma replace_cr_id x : Forall (fun c => c <> 13) x -> replace_cr x = x.
Proof.
  intros Hx. induction Hx as [|c t Hc Ht IH]; [reflexivity|].
  unfold replace_cr in *. cbn [map]. apply Z.eqb_neq in Hc. rewrite Hc, IH. reflexivity.
Qed.

Lemma flat_map_lf_join (f : list Z -> list Z) ls :
  ls <> [] -> flat_map (fun l => f l ++ [10]) ls = join_lf (map f ls) ++ [10].
Proof.
  induction ls as [|l ls IH]; intros Hne; [contradiction|].
  destruct ls as [|l2 ls']; [apply app_nil_r|].
  cbn [flat_map map] in *. rewrite IH by discriminate.
  rewrite join_lf_cons2, <- !app_assoc. reflexivity.
Qed.

Lemma render_lines_nonempty s : render_lines s <> [].
Proof. intros Hnil. apply map_eq_nil in Hnil. exact (split_lf_nonempty s Hnil). Qed.

Lemma render_multiline_join s m :
  render_multiline s m = 10 :: join_lf (map (indent_line m) (render_lines s)) ++ 10 :: repeat 32 m.
Proof.
  unfold render_multiline. rewrite flat_map_lf_join, <- app_assoc by apply render_lines_nonempty. reflexivity.
Qed.

Lemma rsplit_once_lf_app a b : no_lf b -> rsplit_once_lf (a ++ 10 :: b) = Some (a, b).
Proof.
  intros Hb. assert (Hn : rsplit_once_lf b = None).
  { induction Hb as [|c t Hc _ IH]; [reflexivity|].
    cbn [rsplit_once_lf]. apply Z.eqb_neq in Hc. rewrite IH, Hc. reflexivity. }
  induction a as [|c a IH]; cbn [app rsplit_once_lf]; [rewrite Hn|rewrite IH]; reflexivity.
Qed.

Lemma all_hspace_repeat_space m : all_hspace (repeat 32 m) = true.
Proof. induction m as [|m IH]; [reflexivity|]. cbn [repeat]. exact IH. Qed.

Lemma strip_prefix_app p l : strip_prefix p (p ++ l) = Some l.
Proof.
  induction p as [|a p IH]; [reflexivity|].
  cbn [app strip_prefix]. rewrite Z.eqb_refl. exact IH.
Qed.

(* TAB is horizontal space too, but escape_multiline_text never leaves one: hence the hypothesis *)
Lemma protect_end x :
  Forall (fun c => c <> 9) x ->
  protect_trailing_spaces x = [] \/
  exists y c, protect_trailing_spaces x = y ++ [c] /\ is_hspace c = false.
Proof.
  induction 1 as [|c t Hc _ IH]; [left; reflexivity|]. right. cbn [protect_trailing_spaces].
  destruct IH as [Hnil|(y & d & -> & Hd)].
  - destruct t as [|c2 t]; [|cbn [protect_trailing_spaces] in Hnil; destruct ((c2 =? 32) && all_space t) in Hnil; discriminate].
    cbn [all_space protect_trailing_spaces]. rewrite andb_true_r. destruct (c =? 32) eqn:E.
    + exists [92], 115. auto.
    + exists [], c. split; [reflexivity|]. unfold is_hspace. rewrite E. apply Z.eqb_neq in Hc. exact Hc.
  - destruct ((c =? 32) && all_space t); [exists (92 :: 115 :: y), d|exists (c :: y), d]; auto.
Qed.

(* dedent_lines does not take such a line for a blank one *)
Definition line_ok (r : list Z) : Prop := r = [] \/ all_hspace r = false.

Lemma render_line_ok l : line_ok (render_line l).
Proof.
  destruct (protect_end _ (escape_multiline_no_tab l)) as [Hnil|(y & c & Hr & Hc)]; [left; exact Hnil|right].
  unfold render_line, all_hspace. rewrite Hr, forallb_app. cbn [forallb]. rewrite Hc. apply andb_false_r.
Qed.

Lemma dedent_lines_render m ls :
  Forall line_ok ls -> dedent_lines (repeat 32 m) (map (indent_line m) ls) = Some ls.
Proof.
  intros Hls. induction Hls as [|r ls Hr Hls IH]; [reflexivity|].
  cbn [map dedent_lines]. rewrite IH.
  destruct Hr as [Hr|Hr].
  - subst r. reflexivity.
  - destruct r as [|c t]; [discriminate Hr|].
    unfold indent_line. unfold all_hspace in *.
    rewrite forallb_app, Hr, andb_false_r, strip_prefix_app. reflexivity.
Qed.

Lemma multiline_dedent_render s m :
  multiline_dedent (render_multiline s m) = Some (render_text s).
Proof.
  unfold multiline_dedent.
  rewrite replace_crlf_id, replace_cr_id by apply render_multiline_no_cr.
  rewrite render_multiline_join. cbn [split_once_lf]. rewrite Z.eqb_refl. cbn [all_hspace forallb].
  rewrite rsplit_once_lf_app by (apply repeat_forall; lia).
  rewrite all_hspace_repeat_space, split_join_lf.
  - rewrite dedent_lines_render; [reflexivity|].
    apply render_lines_forall. intros l _. apply render_line_ok.
  - intros Hnil. apply map_eq_nil in Hnil. exact (render_lines_nonempty s Hnil).
  - apply Forall_map, render_lines_forall. intros l Hl.
    apply indent_line_forall; [lia|apply render_line_no_lf; exact Hl].
Qed.

Theorem multiline_roundtrip :
  forall s margin, process_multiline (render_multiline s margin) = Some s.
Proof.
  intros s margin. unfold process_multiline. rewrite multiline_dedent_render.
  apply escape_multiline_text_roundtrip.
Qed.

Example escape_multiline_ex :
  render_multiline [97; 32; 32; 10; 10; 9; 34; 123; 92; 13; 32] 2
    = [10; 32; 32; 97; 92; 115; 92; 115; 10;
       10;
       32; 32; 92; 116; 92; 34; 92; 123; 92; 92; 92; 114; 92; 115; 10;
       32; 32]
  /\ process_multiline (render_multiline [97; 32; 32; 10; 10; 9; 34; 123; 92; 13; 32] 4)
    = Some [97; 32; 32; 10; 10; 9; 34; 123; 92; 13; 32]
  /\ process_multiline (render_multiline [] 3) = Some []
  (* a line indented less than the margin is rejected *)
  /\ process_multiline [10; 32; 97; 10; 32; 32] = None.
Proof. vm_compute. repeat split. Qed.

(* P constrains the plain characters only: "not a quote" for the raw scan, "not a brace" for the term-position loop *)
Inductive toks (P : Z -> Prop) : list Z -> Prop :=
| toks_nil : toks P []
| toks_plain c x : c <> 92 -> P c -> toks P x -> toks P (c :: x)
| toks_esc e x : toks P x -> toks P (92 :: e :: x).

Lemma toks_app (P : Z -> Prop) x y : toks P x -> toks P y -> toks P (x ++ y).
Proof.
  intros Hx Hy. induction Hx as [|c x H92 Hc Hx IH|e x Hx IH]; [exact Hy| |].
  - cbn [app]. apply toks_plain; assumption.
  - cbn [app]. apply toks_esc. exact IH.
Qed.

Lemma toks_repeat_space (P : Z -> Prop) m : P 32 -> toks P (repeat 32 m).
Proof.
  intros P32. induction m as [|m IH]; [apply toks_nil|].
  cbn [repeat]. apply toks_plain; [lia|exact P32|exact IH].
Qed.

Lemma toks_join_lf (P : Z -> Prop) ls : P 10 -> Forall (toks P) ls -> toks P (join_lf ls).
Proof.
  intros P10. induction 1 as [|l ls Hl Hls IH]; [apply toks_nil|].
  destruct ls; [exact Hl|]. rewrite join_lf_cons2.
  apply toks_app; [exact Hl|]. apply toks_plain; [lia|exact P10|exact IH].
Qed.

Lemma toks_render_line (P : Z -> Prop) l : (forall c, c <> 34 -> c <> 123 -> P c) -> toks P (render_line l).
Proof.
  intros HP. induction l as [|c t IH]; [apply toks_nil|]. rewrite render_line_cons.
  destruct (all_space (c :: t)); [apply toks_esc; exact IH|]. apply toks_app; [|exact IH].
  destruct (esc_multi_char_spec c); try (apply toks_esc; apply toks_nil).
  apply toks_plain; [assumption|auto|apply toks_nil].
Qed.

Lemma toks_render_lines (P : Z -> Prop) s : (forall c, c <> 34 -> c <> 123 -> P c) -> Forall (toks P) (render_lines s).
Proof. intros HP. apply Forall_map, Forall_forall. intros l _. apply toks_render_line, HP. Qed.

Lemma scan_toks x rest :
  toks (fun c => c <> 34) x -> scan_multiline_raw (x ++ 34 :: 34 :: 34 :: rest) = Some (x, rest).
Proof.
  intros Hx. induction Hx as [|c x H92 H34 Hx IH|e x Hx IH].
  - reflexivity.
  - cbn [app scan_multiline_raw]. apply Z.eqb_neq in H92. apply Z.eqb_neq in H34.
    rewrite H92, H34, IH. reflexivity.
  - change (scan_multiline_raw ((92 :: e :: x) ++ 34 :: 34 :: 34 :: rest))
      with (raw_cons [92; e] (scan_multiline_raw (x ++ 34 :: 34 :: 34 :: rest))).
    rewrite IH. reflexivity.
Qed.

Theorem multiline_raw_scan :
  forall s margin rest,
    scan_multiline_raw (render_multiline s margin ++ [34; 34; 34] ++ rest)
    = Some (render_multiline s margin, rest).
Proof.
  intros s margin rest. apply (scan_toks (render_multiline s margin) rest).
  rewrite render_multiline_join. apply toks_plain; [lia|lia|]. apply toks_app.
  - apply toks_join_lf; [lia|]. apply Forall_map.
    eapply Forall_impl; [|apply toks_render_lines; intros c H34 _; exact H34].
    intros l Hl. destruct l; [apply toks_nil|]. apply toks_app; [apply toks_repeat_space; lia|exact Hl].
  - apply toks_plain; [lia|lia|]. apply toks_repeat_space. lia.
Qed.

Example multiline_raw_scan_ex :
  scan_multiline_raw
    (render_multiline [97; 32; 32; 10; 10; 9; 34; 34; 34; 123; 92; 13; 32] 2 ++ [34; 34; 34] ++ [41])
  = Some (render_multiline [97; 32; 32; 10; 10; 9; 34; 34; 34; 123; 92; 13; 32] 2, [41])
  (* an escaped quote does not close; an unterminated body is an error *)
  /\ scan_multiline_raw [92; 34; 34; 34; 34; 34; 7] = Some ([92; 34], [34; 7])
  /\ scan_multiline_raw [97; 34; 34] = None.
Proof. vm_compute. repeat split. Qed.

Definition mres (o : option (list Z)) : mresult :=
  match o with Some r => MText r | None => MErr end.

Lemma proc_esc_pair skip pend e x :
  process_escapes_aux skip pend (92 :: e :: x)
  = if e =? 10 then option_map (app pend) (process_escapes_aux true [] x)
    else match munesc_char e with
         | None => None
         | Some d => option_map (fun r => pend ++ d :: r) (process_escapes_aux false [] x)
         end.
Proof. destruct skip; reflexivity. Qed.

Lemma term_esc_pair skip pend e x :
  process_term_aux skip pend (92 :: e :: x)
  = if e =? 10 then mcons pend (process_term_aux true [] x)
    else match munesc_char e with
         | None => MErr
         | Some d => mcons (pend ++ [d]) (process_term_aux false [] x)
         end.
Proof. destruct skip; reflexivity. Qed.

Lemma term_agrees x :
  toks (fun c => c <> 123) x ->
  forall skip pend, process_term_aux skip pend x = mres (process_escapes_aux skip pend x).
Proof.
  induction 1 as [|c x H92 H123 _ IH|e x _ IH]; intros skip pend; [reflexivity| |].
  - cbn [process_term_aux process_escapes_aux].
    apply Z.eqb_neq in H92, H123. rewrite H92, H123.
    destruct (skip && is_hspace c); [apply IH|]. destruct (is_hspace c); [apply IH|].
    rewrite IH. destruct (c =? 10), (process_escapes_aux false [] x); cbn; rewrite <- ?app_assoc; reflexivity.
  - rewrite term_esc_pair, proc_esc_pair.
    destruct (e =? 10); [|destruct (munesc_char e); [|reflexivity]];
      rewrite IH; destruct (process_escapes_aux _ [] x); cbn; rewrite <- ?app_assoc; reflexivity.
Qed.

Theorem multiline_term_roundtrip :
  forall s margin, process_multiline_term (render_multiline s margin) = MText s.
Proof.
  intros s margin. unfold process_multiline_term. rewrite multiline_dedent_render, term_agrees.
  - change (process_escapes_aux false []) with process_escapes.
    rewrite escape_multiline_text_roundtrip. reflexivity.
  - apply toks_join_lf; [lia|]. apply toks_render_lines. intros c _ H123. exact H123.
Qed.

Example multiline_term_roundtrip_ex :
  process_multiline_term (render_multiline [97; 32; 32; 10; 10; 9; 34; 123; 92; 13; 32] 4)
    = MText [97; 32; 32; 10; 10; 9; 34; 123; 92; 13; 32]
  /\ process_multiline_term [10; 32; 97; 123; 98; 125; 10; 32] = MHole
  /\ process_multiline_term [10; 32; 97; 92; 113; 10; 32] = MErr.
Proof. vm_compute. repeat split. Qed.

Print Assumptions escape_single_roundtrip.
Print Assumptions escape_single_scan.
Print Assumptions escape_multiline_text_roundtrip.
Print Assumptions multiline_roundtrip.
Print Assumptions multiline_raw_scan.
Print Assumptions multiline_term_roundtrip.
