(* PrettyProofs.v — proofs about the model of quiver-compiler/src/pretty.rs in Pretty.v: the print loop terminates
   (a weight of stack and suffix buffer decreases), and what it emits accounts for the Text atoms of the doc
   (one invariant of the machine state, `accounts`, gives the in-order and the permutation theorem). *)
From Quiver Require Import Base Pretty.
From Coq Require Import Permutation.

Lemma weight_pos d : (1 <= weight d)%nat.
Proof. destruct d; cbn [weight]; lia. Qed.

Lemma stack_weight_nil : stack_weight [] = 0%nat.
Proof. reflexivity. Qed.

(* `[]` left by destructing a stack has the unfolded frame type, and autorewrite matches syntactically: both forms *)
Lemma stack_weight_nil' : stack_weight (@nil (nat * mode * doc)) = 0%nat.
Proof. reflexivity. Qed.
Lemma suffix_weight_nil' : suffix_weight (@nil (nat * mode * doc)) = 0%nat.
Proof. reflexivity. Qed.

Lemma stack_weight_cons i m d r :
  stack_weight ((i, m, d) :: r) = (weight d + stack_weight r)%nat.
Proof. reflexivity. Qed.

Lemma stack_weight_app a b : stack_weight (a ++ b) = (stack_weight a + stack_weight b)%nat.
Proof. unfold stack_weight. rewrite map_app, list_sum_app. reflexivity. Qed.

Lemma stack_weight_map i m ds :
  stack_weight (map (fun c => (i, m, c)) ds) = list_sum (map weight ds).
Proof.
  induction ds as [|d ds IH]; [reflexivity|].
  cbn [map]. rewrite stack_weight_cons, IH. reflexivity.
Qed.

Lemma suffix_weight_nil : suffix_weight [] = 0%nat.
Proof. reflexivity. Qed.

Lemma suffix_weight_cons i m d r :
  suffix_weight ((i, m, d) :: r) = (2 * weight d + 1 + suffix_weight r)%nat.
Proof. reflexivity. Qed.

Lemma suffix_weight_app a b : suffix_weight (a ++ b) = (suffix_weight a + suffix_weight b)%nat.
Proof. unfold suffix_weight. rewrite map_app, list_sum_app. reflexivity. Qed.

Lemma stack_lt_suffix sfx : sfx <> [] -> (stack_weight sfx < suffix_weight sfx)%nat.
Proof.
  induction sfx as [|[[i m] d] r IH]; intros Hne; [congruence|].
  rewrite stack_weight_cons, suffix_weight_cons.
  destruct r as [|fr r'].
  - rewrite stack_weight_nil, suffix_weight_nil. lia.
  - assert (Hr : (stack_weight (fr :: r') < suffix_weight (fr :: r'))%nat)
      by (apply IH; discriminate).
    lia.
Qed.

Lemma weight_concat ds : weight (DConcat ds) = S (list_sum (map weight ds)).
Proof. reflexivity. Qed.
Lemma weight_nest n d : weight (DNest n d) = S (weight d).
Proof. reflexivity. Qed.
Lemma weight_group d b : weight (DGroup d b) = S (weight d).
Proof. reflexivity. Qed.
Lemma weight_ifbreak b f : weight (DIfBreak b f) = S (weight b + weight f).
Proof. reflexivity. Qed.
Lemma weight_linesuffix d : weight (DLineSuffix d) = (2 * weight d + 2)%nat.
Proof. reflexivity. Qed.
Lemma weight_nil : weight DNil = 1%nat. Proof. reflexivity. Qed.
Lemma weight_text s : weight (DText s) = 1%nat. Proof. reflexivity. Qed.
Lemma weight_line : weight DLine = 1%nat. Proof. reflexivity. Qed.
Lemma weight_softline : weight DSoftLine = 1%nat. Proof. reflexivity. Qed.
Lemma weight_hardline : weight DHardLine = 1%nat. Proof. reflexivity. Qed.
Lemma weight_breakparent : weight DBreakParent = 1%nat. Proof. reflexivity. Qed.

Global Hint Rewrite stack_weight_nil stack_weight_nil' suffix_weight_nil' stack_weight_cons stack_weight_app stack_weight_map
  suffix_weight_nil suffix_weight_cons suffix_weight_app : pw.

Lemma fits_pop_weight local rest :
  match fits_pop local rest with
  | Some ((_, _, d), local', rest') =>
      (stack_weight local + stack_weight rest = weight d + stack_weight local' + stack_weight rest')%nat
  | None => True
  end.
Proof.
  destruct local as [|[[i m] d] local']; [destruct rest as [|[[i m] d] rest']|];
    cbn [fits_pop]; rewrite ?stack_weight_cons; lia || exact I.
Qed.

(* every step answers, or goes on with the popped frame replaced by lighter ones *)
Lemma fits_fuel_total : forall fuel rem local rest,
  (stack_weight local + stack_weight rest < fuel)%nat ->
  exists b, fits_fuel fuel rem local rest = Some b.
Proof.
  induction fuel as [|f IH]; intros rem local rest Hlt; [lia|].
  cbn [fits_fuel]. destruct (rem <? 0); [eauto|].
  pose proof (fits_pop_weight local rest) as Hw.
  destruct (fits_pop local rest) as [[[[[i m] d] local'] rest']|]; [|eauto].
  destruct d; cbn [weight] in Hw; try (apply IH; autorewrite with pw; lia).
  (* left: DLine, DSoftLine, DHardLine, DIfBreak *)
  - destruct m; [apply IH; autorewrite with pw; lia|eauto].
  - destruct m; [apply IH; autorewrite with pw; lia|eauto].
  - eauto.
  - destruct m; apply IH; autorewrite with pw; lia.
Qed.

Lemma layout_fuel_total : forall fuel width stack sfx col out,
  (stack_weight stack + suffix_weight sfx < fuel)%nat ->
  exists ts, layout_fuel fuel width stack sfx col out = Some ts.
Proof.
  induction fuel as [|f IH]; intros width stack sfx col out Hlt; [lia|].
  cbn [layout_fuel].
  (* flushing the suffix buffer onto the stack is paid for by the extra weight of buffered frames *)
  pose proof (stack_lt_suffix sfx) as Hs.
  destruct stack as [|[[i m] d] rest].
  - destruct sfx as [|fr sfx']; [eauto|].
    apply IH. specialize (Hs ltac:(discriminate)). rewrite stack_weight_nil in Hlt. rewrite suffix_weight_nil. lia.
  - rewrite stack_weight_cons in Hlt. pose proof (weight_pos d) as Hd.
    assert (Hbrk : exists ts,
      match sfx with
      | [] => layout_fuel f width rest [] i (TNewline i :: out)
      | _ :: _ => layout_fuel f width (sfx ++ (i, m, d) :: rest) [] col out
      end = Some ts).
    { destruct sfx as [|fr sfx']; apply IH; [|specialize (Hs ltac:(discriminate)); autorewrite with pw]; lia. }
    destruct d; cbn [weight] in Hlt; try (apply IH; autorewrite with pw; lia).
    (* left: DLine, DSoftLine, DHardLine, DGroup, DIfBreak *)
    + destruct m; [apply IH; autorewrite with pw; lia|exact Hbrk].
    + destruct m; [apply IH; autorewrite with pw; lia|exact Hbrk].
    + exact Hbrk.
    + destruct should_break; [apply IH; autorewrite with pw; lia|].
      unfold fits.
      destruct (fits_fuel_total (S f) (Z.of_nat (width - col)) [(i, Flat, d)] rest)
        as [fb Hfb]; [autorewrite with pw; lia|].
      rewrite Hfb. apply IH. autorewrite with pw. lia.
    + destruct m; apply IH; autorewrite with pw; lia.
Qed.

Theorem layout_total : forall d width, exists ts, layout d width = Some ts.
Proof.
  intros d width. unfold layout, enough_fuel.
  apply layout_fuel_total. autorewrite with pw. lia.
Qed.

Theorem print_total : forall d width, exists out, print d width = Some out.
Proof.
  intros d width. unfold print.
  destruct (layout_total d width) as [ts Hts]. rewrite Hts. cbn [option_map]. eauto.
Qed.

(* mode-resolved content: the Text atoms of a doc in order, where a group that is not forced
   (should_break = false) may be resolved in either mode. *)
Inductive content : mode -> doc -> list (list Z) -> Prop :=
| C_nil m : content m DNil []
| C_text m s : content m (DText s) [s]
| C_line m : content m DLine []
| C_softline m : content m DSoftLine []
| C_hardline m : content m DHardLine []
| C_breakparent m : content m DBreakParent []
| C_concat m ds l : content_list m ds l -> content m (DConcat ds) l
| C_nest m n d l : content m d l -> content m (DNest n d) l
| C_group_forced m d l : content Break d l -> content m (DGroup d true) l
| C_group_free m m' d l : content m' d l -> content m (DGroup d false) l
| C_ifbreak m br fl l :
    content m (match m with Break => br | Flat => fl end) l -> content m (DIfBreak br fl) l
with content_list : mode -> list doc -> list (list Z) -> Prop :=
| CL_nil m : content_list m [] []
| CL_cons m d ds l1 l2 :
    content m d l1 -> content_list m ds l2 -> content_list m (d :: ds) (l1 ++ l2).

(* like `content`, but also descends into DLineSuffix (in document order) *)
Inductive content_all : mode -> doc -> list (list Z) -> Prop :=
| CA_nil m : content_all m DNil []
| CA_text m s : content_all m (DText s) [s]
| CA_line m : content_all m DLine []
| CA_softline m : content_all m DSoftLine []
| CA_hardline m : content_all m DHardLine []
| CA_breakparent m : content_all m DBreakParent []
| CA_concat m ds l : content_all_list m ds l -> content_all m (DConcat ds) l
| CA_nest m n d l : content_all m d l -> content_all m (DNest n d) l
| CA_group_forced m d l : content_all Break d l -> content_all m (DGroup d true) l
| CA_group_free m m' d l : content_all m' d l -> content_all m (DGroup d false) l
| CA_ifbreak m br fl l :
    content_all m (match m with Break => br | Flat => fl end) l ->
    content_all m (DIfBreak br fl) l
| CA_linesuffix m d l : content_all m d l -> content_all m (DLineSuffix d) l
with content_all_list : mode -> list doc -> list (list Z) -> Prop :=
| CAL_nil m : content_all_list m [] []
| CAL_cons m d ds l1 l2 :
    content_all m d l1 -> content_all_list m ds l2 -> content_all_list m (d :: ds) (l1 ++ l2).

Scheme content_all_mut := Minimality for content_all Sort Prop
  with content_all_list_mut := Minimality for content_all_list Sort Prop.

Lemma content_all_suffix_free m d l : content_all m d l -> suffix_free d = true -> content m d l.
Proof.
  revert m d l.
  apply (content_all_mut (fun m d l => suffix_free d = true -> content m d l)
                         (fun m ds l => forallb suffix_free ds = true -> content_list m ds l));
    cbn [suffix_free forallb]; try (intros; constructor; auto; fail).
  - intros m m' d l _ IH Hsf. eapply C_group_free. auto.
  - intros m br fl l _ IH Hsf. constructor. apply andb_prop in Hsf as [Hb Hf]. destruct m; auto.
  - discriminate.
  - intros m d ds l1 l2 _ IHd _ IHds Hsf. apply andb_prop in Hsf as [Hd Hds]. constructor; auto.
Qed.

Definition stack_suffix_free (st : list frame) : Prop :=
  Forall (fun fr : frame => suffix_free (snd fr) = true) st.

Lemma stack_suffix_free_concat i m ds rest :
  forallb suffix_free ds = true -> stack_suffix_free rest ->
  stack_suffix_free (map (fun c => (i, m, c)) ds ++ rest).
Proof.
  intros Hds Hrest. apply Forall_app. split; [|exact Hrest].
  apply Forall_map, Forall_forall. rewrite forallb_forall in Hds. exact Hds.
Qed.

Inductive content_all_stack : list frame -> list (list Z) -> Prop :=
| CAS_nil : content_all_stack [] []
| CAS_cons i m d rest l1 l2 :
    content_all m d l1 -> content_all_stack rest l2 ->
    content_all_stack ((i, m, d) :: rest) (l1 ++ l2).

Lemma content_all_stack_app : forall a b l,
  content_all_stack (a ++ b) l ->
  exists la lb, l = la ++ lb /\ content_all_stack a la /\ content_all_stack b lb.
Proof.
  induction a as [|[[i m] d] a IH]; intros b l Hcs.
  - exists [], l. split; [reflexivity|]. split; [constructor|exact Hcs].
  - cbn [app] in Hcs.
    inversion Hcs as [|i' m' d' rest' l1 l2 Hd Hrest]; subst.
    destruct (IH _ _ Hrest) as [la [lb [El [Hla Hlb]]]]. subst l2.
    exists (l1 ++ la), lb. split; [apply app_assoc|].
    split; [constructor; assumption|assumption].
Qed.

Lemma content_all_stack_map i m ds l :
  content_all_stack (map (fun c => (i, m, c)) ds) l -> content_all_list m ds l.
Proof.
  revert l. induction ds as [|d ds IH]; intros l Hcs; inversion Hcs; subst; constructor; auto.
Qed.

(* l, what the machine will still emit: a permutation of the atoms on the stack and the buffered ones (LineSuffix
   content moves to the end of its line), and the atoms of the stack in order while nothing is or can be buffered *)
Definition accounts (stack sfx : list frame) (l : list (list Z)) : Prop :=
  exists ls lx, content_all_stack stack ls /\ content_all_stack sfx lx /\
                Permutation l (ls ++ lx) /\ (sfx = [] -> stack_suffix_free stack -> l = ls).

Lemma accounts_flush fr sfx l : accounts (fr :: sfx) [] l -> accounts [] (fr :: sfx) l.
Proof.
  intros (ls & lx & Hls & Hlx & Hp & _). inversion Hlx; subst. rewrite app_nil_r in Hp.
  exists [], ls. repeat split; [constructor|exact Hls|exact Hp|discriminate].
Qed.

Lemma accounts_skip i m d rest sfx :
  content_all m d [] -> forall l, accounts rest sfx l -> accounts ((i, m, d) :: rest) sfx l.
Proof.
  intros Hc l (ls & lx & Hls & Hlx & Hp & Ho).
  exists ([] ++ ls), lx. repeat split; [constructor; assumption|exact Hlx|exact Hp|].
  intros E Hsf. inversion Hsf; subst. auto.
Qed.

Lemma accounts_text i m s rest sfx l :
  accounts rest sfx l -> accounts ((i, m, DText s) :: rest) sfx (s :: l).
Proof.
  intros (ls & lx & Hls & Hlx & Hp & Ho).
  exists ([s] ++ ls), lx. repeat split; [constructor; [constructor|exact Hls]|exact Hlx|apply perm_skip; exact Hp|].
  intros E Hsf. inversion Hsf; subst. cbn [app]. f_equal. auto.
Qed.

Lemma accounts_push i m d i' m' d' rest sfx :
  (forall l1, content_all m' d' l1 -> content_all m d l1) ->
  (suffix_free d = true -> suffix_free d' = true) ->
  forall l, accounts ((i', m', d') :: rest) sfx l -> accounts ((i, m, d) :: rest) sfx l.
Proof.
  intros Himp Hsfd l (ls & lx & Hls & Hlx & Hp & Ho).
  inversion Hls as [|? ? ? ? l1 l2 Hc1 Hc2]; subst.
  exists (l1 ++ l2), lx. repeat split; [constructor; auto|exact Hlx|exact Hp|].
  intros E Hsf. inversion Hsf; subst. apply Ho; [reflexivity|]. constructor; auto.
Qed.

Lemma accounts_concat i m ds rest sfx l :
  accounts (map (fun c => (i, m, c)) ds ++ rest) sfx l -> accounts ((i, m, DConcat ds) :: rest) sfx l.
Proof.
  intros (ls & lx & Hls & Hlx & Hp & Ho).
  apply content_all_stack_app in Hls as (l1 & l2 & -> & Hl1 & Hl2). apply content_all_stack_map in Hl1.
  exists (l1 ++ l2), lx. repeat split; [constructor; [constructor; exact Hl1|exact Hl2]|exact Hlx|exact Hp|].
  intros E Hsf. inversion Hsf; subst. apply Ho; [reflexivity|]. apply stack_suffix_free_concat; assumption.
Qed.

Lemma accounts_defer i m d rest sfx l :
  accounts rest (sfx ++ [(i, m, d)]) l -> accounts ((i, m, DLineSuffix d) :: rest) sfx l.
Proof.
  intros (ls & lx & Hls & Hlx & Hp & _).
  apply content_all_stack_app in Hlx as (la & lb & -> & Hla & Hlb).
  inversion Hlb as [|? ? ? ? l1 l2 Hc1 Hc2]; subst. inversion Hc2; subst. rewrite app_nil_r in Hp.
  exists (l1 ++ ls), la. repeat split; [constructor; [constructor; exact Hc1|exact Hls]|exact Hla| |].
  - rewrite Hp, app_assoc, <- (app_assoc l1). apply Permutation_app_comm.
  - intros _ Hsf. inversion Hsf as [|? ? Hd _]. discriminate Hd.
Qed.

Lemma accounts_break fr rest fr' sfx l :
  accounts ((fr' :: sfx) ++ fr :: rest) [] l -> accounts (fr :: rest) (fr' :: sfx) l.
Proof.
  intros (ls & lx & Hls & Hlx & Hp & _). inversion Hlx; subst. rewrite app_nil_r in Hp.
  apply content_all_stack_app in Hls as (la & lb & -> & Hla & Hlb).
  exists lb, la. repeat split; [exact Hlb|exact Hla|rewrite Hp; apply Permutation_app_comm|discriminate].
Qed.

Lemma texts_app a b : texts (a ++ b) = texts a ++ texts b.
Proof.
  induction a as [|t a IH]; [reflexivity|].
  destruct t; cbn [texts app]; rewrite IH; reflexivity.
Qed.

Definition emits (stack sfx : list frame) (out ts : list token) : Prop :=
  exists l, texts ts = texts (rev out) ++ l /\ accounts stack sfx l.

Lemma layout_fuel_accounts : forall fuel width stack sfx col out ts,
  layout_fuel fuel width stack sfx col out = Some ts -> emits stack sfx out ts.
Proof.
  induction fuel as [|f IH]; intros width stack sfx col out ts Hrun; [discriminate|].
  cbn [layout_fuel] in Hrun.
  destruct stack as [|[[i m] d] rest].
  - destruct sfx as [|fr sfx'].
    + injection Hrun as <-. exists []. rewrite app_nil_r.
      split; [reflexivity|]. exists [], []. repeat split; constructor.
    + apply IH in Hrun as (l & Ht & Ha). exists l. split; [exact Ht|apply accounts_flush; exact Ha].
  - (* a step that emits only tokens without text: an account of the next state is turned into one of this state *)
    assert (Hstep : forall stack' sfx' col' toks,
      texts (rev toks) = [] ->
      layout_fuel f width stack' sfx' col' (toks ++ out) = Some ts ->
      (forall l, accounts stack' sfx' l -> accounts ((i, m, d) :: rest) sfx l) ->
      emits ((i, m, d) :: rest) sfx out ts).
    { intros stack' sfx' col' toks Etoks Hr Himp. apply IH in Hr as (l & Ht & Ha).
      rewrite rev_app_distr, texts_app, Etoks, app_nil_r in Ht. exists l. auto. }
    assert (Hbrk : content_all m d [] ->
      match sfx with
      | [] => layout_fuel f width rest [] i (TNewline i :: out)
      | _ :: _ => layout_fuel f width (sfx ++ (i, m, d) :: rest) [] col out
      end = Some ts -> emits ((i, m, d) :: rest) sfx out ts).
    { intros Hc Hr. destruct sfx as [|fr sfx'].
      - apply (Hstep _ _ _ [TNewline i] eq_refl Hr), accounts_skip, Hc.
      - apply (Hstep _ _ _ [] eq_refl Hr), accounts_break. }
    destruct d.
    + apply (Hstep _ _ _ [] eq_refl Hrun), accounts_skip. constructor.
    + apply IH in Hrun as (l & Ht & Ha). cbn [rev] in Ht. rewrite texts_app, <- app_assoc in Ht.
      exists (s :: l). split; [exact Ht|apply accounts_text; exact Ha].
    + destruct m; [|apply Hbrk; [constructor|exact Hrun]].
      apply (Hstep _ _ _ [TSpace] eq_refl Hrun), accounts_skip. constructor.
    + destruct m; [|apply Hbrk; [constructor|exact Hrun]].
      apply (Hstep _ _ _ [] eq_refl Hrun), accounts_skip. constructor.
    + apply Hbrk; [constructor|exact Hrun].
    + apply (Hstep _ _ _ [] eq_refl Hrun), accounts_concat.
    + apply (Hstep _ _ _ [] eq_refl Hrun), accounts_push; [|auto]. intros l1 Hc. constructor. exact Hc.
    + destruct should_break.
      * apply (Hstep _ _ _ [] eq_refl Hrun), accounts_push; [|auto]. intros l1 Hc. constructor. exact Hc.
      * destruct (fits (S f) (width - col)%nat i d rest) as [fb|]; [|discriminate].
        apply (Hstep _ _ _ [] eq_refl Hrun), accounts_push; [|auto]. intros l1 Hc. eapply CA_group_free. exact Hc.
    + apply (Hstep _ _ _ [] eq_refl Hrun), accounts_push.
      * intros l1 Hc. constructor. exact Hc.
      * cbn [suffix_free]. intros Hd. apply andb_prop in Hd as [Hb Hf]. destruct m; assumption.
    + apply (Hstep _ _ _ [] eq_refl Hrun), accounts_defer.
    + apply (Hstep _ _ _ [] eq_refl Hrun), accounts_skip. constructor.
Qed.

Lemma layout_accounts d width ts :
  layout d width = Some ts ->
  exists l, content_all Break d l /\ Permutation (texts ts) l /\ (suffix_free d = true -> texts ts = l).
Proof.
  intros Hrun. apply layout_fuel_accounts in Hrun as (l & Ht & ls & lx & Hls & Hlx & Hp & Ho).
  inversion Hlx; subst. inversion Hls as [|? ? ? ? l1 l2 Hc1 Hc2]; subst. inversion Hc2; subst.
  cbn [rev texts app] in Ht. rewrite !app_nil_r in *. subst l.
  exists l1. repeat split; [exact Hc1|exact Hp|]. intros Hsf. apply Ho; [reflexivity|].
  constructor; [exact Hsf|constructor].
Qed.

(* without LineSuffix the width only changes line breaks, indentation and IfBreak decorations *)
Theorem layout_content_invariant : forall d width ts,
  suffix_free d = true -> layout d width = Some ts -> content Break d (texts ts).
Proof.
  intros d width ts Hsf Hrun. apply layout_accounts in Hrun as (l & Hc & _ & Ho).
  rewrite (Ho Hsf). apply content_all_suffix_free; assumption.
Qed.

(* with LineSuffix the Text atoms are preserved up to a permutation *)
Theorem layout_content_perm : forall d width ts,
  layout d width = Some ts ->
  exists l, content_all Break d l /\ Permutation (texts ts) l.
Proof.
  intros d width ts Hrun. apply layout_accounts in Hrun as (l & Hc & Hp & _). eauto.
Qed.

(* group("f(" nest(2, softline "a," line "b" if_break(",", nil)) softline ")")
   "f(" = 102 40, "a," = 97 44, "b" = 98, "," = 44, ")" = 41 *)
Definition ex_call : doc :=
  group (DConcat [DText [102; 40];
                  DNest 2 (DConcat [DSoftLine; DText [97; 44]; DLine; DText [98];
                                    DIfBreak (DText [44]) DNil]);
                  DSoftLine; DText [41]]).

Example ex_call_group : exists inner, ex_call = DGroup inner false /\ suffix_free ex_call = true.
Proof. eexists. split; vm_compute; reflexivity. Qed.

(* width 80: flat, "f(a, b)" *)
Example ex_call_flat_layout :
  layout ex_call 80 =
  Some [TText [102; 40]; TText [97; 44]; TSpace; TText [98]; TText [41]].
Proof. vm_compute. reflexivity. Qed.
Example ex_call_flat_print : print ex_call 80 = Some [102; 40; 97; 44; 32; 98; 41].
Proof. vm_compute. reflexivity. Qed.

(* width 5: broken, "f(\n  a,\n  b,\n)" — the trailing comma of the IfBreak appears *)
Example ex_call_broken_layout :
  layout ex_call 5 =
  Some [TText [102; 40]; TNewline 2; TText [97; 44]; TNewline 2; TText [98]; TText [44];
        TNewline 0; TText [41]].
Proof. vm_compute. reflexivity. Qed.
Example ex_call_broken_print :
  print ex_call 5 = Some [102; 40; 10; 32; 32; 97; 44; 10; 32; 32; 98; 44; 10; 41].
Proof. vm_compute. reflexivity. Qed.

(* the texts differ exactly by the IfBreak branch (nil when flat, "," when broken) *)
Example ex_call_texts :
  option_map texts (layout ex_call 80) = Some ([[102; 40]; [97; 44]; [98]] ++ [] ++ [[41]]) /\
  option_map texts (layout ex_call 5) = Some ([[102; 40]; [97; 44]; [98]] ++ [[44]] ++ [[41]]).
Proof. split; vm_compute; reflexivity. Qed.

(* both are mode-resolved contents of the same doc (instances of layout_content_invariant) *)
Example ex_call_content :
  content Break ex_call [[102; 40]; [97; 44]; [98]; [41]] /\
  content Break ex_call [[102; 40]; [97; 44]; [98]; [44]; [41]].
Proof.
  split.
  - apply (layout_content_invariant ex_call 80 _ eq_refl ex_call_flat_layout).
  - apply (layout_content_invariant ex_call 5 _ eq_refl ex_call_broken_layout).
Qed.

(* group("x" line_suffix(" // c") break_parent line "y" "  "): the BreakParent forces the group
   (should_break = true), the comment is flushed before the newline, and the trailing blanks of
   the last line are stripped.  "x" = 120, " // c" = 32 47 47 32 99, "y" = 121 *)
Definition ex_comment : doc :=
  group (DConcat [DText [120]; DLineSuffix (DText [32; 47; 47; 32; 99]); DBreakParent; DLine;
                  DText [121]; DText [32; 32]]).

Example ex_comment_forced : exists inner, ex_comment = DGroup inner true.
Proof. eexists. vm_compute. reflexivity. Qed.
Example ex_comment_layout :
  layout ex_comment 80 =
  Some [TText [120]; TText [32; 47; 47; 32; 99]; TNewline 0; TText [121]; TText [32; 32]].
Proof. vm_compute. reflexivity. Qed.
Example ex_comment_print : print ex_comment 80 = Some [120; 32; 47; 47; 32; 99; 10; 121].
Proof. vm_compute. reflexivity. Qed.

(* a LineSuffix with no following line break is flushed at the end of input: the Text atoms come
   out in a different order than in the doc — the permutation in layout_content_perm is needed. *)
Definition ex_reorder : doc :=
  DConcat [DText [120]; DLineSuffix (DText [32; 47; 47; 32; 99]); DText [121]].
Example ex_reorder_layout :
  layout ex_reorder 80 = Some [TText [120]; TText [121]; TText [32; 47; 47; 32; 99]].
Proof. vm_compute. reflexivity. Qed.
Example ex_reorder_perm :
  exists l, content_all Break ex_reorder l /\
            Permutation [[120]; [121]; [32; 47; 47; 32; 99]] l.
Proof. apply (layout_content_perm ex_reorder 80 _ ex_reorder_layout). Qed.
Example ex_reorder_content_all :
  content_all Break ex_reorder [[120]; [32; 47; 47; 32; 99]; [121]].
Proof.
  apply CA_concat.
  apply (CAL_cons Break _ _ [[120]] [[32; 47; 47; 32; 99]; [121]]); [constructor|].
  apply (CAL_cons Break _ _ [[32; 47; 47; 32; 99]] [[121]]); [constructor; constructor|].
  apply (CAL_cons Break _ _ [[121]] []); constructor.
Qed.

(* strip_trailing_whitespace: "a \r\n\n b\t\n" -> "a\n\n b" *)
Example ex_strip :
  strip_trailing_whitespace [97; 32; 13; 10; 10; 32; 98; 9; 10] = [97; 10; 10; 32; 98].
Proof. vm_compute. reflexivity. Qed.
