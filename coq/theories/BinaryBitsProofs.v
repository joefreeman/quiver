(* BinaryBitsProofs.v — binary_get / binary_set / binary_append agree with their reference specs.
   read_window is the big-endian value of the window bytes; bit_window succeeds exactly when
   window_ok; the rest is arithmetic on the three parts (before, window, after) of the byte string. *)
From Quiver Require Import BuiltinWf.

(* 16 bytes fill the u128 accumulator; the windows that occur have at most 9 *)
Lemma read_window_val r bo m : wf r -> 0 <= bo -> 0 <= m <= 16 -> bo + m <= rlen r ->
  read_window r bo m = Val (be_val (firstn (Z.to_nat m) (skipn (Z.to_nat bo) (bytes_of r)))).
Proof.
  intros Hwf Hbo Hm Hlen. unfold read_window. rewrite <- (Z2Nat.id m) at 1 by lia.
  set (w := skipn (Z.to_nat bo) (bytes_of r)).
  match goal with |- ofold ?f _ _ = _ =>
    destruct (ofold_zrange_inv f (fun i v => v = be_val (firstn i w)) (Z.to_nat m) 0 eq_refl)
      as (v & E & ->); [|exact E] end.
  intros k v Hk ->.
  destruct (byte_at_in_range r (bo + Z.of_nat k) Hwf ltac:(lia)) as [b [E1 [E2 Hb]]].
  rewrite E1. eexists. split; [reflexivity|].
  assert (E3 : nth_error w k = Some b).
  { unfold w. rewrite nth_error_skipn_add, <- E2. f_equal. lia. }
  rewrite (firstn_S_nth _ k b E3), be_val_snoc.
  set (l := firstn k w).
  assert (Hl : bytes_ok l).
  { apply Forall_firstn_keep, Forall_skipn_keep. apply bytes_of_ok. exact Hwf. }
  assert (Hlen' : length l = k).
  { apply firstn_length_le. apply Nat.lt_le_incl, nth_error_Some. rewrite E3. discriminate. }
  pose proof (be_val_bound l Hl) as Hv. rewrite Hlen' in Hv.
  (* the accumulator has at most 15 bytes before the shift: no bit is lost in the u128 *)
  assert (Hp : 256 ^ Z.of_nat k <= 256 ^ 15) by (apply Z.pow_le_mono_r; lia).
  unfold wrap_u128. rewrite Z.shiftl_mul_pow2 by lia.
  assert (H15 : 256 ^ 15 * 2 ^ 8 = 2 ^ 128) by reflexivity.
  assert (H8 : 2 ^ 8 = 256) by reflexivity.
  rewrite Z.mod_small by (rewrite <- H15, H8; lia).
  rewrite <- H8. apply lor_mul_pow2; lia.
Qed.

Lemma div8_ceil t : 8 * ((t + 7) / 8) <= t + 7 < 8 * ((t + 7) / 8) + 8.
Proof.
  pose proof (Z.div_mod (t + 7) 8 ltac:(lia)) as H.
  pose proof (Z.mod_pos_bound (t + 7) 8 ltac:(lia)) as H2. lia.
Qed.

Lemma window_ok_iff n bo bi nb : window_ok n bo bi nb = true <->
  0 <= bo /\ 0 <= bi <= 7 /\ 1 <= nb <= 64 /\ 8 * bo + bi + nb <= 8 * n.
Proof.
  unfold window_ok. rewrite !andb_true_iff, !Z.leb_le. lia.
Qed.

Lemma bit_window_spec n bo bi nb : 0 <= n <= MAX_BINARY_SIZE ->
  let last := (bo * 8 + bi + nb + 7) / 8 in
  bit_window n bo bi nb =
  if window_ok n bo bi nb then Val (bo, bi, nb, last, last - bo, (last - bo) * 8 - bi - nb)
  else Err InvalidArgument.
Proof.
  (* why no Panic arm is entered once the argument checks pass: bo * 8 + bi + nb <= 8 * MAX + 71
     is far below 2^64 (sites 9, 10); last - bo is between 1 and 9 (site 11) and leaves 0..7 bits
     after the window (sites 13, 14) *)
  intros Hn last. pose proof (div8_ceil (bo * 8 + bi + nb)) as Hd. fold last in Hd.
  unfold MAX_BINARY_SIZE in Hn.
  destruct (window_ok n bo bi nb) eqn:Hok;
    [apply window_ok_iff in Hok | apply not_true_iff_false in Hok; rewrite window_ok_iff in Hok];
    unfold bit_window, to_i64_checked, in_i64, in_u64, two63, two64; fold last;
    zcmp; first [reflexivity | lia].
Qed.

Lemma bit_window_ok n bo bi nb : 0 <= n <= MAX_BINARY_SIZE -> window_ok n bo bi nb = true ->
  exists last m ba,
    bit_window n bo bi nb = Val (bo, bi, nb, last, m, ba) /\
    0 <= bo /\ 0 <= bi <= 7 /\ 1 <= nb <= 64 /\
    1 <= m <= 9 /\ 0 <= ba <= 7 /\ last = bo + m /\ last <= n /\ ba + nb + bi = 8 * m.
Proof.
  intros Hn Hok. rewrite bit_window_spec, Hok by exact Hn. do 3 eexists. split; [reflexivity|].
  apply window_ok_iff in Hok. pose proof (div8_ceil (bo * 8 + bi + nb)). lia.
Qed.

Lemma bit_window_bad n bo bi nb : 0 <= n <= MAX_BINARY_SIZE -> window_ok n bo bi nb = false ->
  bit_window n bo bi nb = Err InvalidArgument.
Proof. intros Hn Hok. rewrite bit_window_spec, Hok by exact Hn. reflexivity. Qed.

Lemma split3 {A} (l : list A) bo m :
  l = firstn bo l ++ firstn m (skipn bo l) ++ skipn (bo + m) l.
Proof.
  rewrite <- skipn_skipn_add. rewrite (firstn_skipn m (skipn bo l)). symmetry. apply firstn_skipn.
Qed.

Lemma window_decomp l bo m : bytes_ok l -> (bo + m <= length l)%nat ->
  let P := be_val (firstn bo l) in
  let W := be_val (firstn m (skipn bo l)) in
  let T := be_val (skipn (bo + m) l) in
  let t := (length l - (bo + m))%nat in
  be_val l = P * 2 ^ (8 * Z.of_nat m + 8 * Z.of_nat t) + W * 2 ^ (8 * Z.of_nat t) + T /\
  0 <= P /\ 0 <= W < 2 ^ (8 * Z.of_nat m) /\ 0 <= T < 2 ^ (8 * Z.of_nat t).
Proof.
  intros Hok Hlen P W T t.
  assert (Lw : length (firstn m (skipn bo l)) = m).
  { apply firstn_length_le. rewrite skipn_length. lia. }
  assert (Lt : length (skipn (bo + m) l) = t) by (rewrite skipn_length; reflexivity).
  pose proof (be_val_bound _ (Forall_firstn_keep _ bo l Hok)) as BP.
  pose proof (be_val_bound _ (Forall_firstn_keep _ m _ (Forall_skipn_keep _ bo l Hok))) as BW.
  pose proof (be_val_bound _ (Forall_skipn_keep _ (bo + m)%nat l Hok)) as BT.
  rewrite Lw in BW. rewrite Lt in BT. rewrite pow256_pow2 in BW, BT.
  fold P in BP. fold W in BW. fold T in BT.
  split; [|lia].
  rewrite (split3 l bo m) at 1. rewrite !be_val_app. rewrite app_length, Lw, Lt.
  fold P W T. rewrite !pow256_pow2, Nat2Z.inj_add, Z.mul_add_distr_l. ring.
Qed.

Lemma window_div P W T m t k : 0 <= t -> 0 <= k <= 8 * m -> 0 <= T < 2 ^ (8 * t) ->
  (P * 2 ^ (8 * m + 8 * t) + W * 2 ^ (8 * t) + T) / 2 ^ (8 * t + k) = P * 2 ^ (8 * m - k) + W / 2 ^ k.
Proof.
  intros Ht Hk HT.
  replace (8 * m + 8 * t) with ((8 * m - k) + k + 8 * t) by lia.
  rewrite !Z.pow_add_r by lia.
  pose proof (pow2_pos (8 * t) ltac:(lia)) as HE. pose proof (pow2_pos k ltac:(lia)) as HK.
  set (E := 2 ^ (8 * t)) in *. set (K := 2 ^ k) in *. set (A := 2 ^ (8 * m - k)).
  rewrite <- Z.div_div by lia.
  replace (P * (A * K * E) + W * E + T) with ((P * A * K + W) * E + T) by ring.
  rewrite Z.div_add_l, (Z.div_small T E), Z.add_0_r by lia.
  apply Z.div_add_l. lia.
Qed.

Lemma get_arith P W T m t ba bi nb :
  0 <= t -> 0 <= ba -> 0 <= bi -> 0 <= nb -> ba + nb + bi = 8 * m ->
  0 <= T < 2 ^ (8 * t) ->
  ((P * 2 ^ (8 * m + 8 * t) + W * 2 ^ (8 * t) + T) / 2 ^ (8 * t + ba)) mod 2 ^ nb
  = (W / 2 ^ ba) mod 2 ^ nb.
Proof.
  intros Ht Hba Hbi Hnb Hm HT. rewrite window_div by lia.
  replace (8 * m - ba) with (bi + nb) by lia.
  rewrite Z.pow_add_r, Z.mul_assoc, Z.add_comm by lia. apply Z_mod_plus_full.
Qed.

Lemma shiftl1_mask nb : 0 <= nb <= 64 -> wrap_u128 (Z.shiftl 1 nb) - 1 = Z.ones nb.
Proof.
  intros H. rewrite Z.shiftl_mul_pow2, Z.mul_1_l by lia. unfold wrap_u128.
  assert (2 ^ nb <= 2 ^ 64) by (apply Z.pow_le_mono_r; lia).
  pose proof (pow2_pos nb ltac:(lia)).
  rewrite Z.mod_small by lia. rewrite Z.ones_equiv. lia.
Qed.

Lemma get_value W ba nb : 0 <= ba -> 1 <= nb <= 64 ->
  wrap_u64 (Z.land (Z.shiftr W ba) (wrap_u128 (Z.shiftl 1 nb) - 1)) = (W / 2 ^ ba) mod 2 ^ nb.
Proof.
  intros Hba Hnb. rewrite shiftl1_mask by lia. rewrite Z.land_ones by lia.
  rewrite Z.shiftr_div_pow2 by lia. unfold wrap_u64, two64.
  assert (2 ^ nb <= 2 ^ 64) by (apply Z.pow_le_mono_r; lia).
  pose proof (Z.mod_pos_bound (W / 2 ^ ba) (2 ^ nb) (pow2_pos nb ltac:(lia))).
  apply Z.mod_small. lia.
Qed.

Lemma binary_get_shaped r bo bi nb : wf r ->
  flatten_out (impl_binary_get (BTup [BBin r; BInt bo; BInt bi; BInt nb]))
  = spec_binary_get (FTup [FBin (bytes_of r); FInt bo; FInt bi; FInt nb])
  /\ wf_out (impl_binary_get (BTup [BBin r; BInt bo; BInt bi; BInt nb])).
Proof.
  intros Hwf. unfold spec_binary_get, impl_binary_get.
  rewrite blen_bytes_of by exact Hwf.
  pose proof (wf_rlen_bound r Hwf) as Hn.
  destruct (window_ok (rlen r) bo bi nb) eqn:Hok; [|rewrite bit_window_bad by assumption; ill].
  destruct (bit_window_ok _ _ _ _ Hn Hok) as (last & m & ba & Ebw & H1 & H2 & H3 & H4 & H5 & H6 & H7 & H8).
  rewrite Ebw. cbn [obind]. rewrite read_window_val by (assumption || lia).
  split; [|exact I]. cbn [obind flatten_out flatten]. do 2 f_equal.
  rewrite get_value by lia.
  pose proof (rlen_bytes_of r Hwf) as Hlen.
  destruct (window_decomp (bytes_of r) (Z.to_nat bo) (Z.to_nat m) (bytes_of_ok r Hwf) ltac:(lia))
    as (EV & HP & HW & HT).
  rewrite EV.
  replace (8 * rlen r - (8 * bo + bi) - nb)
    with (8 * Z.of_nat (length (bytes_of r) - (Z.to_nat bo + Z.to_nat m)) + ba) by lia.
  symmetry. apply get_arith with (bi := bi); lia.
Qed.

Theorem binary_get_correct : agrees impl_binary_get spec_binary_get.
Proof.
  intros a Ha. d_tup a fs. d_cons fs x. d_bin x r. d_cons fs y. d_int y bo. d_cons fs z. d_int z bi.
  d_cons fs u. d_int u nb. d_nil fs. apply binary_get_shaped, Ha.
Qed.

Example binary_get_example :
  impl_binary_get (BTup [BBin (Concat (Owned [1;2;3;4]) (Owned [5;6;7;8;255]) 9); BInt 0; BInt 4; BInt 64]) = Val (BInt 1161981756646125711).
Proof. vm_compute. reflexivity. Qed.

Lemma store_loop_be_Z v m : 0 <= m ->
  map (fun i => Z.land (Z.shiftr v (i * 8)) 255) (rev (zrange m)) = be_bytes (Z.to_nat m) v.
Proof.
  intros H. rewrite <- (Z2Nat.id m) at 1 by lia. clear H. induction (Z.to_nat m) as [|k IH]; [reflexivity|].
  rewrite Nat2Z.inj_succ. unfold Z.succ. rewrite zrange_succ by lia.
  rewrite rev_app_distr. cbn [rev app map be_bytes]. rewrite IH. f_equal.
  rewrite Z.shiftr_div_pow2 by lia. change 255 with (Z.ones 8). rewrite Z.land_ones by lia.
  rewrite pow256_pow2. change (2 ^ 8) with 256. rewrite (Z.mul_comm 8). reflexivity.
Qed.

Lemma append_alloc r v n : wf r -> 1 <= n <= 8 ->
  let res := alloc (mk_concat r (Owned (map (fun i => Z.land (Z.shiftr v (i * 8)) 255) (rev (zrange n))))) in
  flatten_out res = (if rlen r + n <=? MAX_BINARY_SIZE
                     then Val (FBin (bytes_of r ++ be_bytes (Z.to_nat n) v)) else Err InvalidArgument)
  /\ wf_out res.
Proof.
  intros Hwf Hn. cbv zeta. rewrite store_loop_be_Z by lia.
  destruct (alloc_concat r (be_bytes (Z.to_nat n) v) Hwf (be_bytes_ok _ _)) as [E W].
  split; [|exact W]. rewrite E. unfold blen. rewrite be_bytes_length, Z2Nat.id by lia. reflexivity.
Qed.

Lemma binary_append_shaped r v n : wf r ->
  flatten_out (impl_binary_append (BTup [BBin r; BInt v; BInt n]))
  = spec_binary_append (FTup [FBin (bytes_of r); FInt v; FInt n])
  /\ wf_out (impl_binary_append (BTup [BBin r; BInt v; BInt n])).
Proof.
  intros Hwf. pose proof (wf_rlen_bound r Hwf) as Hn.
  (* what lia needs to know of max_value: 1 << 8n is 256^n, and 256^8 is 2^64 *)
  assert (E1 : 0 <= n -> Z.shiftl 1 (n * 8) = 256 ^ n).
  { intros. rewrite Z.shiftl_mul_pow2, pow256_pow2, (Z.mul_comm 8) by lia. lia. }
  assert (E2 : n = 8 -> 256 ^ n = 2 ^ 64) by (intros ->; reflexivity).
  unfold impl_binary_append, spec_binary_append. rewrite blen_bytes_of by exact Hwf.
  unfold to_i64_checked. destruct (in_i64 n) eqn:En; cbn [obind].
  2:{ (* n is no i64: it is not in 1..8 either *)
      unfold in_i64, two63 in *. zcmp; ill. }
  (* max_value has two forms; in both, every check that fails fails on both sides, and where all
     pass the size is left to alloc *)
  destruct (Z.eqb_spec n 8); unfold in_i64, in_u64, two63, two64, MAX_BINARY_SIZE in *; zcmp; try ill.
  all: destruct (append_alloc r v n Hwf ltac:(lia)) as [E W]; unfold MAX_BINARY_SIZE in E.
  all: split; [rewrite E; zcmp; reflexivity | exact W].
Qed.

Theorem binary_append_correct : agrees impl_binary_append spec_binary_append.
Proof.
  intros a Ha. d_tup a fs. d_cons fs x. d_bin x r. d_cons fs y. d_int y v. d_cons fs z. d_int z n.
  d_nil fs. apply binary_append_shaped, Ha.
Qed.

Lemma tb_shifted_ones nb ba i : 0 <= nb -> 0 <= ba -> 0 <= i ->
  Z.testbit (Z.shiftl (Z.ones nb) ba) i = (ba <=? i) && (i <? ba + nb).
Proof.
  intros Hnb Hba Hi. rewrite Z.shiftl_spec by lia. rewrite Z.testbit_ones by lia.
  lia.
Qed.

Lemma shifted_ones_bound nb ba : 0 <= nb -> 0 <= ba -> ba + nb <= 128 ->
  0 <= Z.shiftl (Z.ones nb) ba < 2 ^ 128.
Proof.
  intros Hnb Hba Hs. rewrite Z.shiftl_mul_pow2, Z.ones_equiv by lia.
  pose proof (pow2_pos nb Hnb) as HB. pose proof (pow2_pos ba Hba) as HA.
  assert (2 ^ (nb + ba) <= 2 ^ 128) by (apply Z.pow_le_mono_r; lia).
  rewrite Z.pow_add_r in * by lia. unfold Z.pred. nia.
Qed.

Lemma not_mask x : 0 <= x < 2 ^ 128 -> 2 ^ 128 - 1 - x = Z.ldiff (Z.ones 128) x.
Proof.
  intros Hx. change (2 ^ 128 - 1) with (Z.ones 128). apply Z.sub_nocarry_ldiff.
  apply Z.bits_inj'. intros i Hi. rewrite Z.ldiff_spec, Z.bits_0.
  rewrite Z.testbit_ones_nonneg by lia.
  destruct (Z.ltb_spec i 128); cbn [negb]; [apply andb_false_r|].
  rewrite (testbit_small x 128 i) by lia. reflexivity.
Qed.

Lemma set_mask_identity W v ba nb :
  0 <= ba -> 1 <= nb <= 64 -> ba + nb <= 128 -> 0 <= W < 2 ^ 128 -> 0 <= v < 2 ^ nb ->
  Z.lor (Z.land W (2 ^ 128 - 1 - wrap_u128 (Z.shiftl (wrap_u128 (Z.shiftl 1 nb) - 1) ba)))
        (wrap_u128 (Z.shiftl v ba))
  = (W / 2 ^ (ba + nb)) * 2 ^ (ba + nb) + v * 2 ^ ba + W mod 2 ^ ba.
Proof.
  (* bit i of both sides: below ba it is W's, in [ba, ba + nb) it is v's, above it is W's again;
     from 128 up both sides are 0 *)
  intros Hba Hnb Hs HW Hv.
  pose proof (pow2_pos nb ltac:(lia)) as HB. pose proof (pow2_pos ba Hba) as HA.
  assert (HAB : 2 ^ (ba + nb) = 2 ^ ba * 2 ^ nb) by (apply Z.pow_add_r; lia).
  assert (H128 : 2 ^ (ba + nb) <= 2 ^ 128) by (apply Z.pow_le_mono_r; lia).
  rewrite shiftl1_mask by lia.
  pose proof (shifted_ones_bound nb ba ltac:(lia) Hba Hs) as Htm.
  unfold wrap_u128. rewrite (Z.mod_small (Z.shiftl (Z.ones nb) ba)) by exact Htm.
  rewrite not_mask by exact Htm.
  rewrite (Z.shiftl_mul_pow2 v) by lia.
  assert (Hsv : 0 <= v * 2 ^ ba < 2 ^ (ba + nb)) by (rewrite HAB; nia).
  rewrite (Z.mod_small (v * 2 ^ ba)) by lia.
  pose proof (Z.mod_pos_bound W (2 ^ ba) HA) as Hwm.
  assert (Hlo : 0 <= v * 2 ^ ba + W mod 2 ^ ba < 2 ^ (ba + nb)) by (rewrite HAB; nia).
  rewrite <- Z.add_assoc.
  apply Z.bits_inj'. intros i Hi.
  rewrite Z.lor_spec, Z.land_spec, Z.ldiff_spec, Z.testbit_ones_nonneg, tb_shifted_ones by lia.
  rewrite Z.mul_pow2_bits by lia.
  rewrite testbit_split by lia.
  rewrite (testbit_split v (W mod 2 ^ ba) ba i) by lia.
  destruct (Z.ltb_spec i (ba + nb)) as [C1|C1].
  - destruct (Z.ltb_spec i ba) as [C2|C2].
    + rewrite (Z.testbit_neg_r v (i - ba)) by lia. rewrite orb_false_r.
      rewrite Z.mod_pow2_bits_low by lia.
      rewrite (proj2 (Z.ltb_lt i 128)) by lia.
      destruct (Z.leb_spec ba i); [lia|]. cbn [andb negb]. apply andb_true_r.
    + rewrite (proj2 (Z.ltb_lt i 128)) by lia.
      destruct (Z.leb_spec ba i); [|lia]. cbn [andb negb]. rewrite andb_false_r. reflexivity.
  - rewrite (testbit_small v nb (i - ba)) by lia. rewrite orb_false_r.
    destruct (Z.leb_spec ba i); [|lia]. cbn [andb negb]. rewrite andb_true_r.
    rewrite Z.div_pow2_bits by lia. replace (i - (ba + nb) + (ba + nb)) with i by lia.
    destruct (Z.ltb_spec i 128) as [C3|C3]; [apply andb_true_r|].
    rewrite (testbit_small W 128 i) by lia. reflexivity.
Qed.

Lemma set_new_bound W v ba bi nb m : 0 <= ba -> 0 <= bi -> 0 <= nb -> ba + nb + bi = 8 * m ->
  0 <= W < 2 ^ (8 * m) -> 0 <= v < 2 ^ nb ->
  0 <= (W / 2 ^ (ba + nb)) * 2 ^ (ba + nb) + v * 2 ^ ba + W mod 2 ^ ba < 2 ^ (8 * m).
Proof.
  intros Hba Hbi Hnb Hm HW Hv.
  replace (8 * m) with (bi + (ba + nb)) in * by lia.
  rewrite !Z.pow_add_r in * by lia.
  pose proof (pow2_pos nb Hnb) as HB. pose proof (pow2_pos ba Hba) as HA. pose proof (pow2_pos bi Hbi) as HC.
  set (A := 2 ^ ba) in *. set (B := 2 ^ nb) in *. set (C := 2 ^ bi) in *.
  pose proof (Z.mod_pos_bound W A HA) as Hwm.
  assert (Hq : 0 <= W / (A * B) < C).
  { split; [apply Z.div_pos; nia | apply Z.div_lt_upper_bound; nia]. }
  set (q := W / (A * B)) in *.
  assert (G1 : q * (A * B) <= (C - 1) * (A * B)) by (apply Z.mul_le_mono_nonneg_r; nia).
  assert (G2 : v * A <= (B - 1) * A) by (apply Z.mul_le_mono_nonneg_r; lia).
  assert (G3 : 0 <= q * (A * B)) by (apply Z.mul_nonneg_nonneg; nia).
  assert (G4 : 0 <= v * A) by (apply Z.mul_nonneg_nonneg; lia).
  lia.
Qed.

Lemma set_arith P W T v m t ba bi nb :
  0 <= t -> 0 <= ba -> 0 <= bi -> 0 <= nb -> ba + nb + bi = 8 * m ->
  0 <= T < 2 ^ (8 * t) ->
  let V := P * 2 ^ (8 * m + 8 * t) + W * 2 ^ (8 * t) + T in
  let low := 8 * t + ba in
  (V / 2 ^ (low + nb)) * 2 ^ (low + nb) + v * 2 ^ low + V mod 2 ^ low
  = P * 2 ^ (8 * m + 8 * t)
    + ((W / 2 ^ (ba + nb)) * 2 ^ (ba + nb) + v * 2 ^ ba + W mod 2 ^ ba) * 2 ^ (8 * t) + T.
Proof.
  intros Ht Hba Hbi Hnb Hm HT V low. subst V low.
  pose proof (pow2_pos (8 * t + ba) ltac:(lia)) as HL. pose proof (pow2_pos ba Hba) as HA.
  rewrite (Z.mod_eq _ (2 ^ (8 * t + ba))), (Z.mod_eq W (2 ^ ba)) by lia.
  replace (8 * t + ba + nb) with (8 * t + (ba + nb)) by lia.
  rewrite !window_div by lia.
  replace (8 * m - (ba + nb)) with bi by lia. replace (8 * m - ba) with (bi + nb) by lia.
  replace (8 * m + 8 * t) with (bi + (ba + nb) + 8 * t) by lia.
  rewrite !Z.pow_add_r by lia. ring.
Qed.

Lemma set_bytes l bo m NW : bytes_ok l -> (bo + m <= length l)%nat ->
  0 <= NW < 2 ^ (8 * Z.of_nat m) ->
  be_bytes (length l)
    (be_val (firstn bo l) * 2 ^ (8 * Z.of_nat m + 8 * Z.of_nat (length l - (bo + m)))
     + NW * 2 ^ (8 * Z.of_nat (length l - (bo + m))) + be_val (skipn (bo + m) l))
  = firstn bo l ++ be_bytes m NW ++ skipn (bo + m) l.
Proof.
  intros Hok Hlen HNW.
  destruct (window_decomp l bo m Hok Hlen) as (_ & HP & _ & HT). cbv zeta in HP, HT.
  set (t := (length l - (bo + m))%nat) in *.
  set (P := be_val (firstn bo l)) in *. set (T := be_val (skipn (bo + m) l)) in *.
  assert (Lp : length (firstn bo l) = bo) by (apply firstn_length_le; lia).
  assert (Lt : length (skipn (bo + m) l) = t) by (rewrite skipn_length; reflexivity).
  replace (length l) with (bo + (m + t))%nat by lia.
  rewrite <- Z.mul_add_distr_l, <- Nat2Z.inj_add. rewrite <- !pow256_pow2.
  rewrite <- pow256_pow2 in HNW, HT.
  pose proof (pow256_pos t) as Hpt.
  rewrite <- Z.add_assoc.
  rewrite be_bytes_split by (rewrite pow256_add; nia).
  rewrite be_bytes_split by lia.
  unfold P. rewrite <- Lp at 1. rewrite be_bytes_be_val by (apply Forall_firstn_keep; exact Hok).
  unfold T. rewrite <- Lt at 1. rewrite be_bytes_be_val by (apply Forall_skipn_keep; exact Hok).
  reflexivity.
Qed.

(* the statement repeats the tail of impl_binary_set, from the choice among the four ways of
   splicing the new bytes into the rope *)
Lemma set_rope r bo m nbs : wf r -> 0 <= bo -> 0 <= m -> bo + m <= rlen r ->
  bytes_ok nbs -> Z.of_nat (length nbs) = m ->
  let len := rlen r in let last := bo + m in let mid := Owned nbs in
  exists res,
    (if (bo =? 0) && (last =? len) then Val mid
     else if bo =? 0 then
       match mk_slice r last (len - last) with
       | Some rgt => Val (mk_concat mid rgt) | None => Panic 15 end
     else if last =? len then
       match mk_slice r 0 bo with
       | Some lft => Val (mk_concat lft mid) | None => Panic 15 end
     else
       match mk_slice r 0 bo, mk_slice r last (len - last) with
       | Some lft, Some rgt => Val (mk_concat (mk_concat lft mid) rgt)
       | _, _ => Panic 15 end) = Val res /\
    wf res /\
    bytes_of res = firstn (Z.to_nat bo) (bytes_of r) ++ nbs ++ skipn (Z.to_nat (bo + m)) (bytes_of r).
Proof.
  intros Hwf Hbo Hm Hlast Hok Hlen len last mid.
  pose proof (wf_rlen_bound r Hwf) as Hn. pose proof (rlen_bytes_of r Hwf) as HL.
  fold len in Hn, HL, Hlast.
  destruct (mk_slice_some r 0 bo Hwf ltac:(lia) Hbo ltac:(lia)) as (lft & El & Wl & Bl).
  destruct (mk_slice_some r last (len - last) Hwf ltac:(unfold last; lia) ltac:(unfold last; lia)
              ltac:(unfold len; lia)) as (rgt & Er & Wr & Br).
  change (skipn (Z.to_nat 0) (bytes_of r)) with (bytes_of r) in Bl.
  rewrite firstn_all2 in Br by (rewrite skipn_length; unfold last; lia).
  fold len in Er. fold last.
  assert (Wm : wf mid).
  { unfold mid. cbn [wf]. split; [exact Hok | unfold MAX_BINARY_SIZE in *; unfold last in *; lia]. }
  assert (Rl : rlen lft = bo).
  { rewrite (rlen_bytes_of lft Wl), Bl. rewrite firstn_length_le by lia. lia. }
  assert (Rr : rlen rgt = len - last).
  { rewrite (rlen_bytes_of rgt Wr), Br. rewrite skipn_length. unfold last. lia. }
  assert (Rm : rlen mid = m) by exact Hlen.
  destruct (Z.eqb_spec bo 0) as [Eb|Nb]; destruct (Z.eqb_spec last len) as [Ee|Ne]; cbn [andb].
  - exists mid. split; [reflexivity|]. split; [exact Wm|].
    rewrite Eb. change (Z.to_nat 0) with 0%nat. cbn [firstn app bytes_of mid].
    rewrite skipn_all2 by lia. rewrite app_nil_r. reflexivity.
  - rewrite Er. exists (mk_concat mid rgt). split; [reflexivity|].
    split; [apply mk_concat_wf; try assumption; unfold last in *; lia|].
    rewrite mk_concat_bytes, Br. rewrite Eb. change (Z.to_nat 0) with 0%nat. reflexivity.
  - rewrite El. exists (mk_concat lft mid). split; [reflexivity|].
    split; [apply mk_concat_wf; try assumption; unfold last in *; lia|].
    rewrite mk_concat_bytes, Bl. rewrite (skipn_all2 (bytes_of r)) by lia.
    rewrite app_nil_r. reflexivity.
  - rewrite El, Er. exists (mk_concat (mk_concat lft mid) rgt). split; [reflexivity|].
    assert (Wlm : wf (mk_concat lft mid)) by (apply mk_concat_wf; try assumption; unfold last in *; lia).
    split.
    + apply mk_concat_wf; try assumption.
      change (rlen (mk_concat lft mid)) with (rlen lft + rlen mid). unfold last in *. lia.
    + rewrite !mk_concat_bytes, Bl, Br. rewrite <- app_assoc. reflexivity.
Qed.

Lemma set_max nb : 1 <= nb <= 64 ->
  (if nb =? 64 then two64 - 1 else Z.shiftl 1 nb - 1) = 2 ^ nb - 1.
Proof.
  intros H. destruct (Z.eqb_spec nb 64) as [->|N]; [reflexivity|].
  rewrite Z.shiftl_mul_pow2, Z.mul_1_l by lia. reflexivity.
Qed.

Lemma binary_set_shaped r bo bi v nb : wf r ->
  flatten_out (impl_binary_set (BTup [BBin r; BInt bo; BInt bi; BInt v; BInt nb]))
  = spec_binary_set (FTup [FBin (bytes_of r); FInt bo; FInt bi; FInt v; FInt nb])
  /\ wf_out (impl_binary_set (BTup [BBin r; BInt bo; BInt bi; BInt v; BInt nb])).
Proof.
  intros Hwf. unfold impl_binary_set, spec_binary_set. rewrite blen_bytes_of by exact Hwf.
  pose proof (wf_rlen_bound r Hwf) as Hn.
  destruct (window_ok (rlen r) bo bi nb) eqn:Hok; cbn [andb];
    [|rewrite bit_window_bad by assumption; ill].
  destruct (bit_window_ok _ _ _ _ Hn Hok) as (last & m & ba & Ebw & H1 & H2 & H3 & H4 & H5 & H6 & H7 & H8).
  rewrite Ebw. cbn [obind]. rewrite set_max by lia.
  unfold to_i64_checked, in_i64, two63. zcmp; try ill.
  rewrite read_window_val by (assumption || lia). cbn [obind].
  subst last. set (x := bytes_of r).
  pose proof (rlen_bytes_of r Hwf) as HL. pose proof (bytes_of_ok r Hwf) as Hx. fold x in HL, Hx.
  set (bn := Z.to_nat bo). set (mn := Z.to_nat m).
  destruct (window_decomp x bn mn Hx ltac:(lia)) as (EV & HP & HW & HT). cbv zeta in EV, HP, HW, HT.
  set (tn := (length x - (bn + mn))%nat) in *.
  set (W := be_val (firstn mn (skipn bn x))) in *.
  assert (HW128 : 0 <= W < 2 ^ 128).
  { assert (2 ^ (8 * Z.of_nat mn) <= 2 ^ 128) by (apply Z.pow_le_mono_r; lia). lia. }
  rewrite set_mask_identity by lia.
  set (NW := W / 2 ^ (ba + nb) * 2 ^ (ba + nb) + v * 2 ^ ba + W mod 2 ^ ba).
  assert (HNW : 0 <= NW < 2 ^ (8 * Z.of_nat mn)).
  { apply set_new_bound with (bi := bi); lia. }
  rewrite store_loop_be_Z by lia. fold mn.
  destruct (set_rope r bo m (be_bytes mn NW) Hwf H1 ltac:(lia) H7 (be_bytes_ok _ _)
              ltac:(rewrite be_bytes_length; lia)) as (res & Eres & Wres & Bres).
  cbv zeta in Eres. rewrite Eres. cbn [obind]. rewrite alloc_wf by exact Wres.
  split; [|exact Wres]. cbn [flatten_out flatten]. rewrite Bres. fold x bn. do 2 f_equal.
  replace (Z.to_nat (bo + m)) with (bn + mn)%nat by lia.
  replace (8 * rlen r - (8 * bo + bi) - nb) with (8 * Z.of_nat tn + ba) by lia.
  rewrite EV.
  rewrite (set_arith _ W _ v (Z.of_nat mn) (Z.of_nat tn) ba bi nb) by lia.
  fold NW. symmetry. apply set_bytes; [exact Hx | lia | exact HNW].
Qed.

Theorem binary_set_correct : agrees impl_binary_set spec_binary_set.
Proof.
  intros a Ha. d_tup a fs. d_cons fs x. d_bin x r. d_cons fs y. d_int y bo. d_cons fs z. d_int z bi.
  d_cons fs u. d_int u v. d_cons fs w. d_int w nb. d_nil fs. apply binary_set_shaped, Ha.
Qed.

Example binary_set_example :
  flatten_out (impl_binary_set (BTup [BBin (Owned [1;2;3;4;5;6;7;8;255]); BInt 2; BInt 4; BInt 5; BInt 8])) = Val (FBin [1;2;0;84;5;6;7;8;255]).
Proof. vm_compute. reflexivity. Qed.
