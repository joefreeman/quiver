(* RelProofs.v — soundness of the ALL mode of check_rel (is_compatible) on the cycle-free fragment,
   for every variant of the model that retracts failed assumptions (fix_F7).

   Invariant (Brandt–Henglein adapted to a DAG): every recorded assumption is either semantically
   valid or belongs to a pair that is still in progress; in a registry whose ids are topologically
   ordered (children are registered before their parents: `topo`) the in-progress pairs have a
   strictly larger id-sum than the pair being examined, so an assumption that is HIT is valid. *)
From Quiver Require Import Base Types TypesProofs Rel RelStep Sem SemProofs.
From Coq Require Import Arith Lia.
Close Scope Z_scope.
Open Scope nat_scope.

Definition children (P : registry) (t : ty) : list nat :=
  match t with
  | TUnion vs => vs
  | TTuple tid => match lookup_tuple P tid with Some info => map snd (tfields info) | None => [] end
  | TPartial _ fs => map snd fs
  | TCallable p r rc => [p; r; rc]
  | TProcess s r => (match s with Some x => [x] | None => [] end) ++ (match r with Some x => [x] | None => [] end)
  | _ => []
  end.

(* ids are topologically ordered: what Program::register_* produces when types are built bottom-up *)
Definition topo (P : registry) : Prop :=
  forall id t, lookup_type P id = Some t -> forall c, In c (children P t) -> c < id.

Definition topob (P : registry) : bool :=
  forallb (fun id => match lookup_type P id with
                     | Some t => forallb (fun c => c <? id) (children P t)
                     | None => true
                     end) (seq 0 (length (types P))).

Lemma topob_topo P : topob P = true -> topo P.
Proof.
  unfold topob, topo. intros H id t Hl c Hc.
  rewrite forallb_forall in H.
  assert (Hid : id < length (types P)) by (apply nth_error_Some; unfold lookup_type in Hl; congruence).
  specialize (H id). rewrite in_seq in H. specialize (H ltac:(lia)). rewrite Hl in H.
  rewrite forallb_forall in H. apply Nat.ltb_lt. apply H. exact Hc.
Qed.

Lemma key_eqb_eq k1 k2 : key_eqb k1 k2 = true -> k1 = k2.
Proof.
  destruct k1, k2. unfold key_eqb. cbn. intros H. apply andb_true_iff in H. destruct H as [H1 H2].
  apply Nat.eqb_eq in H1. apply Nat.eqb_eq in H2. congruence.
Qed.

Lemma assumed_In A k : assumed A k = true -> In k A.
Proof.
  unfold assumed. intros H. apply existsb_exists in H. destruct H as [x [Hin Heq]].
  apply key_eqb_eq in Heq. subst. exact Hin.
Qed.

Lemma truncate_app (new A : assumptions) : truncate_to (length A) (new ++ A) = A.
Proof.
  unfold truncate_to. rewrite app_length. replace (length new + length A - length A) with (length new) by lia.
  induction new; [reflexivity|assumption].
Qed.

Definition opt_eqb_eq := opt_eqb_true.

Lemma Forall2_combine {X Y} (R : X -> Y -> Prop) : forall l1 l2, length l1 = length l2 ->
  Forall (fun k => R (fst k) (snd k)) (combine l1 l2) -> Forall2 R l1 l2.
Proof.
  induction l1 as [|x l1 IH]; intros [|y l2] Hlen H; try discriminate; constructor; inversion H; subst; auto.
Qed.

Section Assumptions.
  Variable valid : nat * nat -> Prop.

  (* a recorded pair is valid, or was recorded by an enclosing call that is still in progress; such a
     call examines a pair of id-sum >= M *)
  Definition Inv (A : assumptions) (M : nat) : Prop := forall k, In k A -> valid k \/ M <= fst k + snd k.
  (* a call only adds valid pairs *)
  Definition Post (A A1 : assumptions) : Prop := exists new, A1 = new ++ A /\ forall k, In k new -> valid k.

  Lemma Post_refl A : Post A A.
  Proof. exists []. split; [reflexivity|intros k []]. Qed.

  Lemma Post_trans A A1 A2 : Post A A1 -> Post A1 A2 -> Post A A2.
  Proof.
    intros [n1 [-> H1]] [n2 [-> H2]]. exists (n2 ++ n1). split; [rewrite app_assoc; reflexivity|].
    intros k Hin. apply in_app_or in Hin. destruct Hin; auto.
  Qed.

  Lemma Inv_Post M A A1 : Inv A M -> Post A A1 -> Inv A1 M.
  Proof.
    intros HI [new [-> Hn]] k Hin. apply in_app_or in Hin. destruct Hin as [Hin|Hin]; [left; auto|auto].
  Qed.

  Lemma Inv_weaken A M M' : Inv A M -> M' <= M -> Inv A M'.
  Proof. intros HI Hle k Hin. destruct (HI k Hin); [left; assumption|right; lia]. Qed.

  Lemma Inv_push A M k : Inv A M -> M <= fst k + snd k -> Inv (k :: A) M.
  Proof. intros HI Hk k' [<-|Hin]; [right; exact Hk|apply HI; exact Hin]. Qed.

  (* an arm that records k: on true the pair joins the valid assumptions, on false it is retracted *)
  Lemma retract_Post cfg A k b A2 : cfg_retract cfg = true -> Post (k :: A) A2 -> (b = true -> valid k) ->
    exists A1, retract cfg (length A) (Some (b, A2)) = Some (b, A1) /\ Post A A1.
  Proof.
    intros Hret [new [-> Hnew]] Hk. unfold retract.
    replace (new ++ k :: A) with ((new ++ [k]) ++ A) by (rewrite <- app_assoc; reflexivity).
    destruct b.
    - eexists. split; [reflexivity|]. eexists. split; [reflexivity|].
      intros k' Hin. apply in_app_or in Hin. destruct Hin as [Hin|[<-|[]]]; auto.
    - rewrite Hret, truncate_app. eexists. split; [reflexivity|apply Post_refl].
  Qed.
End Assumptions.

Section RelSound.
  Variable cfg : rel_cfg.
  Variable P : registry.
  Variable named_ok : bool.
  Hypothesis Hretract : cfg_retract cfg = true.
  Hypothesis Hnamed : cfg_partial_name cfg = true \/ named_ok = false.
  Hypothesis Htopo : topo P.

  Notation CF := (CF P named_ok).
  Notation sub := (sub P).

  Definition valid (k : nat * nat) : Prop := sub (fst k) (snd k).
  Notation Inv := (Inv valid).
  Notation Post := (Post valid).

  (* a pair of cycle-free ids below the pair being examined *)
  Definition below (M : nat) (k : nat * nat) : Prop := CF (fst k) /\ CF (snd k) /\ fst k + snd k < M.

  Section Iter.
    Variable rec : assumptions -> list nat -> list nat -> nat -> nat -> res.
    Variable M : nat.
    Hypothesis HRS : forall A ss ps k b A1, below M k -> Inv A M ->
      rec A ss ps (fst k) (snd k) = Some (b, A1) -> Post A A1 /\ (b = true -> valid k).
    Variables ss ps : list nat.

    Let sound {X} (call : X -> assumptions -> res) (Q : X -> Prop) : X -> Prop :=
      call_spec call (fun A => Inv A M) Post Q (fun _ => True).

    Lemma pair_sound k : below M k -> sound (call_pair rec ss ps) valid k.
    Proof. intros Hk A b A1 HI H. destruct (HRS _ _ _ _ _ _ Hk HI H) as [HP Hv]. split; [exact HP|destruct b; auto]. Qed.

    Lemma all_sound {X} (call : X -> assumptions -> res) Q xs A b A1 : Forall (sound call Q) xs -> Inv A M ->
      all_of call xs A = Some (b, A1) -> Post A A1 /\ (b = true -> Forall Q xs).
    Proof.
      intros Hxs HI H.
      destruct (all_of_spec _ _ _ (Post_refl valid) (Post_trans valid) (Inv_Post valid M) _ _ xs Hxs _ _ _ HI H) as [HP HQ].
      split; [exact HP|intros ->; exact HQ].
    Qed.

    Lemma all_pairs_sound {X} (g : X -> nat * nat) xs A b A1 : (forall x, In x xs -> below M (g x)) -> Inv A M ->
      all_of (call_pair rec ss ps) (map g xs) A = Some (b, A1) ->
      Post A A1 /\ (b = true -> forall x, In x xs -> valid (g x)).
    Proof.
      intros Hxs HI H. destruct (all_sound (call_pair rec ss ps) valid (map g xs) A b A1) as [HP HQ]; [|exact HI|exact H|].
      - apply Forall_map, Forall_forall. intros x Hx. apply pair_sound, Hxs, Hx.
      - split; [exact HP|intros Hb]. specialize (HQ Hb). rewrite Forall_map, Forall_forall in HQ. exact HQ.
    Qed.

    Lemma any_pairs_sound {X} (g : X -> nat * nat) xs A b A1 : (forall x, In x xs -> below M (g x)) -> Inv A M ->
      any_of (call_pair rec ss ps) (map g xs) A = Some (b, A1) ->
      Post A A1 /\ (b = true -> exists x, In x xs /\ valid (g x)).
    Proof.
      intros Hxs HI H.
      assert (Hks : Forall (sound (call_pair rec ss ps) valid) (map g xs))
        by (apply Forall_map, Forall_forall; intros x Hx; apply pair_sound, Hxs, Hx).
      destruct (any_of_spec _ _ _ (Post_refl valid) (Post_trans valid) (Inv_Post valid M) _ _ _ Hks _ _ _ HI H) as [HP HQ].
      split; [exact HP|intros ->]. rewrite Exists_map, Exists_exists in HQ. exact HQ.
    Qed.

    Lemma fields_sound f1 f2 A b A1 : (forall a c, In a f1 -> In c f2 -> below M (snd a, snd c)) -> Inv A M ->
      tuple_fields rec A ss ps f1 f2 = Some (b, A1) ->
      Post A A1 /\ (b = true -> Forall (fun k => fields_sub P (fst k) (snd k)) (combine f1 f2)).
    Proof.
      intros Hf HI H. rewrite tuple_fields_fold in H. eapply all_sound; [|exact HI|exact H].
      apply Forall_forall. intros [[n1 t1] [n2 t2]] Hin A0 b0 A2 HI0 Hcall. unfold field_call in Hcall. cbn in Hcall |- *.
      destruct (opt_eqb n1 n2) eqn:Hnn; [|injection Hcall as <- <-; split; [apply Post_refl|exact I]].
      apply (HRS _ _ _ (t1, t2)) in Hcall; [| |exact HI0].
      - destruct Hcall as [HP Hv]. split; [exact HP|]. destruct b0; [|exact I].
        split; [apply opt_eqb_eq; exact Hnn|exact (Hv eq_refl)].
      - apply (Hf (n1, t1) (n2, t2)); [eapply in_combine_l|eapply in_combine_r]; exact Hin.
    Qed.

    (* both partial arms: `call` asks, for one field of the pattern, the fields of the same label *)
    Lemma covers_sound {L} (lab : L -> nat -> bool) (xs : list (L * nat)) pfs
          (call : nat * nat -> assumptions -> res) A b A1 :
      (forall pf A0, call pf A0 =
         any_of (call_pair rec ss ps) (map (fun x => (snd x, snd pf)) (filter (fun x => lab (fst x) (fst pf)) xs)) A0) ->
      (forall x pf, In x xs -> In pf pfs -> below M (snd x, snd pf)) -> Inv A M ->
      all_of call pfs A = Some (b, A1) ->
      Post A A1 /\
      (b = true -> forall pf, In pf pfs -> exists x, In x xs /\ lab (fst x) (fst pf) = true /\ sub (snd x) (snd pf)).
    Proof.
      intros Hcall Hb HI H.
      destruct (all_sound call (fun pf => exists x, In x xs /\ lab (fst x) (fst pf) = true /\ sub (snd x) (snd pf))
                          pfs A b A1) as [HP HQ]; [|exact HI|exact H|].
      - apply Forall_forall. intros pf Hpf A0 b0 A2 HI0 Hc. rewrite Hcall in Hc.
        apply any_pairs_sound in Hc; [|intros x Hx; apply filter_In in Hx; apply Hb; [apply Hx|exact Hpf]|exact HI0].
        destruct Hc as [HP Hex]. split; [exact HP|]. destruct b0; [|exact I]. destruct (Hex eq_refl) as [x [Hx Hv]].
        apply filter_In in Hx. destruct Hx as [Hx Hl]. exists x. repeat split; assumption.
      - split; [exact HP|intros Hbt]. apply Forall_forall. exact (HQ Hbt).
    Qed.
  End Iter.

  Lemma topo_union s vs v : lookup_type P s = Some (TUnion vs) -> In v vs -> v < s.
  Proof. intros Hl Hin. apply (Htopo s _ Hl). exact Hin. Qed.
  Lemma topo_tuple s tid info f :
    lookup_type P s = Some (TTuple tid) -> lookup_tuple P tid = Some info -> In f (tfields info) -> snd f < s.
  Proof. intros Hl Ht Hin. apply (Htopo s _ Hl). cbn. rewrite Ht. apply in_map. exact Hin. Qed.
  Lemma topo_partial s n fs f : lookup_type P s = Some (TPartial n fs) -> In f fs -> snd f < s.
  Proof. intros Hl Hin. apply (Htopo s _ Hl). cbn. apply in_map. exact Hin. Qed.
  Lemma topo_callable s p r rc : lookup_type P s = Some (TCallable p r rc) -> p < s /\ r < s /\ rc < s.
  Proof. intros Hl. repeat split; apply (Htopo s _ Hl); cbn; auto. Qed.
  Lemma topo_process s a b : lookup_type P s = Some (TProcess (Some a) (Some b)) -> a < s /\ b < s.
  Proof. intros Hl. split; apply (Htopo s _ Hl); cbn; auto. Qed.

  Lemma fields_sub_refl (l : list (option nat * nat)) :
    (forall f0, In f0 l -> CF (snd f0)) -> Forall2 (fields_sub P) l l.
  Proof.
    induction l as [|a l IHl]; intros Hl; constructor.
    - split; [reflexivity|]. eapply sub_refl. apply Hl. left; reflexivity.
    - apply IHl. intros f0 Hf0. apply Hl. right; exact Hf0.
  Qed.

  (* The proof follows the arms of check_type_relation.  An arm that recurses does so on children
     of s or p, whose id-sum is smaller by `topo`; the pair (s, p) it may have recorded is then an
     assumption "in progress" for those calls, and valid once the arm answers true. *)
  Lemma check_sound : forall fuel A ss ps s p b A1,
    CF s -> CF p -> Inv A (S (s + p)) ->
    check_rel cfg P All fuel A ss ps s p = Some (b, A1) ->
    Post A A1 /\ (b = true -> sub s p).
  Proof.
    induction fuel as [|f IH]; intros A ss ps s p b A1 Hs Hp HI H; [discriminate|].
    cbn [check_rel] in H.
    destruct (Nat.eqb s p) eqn:Heq.
    { rewrite step_fast in H by exact Heq. apply Nat.eqb_eq in Heq. subst p. injection H as <- <-.
      split; [apply Post_refl|intros _; eapply sub_refl; eassumption]. }
    destruct (assumed A (s, p)) eqn:Has.
    { rewrite step_assumed in H by assumption. injection H as <- <-. split; [apply Post_refl|intros _].
      destruct (HI _ (assumed_In _ _ Has)) as [Hv|Hm]; [exact Hv|cbn in Hm; lia]. }
    set (rec := check_rel cfg P All f) in *.
    assert (HRS : forall A0 ss0 ps0 k b0 A2, below (s + p) k -> Inv A0 (s + p) ->
              rec A0 ss0 ps0 (fst k) (snd k) = Some (b0, A2) -> Post A0 A2 /\ (b0 = true -> valid k)).
    { intros A0 ss0 ps0 k b0 A2 (Hk1 & Hk2 & Hlt) HI0. apply IH; [exact Hk1|exact Hk2|]. eapply Inv_weaken; [exact HI0|lia]. }
    assert (HI' : Inv A (s + p)) by (eapply Inv_weaken; [exact HI|lia]).
    assert (HIk : Inv ((s, p) :: A) (s + p)) by (apply Inv_push; [exact HI'|apply Nat.le_refl]).
    assert (Hins : forall r, (forall b0 A2, r = Some (b0, A2) -> Post ((s, p) :: A) A2 /\ (b0 = true -> sub s p)) ->
                   retract cfg (length A) r = Some (b, A1) -> Post A A1 /\ (b = true -> sub s p)).
    { intros r Hr Hret. destruct r as [[b0 A2]|]; [|discriminate Hret]. destruct (Hr b0 A2 eq_refl) as [HP Hsub].
      destruct (retract_Post valid cfg A (s, p) b0 A2 Hretract HP Hsub) as (A1' & E & HP').
      rewrite E in Hret. injection Hret as <- <-. split; assumption. }
    destruct (lookup_type P s) as [st|] eqn:Hls; [|destruct Hs; congruence].
    destruct (lookup_type P p) as [pt|] eqn:Hlp; [|destruct Hp; congruence].
    pose proof (CF_inv _ _ _ _ Hs Hls) as Is. pose proof (CF_inv _ _ _ _ Hp Hlp) as Ip.
    assert (Hchild_s : forall c, In c (children P st) -> c < s) by (exact (Htopo s st Hls)).
    assert (Hchild_p : forall c, In c (children P pt) -> c < p) by (exact (Htopo p pt Hlp)).
    assert (Hconst : forall c, Some (c, A) = Some (b, A1) -> (c = true -> sub s p) -> Post A A1 /\ (b = true -> sub s p)).
    { intros c Hc Hsub. injection Hc as <- <-. split; [apply Post_refl|exact Hsub]. }
    (* CF excludes the variable and cycle arms (Is / Ip become False); the others come in the order of step_view *)
    revert H. destruct (step_viewP cfg P All rec A ss ps s p st pt Heq Has Hls Hlp); cbn in Is, Ip, Hchild_s, Hchild_p;
      try contradiction; intros H'.
    - (* empty union *) apply (Hconst _ H'). intros _. eapply sub_empty_union; eassumption.
    - apply (Hconst _ H'). intros _. eapply sub_int; eassumption.
    - apply (Hconst _ H'). intros _. eapply sub_bin; eassumption.
    - apply (Hconst _ H'). intros _. eapply sub_ref; eassumption.
    - apply (Hconst _ H'). intros Hr. apply Nat.eqb_eq in Hr. subst r2. eapply sub_res; eassumption.
    - (* union on the left *)
      eapply Hins; [|exact H']. intros b0 A2 Hr. rewrite all_left_fold in Hr.
      apply (all_pairs_sound rec (s + p) HRS) in Hr; [| |exact HIk].
      + destruct Hr as [HP Hall]. split; [exact HP|intros Hb]. eapply sub_union_left; [exact Hls|].
        intros u Hu. exact (Hall Hb u Hu).
      + intros u Hu. repeat split; cbn; [auto|exact Hp|]. specialize (Hchild_s u Hu). lia.
    - (* union on the right *)
      eapply Hins; [|exact H']. intros b0 A2 Hr. rewrite any_right_fold in Hr.
      apply (any_pairs_sound rec (s + p) HRS) in Hr; [| |exact HIk].
      + destruct Hr as [HP Hex]. split; [exact HP|intros Hb]. destruct (Hex Hb) as [u [Hu Hsu]].
        eapply sub_union_right; eassumption.
      + intros u Hu. repeat split; cbn; [exact Hs|auto|]. specialize (Hchild_p u Hu). lia.
    - (* tuple / tuple *)
      destruct Is as [info1 [Hlt1 Hfs1]]. destruct Ip as [info2 [Hlt2 Hfs2]]. rewrite Hlt1, Hlt2 in *.
      destruct (id1 =? id2) eqn:Ht.
      { apply (Hconst _ H'). intros _. apply Nat.eqb_eq in Ht. subst id2. assert (info2 = info1) by congruence. subst info2.
        eapply sub_tuple; [exact Hls|exact Hlp|exact Hlt1|exact Hlt1|reflexivity|apply fields_sub_refl; exact Hfs1]. }
      destruct (opt_eqb (tname info1) (tname info2) && (length (tfields info1) =? length (tfields info2))) eqn:Hc;
        [|apply (Hconst _ H'); discriminate].
      apply andb_true_iff in Hc. destruct Hc as [Hn Hlen]. apply opt_eqb_eq in Hn. apply Nat.eqb_eq in Hlen.
      apply (fields_sound rec (s + p) HRS) in H'; [| |exact HI'].
      + destruct H' as [HP HF]. split; [exact HP|intros Hb].
        eapply sub_tuple; [exact Hls|exact Hlp|exact Hlt1|exact Hlt2|exact Hn|apply Forall2_combine; [exact Hlen|exact (HF Hb)]].
      + intros a c Ha Hc. repeat split; cbn; [apply Hfs1; exact Ha|apply Hfs2; exact Hc|].
        apply Nat.add_lt_mono; [apply Hchild_s|apply Hchild_p]; apply in_map; assumption.
    - (* tuple / partial *)
      destruct Is as [info [Hlt Hfs]]. destruct Ip as [Hnm Hpf]. rewrite Hlt in *.
      destruct (match pn with Some n => opt_eqb (tname info) (Some n) | None => true end) eqn:Hn;
        [|apply (Hconst _ H'); discriminate].
      rewrite all_partial_fields_fold in H'.
      apply (covers_sound rec (s + p) HRS ss ps (fun o l => opt_eqb o (Some l)) (tfields info) pfs) in H';
        [|intros; apply any_concrete_field_fold| |exact HI'].
      + destruct H' as [HP Hall]. split; [exact HP|intros Hb].
        eapply sub_tuple_partial; [exact Hls|exact Hlt|exact Hlp| |].
        * destruct pn; [right; apply opt_eqb_eq in Hn; congruence|left; reflexivity].
        * intros l t Hin. destruct (Hall Hb (l, t) Hin) as [[cn ct] (Hc & Hl & Hv)].
          apply opt_eqb_eq in Hl. cbn in Hl, Hv. subst cn. eauto.
      + intros x pf Hx Hpf0. repeat split; cbn; [apply Hfs; exact Hx|apply Hpf; exact Hpf0|].
        apply Nat.add_lt_mono; [apply Hchild_s|apply Hchild_p]; apply in_map; assumption.
    - (* partial / partial *)
      destruct Is as [Hnm1 Hpf1]. destruct Ip as [Hnm2 Hpf2]. rewrite andb_true_r in H'.
      match type of H' with (if ?c then _ else _) = _ => destruct c eqn:Hcl end; [apply (Hconst _ H'); discriminate|].
      assert (Hnames : n2 = None \/ n1 = n2).
      { destruct (cfg_partial_name cfg) eqn:Hpn.
        - destruct n2; [|left; reflexivity]. right. apply negb_false_iff in Hcl. apply opt_eqb_eq in Hcl. exact Hcl.
        - destruct Hnamed as [Hx|Hx]; [discriminate|]. destruct Hnm2 as [Hy|Hy]; [congruence|left; exact Hy]. }
      rewrite all_partial_partial_fold in H'.
      apply (covers_sound rec (s + p) HRS ss ps Nat.eqb f1 f2) in H'; [| | |exact HI'].
      + destruct H' as [HP Hall]. split; [exact HP|intros Hb].
        eapply sub_partial_partial; [exact Hls|exact Hlp|exact Hnames|].
        intros l t Hin. destruct (Hall Hb (l, t) Hin) as [[l1 t1] (Hc & Hl & Hv)].
        apply Nat.eqb_eq in Hl. cbn in Hl, Hv. subst l1. eauto.
      + intros pf A0. unfold partial_field_call. rewrite andb_false_r. apply any_partial_field_fold.
      + intros x pf Hx Hpf. repeat split; cbn; [apply Hpf1; exact Hx|apply Hpf2; exact Hpf|].
        apply Nat.add_lt_mono; [apply Hchild_s|apply Hchild_p]; apply in_map; assumption.
    - (* partial / tuple *) rewrite andb_false_r in H'. apply (Hconst _ H'). discriminate.
    - (* process / process *)
      destruct s1 as [s1|]; [|contradiction]. destruct r1 as [r1|]; [|contradiction]. destruct Is as [Hcs1 Hcr1].
      destruct s2 as [s2|]; [|contradiction]. destruct r2 as [r2|]; [|contradiction]. destruct Ip as [Hcs2 Hcr2].
      rewrite andb_false_r in H'.
      assert (s1 < s /\ r1 < s /\ s2 < p /\ r2 < p) as (? & ? & ? & ?)
        by (repeat split; (apply Hchild_s || apply Hchild_p); cbn; auto).
      destruct (rec A ss ps s1 s2) as [[b1 A1']|] eqn:E1; [|discriminate].
      apply (HRS _ _ _ (s1, s2)) in E1; [|repeat split; cbn; auto; lia|exact HI'].
      destruct E1 as [HP1 Hsub1].
      destruct (rec A1' ss ps r1 r2) as [[b2 A2']|] eqn:E2; [|discriminate].
      apply (HRS _ _ _ (r1, r2)) in E2; [|repeat split; cbn; auto; lia|exact (Inv_Post _ _ _ _ HI' HP1)].
      destruct E2 as [HP2 Hsub2]. injection H' as <- <-. split; [eapply Post_trans; eassumption|intros Hb].
      apply andb_true_iff in Hb. destruct Hb as [Hb1 Hb2]. eapply sub_process; [exact Hls|exact Hlp|exact (Hsub1 Hb1)|exact (Hsub2 Hb2)].
    - (* callable / callable *)
      destruct Is as (Hcp1 & Hcr1 & Hcc1). destruct Ip as (Hcp2 & Hcr2 & Hcc2). rewrite andb_false_r in H'.
      assert (p1 < s /\ r1 < s /\ c1 < s /\ p2 < p /\ r2 < p /\ c2 < p) as (? & ? & ? & ? & ? & ?)
        by (repeat split; (apply Hchild_s || apply Hchild_p); cbn; auto).
      (* the three component checks from any start set that satisfies the invariant *)
      assert (Hbody : forall A0 css cps ss1 ps1 b0 A2, Inv A0 (s + p) ->
                and_then (rec A0 css cps p2 p1) (fun A1 =>
                and_then (rec A1 ss1 ps1 r1 r2) (fun A2 => rec A2 css cps c2 c1)) = Some (b0, A2) ->
                Post A0 A2 /\ (b0 = true -> sub s p)).
      { intros A0 css cps ss1 ps1 b0 A2 HI0 Hbd. unfold and_then in Hbd.
        destruct (rec A0 css cps p2 p1) as [[b1 A1']|] eqn:E1; [|discriminate].
        apply (HRS _ _ _ (p2, p1)) in E1; [|repeat split; cbn; auto; lia|exact HI0].
        destruct E1 as [HP1 Hs1]. destruct b1; [|injection Hbd as <- <-; split; [exact HP1|discriminate]].
        destruct (rec A1' ss1 ps1 r1 r2) as [[b2 A2']|] eqn:E2; [|discriminate].
        apply (HRS _ _ _ (r1, r2)) in E2; [|repeat split; cbn; auto; lia|exact (Inv_Post _ _ _ _ HI0 HP1)].
        destruct E2 as [HP2 Hs2]. destruct b2; [|injection Hbd as <- <-; split; [eapply Post_trans; eassumption|discriminate]].
        apply (HRS _ _ _ (c2, c1)) in Hbd;
          [|repeat split; cbn; auto; lia|exact (Inv_Post _ _ _ _ (Inv_Post _ _ _ _ HI0 HP1) HP2)].
        destruct Hbd as [HP3 Hs3]. split; [exact (Post_trans _ _ _ _ (Post_trans _ _ _ _ HP1 HP2) HP3)|intros Hb].
        eapply sub_callable; [exact Hls|exact Hlp|exact (Hs1 eq_refl)|exact (Hs2 eq_refl)|exact (Hs3 Hb)]. }
      destruct (cfg_callable_assume cfg).
      + eapply Hins; [|exact H']. intros b0 A2 Hr. eapply Hbody; [exact HIk|exact Hr].
      + eapply Hbody; [exact HI'|exact H'].
    - (* no arm *) apply (Hconst _ H'). discriminate.
  Qed.
End RelSound.

Section Domain.
  Variable P : registry.
  Variable named_ok : bool.

  (* cycle-free, variable-free, processes with both directions known (boolean form of CF) *)
  Fixpoint cfb (k : nat) (t : nat) : bool :=
    match k with
    | 0 => false
    | S k' =>
      match lookup_type P t with
      | Some TInteger | Some TBinary | Some TReference | Some (TResource _) => true
      | Some (TUnion vs) => forallb (cfb k') vs
      | Some (TTuple tid) =>
        match lookup_tuple P tid with
        | Some info => forallb (fun f => cfb k' (snd f)) (tfields info)
        | None => false
        end
      | Some (TPartial pn fs) =>
        (named_ok || match pn with None => true | Some _ => false end) && forallb (fun f => cfb k' (snd f)) fs
      | Some (TCallable p r rc) => cfb k' p && cfb k' r && cfb k' rc
      | Some (TProcess (Some s) (Some r)) => cfb k' s && cfb k' r
      | _ => false
      end
    end.

  Lemma cfb_CF : forall k t, cfb k t = true -> CF P named_ok t.
  Proof.
    induction k as [|k IH]; intros t H; [discriminate|]. cbn in H.
    destruct (lookup_type P t) as [ty|] eqn:Hl; [|discriminate].
    destruct ty as [| | |tid|pn fs|p r rc|d|vs|s r|r|v]; try discriminate.
    - eapply CF_int; eassumption.
    - eapply CF_bin; eassumption.
    - eapply CF_ref; eassumption.
    - destruct (lookup_tuple P tid) as [info|] eqn:Ht; [|discriminate].
      eapply CF_tuple; [eassumption|eassumption|]. rewrite forallb_forall in H. intros f Hf. apply IH. apply H. exact Hf.
    - apply andb_true_iff in H. destruct H as [Hn Hf].
      eapply CF_partial; [eassumption| |].
      + destruct named_ok; [left; reflexivity|]. destruct pn; [discriminate|right; reflexivity].
      + rewrite forallb_forall in Hf. intros f Hin. apply IH. apply Hf. exact Hin.
    - apply andb_true_iff in H. destruct H as [H Hc]. apply andb_true_iff in H. destruct H as [Hp Hr].
      eapply CF_callable; [eassumption|apply IH; assumption|apply IH; assumption|apply IH; assumption].
    - eapply CF_union; [eassumption|]. rewrite forallb_forall in H. intros u Hu. apply IH. apply H. exact Hu.
    - destruct s as [s|]; [|discriminate]. destruct r as [r|]; [|discriminate].
      apply andb_true_iff in H. destruct H as [Hs Hr].
      eapply CF_process; [eassumption|apply IH; assumption|apply IH; assumption].
    - eapply CF_res; eassumption.
  Qed.
End Domain.

(* under topob every descent of cfb lowers the id, so S (length (types P)) levels reach every leaf;
   without topob that depth would not be enough *)
Definition cf_domain (cfg : rel_cfg) (P : registry) (t : nat) : bool :=
  topob P && cfb P (cfg_partial_name cfg) (S (length (types P))) t.

Theorem compat_sound_cf : forall cfg P fuel a b,
  cfg_retract cfg = true ->
  cf_domain cfg P a = true -> cf_domain cfg P b = true ->
  is_compatible_with cfg fuel P a b = Some true ->
  forall n v, inhab P n [] v a -> inhab P n [] v b.
Proof.
  intros cfg P fuel a b Hret Ha Hb Hc n v Hv.
  unfold cf_domain in *. apply andb_true_iff in Ha. destruct Ha as [Ht Ha]. apply andb_true_iff in Hb. destruct Hb as [_ Hb].
  apply topob_topo in Ht. apply cfb_CF in Ha. apply cfb_CF in Hb.
  unfold is_compatible_with in Hc.
  destruct (check_rel cfg P All fuel [] [] [] a b) as [[r A1]|] eqn:Hr; [|discriminate]. cbn in Hc. inversion Hc; subst r.
  assert (Hnamed : cfg_partial_name cfg = true \/ cfg_partial_name cfg = false) by (destruct (cfg_partial_name cfg); auto).
  destruct (check_sound cfg P (cfg_partial_name cfg) Hret Hnamed Ht fuel [] [] [] a b true A1 Ha Hb
              (fun k (Hin : In k []) => match Hin with end) Hr) as [_ Hsub].
  eapply (Hsub eq_refl). exact Hv.
Qed.

(* reflexivity holds outright (fast path), for every registry and every id *)
Theorem compat_refl_all : forall cfg P fuel a, is_compatible_with cfg (S fuel) P a a = Some true.
Proof. intros. unfold is_compatible_with. cbn [check_rel]. rewrite step_fast by apply Nat.eqb_refl. reflexivity. Qed.
