(* BinaryShiftProofs.v — binary_shift agrees with the reference spec (logical shift of the big-endian bit string). *)
From Quiver Require Import BuiltinWf.

Lemma be_val_repeat0_app n l : be_val (repeat 0 n ++ l) = be_val l.
Proof. rewrite be_val_app, be_val_repeat0. lia. Qed.

Lemma be_val_app_repeat0 l n : be_val (l ++ repeat 0 n) = be_val l * 256 ^ Z.of_nat n.
Proof. rewrite be_val_app, be_val_repeat0, repeat_length. lia. Qed.

(* each of the four loops returns the encoding of a number v: its result has n bytes and denotes v
   up to a multiple of 256^n (what a left shift pushes out) *)
Lemma be_bytes_eq n v res c :
  length res = n -> bytes_ok res -> v = c * 256 ^ Z.of_nat n + be_val res -> res = be_bytes n v.
Proof. intros <- Hok ->. rewrite be_bytes_drop. symmetry. apply be_bytes_be_val, Hok. Qed.

Lemma be_val_firstn_div bytes q : bytes_ok bytes -> (q <= length bytes)%nat ->
  be_val (firstn (length bytes - q) bytes) = be_val bytes / 256 ^ Z.of_nat q.
Proof.
  intros Hok Hq.
  rewrite (be_val_firstn_skipn (length bytes - q) bytes).
  replace (length bytes - (length bytes - q))%nat with q by lia.
  pose proof (be_val_bound _ (Forall_skipn_keep _ (length bytes - q)%nat _ Hok)) as Hb.
  rewrite skipn_length in Hb. replace (length bytes - (length bytes - q))%nat with q in Hb by lia.
  pose proof (pow256_pos q) as Hp.
  rewrite Z.div_add_l by lia. rewrite (Z.div_small _ _ Hb). lia.
Qed.

(* Both carry loops cut every source byte s at some bit a (a + b = 8): the low a bits, moved up by
   b, go to one result byte and the high b bits to its neighbour, where the two halves are or-ed
   together. shl cuts at a = 8 - bit_shift, shr at a = bit_shift. *)

Lemma pow2_cut a b : 0 <= a -> 0 <= b -> a + b = 8 -> 2 ^ a * 2 ^ b = 256.
Proof. intros Ha Hb Hab. rewrite <- Z.pow_add_r, Hab by lia. reflexivity. Qed.

Lemma byte_split a b s : 0 <= a -> 0 <= b -> a + b = 8 -> 0 <= s < 256 ->
  wrap_u8 (Z.shiftl s b) = (s mod 2 ^ a) * 2 ^ b /\ Z.shiftr s a = s / 2 ^ a
  /\ 0 <= s / 2 ^ a < 2 ^ b /\ s * 2 ^ b = 256 * (s / 2 ^ a) + (s mod 2 ^ a) * 2 ^ b.
Proof.
  intros Ha Hb Hab Hs. pose proof (pow2_pos a Ha) as HA. pose proof (pow2_pos b Hb) as HB.
  pose proof (pow2_cut a b Ha Hb Hab) as E.
  unfold wrap_u8. rewrite Z.shiftl_mul_pow2, Z.shiftr_div_pow2, <- E, Z.mul_mod_distr_r by lia.
  split; [reflexivity|]. split; [reflexivity|].
  split; [split; [apply Z.div_pos | apply Z.div_lt_upper_bound]; lia|].
  rewrite (Z.div_mod s (2 ^ a)) at 1 by lia. ring.
Qed.

Lemma byte_join a b t c : 0 <= a -> 0 <= b -> a + b = 8 -> 0 <= t < 2 ^ a -> 0 <= c < 2 ^ b ->
  Z.lor (t * 2 ^ b) c = t * 2 ^ b + c /\ 0 <= t * 2 ^ b + c < 256.
Proof.
  intros Ha Hb Hab Ht Hc. split; [apply lor_mul_pow2; assumption|].
  rewrite <- (pow2_cut a b) by assumption. nia.
Qed.

Lemma shl_aligned_list bytes q : (q <= length bytes)%nat ->
  shl_aligned bytes (Z.of_nat (length bytes)) (Z.of_nat q) = Val (skipn q bytes ++ repeat 0 q).
Proof.
  intros Hq. unfold shl_aligned.
  set (L := skipn q bytes ++ repeat 0 q).
  assert (HL : length L = length bytes).
  { unfold L. rewrite app_length, skipn_length, repeat_length. lia. }
  rewrite <- (map_id L). rewrite <- (map_zrange_nth L (fun b => b)). rewrite HL.
  apply omap_val. intros x Hx. apply zrange_In in Hx.
  destruct (Z.ltb_spec (x + Z.of_nat q) (Z.of_nat (length bytes))) as [Hlt|Hge].
  - destruct (nth_error bytes (Z.to_nat (x + Z.of_nat q))) as [b|] eqn:Eb;
      [|apply nth_error_None in Eb; lia].
    unfold L. rewrite nth_error_app1 by (rewrite skipn_length; lia).
    rewrite nth_error_skipn_add.
    replace (q + Z.to_nat x)%nat with (Z.to_nat (x + Z.of_nat q)) by lia. rewrite Eb. reflexivity.
  - unfold L. rewrite nth_error_app2 by (rewrite skipn_length; lia).
    rewrite nth_error_repeat by (rewrite skipn_length; lia). reflexivity.
Qed.

Lemma shl_aligned_ok bytes q : bytes_ok bytes -> (q <= length bytes)%nat ->
  shl_aligned bytes (Z.of_nat (length bytes)) (Z.of_nat q)
  = Val (be_bytes (length bytes) (be_val bytes * 256 ^ Z.of_nat q)).
Proof.
  intros Hok Hq. rewrite shl_aligned_list by exact Hq. f_equal.
  apply be_bytes_eq with (c := be_val (firstn q bytes)).
  - rewrite app_length, skipn_length, repeat_length. lia.
  - apply Forall_app. split; [apply Forall_skipn_keep; exact Hok | apply Forall_repeat_intro; lia].
  - rewrite be_val_app_repeat0, (be_val_firstn_skipn q bytes).
    replace (length bytes) with ((length bytes - q) + q)%nat at 2 by lia.
    rewrite pow256_add. ring.
Qed.

Lemma shr_aligned_ok bytes q : bytes_ok bytes -> (q <= length bytes)%nat ->
  shr_aligned bytes (Z.of_nat (length bytes)) (Z.of_nat q)
  = Val (be_bytes (length bytes) (be_val bytes / 256 ^ Z.of_nat q)).
Proof.
  intros Hok Hq. unfold shr_aligned.
  destruct (Z.ltb_spec (Z.of_nat (length bytes)) (Z.of_nat q)) as [Hlt|_]; [lia|].
  rewrite Nat2Z.id. replace (Z.to_nat (Z.of_nat (length bytes) - Z.of_nat q)) with (length bytes - q)%nat by lia.
  f_equal. apply be_bytes_eq with (c := 0).
  - rewrite app_length, repeat_length, firstn_length. lia.
  - apply Forall_app. split; [apply Forall_repeat_intro; lia | apply Forall_firstn_keep; exact Hok].
  - rewrite be_val_repeat0_app, be_val_firstn_div by assumption. lia.
Qed.

(* the loop body of shl_carry (Builtins.v), named so that its steps can be stated *)
Definition shl_f (bytes : list Z) (len byte_shift bit_shift : Z) (st : Z * list Z) (i : Z)
  : outcome (Z * list Z) :=
  let (carry, acc) := st in
  if i + byte_shift <? len
  then match nth_error bytes (Z.to_nat (i + byte_shift)) with
       | Some src => Val (Z.shiftr src (8 - bit_shift),
                          Z.lor (wrap_u8 (Z.shiftl src bit_shift)) carry :: acc)
       | None => Panic 5 end
  else Val (carry, 0 :: acc).

Lemma shl_carry_unfold bytes len q rr :
  shl_carry bytes len q rr =
  (st <- ofold (shl_f bytes len q rr) (rev (zrange len)) (0, []) ;; Val (snd st)).
Proof. reflexivity. Qed.

(* state after the indices n-1, ..., i have been processed *)
Definition shl_inv (bytes : list Z) (q : nat) (rr : Z) (i : nat) (carry : Z) (acc : list Z) : Prop :=
  length acc = (length bytes - i)%nat /\ bytes_ok acc /\ 0 <= carry < 2 ^ rr
  /\ ((length bytes <= i + q)%nat -> carry = 0)
  /\ carry * 256 ^ Z.of_nat (length bytes - i) + be_val acc
     = be_val (skipn (i + q) bytes) * 2 ^ rr * 256 ^ Z.of_nat q.

Lemma shl_step_arith s p h m carry A B X Y :
  s * p = 256 * h + m -> carry * (A * B) + X = Y * p * B ->
  h * (256 * (A * B)) + ((m + carry) * (A * B) + X) = (s * A + Y) * p * B.
Proof.
  intros H1 H2.
  replace (h * (256 * (A * B)) + ((m + carry) * (A * B) + X))
    with ((256 * h + m) * (A * B) + (carry * (A * B) + X)) by ring.
  rewrite <- H1, H2. ring.
Qed.

Lemma shl_step bytes q rr i carry acc :
  bytes_ok bytes -> 1 <= rr <= 7 -> (S i <= length bytes)%nat ->
  shl_inv bytes q rr (S i) carry acc ->
  exists carry' acc',
    shl_f bytes (Z.of_nat (length bytes)) (Z.of_nat q) rr (carry, acc) (Z.of_nat i) = Val (carry', acc')
    /\ shl_inv bytes q rr i carry' acc'.
Proof.
  intros Hok Hrr Hi (Hlen & Hacc & Hc & Hc0 & Heq).
  unfold shl_f.
  destruct (Z.ltb_spec (Z.of_nat i + Z.of_nat q) (Z.of_nat (length bytes))) as [Hlt|Hge].
  - destruct (nth_byte bytes (Z.of_nat i + Z.of_nat q) Hok ltac:(lia)) as [s [Es Hs]].
    rewrite Es. do 2 eexists. split; [reflexivity|].
    destruct (byte_split (8 - rr) rr s ltac:(lia) ltac:(lia) ltac:(lia) Hs) as (El & Eh & Hh & Esp).
    pose proof (Z.mod_pos_bound s (2 ^ (8 - rr)) (pow2_pos (8 - rr) ltac:(lia))) as Hm.
    destruct (byte_join (8 - rr) rr _ carry ltac:(lia) ltac:(lia) ltac:(lia) Hm Hc) as [Eb Hb].
    rewrite El, Eh, Eb.
    unfold shl_inv. split; [cbn [length]; lia|].
    split; [constructor; [exact Hb|exact Hacc]|].
    split; [exact Hh|]. split; [lia|].
    replace (Z.to_nat (Z.of_nat i + Z.of_nat q)) with (i + q)%nat in Es by lia.
    rewrite (skipn_nth_cons bytes (i + q) s Es).
    rewrite !be_val_cons, Hlen, skipn_length.
    change (S i + q)%nat with (S (i + q)) in Heq.
    replace (length bytes - i)%nat with (S (length bytes - S i)) by lia.
    rewrite pow256_S.
    replace (length bytes - S i)%nat with ((length bytes - S (i + q)) + q)%nat in Heq |- * by lia.
    rewrite pow256_add in Heq |- *.
    apply shl_step_arith; [exact Esp | exact Heq].
  - do 2 eexists. split; [reflexivity|].
    assert (E0 : carry = 0) by (apply Hc0; lia). subst carry.
    unfold shl_inv. split; [cbn [length]; lia|].
    split; [constructor; [lia|exact Hacc]|].
    split; [exact Hc|]. split; [reflexivity|].
    rewrite skipn_all2 in Heq |- * by lia.
    rewrite be_val_cons, be_val_nil in *. lia.
Qed.

Lemma shl_carry_ok bytes q rr : bytes_ok bytes -> (q <= length bytes)%nat -> 1 <= rr <= 7 ->
  shl_carry bytes (Z.of_nat (length bytes)) (Z.of_nat q) rr
  = Val (be_bytes (length bytes) (be_val bytes * (256 ^ Z.of_nat q * 2 ^ rr))).
Proof.
  intros Hok Hq Hrr.
  assert (Hinit : shl_inv bytes q rr (length bytes) 0 []).
  { unfold shl_inv. split; [cbn [length]; lia|]. split; [constructor|].
    pose proof (pow2_pos rr ltac:(lia)). split; [lia|]. split; [reflexivity|].
    rewrite skipn_all2 by lia. rewrite be_val_nil. lia. }
  destruct (ofold_rev_zrange_inv (shl_f bytes (Z.of_nat (length bytes)) (Z.of_nat q) rr)
              (fun i st => shl_inv bytes q rr i (fst st) (snd st)) (length bytes) (0, []) Hinit)
    as ([c res] & E & (Hlen & Hres & Hc & _ & Heq)).
  { intros i [carry acc] Hi Hinv.
    destruct (shl_step bytes q rr i carry acc Hok Hrr Hi Hinv) as (c1 & a1 & E1 & H1).
    exists (c1, a1). split; assumption. }
  cbn [fst snd] in *.
  rewrite shl_carry_unfold, E. cbn [obind snd]. f_equal.
  rewrite Nat.sub_0_r in Hlen, Heq. cbn [Nat.add] in Heq.
  apply be_bytes_eq with (c := be_val (firstn q bytes) * 2 ^ rr + c); [exact Hlen | exact Hres |].
  rewrite (be_val_firstn_skipn q bytes) at 1.
  replace (256 ^ Z.of_nat (length bytes)) with (256 ^ Z.of_nat (length bytes - q) * 256 ^ Z.of_nat q) in Heq |- *
    by (rewrite <- pow256_add; f_equal; lia).
  transitivity (be_val (firstn q bytes) * 2 ^ rr * (256 ^ Z.of_nat (length bytes - q) * 256 ^ Z.of_nat q)
                + be_val (skipn q bytes) * 2 ^ rr * 256 ^ Z.of_nat q); [ring|].
  rewrite <- Heq. ring.
Qed.

(* likewise the loop body of shr_carry *)
Definition shr_f (bytes : list Z) (byte_shift bit_shift : Z) (st : Z * list Z) (i : Z)
  : outcome (Z * list Z) :=
  let (carry, acc) := st in
  if byte_shift <=? i
  then match nth_error bytes (Z.to_nat (i - byte_shift)) with
       | Some src => Val (wrap_u8 (Z.shiftl src (8 - bit_shift)),
                          Z.lor (Z.shiftr src bit_shift) carry :: acc)
       | None => Panic 7 end
  else Val (carry, 0 :: acc).

Lemma shr_carry_unfold bytes len q rr :
  shr_carry bytes len q rr =
  (st <- ofold (shr_f bytes q rr) (zrange len) (0, []) ;; Val (rev (snd st))).
Proof. reflexivity. Qed.

(* state after the indices 0, ..., i-1 have been processed; acc is the reversed prefix *)
Definition shr_inv (bytes : list Z) (q : nat) (rr : Z) (i : nat) (carry : Z) (acc : list Z) : Prop :=
  length acc = i /\ bytes_ok acc
  /\ be_val (rev acc) = be_val (firstn (i - q) bytes) / 2 ^ rr
  /\ carry = (be_val (firstn (i - q) bytes) mod 2 ^ rr) * 2 ^ (8 - rr).

Lemma shr_step_arith P s a b : 0 < a -> a * b = 256 ->
  (P * 256 + s) / a = (P / a) * 256 + (P mod a) * b + s / a /\ (P * 256 + s) mod a = s mod a.
Proof.
  intros Ha Hab.
  replace (P * 256 + s) with (P * b * a + s) by (rewrite <- Hab; ring).
  split.
  - rewrite Z.div_add_l by lia. rewrite <- Hab.
    rewrite (Z.div_mod P a) at 1 by lia. ring.
  - rewrite Z.add_comm. apply Z_mod_plus_full.
Qed.

Lemma shr_step bytes q rr i carry acc :
  bytes_ok bytes -> 1 <= rr <= 7 -> (S i <= length bytes)%nat ->
  shr_inv bytes q rr i carry acc ->
  exists carry' acc',
    shr_f bytes (Z.of_nat q) rr (carry, acc) (Z.of_nat i) = Val (carry', acc')
    /\ shr_inv bytes q rr (S i) carry' acc'.
Proof.
  intros Hok Hrr Hi (Hlen & Hacc & Hv & Hc).
  pose proof (pow2_pos rr ltac:(lia)) as Hp.
  pose proof (pow2_cut rr (8 - rr) ltac:(lia) ltac:(lia) ltac:(lia)) as Hsplit.
  unfold shr_f.
  destruct (Z.leb_spec (Z.of_nat q) (Z.of_nat i)) as [Hle|Hgt].
  - destruct (nth_byte bytes (Z.of_nat i - Z.of_nat q) Hok ltac:(lia)) as [s [Es Hs]].
    rewrite Es. do 2 eexists. split; [reflexivity|].
    replace (Z.to_nat (Z.of_nat i - Z.of_nat q)) with (i - q)%nat in Es by lia.
    set (P := be_val (firstn (i - q) bytes)) in *.
    pose proof (Z.mod_pos_bound P (2 ^ rr) ltac:(lia)) as Ht.
    destruct (byte_split rr (8 - rr) s ltac:(lia) ltac:(lia) ltac:(lia) Hs) as (El & Eh & Hh & _).
    destruct (byte_join rr (8 - rr) _ _ ltac:(lia) ltac:(lia) ltac:(lia) Ht Hh) as [Eb Hb].
    rewrite <- Hc in Eb, Hb.
    rewrite El, Eh, Z.lor_comm, Eb.
    destruct (shr_step_arith P s (2 ^ rr) (2 ^ (8 - rr)) ltac:(lia) Hsplit) as [Hdiv Hmod].
    unfold shr_inv. split; [cbn [length]; lia|].
    split; [constructor; [exact Hb | exact Hacc]|].
    replace (S i - q)%nat with (S (i - q)) by lia.
    rewrite (firstn_S_nth bytes (i - q) s Es), be_val_snoc. fold P.
    cbn [rev]. rewrite be_val_snoc, Hv, Hdiv, Hmod, Hc. split; [ring | reflexivity].
  - do 2 eexists. split; [reflexivity|].
    replace (i - q)%nat with 0%nat in Hv, Hc by lia. cbn [firstn] in Hv, Hc.
    rewrite be_val_nil in Hv, Hc.
    rewrite Z.div_0_l in Hv by lia. rewrite Z.mod_0_l in Hc by lia.
    unfold shr_inv. split; [cbn [length]; lia|].
    split; [constructor; [lia | exact Hacc]|].
    replace (S i - q)%nat with 0%nat by lia. cbn [firstn rev].
    rewrite be_val_snoc, be_val_nil, Hv.
    rewrite Z.div_0_l by lia. rewrite Z.mod_0_l by lia. split; [reflexivity | exact Hc].
Qed.

Lemma shr_carry_ok bytes q rr : bytes_ok bytes -> (q <= length bytes)%nat -> 1 <= rr <= 7 ->
  shr_carry bytes (Z.of_nat (length bytes)) (Z.of_nat q) rr
  = Val (be_bytes (length bytes) (be_val bytes / (256 ^ Z.of_nat q * 2 ^ rr))).
Proof.
  intros Hok Hq Hrr. pose proof (pow2_pos rr ltac:(lia)) as Hp.
  destruct (ofold_zrange_inv (shr_f bytes (Z.of_nat q) rr)
              (fun i st => shr_inv bytes q rr i (fst st) (snd st)) (length bytes) (0, []))
    as ([c acc] & E & (Hlen & Hacc & Hv & _)).
  { unfold shr_inv. cbn [Nat.sub firstn rev length fst snd]. rewrite be_val_nil.
    rewrite Z.div_0_l, Z.mod_0_l by lia. repeat split. constructor. }
  { intros i [carry acc] Hi Hinv.
    destruct (shr_step bytes q rr i carry acc Hok Hrr Hi Hinv) as (c1 & a1 & E1 & H1).
    exists (c1, a1). split; assumption. }
  cbn [fst snd] in *.
  rewrite shr_carry_unfold, E. cbn [obind snd]. f_equal.
  apply be_bytes_eq with (c := 0); [rewrite rev_length; exact Hlen | apply Forall_rev; exact Hacc |].
  rewrite Hv, be_val_firstn_div by assumption.
  pose proof (pow256_pos q) as Hq256.
  rewrite Z.div_div by lia. lia.
Qed.

(* the number whose encoding spec_binary_shift returns *)
Definition shift_num (bytes : list Z) (k : Z) : Z :=
  if 0 <=? k then (be_val bytes * 2 ^ k) mod 256 ^ Z.of_nat (length bytes)
  else be_val bytes / 2 ^ (- k).

(* the statement repeats impl_binary_shift from `let len` on, for a non-zero i64 amount *)
Lemma shift_body bytes k :
  bytes_ok bytes -> Z.of_nat (length bytes) <= MAX_BINARY_SIZE -> k <> 0 -> - two63 <= k < two63 ->
  (let len := Z.of_nat (length bytes) in
   let shift_bits := Z.abs k in
   if negb (in_u64 (len * 8)) then Panic 3 else
   if len * 8 <=? shift_bits then alloc_bytes (repeat 0 (length bytes))
   else
     let sb := wrap_u32 shift_bits in
     let byte_shift := sb / 8 in
     let bit_shift := sb mod 8 in
     res <- (if 0 <? k
             then if bit_shift =? 0 then shl_aligned bytes len byte_shift
                  else shl_carry bytes len byte_shift bit_shift
             else if bit_shift =? 0 then shr_aligned bytes len byte_shift
                  else shr_carry bytes len byte_shift bit_shift) ;;
     alloc_bytes res)
  = Val (BBin (Owned (be_bytes (length bytes) (shift_num bytes k)))).
Proof.
  intros Hok Hn Hk0 Hk. cbv zeta.
  set (n := length bytes) in *.
  assert (Hmax : MAX_BINARY_SIZE = 16777216) by reflexivity.
  rewrite in_u64_true by (unfold two64; lia). cbn [negb].
  pose proof (be_val_bound bytes Hok) as HV. fold n in HV.
  pose proof (pow256_pos n) as Hpn.
  destruct (Z.leb_spec (Z.of_nat n * 8) (Z.abs k)) as [Hbig|Hsmall].
  - (* everything shifted out *)
    rewrite alloc_bytes_ok by (rewrite repeat_length; exact Hn).
    do 3 f_equal. rewrite <- be_bytes_0. unfold shift_num. fold n.
    destruct (Z.leb_spec 0 k) as [Hpos|Hneg].
    + f_equal. symmetry.
      replace k with (8 * Z.of_nat n + (k - 8 * Z.of_nat n)) by lia.
      rewrite Z.pow_add_r by lia. rewrite <- pow256_pow2.
      replace (be_val bytes * (256 ^ Z.of_nat n * 2 ^ (k - 8 * Z.of_nat n)))
        with (be_val bytes * 2 ^ (k - 8 * Z.of_nat n) * 256 ^ Z.of_nat n) by ring.
      apply Z_mod_mult.
    + f_equal. symmetry. apply Z.div_small. split; [lia|].
      apply Z.lt_le_trans with (256 ^ Z.of_nat n); [lia|].
      rewrite pow256_pow2. apply Z.pow_le_mono_r; lia.
  - (* the loops *)
    assert (Hw : wrap_u32 (Z.abs k) = Z.abs k).
    { unfold wrap_u32. apply Z.mod_small. lia. }
    rewrite Hw.
    set (k' := Z.abs k) in *.
    pose proof (Z.div_mod k' 8 ltac:(lia)) as Hdm.
    pose proof (Z.mod_pos_bound k' 8 ltac:(lia)) as Hrr.
    set (rr := k' mod 8) in *.
    assert (Hq : 0 <= k' / 8 < Z.of_nat n) by (split; [apply Z.div_pos; lia | apply Z.div_lt_upper_bound; lia]).
    rewrite <- (Z2Nat.id (k' / 8)) in Hdm |- * by lia.
    set (q := Z.to_nat (k' / 8)) in *.
    assert (Hqn : (q <= n)%nat) by lia.
    assert (Hpow : 2 ^ k' = 256 ^ Z.of_nat q * 2 ^ rr).
    { rewrite Hdm, Z.pow_add_r by lia. rewrite <- pow256_pow2. reflexivity. }
    assert (Halloc : forall v, alloc_bytes (be_bytes n v) = Val (BBin (Owned (be_bytes n v)))).
    { intros v. apply alloc_bytes_ok. rewrite be_bytes_length. exact Hn. }
    unfold shift_num. fold n.
    destruct (Z.ltb_spec 0 k) as [Hpos|Hneg].
    + destruct (Z.leb_spec 0 k) as [_|Hbad]; [|lia].
      replace k with k' by lia. rewrite <- be_bytes_mod, Hpow.
      destruct (Z.eqb_spec rr 0) as [Hr0|Hr0].
      * rewrite shl_aligned_ok, Hr0, Z.pow_0_r, Z.mul_1_r by assumption. apply Halloc.
      * rewrite shl_carry_ok by (assumption || lia). apply Halloc.
    + destruct (Z.leb_spec 0 k) as [Hbad|_]; [lia|].
      replace (- k) with k' by lia. rewrite Hpow.
      destruct (Z.eqb_spec rr 0) as [Hr0|Hr0].
      * rewrite shr_aligned_ok, Hr0, Z.pow_0_r, Z.mul_1_r by assumption. apply Halloc.
      * rewrite shr_carry_ok by (assumption || lia). apply Halloc.
Qed.

Lemma binary_shift_shaped r k : wf r ->
  flatten_out (impl_binary_shift (BTup [BBin r; BInt k]))
    = spec_binary_shift (flatten (BTup [BBin r; BInt k]))
  /\ wf_out (impl_binary_shift (BTup [BBin r; BInt k])).
Proof.
  intros Hwf.
  pose proof (bytes_of_ok r Hwf) as Hok.
  pose proof (proj2 (wf_blen r Hwf)) as Hn. unfold blen in Hn.
  cbn [flatten map]. unfold impl_binary_shift, spec_binary_shift, to_i64_checked.
  destruct (in_i64 k) eqn:Ei; cbn [obind].
  - unfold in_i64 in Ei. apply andb_prop in Ei. destruct Ei as [Ei1 Ei2].
    apply Z.leb_le in Ei1. apply Z.ltb_lt in Ei2.
    destruct (Z.eqb_spec k 0) as [Hk0|Hk0].
    + subst k. cbn [flatten_out flatten wf_out wf_bval]. split; [|exact Hwf].
      do 2 f_equal. change (0 <=? 0) with true. cbv iota.
      rewrite Z.pow_0_r, Z.mul_1_r, <- be_bytes_mod, be_bytes_be_val by exact Hok. reflexivity.
    + pose proof (shift_body (bytes_of r) k Hok Hn Hk0 (conj Ei1 Ei2)) as Hb.
      cbv zeta in Hb |- *. rewrite Hb.
      cbn [flatten_out flatten bytes_of wf_out wf_bval wf]. split; [reflexivity|].
      split; [apply be_bytes_ok | rewrite be_bytes_length; exact Hn].
  - cbn [flatten_out wf_out]. split; [reflexivity | exact I].
Qed.

Theorem binary_shift_correct : agrees impl_binary_shift spec_binary_shift.
Proof.
  intros a Ha. d_tup a fs. d_cons fs x. d_bin x r. d_cons fs y. d_int y k. d_nil fs.
  apply binary_shift_shaped, Ha.
Qed.

Example binary_shift_example :
  flatten_out (impl_binary_shift (BTup [BBin (Concat (Owned [1;2]) (Owned [3]) 3); BInt 4])) = Val (FBin [16;32;48]) /\
  flatten_out (impl_binary_shift (BTup [BBin (Owned [1;2;3]); BInt (-12)])) = Val (FBin [0;0;16]).
Proof. split; vm_compute; reflexivity. Qed.
