(* HamtBits.v — dict.qv's list helpers as list functions, and the arithmetic behind its bitmap
   indexing (proof file of C19):
   fragments are base-32 digits, `slot_index` counts the set bits below a slot, and setting /
   clearing a bit inserts / removes one element of the sorted slot list. *)
From Coq Require Import List ZArith Bool Lia.
From Quiver Require Import Hamt.
Import ListNotations.
Open Scope Z_scope.

Lemma revcat_spec {A} (acc rest : list A) : revcat acc rest = rev acc ++ rest.
Proof.
  revert rest. induction acc as [|a acc IH]; intros rest; cbn [revcat rev]; [reflexivity|].
  rewrite IH, <- app_assoc. reflexivity.
Qed.

Lemma length_acc_spec {A} (l : list A) n : length_acc l n = n + Z.of_nat (length l).
Proof.
  revert n. induction l as [|a l IH]; intros n; cbn [length_acc length]; [lia|].
  rewrite IH. lia.
Qed.

Lemma map_acc_spec {A B} (l : list A) (f : A -> B) acc : map_acc l f acc = rev acc ++ map f l.
Proof.
  revert acc. induction l as [|a l IH]; intros acc; cbn [map_acc map].
  - apply revcat_spec.
  - rewrite IH. cbn [rev]. rewrite <- app_assoc. reflexivity.
Qed.

Lemma of_nat_S_pred n : Z.of_nat (S n) - 1 = Z.of_nat n.
Proof. lia. Qed.

Lemma of_nat_S_eqb n : (Z.of_nat (S n) =? 0) = false.
Proof. apply Z.eqb_neq. lia. Qed.

Lemma child_at_app {key val} (l1 l2 : list (dict key val)) c :
  child_at key val (l1 ++ c :: l2) (Z.of_nat (length l1)) = c.
Proof.
  induction l1 as [|a l1 IH]; cbn [app length child_at]; [reflexivity|].
  rewrite of_nat_S_eqb, of_nat_S_pred. exact IH.
Qed.

Lemma insert_at_app {A} (l1 l2 : list A) x acc :
  insert_at (l1 ++ l2) (Z.of_nat (length l1)) x acc = rev acc ++ l1 ++ x :: l2.
Proof.
  revert acc. induction l1 as [|a l1 IH]; intros acc; cbn [app length].
  - destruct l2; apply revcat_spec.
  - cbn [insert_at]. rewrite of_nat_S_eqb, of_nat_S_pred, IH.
    cbn [rev]. rewrite <- app_assoc. reflexivity.
Qed.

Lemma update_at_app {A} (l1 l2 : list A) y x acc :
  update_at (l1 ++ y :: l2) (Z.of_nat (length l1)) x acc = rev acc ++ l1 ++ x :: l2.
Proof.
  revert acc. induction l1 as [|a l1 IH]; intros acc; cbn [app length update_at].
  - apply revcat_spec.
  - rewrite of_nat_S_eqb, of_nat_S_pred, IH. cbn [rev]. rewrite <- app_assoc. reflexivity.
Qed.

Lemma remove_at_app {A} (l1 l2 : list A) y acc :
  remove_at (l1 ++ y :: l2) (Z.of_nat (length l1)) acc = rev acc ++ l1 ++ l2.
Proof.
  revert acc. induction l1 as [|a l1 IH]; intros acc; cbn [app length remove_at].
  - apply revcat_spec.
  - rewrite of_nat_S_eqb, of_nat_S_pred, IH. cbn [rev]. rewrite <- app_assoc. reflexivity.
Qed.

Lemma wrap_i64_small z : - 2 ^ 63 <= z < 2 ^ 63 -> wrap_i64 z = z.
Proof. intros H. unfold wrap_i64. rewrite Z.mod_small by lia. lia. Qed.

(* bit = [1, f] %int.shift *)
Lemma int_shift_1 f : 0 <= f < 63 -> int_shift 1 f = 2 ^ f.
Proof.
  intros H. unfold int_shift.
  destruct (Z.eqb_spec f 0) as [->|E0]; [reflexivity|].
  destruct (Z.ltb_spec 0 f); [|lia].
  rewrite Z.shiftl_1_l. apply wrap_i64_small.
  assert (0 < 2 ^ f < 2 ^ 63) by (split; [apply Z.pow_pos_nonneg | apply Z.pow_lt_mono_r]; lia).
  lia.
Qed.

Lemma fragment_spec h s : 0 <= s -> fragment h s = (h / 2 ^ s) mod 32.
Proof.
  intros Hs. unfold fragment, int_and, int_shift.
  change 31 with (Z.ones 5). rewrite Z.land_ones by lia.
  destruct (Z.eqb_spec (0 - s) 0) as [E|E].
  - replace s with 0 by lia. now rewrite Z.div_1_r.
  - destruct (Z.ltb_spec 0 (0 - s)); [lia|].
    rewrite Z.shiftr_div_pow2 by lia. now replace (- (0 - s)) with s by lia.
Qed.

Lemma fragment_range h s : 0 <= s -> 0 <= fragment h s < 32.
Proof. intros Hs. rewrite fragment_spec by assumption. apply Z.mod_pos_bound. lia. Qed.

(* frag h lvl: the fragment at level lvl (shift 5*lvl) as a nat *)
Definition frag (h : Z) (lvl : nat) : nat := Z.to_nat (fragment h (5 * Z.of_nat lvl)).

Lemma frag_lt h lvl : (frag h lvl < 32)%nat.
Proof. unfold frag. pose proof (fragment_range h (5 * Z.of_nat lvl) ltac:(lia)). lia. Qed.

Lemma frag_of_nat h lvl : Z.of_nat (frag h lvl) = fragment h (5 * Z.of_nat lvl).
Proof. unfold frag. pose proof (fragment_range h (5 * Z.of_nat lvl) ltac:(lia)). lia. Qed.

Lemma shift_succ lvl : 5 * Z.of_nat lvl + 5 = 5 * Z.of_nat (S lvl).
Proof. lia. Qed.

Lemma bit_of_frag h lvl : int_shift 1 (fragment h (5 * Z.of_nat lvl)) = 2 ^ Z.of_nat (frag h lvl).
Proof. rewrite <- frag_of_nat. apply int_shift_1. pose proof (frag_lt h lvl). lia. Qed.

Lemma frag_digit h lvl : Z.of_nat (frag h lvl) = (h / 32 ^ Z.of_nat lvl) mod 32.
Proof.
  rewrite frag_of_nat, fragment_spec by lia.
  rewrite Z.pow_mul_r by lia. reflexivity.
Qed.

Lemma digits_mod n a b :
  (forall j, (j < n)%nat -> (a / 32 ^ Z.of_nat j) mod 32 = (b / 32 ^ Z.of_nat j) mod 32) ->
  a mod 32 ^ Z.of_nat n = b mod 32 ^ Z.of_nat n.
Proof.
  induction n as [|n IH]; intros Hd; [now rewrite !Z.mod_1_r|].
  assert (0 < 32 ^ Z.of_nat n) by (apply Z.pow_pos_nonneg; lia).
  rewrite Nat2Z.inj_succ, Z.pow_succ_r, (Z.mul_comm 32), !Z.rem_mul_r by lia.
  rewrite IH, (Hd n) by auto. reflexivity.
Qed.

(* two 32-bit hashes that agree on all 7 fragments are equal: the trie has depth <= 7 *)
Lemma frag_inj h1 h2 : 0 <= h1 < 2 ^ 32 -> 0 <= h2 < 2 ^ 32 ->
  (forall j, (j < 7)%nat -> frag h1 j = frag h2 j) -> h1 = h2.
Proof.
  intros H1 H2 Hf.
  rewrite <- (Z.mod_small h1 (32 ^ Z.of_nat 7)), <- (Z.mod_small h2 (32 ^ Z.of_nat 7)) by lia.
  apply digits_mod. intros j Hj. rewrite <- !frag_digit, (Hf j Hj). reflexivity.
Qed.

Definition tb (bm : Z) (i : nat) : bool := Z.testbit bm (Z.of_nat i).
Definition slots_range (bm : Z) (a n : nat) : list nat := filter (tb bm) (seq a n).
(* the occupied slots of a bitmap, ascending: the children of a Node are stored in this order *)
Definition slots (bm : Z) : list nat := slots_range bm 0 32.

Lemma popcount_step z : 0 <= z -> popcount z = Z.b2z (Z.odd z) + popcount (Z.div2 z).
Proof.
  intros Hz. destruct z as [|p|p]; [reflexivity| |lia].
  destruct p as [p|p|]; cbn [popcount Z.odd Z.div2 Pos.div2 Z.b2z pop_pos]; lia.
Qed.

Lemma filter_map_S (P : nat -> bool) l :
  length (filter P (map S l)) = length (filter (fun i => P (S i)) l).
Proof.
  induction l as [|a l IH]; cbn [map filter]; [reflexivity|].
  destruct (P (S a)); cbn [length]; rewrite IH; reflexivity.
Qed.

Lemma popcount_bits n : forall z, 0 <= z < 2 ^ Z.of_nat n ->
  popcount z = Z.of_nat (length (slots_range z 0 n)).
Proof.
  induction n as [|n IH]; intros z Hz.
  - change (2 ^ Z.of_nat 0) with 1 in Hz. replace z with 0 by lia. reflexivity.
  - rewrite Nat2Z.inj_succ, Z.pow_succ_r in Hz by lia.
    assert (Hd : 0 <= Z.div2 z < 2 ^ Z.of_nat n).
    { rewrite Z.div2_div. split; [apply Z.div_pos | apply Z.div_lt_upper_bound]; lia. }
    rewrite popcount_step, (IH _ Hd) by lia.
    unfold slots_range. cbn [seq filter]. rewrite <- seq_shift.
    replace (tb z 0) with (Z.odd z) by (symmetry; apply Z.bit0_odd).
    (* bit 0 of z is its parity, bit i+1 is bit i of z/2 *)
    assert (E : length (filter (tb z) (map S (seq 0 n))) = length (filter (tb (Z.div2 z)) (seq 0 n))).
    { rewrite filter_map_S. f_equal. apply filter_ext. intros i. unfold tb.
      rewrite Z.div2_div, Z.div2_bits, Nat2Z.inj_succ by lia. reflexivity. }
    destruct (Z.odd z); cbn [length Z.b2z]; rewrite E; lia.
Qed.

Lemma popcount_slots bm : 0 <= bm < 2 ^ 32 -> popcount bm = Z.of_nat (length (slots bm)).
Proof. apply (popcount_bits 32). Qed.

(* idx = [bitmap, bit] slot_index = number of occupied slots below f *)
Lemma slot_index_spec bm (f : nat) :
  slot_index bm (2 ^ Z.of_nat f) = Z.of_nat (length (slots_range bm 0 f)).
Proof.
  unfold slot_index, int_and.
  replace (2 ^ Z.of_nat f - 1) with (Z.ones (Z.of_nat f)) by (rewrite Z.ones_equiv; lia).
  rewrite Z.land_ones by lia.
  rewrite (popcount_bits f) by (apply Z.mod_pos_bound, Z.pow_pos_nonneg; lia).
  f_equal. f_equal. unfold slots_range. apply filter_ext_in.
  intros i Hi. apply in_seq in Hi. unfold tb. apply Z.mod_pow2_bits_low. lia.
Qed.

Lemma tb_pow2 (f i : nat) : tb (2 ^ Z.of_nat f) i = Nat.eqb f i.
Proof.
  unfold tb. rewrite Z.pow2_bits_eqb by lia.
  destruct (Nat.eqb_spec f i) as [->|Hne]; [apply Z.eqb_refl | apply Z.eqb_neq; lia].
Qed.

Lemma land_pow2 bm f : 0 <= f -> Z.land bm (2 ^ f) = if Z.testbit bm f then 2 ^ f else 0.
Proof.
  intros Hf. apply Z.bits_inj'. intros i Hi. rewrite Z.land_spec, Z.pow2_bits_eqb by lia.
  destruct (Z.eqb_spec f i) as [->|Hne].
  - rewrite andb_true_r. destruct (Z.testbit bm i); [now rewrite Z.pow2_bits_true|now rewrite Z.bits_0].
  - rewrite andb_false_r. destruct (Z.testbit bm f); [now rewrite Z.pow2_bits_false|now rewrite Z.bits_0].
Qed.

(* the test `[bitmap, bit] %int.and =0` *)
Lemma bit_test bm (f : nat) : (int_and bm (2 ^ Z.of_nat f) =? 0) = negb (tb bm f).
Proof.
  unfold int_and, tb. rewrite land_pow2 by lia.
  destruct (Z.testbit bm (Z.of_nat f)); cbn [negb]; [|reflexivity].
  apply Z.eqb_neq. pose proof (Z.pow_pos_nonneg 2 (Z.of_nat f)). lia.
Qed.

Lemma tb_set bm (f i : nat) : tb (int_or bm (2 ^ Z.of_nat f)) i = tb bm i || Nat.eqb f i.
Proof. rewrite <- tb_pow2. apply Z.lor_spec. Qed.

Lemma tb_clear bm (f i : nat) : tb (int_and bm (int_not (2 ^ Z.of_nat f))) i = tb bm i && negb (Nat.eqb f i).
Proof. rewrite <- tb_pow2. unfold tb, int_and, int_not. rewrite Z.land_spec, Z.lnot_spec by lia. reflexivity. Qed.

(* range stated through shiftr because shifts commute with lor / land *)
Lemma range_shiftr z n : 0 <= n -> 0 <= z < 2 ^ n <-> Z.shiftr z n = 0.
Proof.
  intros Hn. pose proof (Z.pow_pos_nonneg 2 n). rewrite Z.shiftr_div_pow2, Z.div_small_iff by lia. lia.
Qed.

Lemma set_range bm p : 0 <= bm < 2 ^ 32 -> 0 <= p < 2 ^ 32 -> 0 <= int_or bm p < 2 ^ 32.
Proof.
  rewrite !range_shiftr by lia. intros Hbm Hp. unfold int_or. rewrite Z.shiftr_lor, Hbm, Hp. reflexivity.
Qed.

Lemma clear_range bm q : 0 <= bm < 2 ^ 32 -> 0 <= int_and bm q < 2 ^ 32.
Proof.
  rewrite !range_shiftr by lia. intros Hbm. unfold int_and. rewrite Z.shiftr_land, Hbm. reflexivity.
Qed.

Lemma pow2_range (f : nat) : (f < 32)%nat -> 0 <= 2 ^ Z.of_nat f < 2 ^ 32.
Proof.
  intros Hf. split; [apply Z.pow_nonneg; lia | apply Z.pow_lt_mono_r; lia].
Qed.

Lemma slots_range_app bm a n m : slots_range bm a (n + m) = slots_range bm a n ++ slots_range bm (a + n) m.
Proof. unfold slots_range. rewrite seq_app, filter_app. reflexivity. Qed.

Lemma slots_range_ext bm bm' a n : (forall i, (a <= i < a + n)%nat -> tb bm' i = tb bm i) ->
  slots_range bm' a n = slots_range bm a n.
Proof.
  intros H. unfold slots_range. apply filter_ext_in. intros i Hi. apply in_seq in Hi. apply H. lia.
Qed.

Lemma slots_range_In bm a n i : In i (slots_range bm a n) <-> (a <= i < a + n)%nat /\ tb bm i = true.
Proof. unfold slots_range. rewrite filter_In, in_seq. reflexivity. Qed.

(* the slot list split around slot f: slots 0 .. f-1 and f+1 .. 31 *)
Definition slots_below bm (f : nat) := slots_range bm 0 f.
Definition slots_above bm (f : nat) := slots_range bm (S f) (31 - f).

Lemma slots_split bm f : (f < 32)%nat ->
  slots bm = slots_below bm f ++ (if tb bm f then [f] else []) ++ slots_above bm f.
Proof.
  intros Hf. unfold slots, slots_below, slots_above.
  replace 32%nat with (f + (1 + (31 - f)))%nat by lia.
  rewrite (slots_range_app bm 0 f), (slots_range_app bm (0 + f) 1), Nat.add_1_r. reflexivity.
Qed.

Lemma slots_below_lt bm f i : In i (slots_below bm f) -> (i < f)%nat.
Proof. intros H. apply slots_range_In in H. lia. Qed.

Lemma slots_above_gt bm f i : In i (slots_above bm f) -> (f < i)%nat.
Proof. intros H. apply slots_range_In in H. lia. Qed.

Lemma slots_sides_ext bm bm' f : (forall i, i <> f -> tb bm' i = tb bm i) ->
  slots_below bm' f = slots_below bm f /\ slots_above bm' f = slots_above bm f.
Proof. intros H. split; apply slots_range_ext; intros i Hi; apply H; lia. Qed.

Lemma slots_set bm f : (f < 32)%nat ->
  slots (int_or bm (2 ^ Z.of_nat f)) = slots_below bm f ++ [f] ++ slots_above bm f.
Proof.
  intros Hf. rewrite (slots_split _ f Hf), tb_set, Nat.eqb_refl, orb_true_r.
  destruct (slots_sides_ext bm (int_or bm (2 ^ Z.of_nat f)) f) as [-> ->]; [|reflexivity].
  intros i Hi. rewrite tb_set. apply Nat.eqb_neq in Hi. rewrite Nat.eqb_sym, Hi. apply orb_false_r.
Qed.

Lemma slots_clear bm f : (f < 32)%nat ->
  slots (int_and bm (int_not (2 ^ Z.of_nat f))) = slots_below bm f ++ slots_above bm f.
Proof.
  intros Hf. rewrite (slots_split _ f Hf), tb_clear, Nat.eqb_refl, andb_false_r.
  destruct (slots_sides_ext bm (int_and bm (int_not (2 ^ Z.of_nat f))) f) as [-> ->]; [|reflexivity].
  intros i Hi. rewrite tb_clear. apply Nat.eqb_neq in Hi. rewrite Nat.eqb_sym, Hi. apply andb_true_r.
Qed.

Lemma slots_NoDup bm : NoDup (slots bm).
Proof. unfold slots, slots_range. apply NoDup_filter, seq_NoDup. Qed.

Lemma slots_In bm i : In i (slots bm) <-> (i < 32)%nat /\ tb bm i = true.
Proof. unfold slots. rewrite slots_range_In. intuition lia. Qed.

Lemma slots_0 : slots 0 = [].
Proof. reflexivity. Qed.

Lemma slots_range_pow2_out f a n : (f < a \/ a + n <= f)%nat -> slots_range (2 ^ Z.of_nat f) a n = [].
Proof.
  intros Hf. destruct (slots_range _ a n) as [|i l] eqn:E; [reflexivity|].
  assert (Hi : In i (slots_range (2 ^ Z.of_nat f) a n)) by (rewrite E; now left).
  apply slots_range_In in Hi. rewrite tb_pow2 in Hi. destruct Hi as [Hi Ei]. apply Nat.eqb_eq in Ei. lia.
Qed.

Lemma slots_range_pow2_in f a n : (a <= f < a + n)%nat -> slots_range (2 ^ Z.of_nat f) a n = [f].
Proof.
  intros H. replace n with ((f - a) + (1 + (a + n - S f)))%nat by lia.
  rewrite !slots_range_app.
  rewrite (slots_range_pow2_out f a), (slots_range_pow2_out f (a + (f - a) + 1)) by lia.
  replace (a + (f - a))%nat with f by lia.
  unfold slots_range. cbn [seq filter]. now rewrite tb_pow2, Nat.eqb_refl.
Qed.

Lemma slots_pow2 f : (f < 32)%nat -> slots (2 ^ Z.of_nat f) = [f].
Proof. intros Hf. apply slots_range_pow2_in. lia. Qed.

Lemma slots_pow2_pair f1 f2 : (f1 < f2)%nat -> (f2 < 32)%nat ->
  slots (int_or (2 ^ Z.of_nat f1) (2 ^ Z.of_nat f2)) = [f1; f2].
Proof.
  intros H12 H2. rewrite (slots_set _ f2 H2). unfold slots_below, slots_above.
  rewrite slots_range_pow2_in, slots_range_pow2_out by lia. reflexivity.
Qed.
