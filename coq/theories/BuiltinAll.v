(* BuiltinAll.v — the per-builtin theorems collected: every modelled binary_*/vector_* builtin agrees
   with its reference spec; consequences: shape independence and panic-freedom for all of them. *)
From Quiver Require Import BuiltinWf BinaryProofs BinaryShiftProofs BinaryBitsProofs VectorProofs.

(* (implementation model, reference spec) of every binary_* and vector_* builtin *)
Definition rope_builtins : list ((bval -> outcome bval) * (fval -> outcome fval)) :=
  [ (impl_binary_new, spec_binary_new); (impl_binary_length, spec_binary_length);
    (impl_binary_concat, spec_binary_concat); (impl_binary_repeat, spec_binary_repeat);
    (impl_binary_and, spec_binary_and); (impl_binary_or, spec_binary_or); (impl_binary_xor, spec_binary_xor);
    (impl_binary_not, spec_binary_not); (impl_binary_shift, spec_binary_shift);
    (impl_binary_popcount, spec_binary_popcount); (impl_binary_get, spec_binary_get);
    (impl_binary_set, spec_binary_set); (impl_binary_slice, spec_binary_slice);
    (impl_binary_index, spec_binary_index); (impl_binary_hash32, spec_binary_hash32);
    (impl_binary_hash64, spec_binary_hash64); (impl_binary_append, spec_binary_append);
    (impl_vector_add, spec_vector_add); (impl_vector_subtract, spec_vector_subtract);
    (impl_vector_multiply, spec_vector_multiply); (impl_vector_less_than, spec_vector_less_than);
    (impl_vector_equal, spec_vector_equal); (impl_vector_greater_than, spec_vector_greater_than);
    (impl_vector_dot, spec_vector_dot); (impl_vector_take, spec_vector_take); (impl_vector_get, spec_vector_get);
    (impl_vector_push, spec_vector_push); (impl_vector_sum, spec_vector_sum) ].

Theorem rope_builtins_agree : Forall (fun p => agrees (fst p) (snd p)) rope_builtins.
Proof.
  (* one theorem per entry, in the order of the list *)
  unfold rope_builtins. repeat apply Forall_cons;
    [ exact binary_new_correct | exact binary_length_correct | exact binary_concat_correct |
      exact binary_repeat_correct | exact binary_and_correct | exact binary_or_correct |
      exact binary_xor_correct | exact binary_not_correct | exact binary_shift_correct |
      exact binary_popcount_correct | exact binary_get_correct | exact binary_set_correct |
      exact binary_slice_correct | exact binary_index_correct | exact binary_hash32_correct |
      exact binary_hash64_correct | exact binary_append_correct | exact vector_add_correct |
      exact vector_subtract_correct | exact vector_multiply_correct |
      exact vector_less_than_correct | exact vector_equal_correct |
      exact vector_greater_than_correct | exact vector_dot_correct | exact vector_take_correct |
      exact vector_get_correct | exact vector_push_correct | exact vector_sum_correct |
      apply Forall_nil ].
Qed.

(* results do not depend on how an argument binary was built: equal flattened arguments (equal
   bytes, any rope shapes) give equal flattened outcomes *)
Theorem rope_builtins_shape_independent :
  Forall (fun p : (bval -> outcome bval) * (fval -> outcome fval) =>
            forall a1 a2, wf_bval a1 -> wf_bval a2 -> flatten a1 = flatten a2 ->
                          flatten_out (fst p a1) = flatten_out (fst p a2)) rope_builtins.
Proof.
  eapply Forall_impl; [|exact rope_builtins_agree].
  intros p Hp. exact (agrees_shape_independent _ _ Hp).
Qed.

(* no builtin panics on an argument whose binaries are well-formed, and the invariant is inductive *)
Theorem rope_builtins_total :
  Forall (fun p : (bval -> outcome bval) * (fval -> outcome fval) =>
            forall a, wf_bval a -> wf_out (fst p a)) rope_builtins.
Proof.
  eapply Forall_impl; [|exact rope_builtins_agree].
  intros p Hp a Ha. exact (proj2 (Hp a Ha)).
Qed.

(* non-vacuity of the shape-independence statement: two different shapes of the same 4 bytes *)
Example shape_pair :
  let a1 := BTup [BBin (Owned [0;0;7;7]); BInt 4] in
  let a2 := BTup [BBin (Concat (Zeroed 2) (Tiled (Owned [7]) 2) 4); BInt 4] in
  wf_bval a1 /\ wf_bval a2 /\ flatten a1 = flatten a2 /\ a1 <> a2.
Proof.
  cbn zeta. split; [|split; [|split]].
  - cbn [wf_bval wf rlen length]. unfold bytes_ok, MAX_BINARY_SIZE. repeat split; try lia; repeat constructor; lia.
  - cbn [wf_bval wf rlen length]. unfold bytes_ok, MAX_BINARY_SIZE. repeat split; try lia; repeat constructor; lia.
  - reflexivity.
  - discriminate.
Qed.
