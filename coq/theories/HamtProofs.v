(* HamtProofs.v — the dict model (Hamt.v, after std/dict.qv) refines a finite map, for EVERY hash
   function with range [0, 2^32) and every key type with a decidable equality.
   Abstraction: `bindings d` (the [key, value] pairs physically stored in the tree, in storage
   order) read as an association list: abs d k = assoc (bindings d) k.
   Invariant: `Inv d` (see `inv`). *)
From Coq Require Import List ZArith Bool Lia Permutation.
From Quiver Require Import Hamt HamtBits.
Import ListNotations.
Open Scope Z_scope.

Section Proofs.
Variable key : Type.
Variable val : Type.
Variable key_eqb : key -> key -> bool.
Variable hash : key -> Z.
Hypothesis key_eqb_spec : forall a b, key_eqb a b = true <-> a = b.
Hypothesis hash_range : forall k, 0 <= hash k < 2 ^ 32.

Notation dict := (Hamt.dict key val).
Notation entry := (key * val)%type.
Notation bget := (bucket_get key val key_eqb).
Notation bput := (bucket_put key val key_eqb).
Notation bremove := (bucket_remove key val key_eqb).

Lemma key_eqbP a b : reflect (a = b) (key_eqb a b).
Proof. apply iff_reflect. symmetry. apply key_eqb_spec. Qed.

Lemma key_eqb_refl k : key_eqb k k = true.
Proof. apply key_eqb_spec. reflexivity. Qed.

Lemma key_eqb_false a b : key_eqb a b = false <-> a <> b.
Proof. destruct (key_eqbP a b); split; congruence. Qed.

Lemma key_eq_dec (a b : key) : {a = b} + {a <> b}.
Proof.
  destruct (key_eqb a b) eqn:E; [left; now apply key_eqb_spec | right; now apply key_eqb_false].
Qed.

Lemma option_ext {A} (a b : option A) : (forall w, a = Some w <-> b = Some w) -> a = b.
Proof.
  intros H. destruct a as [x|]; [symmetry; now apply H|].
  destruct b as [y|]; [now apply H|reflexivity].
Qed.

Lemma Forall2_len {A B} (R : A -> B -> Prop) l l' : Forall2 R l l' -> length l = length l'.
Proof. induction 1; cbn [length]; congruence. Qed.

Lemma NoDup_app_intro {A} (l1 l2 : list A) :
  NoDup l1 -> NoDup l2 -> (forall x, In x l1 -> ~ In x l2) -> NoDup (l1 ++ l2).
Proof.
  induction l1 as [|a l1 IH]; intros H1 H2 Hd; cbn [app]; [assumption|].
  inversion_clear H1 as [|? ? Hnotin H1']. constructor.
  - rewrite in_app_iff. intros [Hin|Hin]; [contradiction|]. apply (Hd a); [now left|assumption].
  - apply IH; [assumption|assumption|]. intros x Hx. apply Hd. now right.
Qed.

(* assoc l k is dict.qv's own bucket_get: the first pair of l with key k *)
Definition assoc (l : list entry) (k : key) : option val := bget l k.

Definition absent (k : key) (l : list entry) : Prop := forall e, In e l -> fst e <> k.

Lemma notin_absent k l : ~ In k (map fst l) -> absent k l.
Proof. intros H e He <-. apply H, in_map, He. Qed.

Lemma absent_app k l1 l2 : absent k l1 -> absent k l2 -> absent k (l1 ++ l2).
Proof. intros H1 H2 e [He|He]%in_app_iff; auto. Qed.

Lemma assoc_app l1 l2 k :
  assoc (l1 ++ l2) k = match assoc l1 k with Some v => Some v | None => assoc l2 k end.
Proof.
  unfold assoc. induction l1 as [|[k' v'] t IH]; cbn [app bucket_get]; [reflexivity|].
  destruct (key_eqb k' k); [reflexivity|exact IH].
Qed.

Lemma assoc_none l k : absent k l -> assoc l k = None.
Proof.
  unfold assoc. induction l as [|[k' v'] t IH]; intros H; cbn [bucket_get]; [reflexivity|].
  destruct (key_eqbP k' k) as [E|_]; [exfalso; apply (H (k', v')); [now left|exact E]|].
  apply IH. intros e He. apply H. now right.
Qed.

Lemma assoc_in l k v : NoDup (map fst l) -> (assoc l k = Some v <-> In (k, v) l).
Proof.
  unfold assoc. induction l as [|[k' v'] t IH]; cbn [bucket_get In map fst]; intros Hnd.
  - split; [discriminate|tauto].
  - inversion_clear Hnd as [|? ? Hnotin Hnd']. apply notin_absent in Hnotin.
    destruct (key_eqbP k' k) as [->|Hne]; [|rewrite (IH Hnd'); intuition congruence].
    split; [intros [= ->]; now left|]. intros [[= ->]|H]; [reflexivity|now apply Hnotin in H].
Qed.

Definition upd (m : key -> option val) (k : key) (v : val) : key -> option val :=
  fun k' => if key_eqb k' k then Some v else m k'.
Definition del (m : key -> option val) (k : key) : key -> option val :=
  fun k' => if key_eqb k' k then None else m k'.

(* Stated on lists of pairs, so that a bucket, a subtree, and a node (whose list is the
   concatenation of its children's) have the same postcondition. *)
Definition put_post (l : list entry) (k : key) (v : val) (l' : list entry) : Prop :=
  forall e, In e l' <-> e = (k, v) \/ (In e l /\ fst e <> k).

Definition remove_post (l : list entry) (k : key) (l' : list entry) : Prop :=
  forall e, In e l' <-> In e l /\ fst e <> k.

Lemma put_post_nil k v : put_post [] k v [(k, v)].
Proof. intros e. cbn [In]. intuition. Qed.

Lemma put_post_app llo lhi l l' k v : absent k llo -> absent k lhi -> put_post l k v l' ->
  put_post (llo ++ l ++ lhi) k v (llo ++ l' ++ lhi).
Proof. intros Hlo Hhi Hpost e. rewrite !in_app_iff, (Hpost e). generalize (Hlo e) (Hhi e). tauto. Qed.

Lemma remove_post_app llo lhi l l' k : absent k llo -> absent k lhi -> remove_post l k l' ->
  remove_post (llo ++ l ++ lhi) k (llo ++ l' ++ lhi).
Proof. intros Hlo Hhi Hpost e. rewrite !in_app_iff, (Hpost e). generalize (Hlo e) (Hhi e). tauto. Qed.

(* with distinct keys the set of pairs determines the map *)
Lemma assoc_put_law l l' k v : NoDup (map fst l) -> NoDup (map fst l') -> put_post l k v l' ->
  forall k', assoc l' k' = upd (assoc l) k v k'.
Proof.
  intros Hl Hl' Hiff k'. apply option_ext. intros w.
  rewrite (assoc_in _ _ _ Hl'), (Hiff (k', w)). unfold upd. cbn [fst].
  destruct (key_eqbP k' k) as [->|Hne]; [|rewrite (assoc_in _ _ _ Hl); intuition congruence].
  split; [intros [[= ->]|[_ H]]; [reflexivity|now contradiction H] | intros [= ->]; now left].
Qed.

Lemma assoc_remove_law l l' k : NoDup (map fst l) -> NoDup (map fst l') -> remove_post l k l' ->
  forall k', assoc l' k' = del (assoc l) k k'.
Proof.
  intros Hl Hl' Hiff k'. apply option_ext. intros w.
  rewrite (assoc_in _ _ _ Hl'), (Hiff (k', w)). unfold del. cbn [fst].
  destruct (key_eqbP k' k) as [->|Hne]; [|rewrite (assoc_in _ _ _ Hl)]; intuition congruence.
Qed.

Fixpoint bset (es : list entry) (k : key) (v : val) : list entry :=
  match es with
  | [] => [(k, v)]
  | (k', v') :: t => if key_eqb k' k then (k, v) :: t else (k', v') :: bset t k v
  end.

Fixpoint bdel (es : list entry) (k : key) : list entry :=
  match es with
  | [] => []
  | (k', v') :: t => if key_eqb k' k then t else (k', v') :: bdel t k
  end.

Lemma bucket_put_spec es k v acc : bput es k v acc = rev acc ++ bset es k v.
Proof.
  revert acc. induction es as [|[k' v'] t IH]; intros acc; cbn [bucket_put bset].
  - apply revcat_spec.
  - destruct (key_eqb k' k); [apply revcat_spec|].
    rewrite IH. cbn [rev]. rewrite <- app_assoc. reflexivity.
Qed.

Lemma bucket_remove_spec es k acc : bremove es k acc = rev acc ++ bdel es k.
Proof.
  revert acc. induction es as [|[k' v'] t IH]; intros acc; cbn [bucket_remove bdel].
  - apply revcat_spec.
  - destruct (key_eqb k' k); [apply revcat_spec|].
    rewrite IH. cbn [rev]. rewrite <- app_assoc. reflexivity.
Qed.

Lemma bset_ok es k v : NoDup (map fst es) ->
  NoDup (map fst (bset es k v)) /\ put_post es k v (bset es k v).
Proof.
  induction es as [|[k' v'] t IH]; cbn [bset map fst]; intros Hnd.
  - split; [repeat constructor; intros []|apply put_post_nil].
  - inversion_clear Hnd as [|? ? Hnotin Hnd']. destruct (IH Hnd') as [IHnd IHin].
    pose proof (notin_absent _ _ Hnotin) as Hfresh.
    destruct (key_eqbP k' k) as [->|Hne]; cbn [map fst].
    + (* the head pair is the one replaced *)
      split; [now constructor|]. intros e. cbn [In]. specialize (Hfresh e).
      intuition (subst; auto; now contradiction).
    + split.
      * (* the head key stays fresh: by IHin the keys of bset t k v are k or keys of t *)
        constructor; [|exact IHnd]. intros Hin. apply in_map_iff in Hin. destruct Hin as (e & <- & He).
        apply IHin in He. destruct He as [->|[He _]]; [now apply Hne|now apply (Hfresh e)].
      * intros e. cbn [In]. rewrite (IHin e).
        assert (Hk : (k', v') = e -> fst e <> k) by (intros <-; exact Hne). tauto.
Qed.

Lemma length_bset es k v : (length es <= length (bset es k v))%nat.
Proof.
  induction es as [|[k' v'] t IH]; cbn [bset length]; [lia|].
  destruct (key_eqb k' k); cbn [length]; lia.
Qed.

Lemma bdel_ok es k : NoDup (map fst es) ->
  NoDup (map fst (bdel es k)) /\ remove_post es k (bdel es k).
Proof.
  induction es as [|[k' v'] t IH]; cbn [bdel map fst]; intros Hnd.
  - split; [constructor|]. intros e. cbn [In]. tauto.
  - inversion_clear Hnd as [|? ? Hnotin Hnd']. destruct (IH Hnd') as [IHnd IHin].
    pose proof (notin_absent _ _ Hnotin) as Hfresh.
    destruct (key_eqbP k' k) as [->|Hne]; cbn [map fst].
    + (* the head pair is the one dropped *)
      split; [exact Hnd'|]. intros e. cbn [In]. specialize (Hfresh e).
      intuition (subst; auto; now contradiction).
    + split.
      * constructor; [|exact IHnd]. intros Hin. apply in_map_iff in Hin. destruct Hin as (e & <- & He).
        apply IHin in He. now apply (Hfresh e).
      * intros e. cbn [In]. rewrite (IHin e).
        assert (Hk : (k', v') = e -> fst e <> k) by (intros <-; exact Hne). tauto.
Qed.

Lemma bdel_absent es k : absent k es -> bdel es k = es.
Proof.
  induction es as [|[k' v'] t IH]; intros H; cbn [bdel]; [reflexivity|].
  destruct (key_eqbP k' k) as [E|_]; [exfalso; apply (H (k', v')); [now left|exact E]|].
  f_equal. apply IH. intros e He. apply H. now right.
Qed.

(* the pairs stored in the tree, in storage order (children left to right, buckets in order) *)
Fixpoint bindings (d : dict) : list entry :=
  match d with
  | Empty => []
  | Leaf _ k v => [(k, v)]
  | Collision _ es => es
  | Node _ cs => (fix go (l : list dict) : list entry :=
                    match l with [] => [] | c :: t => bindings c ++ go t end) cs
  end.

Lemma bindings_node bm cs : bindings (Node bm cs) = flat_map bindings cs.
Proof. cbn [bindings]. induction cs as [|c t IH]; cbn [flat_map]; [reflexivity|]. now rewrite IH. Qed.

(* the finite map a dict denotes *)
Definition abs (d : dict) : key -> option val := assoc (bindings d).

Definition keys_all (P : key -> Prop) (d : dict) : Prop := forall e, In e (bindings d) -> P (fst e).

(* a Node never has zero children, and a lone child is itself a Node (collapse_node's canonical
   form; insertion never builds a lone leaf either) *)
Definition canon (cs : list dict) : Prop :=
  match cs with
  | [] => False
  | [c] => match c with Node _ _ => True | _ => False end
  | _ => True
  end.

(* inv n lvl d: d is a well-formed NON-EMPTY subtree sitting at trie level lvl (hash bits
   5*lvl ..), with at most n further Node levels below it. n is the structural argument and the depth
   budget; lvl only selects the fragment in the keys_all clause. n + lvl = 7 is assumed where the
   depth bound matters (put, because of split).
   - Leaf: the stored hash is the key's hash
   - Collision: >= 2 entries, pairwise distinct keys, all hashing to the bucket's hash
   - Node: bitmap in range; children pair up, in order, with the occupied slots of the bitmap
     (hence #children = popcount bitmap); the child at slot f is well formed one level down and
     holds only keys whose fragment at this level is f; canonical shape. *)
Fixpoint inv (n lvl : nat) (d : dict) {struct n} : Prop :=
  match d with
  | Empty => False
  | Leaf h k _ => h = hash k
  | Collision h es =>
    (2 <= length es)%nat /\ NoDup (map fst es) /\ (forall e, In e es -> hash (fst e) = h)
  | Node bm cs =>
    match n with
    | O => False
    | S n' =>
      0 <= bm < 2 ^ 32 /\
      Forall2 (fun f c => inv n' (S lvl) c /\ keys_all (fun k => frag (hash k) lvl = f) c) (slots bm) cs /\
      canon cs
    end
  end.

(* The proofs do not unfold the Node clause of inv: they speak of it through child_ok, pre and
   inv_node. *)
Definition child_ok (n lvl : nat) (f : nat) (c : dict) : Prop :=
  inv n (S lvl) c /\ keys_all (fun k => frag (hash k) lvl = f) c.

(* the invariant without the canonical-shape clause: what remove builds before collapse_node *)
Definition pre (n lvl : nat) (bm : Z) (cs : list dict) : Prop :=
  0 <= bm < 2 ^ 32 /\ Forall2 (child_ok n lvl) (slots bm) cs.

Lemma inv_node n lvl bm cs : inv (S n) lvl (Node bm cs) <-> pre n lvl bm cs /\ canon cs.
Proof. cbn [inv]. unfold pre, child_ok. tauto. Qed.

Definition Inv (d : dict) : Prop := d = Empty \/ inv 7 0 d.

(* a possibly empty subtree, as remove returns it; Inv d is inv_opt 7 0 d *)
Definition inv_opt (n lvl : nat) (d : dict) : Prop := d = Empty \/ inv n lvl d.

Definition is_node (d : dict) : Prop := match d with Node _ _ => True | _ => False end.

Lemma inv_level n lvl n' lvl' d : ~ is_node d -> inv n lvl d -> inv n' lvl' d.
Proof. destruct d, n, n'; cbn [inv is_node]; tauto. Qed.

Lemma inv_leaf n lvl h k v : inv n lvl (Leaf h k v) <-> h = hash k.
Proof. destruct n; cbn [inv]; tauto. Qed.

Lemma inv_coll n lvl h es : inv n lvl (Collision h es) <->
  (2 <= length es)%nat /\ NoDup (map fst es) /\ (forall e, In e es -> hash (fst e) = h).
Proof. destruct n; cbn [inv]; tauto. Qed.

Lemma inv_not_empty n lvl : ~ inv n lvl Empty.
Proof. destruct n; cbn [inv]; tauto. Qed.

(* children count = popcount of the bitmap, at every Node of a well-formed dict *)
Lemma node_shape n lvl bm cs : inv n lvl (Node bm cs) ->
  0 <= bm < 2 ^ 32 /\ Z.of_nat (length cs) = popcount bm /\ cs <> [].
Proof.
  destruct n; [contradiction|]. intros [[Hbm HF] Hc]%inv_node. split; [exact Hbm|]. split.
  - rewrite popcount_slots by assumption. f_equal. symmetry. apply (Forall2_len _ _ _ HF).
  - intros ->. exact Hc.
Qed.

Lemma children_frag n lvl fs cs e : Forall2 (child_ok n lvl) fs cs ->
  In e (flat_map bindings cs) -> In (frag (hash (fst e)) lvl) fs.
Proof.
  induction 1 as [|f c fs cs [_ Hk] _ IH]; cbn [flat_map]; [tauto|].
  rewrite in_app_iff. intros [Hin|Hin]; [left; symmetry; apply (Hk e Hin) | right; now apply IH].
Qed.

Lemma side_absent n lvl fs cs k : Forall2 (child_ok n lvl) fs cs -> ~ In (frag (hash k) lvl) fs ->
  absent k (flat_map bindings cs).
Proof. intros HF Hnot e He Hk. apply Hnot. rewrite <- Hk. apply (children_frag _ _ _ _ _ HF), He. Qed.

(* A node as get, put and remove see it from the slot f of k: children left and right of f hold no
   pair for k, slot_index counts the left ones, and the child at f can be replaced, dropped or
   inserted with the children still paired with the slots. *)
Lemma focus n lvl bm cs k : pre n lvl bm cs ->
  let f := frag (hash k) lvl in
  exists clo chi, slot_index bm (2 ^ Z.of_nat f) = Z.of_nat (length clo) /\
    absent k (flat_map bindings clo) /\ absent k (flat_map bindings chi) /\
    if tb bm f
    then exists c, cs = clo ++ c :: chi /\ child_ok n lvl f c /\
           (forall c', child_ok n lvl f c' -> pre n lvl bm (clo ++ c' :: chi)) /\
           pre n lvl (int_and bm (int_not (2 ^ Z.of_nat f))) (clo ++ chi)
    else cs = clo ++ chi /\
           forall c', child_ok n lvl f c' -> pre n lvl (int_or bm (2 ^ Z.of_nat f)) (clo ++ c' :: chi).
Proof.
  intros [Hbm HF] f. pose proof (frag_lt (hash k) lvl : (f < 32)%nat) as Hf.
  pose proof (slots_split bm f Hf) as Hs. rewrite Hs in HF.
  apply Forall2_app_inv_l in HF. destruct HF as (clo & rest & Hlo & Hrest & ->).
  assert (Hidx : slot_index bm (2 ^ Z.of_nat f) = Z.of_nat (length clo))
    by (rewrite slot_index_spec; f_equal; apply (Forall2_len _ _ _ Hlo)).
  assert (Hslo : absent k (flat_map bindings clo))
    by (apply (side_absent _ _ _ _ _ Hlo); intros Hin%slots_below_lt; lia).
  destruct (tb bm f).
  - inversion_clear Hrest as [|? c ? chi Hc Hhi]. exists clo, chi. split; [exact Hidx|]. split; [exact Hslo|].
    split; [apply (side_absent _ _ _ _ _ Hhi); intros Hin%slots_above_gt; lia|].
    exists c. split; [reflexivity|]. split; [exact Hc|]. split.
    + intros c' Hc'. split; [exact Hbm|]. rewrite Hs. apply Forall2_app; [exact Hlo|now constructor].
    + split; [now apply clear_range|]. rewrite slots_clear by exact Hf. now apply Forall2_app.
  - exists clo, rest. split; [exact Hidx|]. split; [exact Hslo|].
    split; [apply (side_absent _ _ _ _ _ Hrest); intros Hin%slots_above_gt; lia|].
    split; [reflexivity|]. intros c' Hc'. split; [apply set_range; [exact Hbm|now apply pow2_range]|].
    rewrite slots_set by exact Hf. apply Forall2_app; [exact Hlo|now constructor].
Qed.

Lemma bindings_focus bm clo c chi :
  bindings (Node bm (clo ++ c :: chi)) = flat_map bindings clo ++ bindings c ++ flat_map bindings chi.
Proof. rewrite bindings_node, flat_map_app. reflexivity. Qed.

Lemma abs_focus bm clo c chi k : absent k (flat_map bindings clo) -> absent k (flat_map bindings chi) ->
  abs (Node bm (clo ++ c :: chi)) k = abs c k.
Proof.
  intros Hlo Hhi. unfold abs. rewrite bindings_focus, !assoc_app, (assoc_none _ _ Hlo), (assoc_none _ _ Hhi).
  now destruct (assoc (bindings c) k).
Qed.

Lemma canon_update clo c c' chi : canon (clo ++ c :: chi) -> (is_node c -> is_node c') -> canon (clo ++ c' :: chi).
Proof. destruct clo as [|? [|? ?]], chi as [|? ?]; cbn [app canon]; tauto. Qed.

Lemma canon_insert clo c chi : canon (clo ++ chi) -> canon (clo ++ c :: chi).
Proof. destruct clo as [|? [|? ?]], chi as [|? ?]; cbn [app canon]; tauto. Qed.

Definition agree (lvl : nat) (h1 h2 : Z) : Prop := forall j, (j < lvl)%nat -> frag h1 j = frag h2 j.

Lemma agree_succ lvl h1 h2 : agree lvl h1 h2 -> frag h1 lvl = frag h2 lvl -> agree (S lvl) h1 h2.
Proof. intros H E j Hj. destruct (Nat.eq_dec j lvl) as [->|]; [exact E | apply H; lia]. Qed.

(* d lies on k's path down to level lvl: its keys share k's first lvl fragments *)
Definition on_path (lvl : nat) (k : key) (d : dict) : Prop :=
  keys_all (fun k' => agree lvl (hash k') (hash k)) d.

Lemma keys_all_put (P : key -> Prop) d k v d' :
  P k -> keys_all P d -> put_post (bindings d) k v (bindings d') -> keys_all P d'.
Proof. intros Hk Hd Hpost e He. apply Hpost in He. destruct He as [->|[He _]]; [exact Hk|exact (Hd e He)]. Qed.

Lemma leaf_ok n lvl k v : child_ok n lvl (frag (hash k) lvl) (Leaf (hash k) k v).
Proof. split; [now apply inv_leaf|]. intros e [<-|[]]. reflexivity. Qed.

(* the last clause keeps the parent canonical: a lone child that was a Node stays one *)
Definition put_spec (n lvl : nat) (d : dict) (k : key) (v : val) (r : option dict) : Prop :=
  exists d', r = Some d' /\ inv n lvl d' /\ put_post (bindings d) k v (bindings d') /\ (is_node d -> is_node d').

Lemma put_spec_intro n lvl d k v d' :
  inv n lvl d' -> put_post (bindings d) k v (bindings d') -> (is_node d -> is_node d') ->
  put_spec n lvl d k v (Some d').
Proof. intros H1 H2 H3. now exists d'. Qed.

Lemma split_pair_node fuel : forall h1 k1 v1 h2 k2 v2 s, h1 <> h2 ->
  split_pair key val key_eqb fuel h1 k1 v1 h2 k2 v2 s = split_node key val fuel (Leaf h1 k1 v1) h1 h2 k2 v2 s.
Proof.
  induction fuel as [|fuel IH]; intros h1 k1 v1 h2 k2 v2 s Hne; cbn [split_pair split_node]; [reflexivity|].
  rewrite (proj2 (Z.eqb_neq h1 h2) Hne), IH by exact Hne. reflexivity.
Qed.

Lemma pre_pair n lvl f1 f2 c1 c2 : (f1 < f2)%nat -> (f2 < 32)%nat ->
  child_ok n lvl f1 c1 -> child_ok n lvl f2 c2 ->
  pre n lvl (int_or (2 ^ Z.of_nat f1) (2 ^ Z.of_nat f2)) [c1; c2].
Proof.
  intros H12 H2 H1 Hc2. split; [apply set_range; apply pow2_range; lia|].
  rewrite slots_pow2_pair by assumption. constructor; [exact H1|]. constructor; [exact Hc2|constructor].
Qed.

(* put_spec with the stronger last clause "the result is a Node" (needed for the lone child of the
   recursive case). Terminates because two distinct hashes agreeing on the first lvl fragments are
   separated within the remaining n = 7 - lvl levels. *)
Lemma split_node_ok n : forall lvl fuel c ch k v,
  (n + lvl = 7)%nat -> (n < fuel)%nat -> 0 <= ch < 2 ^ 32 -> ch <> hash k -> agree lvl ch (hash k) ->
  ~ is_node c -> inv n lvl c -> keys_all (fun k' => hash k' = ch) c ->
  exists d', split_node key val fuel c ch (hash k) k v (5 * Z.of_nat lvl) = Some d'
    /\ inv n lvl d' /\ put_post (bindings c) k v (bindings d') /\ is_node d'.
Proof.
  induction n as [|n IH]; intros lvl fuel c ch k v Hn Hfuel Hch Hne Hag Hflat Hc Hkeys.
  - exfalso. apply Hne. apply frag_inj; [assumption|apply hash_range|]. intros j Hj. apply Hag. lia.
  - destruct fuel as [|fuel]; [lia|]. cbn [split_node].
    pose proof (leaf_ok n lvl k v) as Hlok. rewrite !bit_of_frag, <- !frag_of_nat.
    pose proof (frag_lt ch lvl) as Hf1. pose proof (frag_lt (hash k) lvl) as Hf2.
    set (fc := frag ch lvl) in *. set (fh := frag (hash k) lvl) in *.
    apply (inv_level _ _ n (S lvl) _ Hflat) in Hc.
    assert (Hcok : child_ok n lvl fc c).
    { split; [exact Hc|]. intros e He. now rewrite (Hkeys e He). }
    assert (Habs : absent k (bindings c)).
    { intros e He Hk. apply Hne. now rewrite <- (Hkeys e He), Hk. }
    destruct (Nat.eq_dec fc fh) as [Ef|Ef].
    + rewrite Ef, Z.eqb_refl, shift_succ.
      destruct (IH (S lvl) fuel c ch k v) as (d' & -> & Hinv & Hpost & Hnode);
        [lia|lia|exact Hch|exact Hne|now apply agree_succ|exact Hflat|exact Hc|exact Hkeys|].
      eexists. split; [reflexivity|]. split; [|split; [|exact I]].
      * (* the lone child d' is a Node, so [d'] is canonical *)
        apply inv_node. split; [|exact Hnode]. split; [now apply pow2_range|].
        rewrite slots_pow2 by assumption. repeat constructor; [exact Hinv|].
        apply (keys_all_put _ c k v); [reflexivity|rewrite <- Ef; apply Hcok|exact Hpost].
      * intros e. rewrite bindings_node. cbn [flat_map]. rewrite app_nil_r. apply Hpost.
    + rewrite (proj2 (Z.eqb_neq _ _)) by lia.
      destruct (Z.ltb_spec (Z.of_nat fc) (Z.of_nat fh));
        (eexists; split; [reflexivity|]; split; [|split; [|exact I]]).
      * apply inv_node. split; [|exact I]. apply pre_pair; (lia || assumption).
      * intros e. rewrite bindings_node. cbn [flat_map bindings]. rewrite app_nil_r, in_app_iff. cbn [In].
        specialize (Habs e). intuition.
      * apply inv_node. split; [|exact I]. unfold int_or. rewrite Z.lor_comm. apply pre_pair; (lia || assumption).
      * intros e. rewrite bindings_node. cbn [flat_map bindings app]. rewrite app_nil_r. cbn [In].
        specialize (Habs e). intuition.
Qed.

Lemma put_leaf_ok n lvl fuel lh lk lv k v :
  (n + lvl = 7)%nat -> (n < fuel)%nat -> inv n lvl (Leaf lh lk lv) ->
  on_path lvl k (Leaf lh lk lv) ->
  put_spec n lvl (Leaf lh lk lv) k v
    (put_aux key val key_eqb (S fuel) (Leaf lh lk lv) k v (hash k) (5 * Z.of_nat lvl)).
Proof.
  intros Hn Hfuel Hinv Hag. pose proof Hinv as ->%inv_leaf. specialize (Hag (lk, lv) (or_introl eq_refl)).
  cbn [put_aux].
  (* the pairs of a Leaf are those of a one-entry bucket *)
  destruct (bset_ok [(lk, lv)] k v) as [Hnd Hin]; [repeat constructor; intros []|]. cbn [bset] in Hnd, Hin.
  destruct (key_eqbP lk k) as [->|Ene].
  - apply put_spec_intro; [now apply inv_leaf|exact Hin|intros []].
  - destruct (Z.eq_dec (hash lk) (hash k)) as [Eh|Eh].
    + (* equal hashes: a two-entry bucket *)
      destruct fuel as [|fuel]; [lia|]. cbn [split_pair]. rewrite Eh, Z.eqb_refl.
      rewrite !bucket_put_spec. cbn [bset rev app]. rewrite (proj2 (key_eqb_false lk k) Ene).
      apply put_spec_intro; [|exact Hin|intros []].
      apply inv_coll. split; [cbn [length]; lia|]. split; [exact Hnd|].
      intros e [<-|[<-|[]]]; cbn [fst]; congruence.
    + rewrite split_pair_node by exact Eh.
      destruct (split_node_ok n lvl fuel (Leaf (hash lk) lk lv) (hash lk) k v Hn Hfuel (hash_range lk) Eh Hag)
        as (d' & -> & Hinv' & Hpost & _); [exact (fun H => H)|exact Hinv|intros e [<-|[]]; reflexivity|].
      now apply put_spec_intro.
Qed.

Lemma put_coll_ok n lvl fuel ch es k v :
  (n + lvl = 7)%nat -> (n < fuel)%nat -> inv n lvl (Collision ch es) ->
  on_path lvl k (Collision ch es) ->
  put_spec n lvl (Collision ch es) k v
    (put_aux key val key_eqb (S fuel) (Collision ch es) k v (hash k) (5 * Z.of_nat lvl)).
Proof.
  intros Hn Hfuel Hinv Hag. pose proof Hinv as (Hlen & Hnd & Hh)%inv_coll. cbn [put_aux].
  destruct (Z.eqb_spec ch (hash k)) as [Eh|Eh].
  - rewrite bucket_put_spec. cbn [rev app]. destruct (bset_ok es k v Hnd) as [Hnd' Hin].
    apply put_spec_intro; [|exact Hin|intros []].
    apply inv_coll. split; [pose proof (length_bset es k v); lia|]. split; [exact Hnd'|].
    intros e He. apply Hin in He. destruct He as [->|[He _]]; [now symmetry|now apply Hh].
  - destruct es as [|e0 es']; [cbn [length] in Hlen; lia|].
    assert (Hch : ch = hash (fst e0)) by (symmetry; apply Hh; now left).
    destruct (split_node_ok n lvl fuel (Collision ch (e0 :: es')) ch k v Hn Hfuel)
      as (d' & -> & Hinv' & Hpost & _);
      [rewrite Hch; apply hash_range|exact Eh|rewrite Hch; apply (Hag e0); now left
      |exact (fun H => H)|exact Hinv|exact Hh|].
    now apply put_spec_intro.
Qed.

Lemma put_ok n : forall lvl fuel d k v,
  (n + lvl = 7)%nat -> (S n < fuel)%nat -> inv n lvl d ->
  on_path lvl k d ->
  put_spec n lvl d k v (put_aux key val key_eqb fuel d k v (hash k) (5 * Z.of_nat lvl)).
Proof.
  induction n as [|n IH]; intros lvl fuel d k v Hn Hfuel Hinv Hag; (destruct fuel as [|fuel]; [lia|]);
    (destruct d as [|lh lk lv|ch es|bm cs];
     [now apply inv_not_empty in Hinv|apply put_leaf_ok; (lia || assumption)
     |apply put_coll_ok; (lia || assumption)|]).
  (* left: the Node case, once for each n *)
  - (* inv 0 _ (Node _ _) is False *) contradiction.
  - apply inv_node in Hinv. destruct Hinv as [Hpre Hcanon].
    cbn [put_aux]. rewrite bit_of_frag, bit_test, shift_succ.
    destruct (focus n lvl bm cs k Hpre) as (clo & chi & -> & Hslo & Hshi & Hfoc).
    destruct (tb bm (frag (hash k) lvl)); cbn [negb].
    + destruct Hfoc as (c & -> & [Hc Hck] & Hupd & _). rewrite child_at_app.
      destruct (IH (S lvl) fuel c k v) as (c' & -> & Hinv' & Hpost & Hnode); [lia|lia|exact Hc| |].
      { intros e He. apply agree_succ; [apply Hag; rewrite bindings_focus, !in_app_iff; auto|apply (Hck e He)]. }
      rewrite update_at_app. cbn [rev app].
      apply put_spec_intro; [|rewrite !bindings_focus; now apply put_post_app|exact (fun _ => I)].
      apply inv_node. split; [|now apply (canon_update clo c)]. apply Hupd. split; [exact Hinv'|].
      now apply (keys_all_put _ c k v).
    + destruct Hfoc as [-> Hins]. rewrite insert_at_app. cbn [rev app].
      apply put_spec_intro; [| |exact (fun _ => I)].
      * apply inv_node. split; [|now apply canon_insert]. apply Hins, leaf_ok.
      * rewrite bindings_focus, bindings_node, flat_map_app.
        apply (put_post_app _ _ []); [exact Hslo|exact Hshi|apply put_post_nil].
Qed.

Lemma collapse_canon bm cs : canon cs -> collapse_node key val bm cs = Node bm cs.
Proof.
  destruct cs as [|c [|c2 cs]]; cbn [canon collapse_node]; [tauto| |reflexivity].
  destruct c; tauto.
Qed.

Lemma collapse_ok n lvl bm cs : pre n lvl bm cs ->
  inv_opt (S n) lvl (collapse_node key val bm cs)
  /\ bindings (collapse_node key val bm cs) = bindings (Node bm cs).
Proof.
  intros Hpre.
  assert (Hnode : canon cs -> inv_opt (S n) lvl (Node bm cs)) by (intros Hc; right; now apply inv_node).
  destruct cs as [|c [|c2 cs]]; cbn [collapse_node].
  - split; [now left|reflexivity].
  - (* a lone child is hoisted unless it is a Node *)
    pose proof Hpre as [_ HF]. inversion_clear HF as [|? ? ? ? [Hc _] _].
    destruct c as [|h k v|h es|bm' cs'].
    + now apply inv_not_empty in Hc.
    + split; [right; now apply (inv_level n (S lvl))|]. rewrite bindings_node. cbn [flat_map]. now rewrite app_nil_r.
    + split; [right; now apply (inv_level n (S lvl))|]. rewrite bindings_node. cbn [flat_map]. now rewrite app_nil_r.
    + split; [now apply Hnode|reflexivity].
  - split; [now apply Hnode|reflexivity].
Qed.

(* the last clause is dict.qv's "unchanged if absent", structurally *)
Definition remove_spec (n lvl : nat) (d : dict) (k : key) (r : option dict) : Prop :=
  exists d', r = Some d' /\ inv_opt n lvl d' /\ remove_post (bindings d) k (bindings d') /\
             (absent k (bindings d) -> d' = d).

Lemma remove_spec_intro n lvl d k d' : inv_opt n lvl d' ->
  remove_post (bindings d) k (bindings d') -> (absent k (bindings d) -> d' = d) ->
  remove_spec n lvl d k (Some d').
Proof. intros H1 H2 H3. now exists d'. Qed.

Lemma remove_spec_same n lvl d k : inv_opt n lvl d -> absent k (bindings d) ->
  remove_spec n lvl d k (Some d).
Proof.
  intros H1 H2. apply remove_spec_intro; [exact H1| |reflexivity].
  intros e. generalize (H2 e). tauto.
Qed.

Lemma collapse_spec n lvl d k bm cs :
  pre n lvl bm cs -> remove_post (bindings d) k (bindings (Node bm cs)) ->
  (absent k (bindings d) -> collapse_node key val bm cs = d) ->
  remove_spec (S n) lvl d k (Some (collapse_node key val bm cs)).
Proof.
  intros Hpre Hpost Hsame. destruct (collapse_ok n lvl bm cs Hpre) as [Hr Hb].
  apply remove_spec_intro; [exact Hr|now rewrite Hb|exact Hsame].
Qed.

Lemma remove_leaf_ok n lvl fuel lh lk lv k : inv n lvl (Leaf lh lk lv) ->
  remove_spec n lvl (Leaf lh lk lv) k
    (remove_aux key val key_eqb (S fuel) (Leaf lh lk lv) k (hash k) (5 * Z.of_nat lvl)).
Proof.
  intros Hinv. cbn [remove_aux].
  destruct (key_eqbP lk k) as [->|Ene].
  - apply remove_spec_intro; [now left| |].
    + intros e. cbn [bindings In]. split; [tauto|]. intros [[<-|[]] Hk]. now contradiction Hk.
    + intros H. exfalso. apply (H (k, lv)); [now left|reflexivity].
  - apply remove_spec_same; [now right|]. intros e [<-|[]]. exact Ene.
Qed.

Lemma remove_coll_ok n lvl fuel ch es k : inv n lvl (Collision ch es) ->
  remove_spec n lvl (Collision ch es) k
    (remove_aux key val key_eqb (S fuel) (Collision ch es) k (hash k) (5 * Z.of_nat lvl)).
Proof.
  intros (Hlen & Hnd & Hh)%inv_coll. cbn [remove_aux].
  rewrite bucket_remove_spec. cbn [rev app].
  destruct (bdel_ok es k Hnd) as [Hnd' Hin]. apply remove_spec_intro.
  - destruct (bdel es k) as [|[k' v'] [|e2 rest]]; [now left|right..].
    + apply inv_leaf. symmetry. apply (Hh (k', v')), Hin. now left.
    + apply inv_coll. split; [cbn [length]; lia|]. split; [exact Hnd'|]. intros e He. now apply Hh, Hin.
  - intros e. specialize (Hin e). now destruct (bdel es k) as [|[k' v'] [|e2 rest]].
  - intros Habs. rewrite (bdel_absent es k Habs).
    destruct es as [|[k1 v1] [|e2 rest]]; cbn [length] in Hlen; try lia; reflexivity.
Qed.

Lemma remove_ok n : forall lvl fuel d k, (n < fuel)%nat -> inv n lvl d ->
  remove_spec n lvl d k (remove_aux key val key_eqb fuel d k (hash k) (5 * Z.of_nat lvl)).
Proof.
  induction n as [|n IH]; intros lvl fuel d k Hfuel Hinv; (destruct fuel as [|fuel]; [lia|]);
    (destruct d as [|lh lk lv|ch es|bm cs];
     [now apply inv_not_empty in Hinv|now apply remove_leaf_ok|now apply remove_coll_ok|]).
  (* left: the Node case, once for each n *)
  - (* inv 0 _ (Node _ _) is False *) contradiction.
  - apply inv_node in Hinv. destruct Hinv as [Hpre Hcanon].
    cbn [remove_aux]. rewrite bit_of_frag, bit_test.
    destruct (focus n lvl bm cs k Hpre) as (clo & chi & Hidx & Hslo & Hshi & Hfoc).
    destruct (tb bm (frag (hash k) lvl)); cbn [negb].
    + destruct Hfoc as (c & -> & [Hc Hck] & Hupd & Hclr). rewrite Hidx, shift_succ, child_at_app.
      destruct (IH (S lvl) fuel c k) as (c' & -> & Hinv' & Hpost & Hsame); [lia|exact Hc|].
      assert (Hsame' : absent k (bindings (Node bm (clo ++ c :: chi))) -> c' = c).
      { intros Habs. apply Hsame. intros e He. apply Habs. rewrite bindings_focus, !in_app_iff. auto. }
      destruct Hinv' as [->|Hinv'].
      * (* the child vanished: its slot is dropped *)
        unfold remove_slot. rewrite remove_at_app. cbn [rev app]. apply collapse_spec; [exact Hclr| |].
        -- rewrite bindings_focus, bindings_node, flat_map_app. now apply (remove_post_app _ _ _ []).
        -- intros <-%Hsame'. now apply inv_not_empty in Hc.
      * (* the child is replaced, whatever its shape; destruct c' only lets remove_aux's match reduce *)
        assert (Hc' : child_ok n lvl (frag (hash k) lvl) c').
        { split; [exact Hinv'|]. intros e He. apply Hpost in He. apply (Hck e (proj1 He)). }
        destruct c'; [now apply inv_not_empty in Hinv'|..]; rewrite update_at_app; cbn [rev app];
          (apply collapse_spec; [now apply Hupd|rewrite !bindings_focus; now apply remove_post_app|]);
          intros ->%Hsame'; now apply collapse_canon.
    + destruct Hfoc as [-> _]. apply remove_spec_same; [now right; apply inv_node|].
      rewrite bindings_node, flat_map_app. now apply absent_app.
Qed.

(* the inner induction of nodup_bindings over a Node's children (dict is a nested inductive), hence
   the outer induction hypothesis as a premise *)
Lemma nodup_children n lvl fs cs :
  (forall lvl' d, inv n lvl' d -> NoDup (map fst (bindings d))) ->
  Forall2 (child_ok n lvl) fs cs -> NoDup fs -> NoDup (map fst (flat_map bindings cs)).
Proof.
  intros IHn. induction 1 as [|f c fs cs [Hc Hck] HF IH]; intros Hnd; cbn [flat_map map]; [constructor|].
  inversion_clear Hnd as [|? ? Hnotin Hnd'].
  rewrite map_app. apply NoDup_app_intro; [now apply (IHn (S lvl))|now apply IH|].
  intros x Hx Hx'. apply in_map_iff in Hx. destruct Hx as (e & <- & He).
  apply in_map_iff in Hx'. destruct Hx' as (e' & Ee & He').
  apply (children_frag _ _ _ _ _ HF) in He'. rewrite Ee, (Hck e He) in He'. contradiction.
Qed.

Lemma nodup_bindings n : forall lvl d, inv n lvl d -> NoDup (map fst (bindings d)).
Proof.
  induction n as [|n IH]; intros lvl d Hinv;
    (destruct d as [|h k v|h es|bm cs];
     [now apply inv_not_empty in Hinv
     |cbn [bindings map fst]; constructor; [intros []|constructor]
     |apply inv_coll in Hinv; cbn [bindings]; tauto|]).
  (* left: the Node case, once for each n *)
  - (* inv 0 _ (Node _ _) is False *) contradiction.
  - apply inv_node in Hinv. destruct Hinv as [[_ HF] _]. rewrite bindings_node.
    apply (nodup_children n lvl (slots bm) cs IH HF (slots_NoDup bm)).
Qed.

Lemma get_ok n : forall lvl fuel d k, (n < fuel)%nat -> inv n lvl d ->
  get_aux key val key_eqb fuel d k (hash k) (5 * Z.of_nat lvl) = Some (abs d k).
Proof.
  induction n as [|n IH]; intros lvl fuel d k Hfuel Hinv; (destruct fuel as [|fuel]; [lia|]);
    (destruct d as [|h k' v|h es|bm cs]; [now apply inv_not_empty in Hinv|reflexivity|reflexivity|]).
  (* left: the Node case, once for each n *)
  - (* inv 0 _ (Node _ _) is False *) contradiction.
  - apply inv_node in Hinv. destruct Hinv as [Hpre _]. cbn [get_aux]. rewrite bit_of_frag, bit_test.
    destruct (focus n lvl bm cs k Hpre) as (clo & chi & Hidx & Hslo & Hshi & Hfoc).
    destruct (tb bm (frag (hash k) lvl)); cbn [negb].
    + destruct Hfoc as (c & -> & [Hc _] & _).
      rewrite Hidx, shift_succ, child_at_app, (IH (S lvl)) by (lia || assumption).
      now rewrite abs_focus.
    + destruct Hfoc as [-> _]. f_equal. symmetry. apply assoc_none.
      rewrite bindings_node, flat_map_app. now apply absent_app.
Qed.

Notation dget := (d_get key val key_eqb hash).
Notation dput := (d_put key val key_eqb hash).
Notation dremove := (d_remove key val key_eqb hash).
Notation dhas := (d_has key val key_eqb hash).
Notation dentries := (d_entries key val).
Notation dcount := (d_count key val).
Notation dkeys := (d_keys key val).
Notation dvalues := (d_values key val).
Notation diter := (d_iter key val).
Notation dfrom := (d_from key val key_eqb hash).
Notation dmerge := (d_merge key val key_eqb hash).

Lemma Inv_empty : Inv (d_new key val).
Proof. now left. Qed.

Lemma Inv_nodup d : Inv d -> NoDup (map fst (bindings d)).
Proof. intros [->|H]; [constructor|now apply (nodup_bindings 7 0)]. Qed.

Lemma bindings_are_the_map d : Inv d ->
  NoDup (map fst (bindings d)) /\ forall k v, In (k, v) (bindings d) <-> abs d k = Some v.
Proof.
  intros HI. pose proof (Inv_nodup d HI) as Hnd. split; [exact Hnd|].
  intros k v. unfold abs. symmetry. now apply assoc_in.
Qed.

Theorem put_correct d k v : Inv d ->
  exists d', dput d k v = Some d' /\ Inv d' /\ forall k', abs d' k' = upd (abs d) k v k'.
Proof.
  intros HI. assert (put_spec 7 0 d k v (dput d k v)) as (d' & Hput & Hinv' & Hpost & _).
  { destruct HI as [->|Hinv].
    - apply put_spec_intro; [now apply inv_leaf|apply put_post_nil|intros []].
    - apply put_ok; [reflexivity|unfold FUEL; lia|exact Hinv|intros e _ j Hj; lia]. }
  exists d'. split; [exact Hput|]. split; [now right|].
  apply assoc_put_law; [now apply Inv_nodup|now apply (nodup_bindings 7 0)|exact Hpost].
Qed.

Lemma remove_ok_top d k : Inv d -> remove_spec 7 0 d k (dremove d k).
Proof.
  intros [->|Hinv]; [|apply remove_ok; [unfold FUEL; lia|exact Hinv]].
  apply remove_spec_same; [now left|intros e []].
Qed.

Theorem remove_correct d k : Inv d ->
  exists d', dremove d k = Some d' /\ Inv d' /\ forall k', abs d' k' = del (abs d) k k'.
Proof.
  intros HI. destruct (remove_ok_top d k HI) as (d' & Hrem & Hinv' & Hpost & _).
  exists d'. split; [exact Hrem|]. split; [exact Hinv'|].
  apply assoc_remove_law; [now apply Inv_nodup|now apply Inv_nodup|exact Hpost].
Qed.

(* dict.qv: "A dict with `key` removed (unchanged if absent)" — structurally unchanged *)
Theorem remove_absent_unchanged d k : Inv d -> abs d k = None -> dremove d k = Some d.
Proof.
  intros HI Habs. destruct (remove_ok_top d k HI) as (d' & -> & _ & _ & Hsame). f_equal. apply Hsame.
  intros [k' v] Hin <-. apply (assoc_in _ _ _ (Inv_nodup d HI)) in Hin.
  unfold abs in Habs. cbn [fst] in Habs. congruence.
Qed.

Theorem get_correct d k : Inv d -> dget d k = Some (abs d k).
Proof.
  intros [->|Hinv]; [reflexivity|]. apply (get_ok 7 0 FUEL d k); [unfold FUEL; lia|exact Hinv].
Qed.

Theorem has_correct d k : Inv d ->
  dhas d k = Some (match abs d k with Some _ => true | None => false end).
Proof. intros HI. unfold d_has. now rewrite get_correct. Qed.

Fixpoint wsize (l : list dict) : nat :=
  match l with [] => O | c :: t => (dsize key val c + wsize t)%nat end.

Lemma wsize_app l1 l2 : wsize (l1 ++ l2) = (wsize l1 + wsize l2)%nat.
Proof. induction l1 as [|c t IH]; cbn [app wsize]; [reflexivity|]. rewrite IH. lia. Qed.

Lemma wsize_rev l : wsize (rev l) = wsize l.
Proof. induction l as [|c t IH]; cbn [rev wsize]; [reflexivity|]. rewrite wsize_app, IH. cbn [wsize]. lia. Qed.

Lemma dsize_pos d : (0 < dsize key val d)%nat.
Proof. destruct d; cbn [dsize]; lia. Qed.

Lemma entries_ok fuel : forall wl acc, (wsize wl < fuel)%nat ->
  exists es, entries_aux key val fuel wl acc = Some es /\ Permutation es (flat_map bindings wl ++ acc).
Proof.
  induction fuel as [|fuel IH]; intros wl acc Hfuel; [lia|].
  destruct wl as [|node rest]; cbn [entries_aux].
  - exists acc. split; [reflexivity|]. apply Permutation_refl.
  - cbn [wsize] in Hfuel. pose proof (dsize_pos node) as Hpos.
    destruct node as [|h k v|h es0|bm cs].
    + cbn [flat_map bindings app]. apply IH. lia.
    + destruct (IH rest ((k, v) :: acc)) as (es & He & Hp); [lia|]. exists es. split; [exact He|].
      rewrite Hp. symmetry. apply Permutation_middle.
    + destruct (IH rest (revcat es0 acc)) as (es & He & Hp); [lia|]. exists es. split; [exact He|].
      rewrite Hp, revcat_spec, <- Permutation_rev. cbn [flat_map bindings].
      rewrite app_assoc. apply Permutation_app_tail, Permutation_app_comm.
    + change (dsize key val (Node bm cs)) with (S (wsize cs)) in Hfuel.
      destruct (IH (revcat cs rest) acc) as (es & He & Hp).
      { rewrite revcat_spec, wsize_app, wsize_rev. lia. }
      exists es. split; [exact He|].
      rewrite Hp, revcat_spec, flat_map_app, <- Permutation_rev. cbn [flat_map]. now rewrite bindings_node.
Qed.

Theorem entries_correct d : Inv d ->
  exists es, dentries d = Some es /\ Permutation es (bindings d) /\ NoDup (map fst es) /\
             forall k v, In (k, v) es <-> abs d k = Some v.
Proof.
  intros HI. destruct (entries_ok (S (dsize key val d)) [d] []) as (es & He & Hp).
  { cbn [wsize]. lia. }
  cbn [flat_map] in Hp. rewrite !app_nil_r in Hp.
  exists es. split; [exact He|]. split; [exact Hp|].
  pose proof (Inv_nodup d HI) as Hnd. split.
  - now rewrite Hp.
  - intros k v. unfold abs. now rewrite (assoc_in _ _ _ Hnd), Hp.
Qed.

Theorem count_correct d : Inv d -> dcount d = Some (Z.of_nat (length (bindings d))).
Proof.
  intros HI. destruct (entries_correct d HI) as (es & He & Hp & _). unfold d_count. rewrite He.
  rewrite length_acc_spec, (Permutation_length Hp). reflexivity.
Qed.

Theorem keys_correct d : Inv d ->
  exists ks, dkeys d = Some ks /\ Permutation ks (map fst (bindings d)) /\ NoDup ks.
Proof.
  intros HI. destruct (entries_correct d HI) as (es & He & Hp & Hnd & _). unfold d_keys. rewrite He.
  eexists. split; [reflexivity|]. rewrite map_acc_spec. cbn [rev app].
  split; [now apply Permutation_map|exact Hnd].
Qed.

Theorem values_correct d : Inv d ->
  exists vs, dvalues d = Some vs /\ Permutation vs (map snd (bindings d)).
Proof.
  intros HI. destruct (entries_correct d HI) as (es & He & Hp & _). unfold d_values. rewrite He.
  eexists. split; [reflexivity|]. rewrite map_acc_spec. cbn [rev app]. now apply Permutation_map.
Qed.

(* Old versions are unaffected: the functions are pure, so after computing put / remove results the
   old dict still answers every get as before, and each result answers as the updated map. *)
Theorem persistence d k v k2 d1 d2 : Inv d -> dput d k v = Some d1 -> dremove d k2 = Some d2 ->
  forall k', dget d k' = Some (abs d k') /\ dget d1 k' = Some (upd (abs d) k v k') /\
             dget d2 k' = Some (del (abs d) k2 k').
Proof.
  intros HI Hp Hr k'.
  destruct (put_correct d k v HI) as (d1' & Hp' & HI1 & A1). rewrite Hp in Hp'. inversion Hp'. subst d1'.
  destruct (remove_correct d k2 HI) as (d2' & Hr' & HI2 & A2). rewrite Hr in Hr'. inversion Hr'. subst d2'.
  rewrite <- A1, <- A2. repeat split; now apply get_correct.
Qed.

(* any sequence of insertions / replacements / removals, against the reference map *)
Inductive op := OPut (k : key) (v : val) | ORemove (k : key).

Fixpoint run (ops : list op) (d : dict) : option dict :=
  match ops with
  | [] => Some d
  | OPut k v :: t => match dput d k v with Some d' => run t d' | None => None end
  | ORemove k :: t => match dremove d k with Some d' => run t d' | None => None end
  end.

Fixpoint ref_run (ops : list op) (m : key -> option val) : key -> option val :=
  match ops with
  | [] => m
  | OPut k v :: t => ref_run t (upd m k v)
  | ORemove k :: t => ref_run t (del m k)
  end.

Lemma ref_run_ext ops : forall m1 m2, (forall k, m1 k = m2 k) -> forall k, ref_run ops m1 k = ref_run ops m2 k.
Proof.
  induction ops as [|[k v|k] t IH]; intros m1 m2 Hm k0; cbn [ref_run]; [apply Hm| |];
    apply IH; intros k'; unfold upd, del; now rewrite Hm.
Qed.

Lemma run_ok ops : forall d, Inv d ->
  exists d', run ops d = Some d' /\ Inv d' /\ forall k, abs d' k = ref_run ops (abs d) k.
Proof.
  induction ops as [|[k v|k] t IH]; intros d HI; cbn [run ref_run].
  - exists d. split; [reflexivity|]. split; [exact HI|reflexivity].
  - destruct (put_correct d k v HI) as (d1 & -> & HI1 & A1).
    destruct (IH d1 HI1) as (d' & Hrun & HI' & A'). exists d'. split; [exact Hrun|]. split; [exact HI'|].
    intros k0. rewrite A'. apply ref_run_ext. exact A1.
  - destruct (remove_correct d k HI) as (d1 & -> & HI1 & A1).
    destruct (IH d1 HI1) as (d' & Hrun & HI' & A'). exists d'. split; [exact Hrun|]. split; [exact HI'|].
    intros k0. rewrite A'. apply ref_run_ext. exact A1.
Qed.

Theorem history_correct ops :
  exists d, run ops (d_new key val) = Some d /\ Inv d /\
    (forall k, dget d k = Some (ref_run ops (fun _ => None) k)) /\
    (exists es, dentries d = Some es /\ NoDup (map fst es) /\
                (forall k v, In (k, v) es <-> ref_run ops (fun _ => None) k = Some v) /\
                dcount d = Some (Z.of_nat (length es))).
Proof.
  destruct (run_ok ops Empty Inv_empty) as (d & Hrun & HI & A).
  change (abs Empty) with (fun _ : key => @None val) in A.
  exists d. split; [exact Hrun|]. split; [exact HI|].
  split; [intros k; rewrite get_correct by assumption; now rewrite A|].
  destruct (entries_correct d HI) as (es & He & Hp & Hnd & Hin).
  exists es. split; [exact He|]. split; [exact Hnd|].
  split; [intros k v; rewrite <- A; apply Hin|].
  rewrite count_correct by assumption. now rewrite (Permutation_length Hp).
Qed.

(* `from` is the history that puts the pairs in order *)
Definition upd_pair (m : key -> option val) (p : entry) : key -> option val := upd m (fst p) (snd p).
Definition put_of (p : entry) : op := OPut (fst p) (snd p).

Lemma run_puts ps : forall d, run (map put_of ps) d = from_aux key val key_eqb hash d ps.
Proof.
  induction ps as [|[k v] t IH]; intros d; cbn [map run from_aux put_of fst snd]; [reflexivity|].
  unfold d_put. destruct (put_aux _ _ _ _ _ _ _ _ _); [apply IH|reflexivity].
Qed.

Lemma ref_run_puts ps : forall m, ref_run (map put_of ps) m = fold_left upd_pair ps m.
Proof. induction ps as [|p t IH]; intros m; cbn [map ref_run fold_left put_of]; [reflexivity|apply IH]. Qed.

Lemma from_ok ps d : Inv d ->
  exists d', from_aux key val key_eqb hash d ps = Some d' /\ Inv d' /\
             forall k, abs d' k = fold_left upd_pair ps (abs d) k.
Proof. rewrite <- run_puts, <- ref_run_puts. apply run_ok. Qed.

(* from: later pairs win *)
Theorem from_correct ps :
  exists d', dfrom ps = Some d' /\ Inv d' /\
             forall k, abs d' k = fold_left upd_pair ps (fun _ => None) k.
Proof. exact (from_ok ps Empty Inv_empty). Qed.

Lemma fold_upd_nodup es : forall m k, NoDup (map fst es) ->
  fold_left upd_pair es m k = match assoc es k with Some v => Some v | None => m k end.
Proof.
  induction es as [|[k0 v0] t IH]; intros m k Hnd; cbn [fold_left]; [reflexivity|].
  cbn [map fst] in Hnd. inversion_clear Hnd as [|? ? Hnotin Hnd'].
  rewrite (IH _ _ Hnd'). unfold assoc at 2, upd_pair, upd. cbn [bucket_get fst snd]. fold (assoc t k).
  destruct (key_eqbP k0 k) as [->|Hne].
  - now rewrite (assoc_none t k (notin_absent _ _ Hnotin)), key_eqb_refl.
  - destruct (assoc t k); [reflexivity|]. now rewrite (proj2 (key_eqb_false k k0)) by congruence.
Qed.

(* merge: b's values win on conflict *)
Theorem merge_correct a b : Inv a -> Inv b ->
  exists d', dmerge a b = Some d' /\ Inv d' /\
             forall k, abs d' k = match abs b k with Some v => Some v | None => abs a k end.
Proof.
  intros Ha Hb. destruct (entries_correct b Hb) as (es & He & Hp & Hnd & Hin).
  unfold d_merge. rewrite He.
  destruct (from_ok es a Ha) as (d' & Hfrom & HI' & Habs).
  exists d'. split; [exact Hfrom|]. split; [exact HI'|].
  intros k. rewrite Habs, (fold_upd_nodup es _ _ Hnd).
  replace (assoc es k) with (abs b k); [reflexivity|].
  apply option_ext. intros w. rewrite <- Hin. symmetry. now apply assoc_in.
Qed.

End Proofs.
