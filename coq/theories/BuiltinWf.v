(* BuiltinWf.v — vocabulary shared by the builtin correctness proofs: well-formed argument values,
   the shape of a correctness statement (`agrees`), and generic lemmas about alloc / zrange / omap /
   ofold, disjoint bit ranges and big-endian numbers (be_val / be_bytes). *)
From Quiver Require Export BuiltinSpec RopeProofs.

(* every binary inside the value is a well-formed rope *)
Fixpoint wf_bval (v : bval) : Prop :=
  match v with
  | BBin r => wf r
  | BTup fs => (fix all (l : list bval) : Prop :=
                  match l with [] => True | x :: t => wf_bval x /\ all t end) fs
  | _ => True
  end.

(* a builtin's outcome keeps the invariant and is not a panic *)
Definition wf_out (o : outcome bval) : Prop :=
  match o with Val v => wf_bval v | Err _ => True | Panic _ => False end.

(* THE correctness statement of a builtin: on every argument whose binaries are well-formed ropes
   (well-typed or not), the implementation model returns exactly what the reference spec returns on
   the flattened argument (same value up to bytes_of, same error class), it does not panic, and
   the ropes it returns are well-formed again. *)
Definition agrees (impl : bval -> outcome bval) (spec : fval -> outcome fval) : Prop :=
  forall a, wf_bval a -> flatten_out (impl a) = spec (flatten a) /\ wf_out (impl a).

(* consequence: the result depends only on the bytes of the argument binaries, not on their shape *)
Lemma agrees_shape_independent impl spec : agrees impl spec ->
  forall a1 a2, wf_bval a1 -> wf_bval a2 -> flatten a1 = flatten a2 ->
  flatten_out (impl a1) = flatten_out (impl a2).
Proof.
  intros Hag a1 a2 H1 H2 Hf. destruct (Hag a1 H1) as [E1 _]. destruct (Hag a2 H2) as [E2 _].
  rewrite E1, E2, Hf. reflexivity.
Qed.

Lemma agrees_never_panics impl spec : agrees impl spec ->
  forall a, wf_bval a -> match impl a with Panic _ => False | _ => True end.
Proof.
  intros Hag a Ha. destruct (Hag a Ha) as [_ Hw]. destruct (impl a); simpl in *; auto.
Qed.

Lemma blen_bytes_of r : wf r -> blen (bytes_of r) = rlen r.
Proof. intros H. unfold blen. symmetry. apply rlen_bytes_of; assumption. Qed.

Lemma wf_blen r : wf r -> 0 <= blen (bytes_of r) <= MAX_BINARY_SIZE.
Proof. intros H. rewrite blen_bytes_of by exact H. apply wf_rlen_bound, H. Qed.

(* Every impl_* and spec_* starts with a match on the shape of the argument whose other branches
   are Err TypeMismatch. A proof of `agrees` walks down to the one well-shaped case with the steps
   below; each closes the ill-shaped alternatives, where both sides compute to the same error.
   What is left, `flatten_out (impl a) = spec (flatten a) /\ wf_out (impl a)` at the well-shaped a,
   is a lemma of its own (`<builtin>_shaped`, in VectorProofs.v `<builtin>_good`) where it is long. *)
Ltac ill := split; [reflexivity | exact I].
Ltac d_tup a fs := destruct a as [?|?|fs|]; [ill|ill| |ill].
Ltac d_cons fs x := destruct fs as [|x fs]; [ill|].
Ltac d_nil fs := destruct fs as [|? ?]; [|ill].
Ltac d_bin x r := destruct x as [?|r|?|]; [ill| |ill|ill].
Ltac d_int x z := destruct x as [z|?|?|]; [|ill|ill|ill].

(* Every integer comparison in the goal, in the order met: decided by lia where the hypotheses
   settle it, split in two cases otherwise. The chain of range checks of an impl_* and the single
   test of its spec_* are compared this way: no contradictory case is ever entered, so in each
   case that is left both sides compute (to the same error, or to the success case). *)
Ltac zcmp :=
  repeat match goal with
  | |- context [Z.ltb ?a ?b] =>
      first [ rewrite (proj2 (Z.ltb_lt a b)) by lia | rewrite (proj2 (Z.ltb_ge a b)) by lia
            | destruct (Z.ltb_spec a b) ]; cbn [negb andb orb obind]
  | |- context [Z.leb ?a ?b] =>
      first [ rewrite (proj2 (Z.leb_le a b)) by lia | rewrite (proj2 (Z.leb_gt a b)) by lia
            | destruct (Z.leb_spec a b) ]; cbn [negb andb orb obind]
  end.

Lemma max_lt_two64 : MAX_BINARY_SIZE < two64.
Proof. unfold MAX_BINARY_SIZE, two64. lia. Qed.

Lemma in_u64_true z : 0 <= z < two64 -> in_u64 z = true.
Proof. intros H. unfold in_u64. apply andb_true_iff. split; [apply Z.leb_le | apply Z.ltb_lt]; lia. Qed.

Lemma alloc_ok r : rlen r <= MAX_BINARY_SIZE -> alloc r = Val (BBin r).
Proof.
  intros H. unfold alloc. destruct (Z.ltb_spec MAX_BINARY_SIZE (rlen r)); [lia | reflexivity].
Qed.

Lemma alloc_wf r : wf r -> alloc r = Val (BBin r).
Proof. intros H. apply alloc_ok. apply wf_rlen_bound in H. lia. Qed.

Lemma alloc_too_big r : MAX_BINARY_SIZE < rlen r -> alloc r = Err InvalidArgument.
Proof.
  intros H. unfold alloc. destruct (Z.ltb_spec MAX_BINARY_SIZE (rlen r)); [reflexivity | lia].
Qed.

Lemma alloc_bytes_ok bs : Z.of_nat (length bs) <= MAX_BINARY_SIZE -> alloc_bytes bs = Val (BBin (Owned bs)).
Proof. intros H. unfold alloc_bytes. apply alloc_ok. exact H. Qed.

Lemma alloc_concat r bs : wf r -> bytes_ok bs ->
  flatten_out (alloc (mk_concat r (Owned bs)))
  = (if rlen r + blen bs <=? MAX_BINARY_SIZE then Val (FBin (bytes_of r ++ bs)) else Err InvalidArgument)
  /\ wf_out (alloc (mk_concat r (Owned bs))).
Proof.
  intros Hr Hb. pose proof (wf_rlen_bound r Hr). unfold alloc, blen. cbn [mk_concat rlen].
  zcmp; [ill|]. split; [reflexivity|].
  apply mk_concat_wf; [exact Hr | split; [exact Hb | lia] | cbn [rlen]; lia].
Qed.

Lemma zrange_length n : length (zrange n) = Z.to_nat n.
Proof. unfold zrange. rewrite map_length, seq_length. reflexivity. Qed.

Lemma zrange_nth n i : (i < Z.to_nat n)%nat -> nth_error (zrange n) i = Some (Z.of_nat i).
Proof.
  intros H. unfold zrange. rewrite nth_error_map.
  rewrite (nth_error_nth' (seq 0 (Z.to_nat n)) 0%nat) by (rewrite seq_length; exact H).
  rewrite seq_nth by exact H. reflexivity.
Qed.

Lemma zrange_In n x : In x (zrange n) <-> 0 <= x < n.
Proof.
  unfold zrange. rewrite in_map_iff. split.
  - intros [k [<- Hk]]. apply in_seq in Hk. lia.
  - intros H. exists (Z.to_nat x). split; [lia|]. apply in_seq. lia.
Qed.

Lemma zrange_nonpos n : n <= 0 -> zrange n = [].
Proof. intros H. unfold zrange. replace (Z.to_nat n) with 0%nat by lia. reflexivity. Qed.

Lemma zrange_succ n : 0 <= n -> zrange (n + 1) = zrange n ++ [n].
Proof.
  intros H. unfold zrange. replace (Z.to_nat (n + 1)) with (S (Z.to_nat n)) by lia.
  rewrite seq_S, map_app. simpl. rewrite Z2Nat.id by lia. reflexivity.
Qed.

Lemma omap_val {A B} (f : A -> outcome B) (g : A -> B) l :
  (forall x, In x l -> f x = Val (g x)) -> omap f l = Val (map g l).
Proof.
  induction l as [|x t IH]; intros H; [reflexivity|].
  cbn [omap map]. rewrite (H x (or_introl eq_refl)). cbn [obind].
  rewrite IH by (intros y Hy; apply H; right; exact Hy). reflexivity.
Qed.

Lemma ofold_val {A S} (f : S -> A -> outcome S) (g : S -> A -> S) l s :
  (forall st x, In x l -> f st x = Val (g st x)) -> ofold f l s = Val (fold_left g l s).
Proof.
  revert s. induction l as [|x t IH]; intros s H; [reflexivity|].
  cbn [ofold fold_left]. rewrite (H s x (or_introl eq_refl)). cbn [obind].
  apply IH. intros st y Hy. apply H. right. exact Hy.
Qed.

Lemma ofold_app {A S} (f : S -> A -> outcome S) l1 l2 s :
  ofold f (l1 ++ l2) s = (s' <- ofold f l1 s ;; ofold f l2 s').
Proof.
  revert s. induction l1 as [|x t IH]; intros s; [reflexivity|].
  cbn [app ofold]. destruct (f s x); cbn [obind]; [apply IH | reflexivity..].
Qed.

(* invariant rules for `for i in 0..n` and `for i in (0..n).rev()`: I k holds of the state when k
   indices have been done (resp. remain) *)
Lemma ofold_zrange_inv {St} (f : St -> Z -> outcome St) (I : nat -> St -> Prop) n s :
  I 0%nat s ->
  (forall i st, (i < n)%nat -> I i st -> exists st', f st (Z.of_nat i) = Val st' /\ I (S i) st') ->
  exists st', ofold f (zrange (Z.of_nat n)) s = Val st' /\ I n st'.
Proof.
  intros H0 Hstep. induction n as [|n IH]; [exists s; split; [reflexivity | exact H0]|].
  destruct IH as (st & E & Hst); [intros i st Hi; apply Hstep; lia|].
  destruct (Hstep n st (Nat.lt_succ_diag_r n) Hst) as (st' & E' & Hst').
  exists st'. split; [|exact Hst'].
  rewrite Nat2Z.inj_succ, <- Z.add_1_r, zrange_succ, ofold_app, E by lia. cbn [obind ofold].
  rewrite E'. reflexivity.
Qed.

Lemma ofold_rev_zrange_inv {St} (f : St -> Z -> outcome St) (I : nat -> St -> Prop) n s :
  I n s ->
  (forall i st, (i < n)%nat -> I (S i) st -> exists st', f st (Z.of_nat i) = Val st' /\ I i st') ->
  exists st', ofold f (rev (zrange (Z.of_nat n))) s = Val st' /\ I 0%nat st'.
Proof.
  revert s. induction n as [|n IH]; intros s Hn Hstep; [exists s; split; [reflexivity | exact Hn]|].
  destruct (Hstep n s (Nat.lt_succ_diag_r n) Hn) as (st & E & Hst).
  rewrite Nat2Z.inj_succ, <- Z.add_1_r, zrange_succ, rev_app_distr by lia. cbn [rev app ofold].
  rewrite E. cbn [obind]. apply IH; [exact Hst | intros i st' Hi; apply Hstep; lia].
Qed.

Lemma nth_error_ext {A} (l1 l2 : list A) : (forall i, nth_error l1 i = nth_error l2 i) -> l1 = l2.
Proof.
  revert l2. induction l1 as [|x t IH]; intros [|y u] H.
  - reflexivity.
  - specialize (H 0%nat). discriminate.
  - specialize (H 0%nat). discriminate.
  - pose proof (H 0%nat) as H0. cbn in H0. injection H0 as ->. f_equal.
    apply IH. intros i. exact (H (S i)).
Qed.

(* a loop over the indices 0..|l|-1 that reads l[i] is a map over l *)
Lemma map_zrange_nth {B} (l : list Z) (h : Z -> B) :
  map (fun i => match nth_error l (Z.to_nat i) with Some b => h b | None => h 0 end)
      (zrange (Z.of_nat (length l))) = map h l.
Proof.
  unfold zrange. rewrite Nat2Z.id, map_map.
  apply nth_error_ext; intros i.
  rewrite !nth_error_map.
  destruct (Nat.lt_ge_cases i (length l)) as [Hi|Hi].
  - rewrite (nth_error_nth' (seq 0 (length l)) 0%nat) by (rewrite seq_length; exact Hi).
    rewrite seq_nth by exact Hi. cbn [option_map Nat.add]. rewrite Nat2Z.id.
    destruct (nth_error l i) eqn:E; [reflexivity|]. apply nth_error_None in E. lia.
  - rewrite (proj2 (nth_error_None l i)) by exact Hi.
    rewrite (proj2 (nth_error_None (seq 0 (length l)) i)) by (rewrite seq_length; exact Hi). reflexivity.
Qed.

Lemma fold_left_add_map (f : Z -> Z) l acc :
  fold_left (fun a i => a + f i) l acc = acc + fold_right Z.add 0 (map f l).
Proof.
  revert acc. induction l as [|x t IH]; intros acc; cbn [fold_left fold_right map]; [lia|].
  rewrite IH. lia.
Qed.

Lemma map2_map {A} op (f g : A -> Z) (l : list A) :
  map2 op (map f l) (map g l) = map (fun i => op (f i) (g i)) l.
Proof.
  unfold map2. induction l as [|x t IH]; [reflexivity|].
  cbn [map combine fst snd]. rewrite IH. reflexivity.
Qed.

Lemma pow2_pos k : 0 <= k -> 0 < 2 ^ k.
Proof. intros. apply Z.pow_pos_nonneg; lia. Qed.

(* bits of hi·2^k + lo *)
Lemma testbit_split hi lo k i : 0 <= k -> 0 <= lo < 2 ^ k -> 0 <= i ->
  Z.testbit (hi * 2 ^ k + lo) i = if i <? k then Z.testbit lo i else Z.testbit hi (i - k).
Proof.
  intros Hk Hlo Hi. pose proof (pow2_pos k Hk) as Hp.
  destruct (Z.ltb_spec i k) as [C|C].
  - rewrite <- (Z.mod_pow2_bits_low (hi * 2 ^ k + lo) k i) by lia.
    rewrite Z.add_comm, Z_mod_plus_full, Z.mod_small by lia. reflexivity.
  - replace i with ((i - k) + k) at 1 by lia.
    rewrite <- Z.div_pow2_bits by lia.
    rewrite Z.div_add_l by lia. rewrite Z.div_small by lia. rewrite Z.add_0_r. reflexivity.
Qed.

Lemma testbit_small x k i : 0 <= k -> 0 <= x < 2 ^ k -> k <= i -> Z.testbit x i = false.
Proof.
  intros Hk Hx Hi. rewrite <- (Z.mod_small x (2 ^ k)) by lia.
  apply Z.mod_pow2_bits_high. lia.
Qed.

Lemma lor_mul_pow2 a b k : 0 <= k -> 0 <= b < 2 ^ k -> Z.lor (a * 2 ^ k) b = a * 2 ^ k + b.
Proof.
  intros Hk Hb. apply Z.bits_inj'. intros i Hi.
  rewrite Z.lor_spec, testbit_split by lia.
  destruct (Z.ltb_spec i k) as [C|C].
  - rewrite Z.mul_pow2_bits_low by lia. reflexivity.
  - rewrite (testbit_small b k i) by lia. rewrite Z.mul_pow2_bits by lia. apply orb_false_r.
Qed.

Lemma pow256_pos m : 0 < 256 ^ Z.of_nat m.
Proof. apply Z.pow_pos_nonneg; lia. Qed.

Lemma pow256_S m : 256 ^ Z.of_nat (S m) = 256 * 256 ^ Z.of_nat m.
Proof. rewrite Nat2Z.inj_succ, Z.pow_succ_r by lia. reflexivity. Qed.

Lemma pow256_add a b : 256 ^ Z.of_nat (a + b) = 256 ^ Z.of_nat a * 256 ^ Z.of_nat b.
Proof. rewrite Nat2Z.inj_add, Z.pow_add_r by lia. reflexivity. Qed.

Lemma pow256_pow2 m : 256 ^ m = 2 ^ (8 * m).
Proof.
  destruct (Z.le_gt_cases 0 m) as [H|H].
  - rewrite Z.pow_mul_r by lia. reflexivity.
  - rewrite !Z.pow_neg_r by lia. reflexivity.
Qed.

Lemma be_val_fold acc l :
  fold_left (fun a b => a * 256 + b) l acc = acc * 256 ^ Z.of_nat (length l) + be_val l.
Proof.
  unfold be_val. revert acc. induction l as [|b l IH]; intros acc; cbn [fold_left length].
  - rewrite Z.pow_0_r. lia.
  - rewrite (IH (acc * 256 + b)), (IH (0 * 256 + b)), pow256_S. ring.
Qed.

Lemma be_val_nil : be_val [] = 0.
Proof. reflexivity. Qed.

Lemma be_val_app l1 l2 :
  be_val (l1 ++ l2) = be_val l1 * 256 ^ Z.of_nat (length l2) + be_val l2.
Proof. unfold be_val at 1. rewrite fold_left_app. fold (be_val l1). apply be_val_fold. Qed.

Lemma be_val_cons b l : be_val (b :: l) = b * 256 ^ Z.of_nat (length l) + be_val l.
Proof. unfold be_val at 1. cbn [fold_left]. rewrite be_val_fold. ring. Qed.

Lemma be_val_snoc l b : be_val (l ++ [b]) = be_val l * 256 + b.
Proof. unfold be_val. rewrite fold_left_app. reflexivity. Qed.

Lemma be_val_bound l : bytes_ok l -> 0 <= be_val l < 256 ^ Z.of_nat (length l).
Proof.
  intros H. induction H as [|b l Hb Hl IH].
  - rewrite be_val_nil. cbn [length]. rewrite Z.pow_0_r. lia.
  - rewrite be_val_cons. cbn [length]. rewrite pow256_S.
    pose proof (pow256_pos (length l)) as Hp. nia.
Qed.

Lemma be_val_repeat0 n : be_val (repeat 0 n) = 0.
Proof.
  induction n as [|n IH]; [reflexivity|]. cbn [repeat]. rewrite be_val_cons, IH. lia.
Qed.

Lemma be_val_firstn_skipn k l :
  be_val l = be_val (firstn k l) * 256 ^ Z.of_nat (length l - k) + be_val (skipn k l).
Proof.
  rewrite <- (firstn_skipn k l) at 1. rewrite be_val_app, skipn_length. reflexivity.
Qed.

Lemma be_bytes_length n v : length (be_bytes n v) = n.
Proof. induction n as [|n IH]; [reflexivity|]. cbn [be_bytes length]. rewrite IH. reflexivity. Qed.

Lemma be_bytes_ok n v : bytes_ok (be_bytes n v).
Proof.
  induction n as [|n IH]; [constructor|]. cbn [be_bytes]. constructor; [|exact IH].
  apply Z.mod_pos_bound. lia.
Qed.

(* the n digits do not see multiples of 256^n *)
Lemma be_bytes_drop n : forall c x, be_bytes n (c * 256 ^ Z.of_nat n + x) = be_bytes n x.
Proof.
  induction n as [|k IH]; intros c x; [reflexivity|].
  cbn [be_bytes]. rewrite pow256_S.
  pose proof (pow256_pos k) as Hp.
  replace (c * (256 * 256 ^ Z.of_nat k) + x) with ((c * 256) * 256 ^ Z.of_nat k + x) by ring.
  rewrite IH. f_equal.
  rewrite Z.div_add_l by lia.
  rewrite Z.add_comm. apply Z_mod_plus_full.
Qed.

Lemma be_bytes_mod n v : be_bytes n v = be_bytes n (v mod 256 ^ Z.of_nat n).
Proof.
  pose proof (pow256_pos n) as Hp.
  rewrite (Z.div_mod v (256 ^ Z.of_nat n)) at 1 by lia.
  rewrite (Z.mul_comm (256 ^ Z.of_nat n)). apply be_bytes_drop.
Qed.

Lemma be_bytes_0 n : be_bytes n 0 = repeat 0 n.
Proof.
  induction n as [|n IH]; [reflexivity|]. cbn [be_bytes repeat]. rewrite IH, Z.div_0_l.
  - reflexivity.
  - pose proof (pow256_pos n). lia.
Qed.

Lemma be_bytes_be_val l : bytes_ok l -> be_bytes (length l) (be_val l) = l.
Proof.
  intros H. induction H as [|b l Hb Hl IH]; [reflexivity|].
  cbn [length be_bytes]. rewrite be_val_cons.
  pose proof (be_val_bound l Hl) as Hv. pose proof (pow256_pos (length l)) as Hp.
  rewrite be_bytes_drop, IH. f_equal.
  rewrite Z.div_add_l by lia. rewrite (Z.div_small (be_val l)) by lia.
  rewrite Z.add_0_r. apply Z.mod_small. lia.
Qed.

(* splitting an encoding at a byte boundary *)
Lemma be_bytes_split a b X Y : 0 <= Y < 256 ^ Z.of_nat b ->
  be_bytes (a + b) (X * 256 ^ Z.of_nat b + Y) = be_bytes a X ++ be_bytes b Y.
Proof.
  intros HY. induction a as [|a IH].
  - cbn [Nat.add be_bytes app]. apply be_bytes_drop.
  - change (S a + b)%nat with (S (a + b)). cbn [be_bytes app]. rewrite IH. f_equal.
    pose proof (pow256_pos a) as Ha. pose proof (pow256_pos b) as Hb.
    rewrite Nat.add_comm, pow256_add. rewrite <- Z.div_div by lia.
    rewrite Z.div_add_l by lia. rewrite (Z.div_small Y) by lia. rewrite Z.add_0_r. reflexivity.
Qed.
