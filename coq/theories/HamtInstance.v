(* HamtInstance.v — the hypotheses of HamtProofs.v hold for the concrete instance that the
   correspondence check executes (Quiver keys, FNV-1a 32), and non-vacuity examples: concrete deep
   trees with collision buckets satisfy the invariant. *)
From Coq Require Import List ZArith Bool Lia Permutation.
From Quiver Require Import Hamt HamtBits HamtProofs.
Import ListNotations.
Open Scope Z_scope.

Lemma bytes_eqb_spec a : forall b, bytes_eqb a b = true <-> a = b.
Proof.
  induction a as [|x a IH]; intros [|y b]; cbn [bytes_eqb]; try (split; [discriminate|discriminate]); [tauto|].
  rewrite andb_true_iff, Z.eqb_eq, IH. split; [intros [-> ->]; reflexivity|intros H; inversion H; tauto].
Qed.

Lemma qkey_eqb_spec a b : qkey_eqb a b = true <-> a = b.
Proof.
  destruct a as [x|x], b as [y|y]; cbn [qkey_eqb]; try (split; [discriminate|discriminate]);
    rewrite bytes_eqb_spec; split; congruence.
Qed.

Lemma fnv_fold_range bs : forall h, 0 <= h < 2 ^ 32 ->
  0 <= fold_left (fun h b => (Z.lxor h b * 16777619) mod 2 ^ 32) bs h < 2 ^ 32.
Proof.
  induction bs as [|b bs IH]; intros h Hh; cbn [fold_left]; [exact Hh|].
  apply IH. apply Z.mod_pos_bound. reflexivity.
Qed.

Lemma qhash_range k : 0 <= qhash k < 2 ^ 32.
Proof. unfold qhash, fnv1a32. apply fnv_fold_range. split; [discriminate|reflexivity]. Qed.

Definition QInv : qdict -> Prop := Inv qkey Z qhash.
Definition qabs : qdict -> qkey -> option Z := abs qkey Z qkey_eqb.

Lemma QInv_put d k v d' : QInv d -> q_put d k v = Some d' -> QInv d'.
Proof.
  intros HI Hp. destruct (put_correct qkey Z qkey_eqb qhash qkey_eqb_spec qhash_range d k v HI) as (d'' & H1 & H2 & _).
  unfold q_put in Hp. rewrite Hp in H1. inversion H1. subst. exact H2.
Qed.

Lemma QInv_remove d k d' : QInv d -> q_remove d k = Some d' -> QInv d'.
Proof.
  intros HI Hp. destruct (remove_correct qkey Z qkey_eqb qhash qkey_eqb_spec d k HI) as (d'' & H1 & H2 & _).
  unfold q_remove in Hp. rewrite Hp in H1. inversion H1. subst. exact H2.
Qed.

(* Two binaries with the same FNV-1a 32 hash 1742542030 (found by birthday search, see
   corpus/c19_colliding_keys.txt), the Str twin of the first (same bytes, same hash, different
   key), and a binary that shares the first four 5-bit fragments with them. *)
Definition kA : qkey := KBin [0x1f; 0x63; 0x2e; 0xe1].
Definition kB : qkey := KBin [0x33; 0xf2; 0x46; 0xd8].
Definition kA' : qkey := KStr [0x1f; 0x63; 0x2e; 0xe1].
Definition kC : qkey := KBin [0x4b; 0x6e; 0x8e; 0x94; 0x2c].

Example ex_hashes : qhash kA = 1742542030 /\ qhash kB = 1742542030 /\ qhash kA' = 1742542030 /\
                    qhash kC <> 1742542030 /\ agree 4 (qhash kC) (qhash kA) /\ frag (qhash kC) 4 <> frag (qhash kA) 4.
Proof.
  split; [vm_compute; reflexivity|]. split; [vm_compute; reflexivity|]. split; [vm_compute; reflexivity|].
  split; [vm_compute; congruence|]. split; [|vm_compute; congruence].
  intros j Hj. do 4 (destruct j as [|j]; [vm_compute; reflexivity|]). lia.
Qed.

Definition ex_tree : qdict :=
  Node 16384 [Node 64 [Node 32 [Node 67108864 [Node 536871936
    [Leaf 413996238 kC 4; Collision 1742542030 [(kA, 1); (kB, 2); (kA', 3)]]]]]].

(* the model's own put builds this 5-level tree with a 3-entry collision bucket at the bottom *)
Example ex_tree_built :
  match q_put Empty kA 1 with Some d1 => match q_put d1 kB 2 with Some d2 =>
  match q_put d2 kA' 3 with Some d3 => q_put d3 kC 4 | None => None end | None => None end | None => None end
  = Some ex_tree.
Proof. vm_compute. reflexivity. Qed.

(* ... and it satisfies the invariant: Inv is not vacuous on deep trees with collision buckets *)
Example ex_tree_inv : QInv ex_tree.
Proof.
  pose proof ex_tree_built as H.
  destruct (q_put Empty kA 1) as [d1|] eqn:E1; [|discriminate].
  destruct (q_put d1 kB 2) as [d2|] eqn:E2; [|discriminate].
  destruct (q_put d2 kA' 3) as [d3|] eqn:E3; [|discriminate].
  eapply QInv_put; [|exact H]. eapply QInv_put; [|exact E3]. eapply QInv_put; [|exact E2].
  eapply QInv_put; [|exact E1]. apply Inv_empty.
Qed.

(* removing down to one bucket entry collapses the whole chain to a single Leaf; the old version
   still answers as before *)
Example ex_collapse :
  match q_remove ex_tree kC with Some d1 => match q_remove d1 kA with Some d2 =>
  match q_remove d2 kA' with Some d3 => Some (d1, d3) | None => None end | None => None end | None => None end
  = Some (Collision 1742542030 [(kA, 1); (kB, 2); (kA', 3)], Leaf 1742542030 kB 2)
  /\ q_get ex_tree kC = Some (Some 4) /\ q_get ex_tree kA' = Some (Some 3) /\ q_count ex_tree = Some 4.
Proof. vm_compute. split; [reflexivity|]. split; [reflexivity|]. split; reflexivity. Qed.
