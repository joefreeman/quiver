(* BinaryProofs.v — the binary builtins that are direct rope operations or byte-wise maps/folds
   (new, length, concat, repeat, and, or, xor, not, index, slice, popcount, hash32, hash64) agree
   with their reference specs. binary_shift is in BinaryShiftProofs.v; binary_get/set/append in
   BinaryBitsProofs.v. *)
From Quiver Require Import BuiltinWf BuiltinProofs IntBitProofs.

Theorem binary_length_correct : agrees impl_binary_length spec_binary_length.
Proof.
  intros a Ha. destruct a as [z|r|fs|]; try ill.
  cbn [impl_binary_length flatten_out flatten spec_binary_length].
  rewrite blen_bytes_of by exact Ha. ill.
Qed.

Theorem binary_new_correct : agrees impl_binary_new spec_binary_new.
Proof.
  intros a _. destruct a as [z|r|fs|]; try ill.
  cbn [impl_binary_new flatten spec_binary_new]. unfold to_usize_checked, in_u64.
  pose proof max_lt_two64 as HM.
  zcmp; try ill.
  rewrite alloc_ok by (cbn [rlen]; lia). split; [reflexivity | cbn [wf_out wf_bval wf]; lia].
Qed.

Theorem binary_concat_correct : agrees impl_binary_concat spec_binary_concat.
Proof.
  intros a Ha. d_tup a fs. d_cons fs x. d_bin x ra. d_cons fs y. d_bin y rb. d_nil fs.
  destruct Ha as (Ha & Hb & _).
  pose proof (wf_rlen_bound _ Ha) as Ba. pose proof (wf_rlen_bound _ Hb) as Bb. pose proof max_lt_two64 as HM.
  cbn [impl_binary_concat flatten map spec_binary_concat]. rewrite !blen_bytes_of by assumption.
  rewrite in_u64_true by (unfold two64, MAX_BINARY_SIZE in *; lia). cbn [negb].
  zcmp; [ill|].
  rewrite alloc_ok by (cbn [mk_concat rlen]; lia).
  split; [reflexivity | apply mk_concat_wf; assumption].
Qed.

Theorem binary_repeat_correct : agrees impl_binary_repeat spec_binary_repeat.
Proof.
  intros a Ha. d_tup a fs. d_cons fs x. d_bin x r. d_cons fs y. d_int y c. d_nil fs.
  destruct Ha as (Ha & _).
  pose proof (wf_rlen_bound _ Ha) as Ba. pose proof max_lt_two64 as HM.
  assert (Hp : 0 <= c -> 0 <= rlen r * c) by (intros; apply Z.mul_nonneg_nonneg; lia).
  cbn [impl_binary_repeat flatten map spec_binary_repeat]. rewrite !blen_bytes_of by assumption.
  unfold to_usize_checked, checked_mul_usize, in_u64.
  zcmp; try ill.
  pose proof (mk_tiled_wf r c Ha ltac:(lia) ltac:(lia)) as Hw.
  rewrite alloc_wf by exact Hw. split; [|exact Hw].
  cbn [flatten_out flatten]. rewrite mk_tiled_bytes by assumption. reflexivity.
Qed.

Lemma bitop_byte_closed (op : Z -> Z -> Z) (f : bool -> bool -> bool) :
  f false false = false ->
  (forall x y i, Z.testbit (op x y) i = f (Z.testbit x i) (Z.testbit y i)) ->
  forall x y, 0 <= x < 256 -> 0 <= y < 256 -> 0 <= op x y < 256.
Proof. intros Hf Hop x y. apply (bitop_below_pow2 op f 8 x y Hf Hop). lia. Qed.

Lemma zip_with_map2 f l1 l2 : zip_with f l1 l2 = map2 f l1 l2.
Proof.
  revert l2. induction l1 as [|x t IH]; intros [|y u]; try reflexivity.
  unfold map2 in *. cbn [zip_with combine map fst snd]. rewrite IH. reflexivity.
Qed.

Lemma map2_length f l1 l2 : length (map2 f l1 l2) = Nat.min (length l1) (length l2).
Proof. unfold map2. rewrite map_length, combine_length. reflexivity. Qed.

Lemma map2_bytes_ok f l1 l2 :
  (forall x y, 0 <= x < 256 -> 0 <= y < 256 -> 0 <= f x y < 256) ->
  bytes_ok l1 -> bytes_ok l2 -> bytes_ok (map2 f l1 l2).
Proof.
  intros Hf H1. revert l2. induction H1 as [|x t Hx Ht IH]; intros l2 H2.
  - constructor.
  - destruct H2 as [|y u Hy Hu]; [constructor|].
    unfold map2 in *. cbn [combine map fst snd]. constructor; [apply Hf; assumption | apply IH; assumption].
Qed.

Theorem binary_and_correct : agrees impl_binary_and spec_binary_and.
Proof.
  intros a Ha. d_tup a fs. d_cons fs x. d_bin x ra. d_cons fs y. d_bin y rb. d_nil fs.
  destruct Ha as (Ha & Hb & _).
  cbn [impl_binary_and flatten map spec_binary_and].
  rewrite !rope_iter_spec by assumption. rewrite zip_with_map2.
  assert (Hlen : Z.of_nat (length (map2 Z.land (bytes_of ra) (bytes_of rb))) <= MAX_BINARY_SIZE).
  { rewrite map2_length. pose proof (wf_blen _ Ha). unfold blen in *. lia. }
  rewrite alloc_bytes_ok by exact Hlen.
  split; [reflexivity|]. split; [|exact Hlen].
  apply map2_bytes_ok;
    [exact (bitop_byte_closed Z.land andb eq_refl Z.land_spec) | apply bytes_of_ok; assumption ..].
Qed.

Lemma nth_pad_to n l i : nth i (pad_to n l) 0 = nth i l 0.
Proof.
  unfold pad_to. destruct (Nat.lt_ge_cases i (length l)) as [H|H].
  - apply app_nth1; exact H.
  - rewrite app_nth2 by exact H. rewrite (nth_overflow l) by exact H.
    destruct (Nat.lt_ge_cases (i - length l) (n - length l)) as [H2|H2].
    + apply nth_repeat.
    + apply nth_overflow. rewrite repeat_length. exact H2.
Qed.

Lemma pad_to_length n l : (length l <= n)%nat -> length (pad_to n l) = n.
Proof. intros H. unfold pad_to. rewrite app_length, repeat_length. lia. Qed.

Lemma pad_to_bytes_ok n l : bytes_ok l -> bytes_ok (pad_to n l).
Proof. intros H. unfold pad_to, bytes_ok. apply Forall_app. split; [exact H|]. apply Forall_repeat_intro. lia. Qed.

Lemma pad_to_seq n l : (length l <= n)%nat -> pad_to n l = map (fun i => nth i l 0) (seq 0 n).
Proof.
  intros H. apply (nth_ext _ _ 0 (nth 0 l 0)).
  - rewrite map_length, seq_length. apply pad_to_length, H.
  - intros i Hi. rewrite pad_to_length in Hi by exact H.
    rewrite (map_nth (fun i => nth i l 0) _ 0%nat), seq_nth, nth_pad_to by exact Hi. reflexivity.
Qed.

Lemma padded_byte_val r i : wf r -> 0 <= i ->
  padded_byte r (rlen r) i = Val (nth (Z.to_nat i) (bytes_of r) 0).
Proof.
  intros Hw Hi. unfold padded_byte. destruct (Z.ltb_spec i (rlen r)) as [H|H].
  - destruct (byte_at_in_range r i Hw (conj Hi H)) as (b & E1 & E2 & _). rewrite E1.
    rewrite (nth_error_nth _ _ 0 E2). reflexivity.
  - rewrite nth_overflow; [reflexivity|]. rewrite (rlen_bytes_of _ Hw) in H. lia.
Qed.

Lemma padded_op_correct op ra rb :
  (forall x y, 0 <= x < 256 -> 0 <= y < 256 -> 0 <= op x y < 256) -> wf ra -> wf rb ->
  let n := Nat.max (length (bytes_of ra)) (length (bytes_of rb)) in
  let out := map2 op (pad_to n (bytes_of ra)) (pad_to n (bytes_of rb)) in
  padded_op op ra rb = Val (BBin (Owned out)) /\ wf (Owned out).
Proof.
  intros Hop Ha Hb n out. unfold padded_op.
  pose proof (rlen_bytes_of _ Ha) as La. pose proof (rlen_bytes_of _ Hb) as Lb.
  pose proof (wf_rlen_bound _ Ha) as Ba. pose proof (wf_rlen_bound _ Hb) as Bb.
  rewrite (omap_val _ (fun i => op (nth (Z.to_nat i) (bytes_of ra) 0) (nth (Z.to_nat i) (bytes_of rb) 0))).
  2:{ intros i Hi. apply zrange_In in Hi. rewrite !padded_byte_val by (assumption || lia). reflexivity. }
  cbn [obind].
  replace (Z.max (rlen ra) (rlen rb)) with (Z.of_nat n) by (unfold n; lia).
  unfold zrange. rewrite Nat2Z.id, map_map.
  erewrite map_ext by (intros i; rewrite Nat2Z.id; reflexivity).
  rewrite <- (map2_map op (fun i => nth i (bytes_of ra) 0) (fun i => nth i (bytes_of rb) 0)).
  rewrite <- !pad_to_seq by (unfold n; lia). fold out.
  assert (Hlen : Z.of_nat (length out) <= MAX_BINARY_SIZE).
  { unfold out. rewrite map2_length, !pad_to_length by (unfold n; lia). lia. }
  rewrite alloc_bytes_ok by exact Hlen. split; [reflexivity|].
  cbn [wf]. split; [|exact Hlen].
  apply map2_bytes_ok; [exact Hop | apply pad_to_bytes_ok, bytes_of_ok; assumption ..].
Qed.

Lemma padded_agrees op :
  (forall x y, 0 <= x < 256 -> 0 <= y < 256 -> 0 <= op x y < 256) ->
  agrees (fun a => match a with
                   | BTup [BBin ra; BBin rb] => padded_op op ra rb
                   | _ => Err TypeMismatch
                   end) (spec_padded op).
Proof.
  intros Hop a Ha. d_tup a fs. d_cons fs x. d_bin x ra. d_cons fs y. d_bin y rb. d_nil fs.
  destruct Ha as (Ha & Hb & _).
  destruct (padded_op_correct op ra rb Hop Ha Hb) as [E Hw].
  cbn [flatten map spec_padded]. rewrite E. split; [reflexivity | exact Hw].
Qed.

Theorem binary_or_correct : agrees impl_binary_or spec_binary_or.
Proof. exact (padded_agrees Z.lor (bitop_byte_closed Z.lor orb eq_refl Z.lor_spec)). Qed.

Theorem binary_xor_correct : agrees impl_binary_xor spec_binary_xor.
Proof. exact (padded_agrees Z.lxor (bitop_byte_closed Z.lxor xorb eq_refl Z.lxor_spec)). Qed.

Theorem binary_not_correct : agrees impl_binary_not spec_binary_not.
Proof.
  intros a Ha. destruct a as [z|r|fs|]; try ill.
  cbn [wf_bval] in Ha. cbn [impl_binary_not flatten spec_binary_not].
  rewrite rope_iter_spec by exact Ha.
  assert (Hlen : Z.of_nat (length (map (fun b => 255 - b) (bytes_of r))) <= MAX_BINARY_SIZE).
  { rewrite map_length. exact (proj2 (wf_blen _ Ha)). }
  rewrite alloc_bytes_ok by exact Hlen.
  split; [reflexivity|]. split; [|exact Hlen].
  pose proof (bytes_of_ok _ Ha) as Hok. unfold bytes_ok in *. rewrite Forall_map.
  eapply Forall_impl; [|exact Hok]. cbn beta. intros b Hb. lia.
Qed.

Theorem binary_index_correct : agrees impl_binary_index spec_binary_index.
Proof.
  intros a Ha. d_tup a fs. d_cons fs x. d_bin x r. d_cons fs y. d_int y bt. d_cons fs z. d_int z off.
  d_nil fs. destruct Ha as (Ha & _).
  cbn [impl_binary_index flatten map spec_binary_index].
  unfold to_u8_checked, to_usize_checked, byteb, in_u64.
  zcmp; try ill.
  rewrite find_byte_spec by assumption.
  destruct (find_from bt (bytes_of r) off); ill.
Qed.

Theorem binary_slice_correct : agrees impl_binary_slice spec_binary_slice.
Proof.
  intros a Ha. d_tup a fs. d_cons fs x. d_bin x r. d_cons fs y. d_int y s. d_cons fs z. d_int z e.
  d_nil fs. destruct Ha as (Ha & _).
  pose proof (wf_rlen_bound _ Ha) as Ba. pose proof max_lt_two64 as HM.
  cbn [impl_binary_slice flatten map spec_binary_slice]. rewrite blen_bytes_of by exact Ha.
  unfold to_usize_checked, in_u64.
  zcmp; try ill.
  destruct (mk_slice_some r s (e - s) Ha) as (x & Ex & Wx & Bx); try lia.
  rewrite Ex, alloc_wf by exact Wx. split; [|exact Wx].
  cbn [flatten_out flatten]. rewrite Bx. reflexivity.
Qed.

Lemma popcount_byte b : 0 <= b < 256 -> popcount b = bits_set b.
Proof. exact (popcount_bits 8 b). Qed.

Lemma filter_length_le {A} (f : A -> bool) l : (length (filter f l) <= length l)%nat.
Proof. induction l as [|x t IH]; cbn [filter length]; [lia|]. destruct (f x); cbn [length]; lia. Qed.

Lemma bits_set_bound b : 0 <= bits_set b <= 8.
Proof.
  unfold bits_set. pose proof (filter_length_le (fun i => Z.testbit b (Z.of_nat i)) (seq 0 8)) as H.
  rewrite seq_length in H. lia.
Qed.

Lemma fold_popcount l acc : bytes_ok l ->
  fold_left (fun acc b => acc + popcount b) l acc = acc + fold_right Z.add 0 (map bits_set l).
Proof.
  intros H. rewrite (fold_left_add_map popcount). do 2 f_equal.
  apply map_ext_in. intros b Hb. apply popcount_byte. exact (proj1 (Forall_forall _ _) H b Hb).
Qed.

Lemma sum_bits_set_bound l : 0 <= fold_right Z.add 0 (map bits_set l) <= 8 * Z.of_nat (length l).
Proof.
  induction l as [|b t IH]; cbn [map fold_right length]; [lia|].
  pose proof (bits_set_bound b). lia.
Qed.

Theorem binary_popcount_correct : agrees impl_binary_popcount spec_binary_popcount.
Proof.
  intros a Ha. destruct a as [z|r|fs|]; try ill.
  cbn [wf_bval] in Ha. cbn [impl_binary_popcount flatten spec_binary_popcount].
  rewrite rope_iter_spec by exact Ha. rewrite fold_popcount by (apply bytes_of_ok; exact Ha).
  rewrite Z.add_0_l.
  pose proof (sum_bits_set_bound (bytes_of r)) as B. pose proof (wf_blen _ Ha) as Ba.
  rewrite in_u64_true by (unfold blen, two64, MAX_BINARY_SIZE in *; lia). ill.
Qed.

Theorem binary_hash32_correct : agrees impl_binary_hash32 spec_binary_hash32.
Proof.
  intros a Ha. destruct a as [z|r|fs|]; try ill.
  cbn [wf_bval] in Ha. cbn [impl_binary_hash32 flatten spec_binary_hash32].
  rewrite rope_iter_spec by exact Ha. ill.
Qed.

Theorem binary_hash64_correct : agrees impl_binary_hash64 spec_binary_hash64.
Proof.
  intros a Ha. destruct a as [z|r|fs|]; try ill.
  cbn [wf_bval] in Ha. cbn [impl_binary_hash64 flatten spec_binary_hash64].
  rewrite rope_iter_spec by exact Ha. ill.
Qed.

Example binary_examples :
  wf_bval (BTup [BBin (Concat (Slice (Owned [1;2;3;4;5]) 1 3) (Tiled (Owned [7;0]) 2) 7); BInt 0; BInt 2]) /\
  flatten_out (impl_binary_index (BTup [BBin (Concat (Slice (Owned [1;2;3;4;5]) 1 3) (Tiled (Owned [7;0]) 2) 7); BInt 0; BInt 2]))
    = Val (FInt 4) /\
  flatten_out (impl_binary_xor (BTup [BBin (Zeroed 3); BBin (Owned [255])])) = Val (FBin [255;0;0]) /\
  flatten_out (impl_binary_hash32 (BBin (Owned [97]))) = Val (FInt 3826002220).
Proof.
  split.
  - cbn [wf_bval wf rlen]. unfold bytes_ok, MAX_BINARY_SIZE. cbn [length].
    repeat split; try lia; repeat constructor; lia.
  - vm_compute. repeat split; reflexivity.
Qed.
