(* NumProofs.v — theorems about the rational kernel and the exported operations of the %num model
   (Num.v) on integer / rational operands.  The surd kernel is in NumSurd.v. *)
From Coq Require Import QArith Qabs Lia Lqa ZArith Znumtheory.
From Quiver Require Import Base Num.
Open Scope Z_scope.

Definition canon (r : rat) : Prop := let '(Rat n d) := r in 0 < d /\ Z.gcd n d = 1.
(* the value of a rational with positive denominator, in Coq's Q *)
Definition qval (r : rat) : Q := let '(Rat n d) := r in Qmake n (Z.to_pos d).
Definition wfc (c : coeff) : Prop := canon (to_rational c).
Definition cq (c : coeff) : Q := qval (to_rational c).
Definition is_int (c : coeff) : Prop := match c with CInt _ => True | CRat _ _ => False end.

(* o returns the well-formed coefficient of value v, an integer exactly when K: the kind rule of
   num.qv's header (integers stay integers, a rational operand gives a Rational) *)
Definition computes (o : outcome opt) (v : Q) (K : Prop) : Prop :=
  exists r, o = Val (Some (NC r)) /\ wfc r /\ cq r == v /\ (is_int r <-> K).

Lemma wfc_int z : wfc (CInt z).
Proof. split; [lia | apply Z.gcd_1_r]. Qed.

Lemma cq_int z : cq (CInt z) = inject_Z z.
Proof. reflexivity. Qed.

Lemma wfc_rat n d : wfc (CRat n d) = canon (Rat n d).
Proof. reflexivity. Qed.

Lemma wfc_den x m d : wfc x -> to_rational x = Rat m d -> 0 < d.
Proof. unfold wfc. intros Hx E. rewrite E in Hx. apply Hx. Qed.

(* inject_Z_plus / inject_Z_mult up to Qeq, the form the integer hypothesis of arith_coeff takes *)
Lemma inject_Z_add a b : inject_Z (a + b) == inject_Z a + inject_Z b.
Proof. now rewrite inject_Z_plus. Qed.
Lemma inject_Z_sub a b : inject_Z (a - b) == inject_Z a - inject_Z b.
Proof. unfold Z.sub. now rewrite inject_Z_plus, inject_Z_opp. Qed.
Lemma inject_Z_mul a b : inject_Z (a * b) == inject_Z a * inject_Z b.
Proof. now rewrite inject_Z_mult. Qed.

Lemma qval_div n d : 0 < d -> qval (Rat n d) == inject_Z n / inject_Z d.
Proof. intros Hd. unfold qval. now rewrite Qmake_Qdiv, Z2Pos.id. Qed.

Lemma qval_eq a b c d : 0 < b -> 0 < d -> (qval (Rat a b) == qval (Rat c d) <-> a * d = c * b).
Proof. intros Hb Hd. unfold qval, Qeq. cbn [Qnum Qden]. now rewrite !Z2Pos.id. Qed.

Lemma qval_compare a b c d : 0 < b -> 0 < d ->
  (qval (Rat a b) ?= qval (Rat c d))%Q = (a * d ?= c * b).
Proof. intros Hb Hd. unfold qval, Qcompare. cbn [Qnum Qden]. now rewrite !Z2Pos.id. Qed.

Lemma qval_zero n d : qval (Rat n d) == 0 <-> n = 0.
Proof. unfold qval, Qeq. cbn [Qnum Qden]. lia. Qed.

Lemma inject_Z_nz z : z <> 0 -> ~ inject_Z z == 0.
Proof. intros H E. now apply (inject_Z_injective z 0) in E. Qed.

Lemma Qdiv_cross a b c d : b <> 0 -> d <> 0 -> a * d = c * b ->
  inject_Z a / inject_Z b == inject_Z c / inject_Z d.
Proof.
  intros Hb Hd E. apply inject_Z_nz in Hb, Hd.
  transitivity (inject_Z (a * d) / (inject_Z b * inject_Z d))%Q.
  - rewrite inject_Z_mult. now field.
  - rewrite E, inject_Z_mult. now field.
Qed.

Lemma canon_qval_unique x y : canon x -> canon y -> qval x == qval y -> x = y.
Proof.
  destruct x as [a b], y as [c d]. intros [Hb Gb] [Hd Gd] E. apply (qval_eq a b c d Hb Hd) in E.
  assert (b = d).
  { apply Z.divide_antisym_nonneg; [lia | lia | |].
    - apply Z.gauss with a; [exists c; exact E | now rewrite Z.gcd_comm].
    - apply Z.gauss with c; [exists a; now symmetry | now rewrite Z.gcd_comm]. }
  subst d. f_equal. nia.
Qed.

Definition zcmp (c : comparison) : Z := match c with Lt => -1 | Eq => 0 | Gt => 1 end.

(* integer_compare is Z.compare read as -1 / 0 / 1: every order proof below goes through this *)
Lemma bi_compare_zcmp a b : bi_compare a b = zcmp (a ?= b).
Proof. reflexivity. Qed.

Lemma bi_compare_neg a b : (bi_compare a b =? -1) = (a <? b).
Proof. rewrite bi_compare_zcmp. unfold Z.ltb. now destruct (a ?= b). Qed.
Lemma bi_compare_zero a b : (bi_compare a b =? 0) = (a =? b).
Proof. rewrite bi_compare_zcmp, (Z.eqb_compare a b). now destruct (a ?= b). Qed.
Lemma bi_compare_pos a b : (bi_compare a b =? 1) = (b <? a).
Proof. rewrite bi_compare_zcmp. unfold Z.ltb. rewrite (Z.compare_antisym a b). now destruct (a ?= b). Qed.

Lemma bi_divide_ok a b : b <> 0 -> bi_divide a b = Val (Z.quot a b).
Proof. intros H. unfold bi_divide. now destruct (Z.eqb_spec b 0). Qed.

Lemma reduce_pos f n d : 0 < d ->
  reduce_f (S f) (Rat n d) = Val (Rat (n / Z.gcd n d) (d / Z.gcd n d)).
Proof.
  intros Hd. cbn [reduce_f]. rewrite bi_compare_neg. destruct (Z.ltb_spec d 0); [lia |].
  assert (Hg : Z.gcd n d <> 0) by (rewrite Z.gcd_eq_0; lia).
  unfold bi_gcd. rewrite !bi_divide_ok by assumption. cbn [obind].
  now rewrite !Z.quot_div_exact by auto using Z.gcd_divide_l, Z.gcd_divide_r.
Qed.

Lemma reduce_neg f n d : d < 0 -> reduce_f (S f) (Rat n d) = reduce_f f (Rat (n * -1) (d * -1)).
Proof. intros Hd. cbn [reduce_f]. rewrite bi_compare_neg. now destruct (Z.ltb_spec d 0); [| lia]. Qed.

Lemma div_gcd_canon n d : 0 < d ->
  canon (Rat (n / Z.gcd n d) (d / Z.gcd n d)) /\ n / Z.gcd n d * d = n * (d / Z.gcd n d).
Proof.
  intros Hd. pose proof (Z.gcd_nonneg n d) as Hg.
  assert (Hg0 : Z.gcd n d <> 0) by (rewrite Z.gcd_eq_0; lia).
  pose proof (Z.gcd_div_gcd n d _ Hg0 eq_refl) as Eg.
  pose proof (Zdivide_Zdiv_eq (Z.gcd n d) n ltac:(lia) (Z.gcd_divide_l n d)) as En.
  pose proof (Zdivide_Zdiv_eq (Z.gcd n d) d ltac:(lia) (Z.gcd_divide_r n d)) as Ed.
  set (g := Z.gcd n d) in *. set (n' := n / g) in *. set (d' := d / g) in *. clearbody n' d' g.
  split; [split; [nia | exact Eg] | rewrite En, Ed; ring].
Qed.

(* the self tail call happens only for a negative denominator, and then once: fuel 2 suffices *)
Lemma reduce_spec n d : d <> 0 ->
  exists n' d', reduce (Rat n d) = Val (Rat n' d') /\ canon (Rat n' d') /\ n' * d = n * d'.
Proof.
  intros Hd. unfold reduce. destruct (Z.ltb_spec d 0) as [Hneg|Hpos].
  - rewrite reduce_neg, reduce_pos by lia. destruct (div_gcd_canon (n * -1) (d * -1)) as [C X]; [lia |].
    eexists _, _. split; [reflexivity |]. split; [exact C | lia].
  - rewrite reduce_pos by lia. destruct (div_gcd_canon n d) as [C X]; [lia |].
    eexists _, _. split; [reflexivity |]. split; [exact C | exact X].
Qed.

Definition yields (o : outcome rat) (v : Q) : Prop := exists r, o = Val r /\ canon r /\ qval r == v.

Lemma reduce_yields n d v : d <> 0 -> inject_Z n / inject_Z d == v -> yields (reduce (Rat n d)) v.
Proof.
  intros Hd V. destruct (reduce_spec n d Hd) as (n' & d' & E & C & X).
  exists (Rat n' d'). split; [exact E |]. split; [exact C |].
  destruct C as [Hd' _]. rewrite <- V, qval_div by assumption. apply Qdiv_cross; [lia | assumption | exact X].
Qed.

Lemma reduce_value n d r : d <> 0 -> reduce (Rat n d) = Val r ->
  canon r /\ qval r == inject_Z n / inject_Z d.
Proof.
  intros Hd E. destruct (reduce_yields n d _ Hd (Qeq_refl _)) as (r' & E' & H).
  rewrite E in E'. now injection E' as ->.
Qed.

Lemma reduce_canon_id r : canon r -> reduce r = Val r.
Proof.
  destruct r as [n d]. intros [Hd G]. unfold reduce. now rewrite reduce_pos, G, !Z.div_1_r.
Qed.

(* Consume a result `exists r, o = Val r /\ P r` about the head `o` of the goal's chain of binds:
   name the value r, split P r by the pattern, and move on to the continuation. *)
Tactic Notation "step" constr(H) "as" ident(r) simple_intropattern(p) :=
  let E := fresh "E" in destruct H as (r & E & p); rewrite E; clear E; cbn [obind].

Lemma radd_spec x y : canon x -> canon y -> yields (radd x y) (qval x + qval y).
Proof.
  destruct x as [a b], y as [c d]. intros [Hb _] [Hd _]. apply reduce_yields; [nia |].
  rewrite <- qval_div by nia. unfold qval, Qplus, Qeq. cbn [Qnum Qden].
  rewrite Pos2Z.inj_mul, !Z2Pos.id by nia. ring.
Qed.

Lemma rsub_spec x y : canon x -> canon y -> yields (rsub x y) (qval x - qval y).
Proof.
  destruct x as [a b], y as [c d]. intros [Hb _] [Hd _]. apply reduce_yields; [nia |].
  rewrite <- qval_div by nia. unfold qval, Qminus, Qplus, Qopp, Qeq. cbn [Qnum Qden].
  rewrite Pos2Z.inj_mul, !Z2Pos.id by nia. ring.
Qed.

Lemma rmul_spec x y : canon x -> canon y -> yields (rmul x y) (qval x * qval y).
Proof.
  destruct x as [a b], y as [c d]. intros [Hb _] [Hd _]. apply reduce_yields; [nia |].
  rewrite <- qval_div by nia. unfold qval, Qmult, Qeq. cbn [Qnum Qden].
  rewrite Pos2Z.inj_mul, !Z2Pos.id by nia. ring.
Qed.

Lemma rneg_spec x : canon x -> yields (rneg x) (- qval x).
Proof.
  destruct x as [a b]. intros [Hb _]. apply reduce_yields; [lia |].
  rewrite <- qval_div by lia. unfold qval, Qopp, Qeq. cbn [Qnum Qden]. ring.
Qed.

(* the denominator b*c may be negative here: this is where reduce's first clause is needed *)
Lemma rquot_spec x y : canon x -> canon y -> ~ qval y == 0 -> yields (rquot x y) (qval x / qval y).
Proof.
  destruct x as [a b], y as [c d]. intros [Hb _] [Hd _] Hnz. rewrite qval_zero in Hnz.
  apply reduce_yields; [nia |]. rewrite !qval_div, !inject_Z_mult by assumption.
  field. repeat split; apply inject_Z_nz; lia.
Qed.

Lemma rcompare_spec x y : canon x -> canon y -> rcompare x y = zcmp (qval x ?= qval y)%Q.
Proof.
  destruct x as [a b], y as [c d]. intros [Hb _] [Hd _]. unfold rcompare.
  now rewrite bi_compare_zcmp, qval_compare.
Qed.

Lemma rsign_spec x : rsign x = zcmp (qval x ?= 0)%Q.
Proof.
  destruct x as [a b]. unfold rsign, qval, Qcompare. cbn [Qnum Qden].
  now rewrite bi_compare_zcmp, Z.mul_1_r.
Qed.

Lemma nil_propagates_unary :
  neg None = Val None /\ abs None = Val None /\ sign None = Val None /\ sqrt None = Val None /\
  numer None = Val None /\ denom None = Val None /\ to_int None = Val None /\ floor None = Val None /\
  ceil None = Val None /\ round None = Val None.
Proof. repeat split; reflexivity. Qed.

Lemma nil_propagates_left :
  forall y z, add None y = Val None /\ sub None y = Val None /\ mul None y = Val None /\ div None y = Val None /\
    min None y = Val None /\ max None y = Val None /\ clamp None y z = Val None /\
    eqp None y = Val false /\ ltp None y = Val false /\ lep None y = Val false /\
    gtp None y = Val false /\ gep None y = Val false.
Proof. intros. repeat split; reflexivity. Qed.

(* the clauses for a nil right operand come after patterns that inspect the left one *)
Lemma arith_nil_r sop rop iop x : arith sop rop iop x None = Val None.
Proof. now destruct x as [[[]|]|]. Qed.
Lemma div_nil_r x : div x None = Val None.
Proof. now destruct x as [[|]|]. Qed.
Lemma compare_nil_r x : compare x None = Val None.
Proof. now destruct x as [[[]|]|]. Qed.

Lemma nil_propagates_right :
  forall x z, add x None = Val None /\ sub x None = Val None /\ mul x None = Val None /\ div x None = Val None /\
    min x None = Val None /\ max x None = Val None /\ clamp x None z = Val None /\ clamp x z None = Val None /\
    eqp x None = Val false /\ ltp x None = Val false /\ lep x None = Val false /\
    gtp x None = Val false /\ gep x None = Val false.
Proof.
  intros x z. unfold add, sub, mul, eqp, ltp, lep, gtp, gep, pred.
  rewrite !arith_nil_r, div_nil_r, compare_nil_r. now destruct x, z.
Qed.

Lemma arith_coeff sop rop iop (qop : Q -> Q -> Q) x y :
  (forall a b, canon a -> canon b -> yields (rop a b) (qop (qval a) (qval b))) ->
  (forall a b, inject_Z (iop a b) == qop (inject_Z a) (inject_Z b)) ->
  wfc x -> wfc y ->
  computes (arith sop rop iop (Some (NC x)) (Some (NC y))) (qop (cq x) (cq y)) (is_int x /\ is_int y).
Proof.
  intros Hrop Hiop Hx Hy. pose proof (Hrop _ _ Hx Hy) as H.
  destruct x as [a|a b], y as [c|c d]; cbn [arith to_rational] in *.
  1: { exists (CInt (iop a c)). split; [reflexivity |]. split; [apply wfc_int |]. split; [apply Hiop | cbn; tauto]. }
  all: step H as r [C V]; destruct r as [n' d']; exists (CRat n' d');
    (split; [reflexivity |]); (split; [exact C |]); (split; [exact V | cbn; tauto]).
Qed.

Lemma add_coeff x y : wfc x -> wfc y ->
  computes (add (Some (NC x)) (Some (NC y))) (cq x + cq y) (is_int x /\ is_int y).
Proof. apply arith_coeff; [apply radd_spec | apply inject_Z_add]. Qed.
Lemma sub_coeff x y : wfc x -> wfc y ->
  computes (sub (Some (NC x)) (Some (NC y))) (cq x - cq y) (is_int x /\ is_int y).
Proof. apply arith_coeff; [apply rsub_spec | apply inject_Z_sub]. Qed.
Lemma mul_coeff x y : wfc x -> wfc y ->
  computes (mul (Some (NC x)) (Some (NC y))) (cq x * cq y) (is_int x /\ is_int y).
Proof. apply arith_coeff; [apply rmul_spec | apply inject_Z_mul]. Qed.

Lemma add_int a b : add (Some (NInt a)) (Some (NInt b)) = Val (Some (NInt (a + b))).
Proof. reflexivity. Qed.
Lemma sub_int a b : sub (Some (NInt a)) (Some (NInt b)) = Val (Some (NInt (a - b))).
Proof. reflexivity. Qed.
Lemma mul_int a b : mul (Some (NInt a)) (Some (NInt b)) = Val (Some (NInt (a * b))).
Proof. reflexivity. Qed.

Lemma div_coeff x y : wfc x -> wfc y ->
  (cq y == 0 -> div (Some (NC x)) (Some (NC y)) = Val None) /\
  (~ cq y == 0 -> exists n d, div (Some (NC x)) (Some (NC y)) = Val (Some (NRat n d)) /\
                             canon (Rat n d) /\ qval (Rat n d) == cq x / cq y).
Proof.
  unfold cq, wfc. cbn [div]. destruct (to_rational x) as [a b], (to_rational y) as [c d]. intros Hx Hy.
  split; intros Hc; pose proof Hc as Hc'; rewrite qval_zero in Hc'.
  - now subst c.
  - destruct (Z.eqb_spec c 0); [contradiction |].
    change (reduce (Rat (a * d) (b * c))) with (rquot (Rat a b) (Rat c d)).
    step (rquot_spec _ _ Hx Hy Hc) as r [C V]. destruct r as [n' d']. now exists n', d'.
Qed.

Lemma compare_coeff x y : wfc x -> wfc y ->
  compare (Some (NC x)) (Some (NC y)) = Val (Some (zcmp (cq x ?= cq y)%Q)).
Proof.
  intros Hx Hy. unfold cq.
  destruct x as [a|a b], y as [c|c d], Hx as [Hb _], Hy as [Hd _]; cbn [compare to_rational] in *;
    rewrite qval_compare by assumption; unfold rcompare; now rewrite bi_compare_zcmp, ?Z.mul_1_r.
Qed.

Lemma sign_coeff x : wfc x -> sign (Some (NC x)) = Val (Some (zcmp (cq x ?= 0)%Q)).
Proof. intros Hx. apply compare_coeff; [exact Hx | apply wfc_int]. Qed.

Lemma preds_coeff x y : wfc x -> wfc y ->
  let X := Some (NC x) in let Y := Some (NC y) in
  (exists b, eqp X Y = Val b /\ (b = true <-> cq x == cq y)) /\
  (exists b, ltp X Y = Val b /\ (b = true <-> (cq x < cq y)%Q)) /\
  (exists b, lep X Y = Val b /\ (b = true <-> (cq x <= cq y)%Q)) /\
  (exists b, gtp X Y = Val b /\ (b = true <-> (cq y < cq x)%Q)) /\
  (exists b, gep X Y = Val b /\ (b = true <-> (cq y <= cq x)%Q)).
Proof.
  intros Hx Hy X Y. unfold eqp, ltp, lep, gtp, gep, pred, X, Y.
  rewrite compare_coeff by assumption. cbn [obind].
  destruct (Qcompare_spec (cq x) (cq y)); cbn; repeat split; eexists; (split; [reflexivity |]);
    split; intros; try reflexivity; try discriminate; lra.
Qed.

Lemma neg_coeff x : wfc x -> computes (neg (Some (NC x))) (- cq x) (is_int x).
Proof.
  intros Hx. destruct x as [a|a b].
  - exists (CInt (a * -1)). split; [reflexivity |]. split; [apply wfc_int |]. split; [| cbn; tauto].
    rewrite !cq_int, <- inject_Z_opp. f_equiv. lia.
  - cbn [neg]. change (reduce (Rat (a * -1) b)) with (rneg (Rat a b)).
    step (rneg_spec (Rat a b) Hx) as r [C V]. destruct r as [n' d']. exists (CRat n' d').
    split; [reflexivity |]. split; [exact C |]. split; [exact V | cbn; tauto].
Qed.

Lemma abs_coeff x : wfc x -> computes (abs (Some (NC x))) (Qabs (cq x)) (is_int x).
Proof.
  intros Hx. destruct x as [a|a b].
  - exists (CInt (Z.abs a)). split; [reflexivity |]. split; [apply wfc_int |]. split; [reflexivity | cbn; tauto].
  - exists (CRat (Z.abs a) b). split; [reflexivity |]. destruct Hx as [Hb G].
    split; [split; [exact Hb | now rewrite Z.gcd_abs_l] |]. split; [reflexivity | cbn; tauto].
Qed.

Lemma numer_denom_coeff x : wfc x ->
  exists n d, numer (Some (NC x)) = Val (Some n) /\ denom (Some (NC x)) = Val (Some d) /\
              0 < d /\ Z.gcd n d = 1 /\ cq x == inject_Z n / inject_Z d.
Proof.
  intros Hx. unfold cq.
  destruct x as [a|a b]; [exists a, 1 | exists a, b]; destruct Hx as [Hd G];
    (repeat split; try assumption); now apply qval_div.
Qed.

Lemma min_coeff x y : wfc x -> wfc y ->
  exists r, min (Some (NC x)) (Some (NC y)) = Val (Some (NC r)) /\ (r = x \/ r = y) /\
            (cq r <= cq x)%Q /\ (cq r <= cq y)%Q.
Proof.
  intros Hx Hy. unfold min. rewrite compare_coeff by assumption. cbn [obind].
  destruct (Qcompare_spec (cq x) (cq y)); cbn [zcmp]; eexists; (split; [reflexivity |]);
    (split; [auto |]); split; lra.
Qed.

Lemma max_coeff x y : wfc x -> wfc y ->
  exists r, max (Some (NC x)) (Some (NC y)) = Val (Some (NC r)) /\ (r = x \/ r = y) /\
            (cq x <= cq r)%Q /\ (cq y <= cq r)%Q.
Proof.
  intros Hx Hy. unfold max. rewrite compare_coeff by assumption. cbn [obind].
  destruct (Qcompare_spec (cq x) (cq y)); cbn [zcmp]; eexists; (split; [reflexivity |]);
    (split; [auto |]); split; lra.
Qed.

Lemma clamp_coeff x lo hi : wfc x -> wfc lo -> wfc hi -> (cq lo <= cq hi)%Q ->
  exists r, clamp (Some (NC x)) (Some (NC lo)) (Some (NC hi)) = Val (Some (NC r)) /\
            (r = x \/ r = lo \/ r = hi) /\ (cq lo <= cq r)%Q /\ (cq r <= cq hi)%Q /\
            ((cq lo <= cq x)%Q -> (cq x <= cq hi)%Q -> r = x).
Proof.
  intros Hx Hlo Hhi Hle. unfold clamp. rewrite !compare_coeff by assumption. cbn [obind].
  destruct (Qcompare_spec (cq x) (cq lo)); cbn [zcmp obind];
    [destruct (Qcompare_spec (cq x) (cq hi)) | | destruct (Qcompare_spec (cq x) (cq hi))];
    cbn [zcmp]; eexists; (split; [reflexivity |]); (split; [auto |]);
    (split; [lra |]); (split; [lra |]); intros; (reflexivity || lra).
Qed.

Lemma to_int_coeff x m d : wfc x -> to_rational x = Rat m d ->
  to_int (Some (NC x)) = Val (Some (Z.quot m d)).
Proof.
  intros Hx E. pose proof (wfc_den x m d Hx E). cbn [to_int]. rewrite E, bi_divide_ok by lia. reflexivity.
Qed.

Lemma compare_coeff_int x m d t : wfc x -> to_rational x = Rat m d ->
  compare (Some (NC x)) (Some (NInt t)) = Val (Some (zcmp (m ?= t * d))).
Proof.
  intros Hx E. pose proof (wfc_den x m d Hx E). unfold NInt. rewrite compare_coeff by auto using wfc_int.
  unfold cq. rewrite E. cbn [to_rational]. rewrite qval_compare by lia. now rewrite Z.mul_1_r.
Qed.

Lemma div_between m d q : 0 < d -> q * d <= m < (q + 1) * d -> m / d = q.
Proof. intros Hd H. symmetry. apply (Z.div_unique m d q (m - q * d)); lia. Qed.

(* floor and ceiling from truncation: the sign of the remainder shows in comparing m with t*d *)
Lemma quot_floor_ceil m d : 0 < d -> let t := Z.quot m d in
  m / d = match m ?= t * d with Lt => t - 1 | _ => t end /\
  - (- m / d) = match m ?= t * d with Gt => t + 1 | _ => t end.
Proof.
  intros Hd t. pose proof (Z.quot_rem' m d) as Hqr. pose proof (Z.rem_bound_abs m d ltac:(lia)) as Hb.
  fold t in Hqr. destruct (Z.compare_spec m (t * d)); split; try (apply div_between; lia).
  - rewrite (div_between (- m) d (- t)); lia.
  - rewrite (div_between (- m) d (- t)); lia.
  - rewrite (div_between (- m) d (- (t + 1))); lia.
Qed.

Lemma floor_coeff x m d : wfc x -> to_rational x = Rat m d ->
  floor (Some (NC x)) = Val (Some (m / d)).
Proof.
  intros Hx E. unfold floor. rewrite (to_int_coeff x m d Hx E). cbn [obind optz_num option_map].
  rewrite (compare_coeff_int x m d _ Hx E), (proj1 (quot_floor_ceil m d (wfc_den x m d Hx E))).
  now destruct (m ?= _).
Qed.

Lemma ceil_coeff x m d : wfc x -> to_rational x = Rat m d ->
  ceil (Some (NC x)) = Val (Some (- ((- m) / d))).
Proof.
  intros Hx E. unfold ceil. rewrite (to_int_coeff x m d Hx E). cbn [obind optz_num option_map].
  rewrite (compare_coeff_int x m d _ Hx E), (proj2 (quot_floor_ceil m d (wfc_den x m d Hx E))).
  now destruct (m ?= _).
Qed.

Lemma floor_ceil_bounds m d : 0 < d ->
  (m / d) * d <= m < (m / d + 1) * d /\ (- ((- m) / d) - 1) * d < m <= - ((- m) / d) * d.
Proof.
  intros Hd. pose proof (Z.div_mod m d ltac:(lia)). pose proof (Z.mod_pos_bound m d Hd).
  pose proof (Z.div_mod (- m) d ltac:(lia)). pose proof (Z.mod_pos_bound (- m) d Hd). nia.
Qed.

Lemma gcd_odd_2 f : Z.gcd (f * 2 + 1) 2 = 1.
Proof. now rewrite Z.gcd_comm, Z.add_comm, Z.gcd_add_mult_diag_r. Qed.

(* round: nearest integer, ties away from zero *)
Lemma round_coeff x m d : wfc x -> to_rational x = Rat m d ->
  exists r, round (Some (NC x)) = Val (Some r) /\
            2 * Z.abs (m - r * d) <= d /\ (2 * Z.abs (m - r * d) = d -> Z.abs m < Z.abs (r * d)).
Proof.
  intros Hx E. pose proof (wfc_den x m d Hx E) as Hd.
  unfold round. rewrite (floor_coeff x m d Hx E). cbn [obind need_int].
  destruct (floor_ceil_bounds m d Hd) as [[Hf1 Hf2] _].
  set (f := m / d) in *.
  assert (Hmid : wfc (CRat (f * 2 + 1) 2)) by (split; [lia | apply gcd_odd_2]).
  unfold NRat. rewrite !compare_coeff by assumption. cbn [obind].
  unfold cq. rewrite E. cbn [to_rational]. rewrite qval_compare by lia.
  destruct (Z.compare_spec (m * 2) ((f * 2 + 1) * d)); cbn [zcmp].
  - (* a tie: away from zero, by the sign of the floor *)
    rewrite bi_compare_neg. destruct (Z.ltb_spec f 0); eexists; (split; [reflexivity |]);
      split; [lia | nia | lia | nia].
  - exists f. split; [reflexivity |]. split; lia.
  - exists (f + 1). split; [reflexivity |]. split; lia.
Qed.

(* Field and order laws come through the value map: two coefficients of equal value and kind are equal. *)
Lemma coeff_unique r1 r2 : wfc r1 -> wfc r2 -> (is_int r1 <-> is_int r2) -> cq r1 == cq r2 -> r1 = r2.
Proof.
  intros W1 W2 K V. destruct r1 as [a|a b], r2 as [c|c d]; cbn in K; try tauto.
  - rewrite !cq_int in V. apply (proj1 (inject_Z_injective a c)) in V. congruence.
  - pose proof (canon_qval_unique (Rat a b) (Rat c d) W1 W2 V) as E. congruence.
Qed.

(* obind at type opt, so that the laws below read without binders *)
Definition andthen (o : outcome opt) (f : opt -> outcome opt) : outcome opt := r <- o ;; f r.

Section ArithLaws.
  Variables (sop : num -> num -> outcome (option num)) (rop : rat -> rat -> outcome rat)
            (iop : Z -> Z -> Z) (qop : Q -> Q -> Q).
  Hypothesis Hrop : forall a b, canon a -> canon b -> yields (rop a b) (qop (qval a) (qval b)).
  Hypothesis Hiop : forall a b, inject_Z (iop a b) == qop (inject_Z a) (inject_Z b).
  Context (Hq : Proper (Qeq ==> Qeq ==> Qeq) qop).
  Let op_coeff x y := arith_coeff sop rop iop qop x y Hrop Hiop.

  Lemma arith_comm_coeff : (forall a b, qop a b == qop b a) -> forall x y, wfc x -> wfc y ->
    arith sop rop iop (Some (NC x)) (Some (NC y)) = arith sop rop iop (Some (NC y)) (Some (NC x)).
  Proof.
    intros Hc x y Hx Hy.
    step (op_coeff x y Hx Hy) as r1 (W1 & V1 & K1). step (op_coeff y x Hy Hx) as r2 (W2 & V2 & K2).
    do 3 f_equal. apply coeff_unique; [assumption | assumption | tauto | rewrite V1, V2; apply Hc].
  Qed.

  Lemma arith_assoc_coeff : (forall a b c, qop a (qop b c) == qop (qop a b) c) ->
    forall x y z, wfc x -> wfc y -> wfc z ->
    andthen (arith sop rop iop (Some (NC x)) (Some (NC y))) (fun xy => arith sop rop iop xy (Some (NC z))) =
    andthen (arith sop rop iop (Some (NC y)) (Some (NC z))) (fun yz => arith sop rop iop (Some (NC x)) yz).
  Proof.
    intros Ha x y z Hx Hy Hz. unfold andthen.
    step (op_coeff x y Hx Hy) as xy (W1 & V1 & K1). step (op_coeff xy z W1 Hz) as r1 (W2 & V2 & K2).
    step (op_coeff y z Hy Hz) as yz (W3 & V3 & K3). step (op_coeff x yz Hx W3) as r2 (W4 & V4 & K4).
    do 3 f_equal. apply coeff_unique; [assumption | assumption | tauto | rewrite V2, V1, V4, V3; symmetry; apply Ha].
  Qed.
End ArithLaws.

Lemma distrib_coeff x y z : wfc x -> wfc y -> wfc z ->
  andthen (add (Some (NC y)) (Some (NC z))) (fun s => mul (Some (NC x)) s) =
  andthen (mul (Some (NC x)) (Some (NC y))) (fun p => andthen (mul (Some (NC x)) (Some (NC z))) (fun q => add p q)).
Proof.
  intros Hx Hy Hz. unfold andthen.
  step (add_coeff y z Hy Hz) as s (W1 & V1 & K1). step (mul_coeff x s Hx W1) as r1 (W2 & V2 & K2).
  step (mul_coeff x y Hx Hy) as p (W3 & V3 & K3). step (mul_coeff x z Hx Hz) as q (W4 & V4 & K4).
  step (add_coeff p q W3 W4) as r2 (W5 & V5 & K5).
  do 3 f_equal. apply coeff_unique; [assumption | assumption | tauto | rewrite V2, V1, V5, V3, V4; ring].
Qed.

Lemma sub_add_inverse_coeff x y : wfc x -> wfc y ->
  exists d r, sub (Some (NC x)) (Some (NC y)) = Val (Some (NC d)) /\
              add (Some (NC d)) (Some (NC y)) = Val (Some (NC r)) /\ cq r == cq x.
Proof.
  intros Hx Hy. destruct (sub_coeff x y Hx Hy) as (d & E1 & W1 & V1 & _).
  destruct (add_coeff d y W1 Hy) as (r & E2 & W2 & V2 & _).
  exists d, r. split; [exact E1 | split; [exact E2 |]]. rewrite V2, V1. ring.
Qed.

Lemma div_self_coeff x : wfc x -> ~ cq x == 0 ->
  div (Some (NC x)) (Some (NC x)) = Val (Some (NRat 1 1)).
Proof.
  intros Hx Hnz. destruct (proj2 (div_coeff x x Hx Hx) Hnz) as (n & d & E & C & V).
  rewrite E. enough (R : Rat n d = Rat 1 1) by now injection R as -> ->.
  apply canon_qval_unique; [exact C | exact (wfc_int 1) |]. rewrite V. change (qval (Rat 1 1)) with 1%Q. now field.
Qed.

Lemma div_mul_inverse_coeff x y : wfc x -> wfc y -> ~ cq y == 0 ->
  exists q r, div (Some (NC x)) (Some (NC y)) = Val (Some (NC q)) /\
              mul (Some (NC q)) (Some (NC y)) = Val (Some (NC r)) /\ cq r == cq x.
Proof.
  intros Hx Hy Hnz. destruct (proj2 (div_coeff x y Hx Hy) Hnz) as (n & d & E & C & V).
  destruct (mul_coeff (CRat n d) y C Hy) as (r & E2 & W2 & V2 & _).
  exists (CRat n d), r. split; [exact E | split; [exact E2 |]]. rewrite V2. fold (cq (CRat n d)) in V.
  rewrite V. now field.
Qed.

Lemma compare_total_antisym_coeff x y : wfc x -> wfc y ->
  exists c, (c = -1 \/ c = 0 \/ c = 1) /\
            compare (Some (NC x)) (Some (NC y)) = Val (Some c) /\
            compare (Some (NC y)) (Some (NC x)) = Val (Some (- c)) /\
            (c = 0 <-> cq x == cq y) /\ (c = -1 <-> (cq x < cq y)%Q) /\ (c = 1 <-> (cq y < cq x)%Q).
Proof.
  intros Hx Hy. rewrite !compare_coeff by assumption. rewrite <- (Qcompare_antisym (cq x) (cq y)).
  exists (zcmp (cq x ?= cq y)%Q).
  destruct (Qcompare_spec (cq x) (cq y)); cbn [zcmp CompOpp];
    (split; [tauto |]); (do 2 (split; [reflexivity |])); repeat split; intros; try reflexivity; try discriminate; lra.
Qed.

Lemma le_trans_coeff x y z : wfc x -> wfc y -> wfc z ->
  lep (Some (NC x)) (Some (NC y)) = Val true -> lep (Some (NC y)) (Some (NC z)) = Val true ->
  lep (Some (NC x)) (Some (NC z)) = Val true.
Proof.
  intros Hx Hy Hz H1 H2.
  destruct (preds_coeff x y Hx Hy) as (_ & _ & (b1 & E1 & I1) & _).
  destruct (preds_coeff y z Hy Hz) as (_ & _ & (b2 & E2 & I2) & _).
  destruct (preds_coeff x z Hx Hz) as (_ & _ & (b3 & E3 & I3) & _).
  rewrite E1 in H1. rewrite E2 in H2. rewrite E3. f_equal. apply I3.
  apply Qle_trans with (cq y); [apply I1 | apply I2]; congruence.
Qed.

(* literal desugaring: parser.rs reduce_rational agrees with reduce *)
Lemma lit_reduce_spec n d : 0 < d ->
  reduce (Rat n d) = Val (lit_reduce n d) /\ canon (lit_reduce n d) /\
  qval (lit_reduce n d) == inject_Z n / inject_Z d.
Proof.
  intros Hd.
  assert (E : reduce (Rat n d) = Val (lit_reduce n d)).
  { unfold reduce, lit_reduce. rewrite reduce_pos by assumption.
    destruct (Z.eqb_spec (Z.gcd n d) 0) as [G|G]; [rewrite Z.gcd_eq_0 in G; lia |].
    now rewrite !Z.quot_div_exact by auto using Z.gcd_divide_l, Z.gcd_divide_r. }
  split; [exact E |]. apply reduce_value; [lia | exact E].
Qed.
