(* SimplifyProofs.v — theorems about the model of simplify.rs (Simplify.v).
   Route to idempotence: a normal-form predicate `nf` such that
     (B) every output of strip_* is in normal form, and (A) strip_* is the identity on normal forms. *)
From Quiver Require Import Base Ast Simplify.

(* "no term of l would be spliced": the flag of the last term is `negb more` (more = terms follow l) *)
Fixpoint dn (o : options) (more : bool) (l : list term) : Prop :=
  match l with
  | [] => True
  | t :: r => should_strip o t (null r && negb more) = None /\ dn o more r
  end.

(* the shape `{ cs }`: a block with one branch and no consequence *)
Definition bare_block (cs : list chain) : term := Block (Expression [Branch (Sequence cs) None]).

Lemma null_false {A} (l : list A) : null l = false <-> l <> [].
Proof. destruct l; cbn [null]; split; intros; congruence. Qed.

Lemma null_true {A} (l : list A) : null l = true -> l = [].
Proof. destruct l; [reflexivity|discriminate]. Qed.

Lemma null_map {A B} (f : A -> B) (l : list A) : null (map f l) = null l.
Proof. destruct l; reflexivity. Qed.

Lemma null_app_ne {A} (l1 l2 : list A) : l2 <> [] -> null (l1 ++ l2) = false.
Proof. intros H. apply null_false. intros E. apply app_eq_nil in E as [_ E]. contradiction. Qed.

(* the tests of simplify.rs that look at the shape of a term all look for this one *)
Lemma bare_block_view t :
  (exists cs, t = bare_block cs) \/
  (redundant_body t = None /\ liftable_chains t = None /\ term_ends_in_tail_call t = is_tail_call t).
Proof.
  (* not a block; the shape; a block with a consequence or a second branch (the tests then still look at cs) *)
  destruct t as [| | | |[[|[[cs] [?|]] [|? ?]]]| | | | | | |];
    first [ right; repeat split; reflexivity
          | left; exists cs; reflexivity
          | destruct cs as [|[? ? ?] [|? ?]]; right; repeat split; reflexivity ].
Qed.

Lemma redundant_body_inv t body :
  redundant_body t = Some body ->
  t = bare_block [body] /\ is_inlinable_chain body = true.
Proof.
  destruct (bare_block_view t) as [[cs ->]|(Hn & _)]; [|congruence].
  destruct cs as [|c [|? ?]]; try discriminate. cbn [bare_block redundant_body].
  destruct (is_inlinable_chain c) eqn:Hin; [|discriminate]. intros [= <-]. auto.
Qed.

Lemma should_strip_inv o t b bt :
  should_strip o t b = Some bt ->
  exists body, t = bare_block [body] /\ is_inlinable_chain body = true /\
               bt = chain_terms body /\ keep o body = false /\ (ends_in_tail_call body = false \/ b = true).
Proof.
  unfold should_strip. destruct (redundant_body t) as [body|] eqn:Hr; [|discriminate].
  apply redundant_body_inv in Hr as [-> Hin].
  destruct (keep o body) eqn:Hk; [discriminate|]. cbn [negb andb].
  destruct (ends_in_tail_call body) eqn:He, b; try discriminate; intros [= <-]; exists body; repeat split; auto.
Qed.

(* the flag only ever allows more *)
Lemma should_strip_none_weaken o t : should_strip o t true = None -> should_strip o t false = None.
Proof.
  unfold should_strip. destruct (redundant_body t) as [body|]; [|reflexivity].
  destruct (keep o body); [reflexivity|]. cbn [negb andb]. rewrite orb_true_r. discriminate.
Qed.

Lemma inlinable_nonempty c : is_inlinable_chain c = true -> chain_terms c <> [].
Proof.
  unfold is_inlinable_chain. intros Hi Hn. rewrite Hn in Hi. cbn in Hi. discriminate.
Qed.

Lemma splice_null o l : null (splice o l) = null l.
Proof.
  destruct l as [|t r]; [reflexivity|]. cbn [splice].
  destruct (should_strip o t (null r)) as [bt|] eqn:Hs; [|reflexivity].
  apply should_strip_inv in Hs as (c & _ & Hin & -> & _). apply inlinable_nonempty in Hin.
  destruct (chain_terms c); [congruence|reflexivity].
Qed.

Lemma splice_cons_ne o t r : splice o (t :: r) <> [].
Proof. apply null_false. rewrite splice_null. reflexivity. Qed.

Lemma dn_weaken o l : dn o false l -> dn o true l.
Proof.
  induction l as [|t r IH]; cbn [dn]; [auto|]. intros [Hs Hr]. split; [|auto].
  rewrite andb_false_r. rewrite andb_true_r in Hs.
  destruct (null r); [apply should_strip_none_weaken; exact Hs | exact Hs].
Qed.

Lemma dn_app_ne o more l1 l2 : dn o true l1 -> dn o more l2 -> l2 <> [] -> dn o more (l1 ++ l2).
Proof.
  intros H1 H2 Hne. induction l1 as [|t r IH]; cbn [app dn]; [exact H2|].
  cbn [dn] in H1. destruct H1 as [Hs Hr]. split; [|auto].
  rewrite andb_false_r in Hs. rewrite null_app_ne by assumption. exact Hs.
Qed.

Lemma splice_id o l : dn o false l -> splice o l = l.
Proof.
  induction l as [|t r IH]; [reflexivity|]. cbn [dn splice]. intros [Hs Hr].
  rewrite andb_true_r in Hs. rewrite Hs. f_equal. auto.
Qed.

Lemma lift_chains_id o cs : Forall (fun c => should_lift o c = None) cs -> lift_chains o cs = cs.
Proof.
  induction 1 as [|c r Hc Hr IH]; [reflexivity|]. cbn [lift_chains]. rewrite Hc. f_equal. exact IH.
Qed.

(* nf_chain: the terms are normal and none would be spliced; nf_seq: the chains are normal and none would be lifted;
   nf_branch: moreover grouping leaves the consequence alone *)
Inductive nf_term (o : options) : term -> Prop :=
| nf_Literal l : nf_term o (Literal l)
| nf_Tuple n fs : Forall (nf_field o) fs -> nf_term o (Tuple n fs)
| nf_String st segs : Forall (nf_segment o) segs -> nf_term o (String st segs)
| nf_Match m : nf_term o (Match m)
| nf_Block e : nf_expr o e -> nf_term o (Block e)
| nf_FunctionNone sg : nf_term o (Function sg None)
| nf_FunctionSome sg e : nf_expr o e -> nf_term o (Function sg (Some e))
| nf_Access a : nf_term o (Access a)
| nf_Spawn t : nf_term o t -> nf_term o (Spawn t)
| nf_Self : nf_term o Self_
| nf_SelectNone : nf_term o (Select None)
| nf_SelectSome cs : Forall (nf_chain o) cs -> nf_term o (Select (Some cs))
| nf_Process n : nf_term o (Process n)
| nf_Reference a : nf_term o (Reference a)
with nf_field (o : options) : tuple_field -> Prop :=
| nf_FieldChain n c : nf_chain o c -> nf_field o (TupleField n (FChain c))
| nf_FieldSpread n m : nf_field o (TupleField n (FSpread m))
with nf_segment (o : options) : str_segment -> Prop :=
| nf_Text b : nf_segment o (Text b)
| nf_Hole e : nf_expr o e -> nf_segment o (Hole e)
with nf_chain (o : options) : chain -> Prop :=
| nf_Chain mp sp ts : Forall (nf_term o) ts -> dn o false ts -> nf_chain o (Chain mp sp ts)
with nf_seq (o : options) : sequence -> Prop :=
| nf_Sequence cs : Forall (nf_chain o) cs -> Forall (fun c => should_lift o c = None) cs ->
                   nf_seq o (Sequence cs)
with nf_branch (o : options) : branch -> Prop :=
| nf_BranchNone c : nf_seq o c -> nf_branch o (Branch c None)
| nf_BranchSome c k : nf_seq o c -> nf_seq o k ->
                      (group_consequences o = true -> group_consequence k = k) ->
                      nf_branch o (Branch c (Some k))
with nf_expr (o : options) : expression -> Prop :=
| nf_Expression bs : Forall (nf_branch o) bs -> nf_expr o (Expression bs).

Definition nf_stmt (o : options) (s : statement) : Prop :=
  match s with StmtExpression sq => nf_seq o sq | TypeAlias _ _ _ => True end.
Definition nf_program (o : options) (p : program) : Prop :=
  match p with Program stmts => Forall (nf_stmt o) stmts end.

(* a property of the chain that a field value holds, if it holds one *)
Definition on_field_chain (P : chain -> Prop) (v : field_value) : Prop :=
  match v with FChain c => P c | FSpread _ => True end.

Lemma map_fixed {A} (P : A -> Prop) (f : A -> A) (l : list A) :
  Forall (fun x => P x -> f x = x) l -> Forall P l -> map f l = l.
Proof.
  induction 1 as [|x r Hx _ IH]; intros HP; [reflexivity|]. inversion HP; subst.
  cbn [map]. rewrite Hx, IH by assumption. reflexivity.
Qed.

(* (A) strip_* is the identity on normal forms *)
Lemma nf_fixed o :
  (forall t, nf_term o t -> strip_term o t = t) /\
  (forall f, nf_field o f -> strip_field o f = f) /\
  (forall v, on_field_chain (fun c => nf_chain o c -> strip_chain o c = c) v) /\
  (forall g, nf_segment o g -> strip_segment o g = g) /\
  (forall c, nf_chain o c -> strip_chain o c = c) /\
  (forall s, nf_seq o s -> strip_sequence o s = s) /\
  (forall b, nf_branch o b -> strip_branch o b = b) /\
  (forall e, nf_expr o e -> strip_expression o e = e).
Proof.
  apply ast_mutind; try reflexivity; try (intros; exact I).
  (* left: Tuple, String, Block, Function, Spawn, Select (Some _), TupleField, FChain, Hole, Chain, Sequence, Branch,
     Expression *)
  - intros n fs IH Hnf. inversion Hnf; subst. cbn [strip_term]. f_equal. eapply map_fixed; eassumption.
  - intros st segs IH Hnf. inversion Hnf; subst. cbn [strip_term]. f_equal. eapply map_fixed; eassumption.
  - intros e IH Hnf. inversion Hnf; subst. cbn [strip_term]. f_equal. auto.
  - intros sg [e|] IH Hnf; [|reflexivity]. inversion Hnf; subst. cbn [strip_term Popt] in *.
    rewrite IH by assumption. reflexivity.
  - intros t IH Hnf. inversion Hnf; subst. cbn [strip_term]. f_equal. auto.
  - intros cs IH Hnf. inversion Hnf; subst. cbn [strip_term]. do 2 f_equal. eapply map_fixed; eassumption.
  - intros n [c|m] IH Hnf; [|reflexivity]. inversion Hnf; subst. cbn [strip_field].
    rewrite IH by assumption. reflexivity.
  - auto.
  - intros e IH Hnf. inversion Hnf; subst. cbn [strip_segment]. f_equal. auto.
  - intros mp sp ts IH Hnf. inversion Hnf; subst. cbn [strip_chain].
    rewrite (map_fixed _ _ _ IH), splice_id by assumption. reflexivity.
  - intros cs IH Hnf. inversion Hnf; subst. cbn [strip_sequence].
    rewrite (map_fixed _ _ _ IH), lift_chains_id by assumption. reflexivity.
  - intros c [k|] IHc IHk Hnf; inversion Hnf as [|? ? Hc Hk Hg]; subst; cbn [strip_branch Popt] in *.
    + rewrite IHc, IHk by assumption.
      destruct (group_consequences o); [rewrite Hg by reflexivity|]; reflexivity.
    + rewrite IHc by assumption. reflexivity.
  - intros bs IH Hnf. inversion Hnf; subst. cbn [strip_expression]. f_equal. eapply map_fixed; eassumption.
Qed.

Lemma nf_bare_block o cs : nf_term o (bare_block cs) <-> nf_seq o (Sequence cs).
Proof.
  split; [|intros H; apply nf_Block, nf_Expression; constructor; [apply nf_BranchNone, H|constructor]].
  intros H. inversion H as [| | | |? He| | | | | | | | |]; subst. inversion He as [? Hbs]; subst.
  inversion Hbs as [|? ? Hb _]; subst. inversion Hb; subst. assumption.
Qed.

Lemma nf_body o t b bt :
  nf_term o t -> should_strip o t b = Some bt -> Forall (nf_term o) bt /\ dn o false bt.
Proof.
  intros Hnf Hs. apply should_strip_inv in Hs as (c & -> & _ & -> & _).
  apply nf_bare_block in Hnf. inversion Hnf as [? Hcs _]; subst. inversion Hcs as [|? ? Hc _]; subst.
  inversion Hc; subst. split; assumption.
Qed.

Lemma splice_nf o l : Forall (nf_term o) l -> Forall (nf_term o) (splice o l) /\ dn o false (splice o l).
Proof.
  induction 1 as [|t r Ht Hr [IH1 IH2]]; [split; [constructor|exact I]|].
  cbn [splice]. destruct (should_strip o t (null r)) as [bt|] eqn:Hs.
  - destruct (nf_body o t _ bt Ht Hs) as (Hb1 & Hb2). split.
    + apply Forall_app. split; assumption.
    + destruct r as [|t2 r2].
      * cbn [splice]. rewrite app_nil_r. exact Hb2.
      * apply dn_app_ne; [apply dn_weaken; exact Hb2 | exact IH2 | apply splice_cons_ne].
  - split; [constructor; assumption|]. cbn [dn]. split; [|exact IH2].
    rewrite splice_null, andb_true_r. exact Hs.
Qed.

Lemma liftable_chains_inv t inner :
  liftable_chains t = Some inner ->
  t = bare_block inner /\ inner <> [] /\
  forallb is_frame_free_chain inner = true.
Proof.
  destruct (bare_block_view t) as [[cs ->]|(_ & Hn & _)]; [|congruence]. cbn [bare_block liftable_chains].
  destruct (negb (null cs) && forallb is_frame_free_chain cs) eqn:E; [|discriminate].
  intros [= <-]. apply andb_prop in E as [E1 E2]. apply negb_true_iff, null_false in E1. auto.
Qed.

Lemma should_lift_inv o c inner :
  should_lift o c = Some inner ->
  (exists sp, c = Chain None sp [bare_block inner]) /\
  inner <> [] /\ forallb is_frame_free_chain inner = true.
Proof.
  unfold should_lift. destruct (lift o); [|discriminate].
  destruct c as [[?|] sp [|t [|? ?]]]; try discriminate.
  intros Hs. apply liftable_chains_inv in Hs as (-> & H1 & H2). eauto.
Qed.

Lemma lift_nf o l :
  Forall (nf_chain o) l ->
  Forall (nf_chain o) (lift_chains o l) /\ Forall (fun c => should_lift o c = None) (lift_chains o l).
Proof.
  induction 1 as [|c r Hc Hr [IH1 IH2]]; [split; constructor|].
  cbn [lift_chains]. destruct (should_lift o c) as [inner|] eqn:Hs; [|split; constructor; assumption].
  apply should_lift_inv in Hs as ((sp & ->) & _).
  inversion Hc as [? ? ? Hts _]; subst. inversion Hts as [|? ? Hb _]; subst.
  apply nf_bare_block in Hb. inversion Hb; subst.
  split; apply Forall_app; split; assumption.
Qed.

Lemma group_consequence_nf o s :
  (group_consequences o = true -> lift o = false) ->
  nf_seq o s ->
  let k := if group_consequences o then group_consequence s else s in
  nf_seq o k /\ (group_consequences o = true -> group_consequence k = k).
Proof.
  intros Hcompat Hnf. destruct (group_consequences o) eqn:Hg; cbn zeta; [|split; [exact Hnf|discriminate]].
  destruct s as [cs]. cbn [group_consequence].
  destruct ((1 <? Z.of_nat (length cs)) && forallb is_frame_free_chain cs) eqn:Hcond.
  - split; [|reflexivity].
    apply andb_true_iff in Hcond as [Hlen _]. apply Z.ltb_lt in Hlen.
    (* the synthetic chain holds one block: it has several chains, so it is not redundant, and lift is off *)
    constructor; (constructor; [|constructor]).
    + constructor.
      * constructor; [|constructor]. apply nf_bare_block, Hnf.
      * cbn [dn]. split; [|exact I]. unfold should_strip, redundant_body.
        destruct cs as [|c1 [|c2 cs]]; cbn [length] in Hlen; try lia; reflexivity.
    + unfold should_lift. rewrite (Hcompat eq_refl). reflexivity.
  - split; [exact Hnf|]. intros _. cbn [group_consequence]. rewrite Hcond. reflexivity.
Qed.

(* (B) outputs are normal forms *)
Lemma strip_nf o :
  (group_consequences o = true -> lift o = false) ->
  (forall t, nf_term o (strip_term o t)) /\
  (forall f, nf_field o (strip_field o f)) /\
  (forall v, on_field_chain (fun c => nf_chain o (strip_chain o c)) v) /\
  (forall g, nf_segment o (strip_segment o g)) /\
  (forall c, nf_chain o (strip_chain o c)) /\
  (forall s, nf_seq o (strip_sequence o s)) /\
  (forall b, nf_branch o (strip_branch o b)) /\
  (forall e, nf_expr o (strip_expression o e)).
Proof.
  intros Hcompat.
  apply ast_mutind; intros; cbn [strip_term strip_segment strip_expression];
    try (constructor; try apply Forall_map; assumption).
  (* left: Function, TupleField, FChain, Chain, Sequence, Branch *)
  - destruct body; constructor. assumption.
  - destruct v; constructor. assumption.
  - assumption.
  - cbn [strip_chain]. constructor; apply splice_nf, Forall_map; assumption.
  - cbn [strip_sequence]. constructor; apply lift_nf, Forall_map; assumption.
  - destruct k as [k|]; cbn [strip_branch Popt] in *; [|constructor; assumption].
    destruct (group_consequence_nf o (strip_sequence o k) Hcompat) as [Hk1 Hk2]; [assumption|].
    constructor; assumption.
Qed.

(* The chain that grouping makes is itself liftable: with grouping and lifting both on, outputs are not `nf_seq`. *)
Lemma normalize_idempotent_gen o p :
  (group_consequences o = true -> lift o = false) ->
  normalize_blocks (normalize_blocks p o) o = normalize_blocks p o.
Proof.
  intros Hcompat. destruct p as [stmts]. cbn [normalize_blocks]. f_equal.
  rewrite map_map. apply map_ext. intros s. destruct s as [n ps ty|sq]; [reflexivity|].
  f_equal. destruct (nf_fixed o) as (_ & _ & _ & _ & _ & Hs & _).
  destruct (strip_nf o Hcompat) as (_ & _ & _ & _ & _ & Hn & _). apply Hs. apply Hn.
Qed.

Lemma normalize_idempotent_compiler p :
  normalize_blocks (normalize_blocks p compiler_options) compiler_options = normalize_blocks p compiler_options.
Proof. apply normalize_idempotent_gen. cbn. discriminate. Qed.

Lemma normalize_idempotent_formatter (k : chain -> bool) p :
  normalize_blocks (normalize_blocks p (formatter_options k)) (formatter_options k)
  = normalize_blocks p (formatter_options k).
Proof. apply normalize_idempotent_gen. cbn. reflexivity. Qed.

Definition tail := Access (mkAccess (Some (TailCall None)) []).
Definition lit (n : Z) := Literal (Integer n).
(* the body of `f = #'int { $ { 1 { /*kept: span 27*/ 2 ^ } } 3 }` (finding F19) *)
Definition f19_program : program :=
  Program [StmtExpression (Sequence [Chain None (Some 12)
    [Access (mkAccess (Some ParameterSrc) []);
     Block (Expression [Branch (Sequence [Chain None (Some 16)
       [lit 1; Block (Expression [Branch (Sequence [Chain None (Some 27) [lit 2; tail]]) None])]]) None]);
     lit 3]])].
Definition keep27 : chain -> bool := keep_by_span (fun off => off =? 27).

(* Finding F19: the test `is_tail_call (last body)` does not see the body `1 { 2 ^ }` of the outer block as ending in a
   tail call, so with it the formatter splices the outer block in a non-final position although the compiler keeps
   it; `ends_in_tail_call` looks through the kept block. *)
Definition f19_outer_body : chain :=
  Chain None (Some 16) [lit 1; Block (Expression [Branch (Sequence [Chain None (Some 27) [lit 2; tail]]) None])].
Example f19_pre_repair_test_missed_it :
  ends_in_tail_call_pre_repair f19_outer_body = false /\ ends_in_tail_call f19_outer_body = true.
Proof. split; vm_compute; reflexivity. Qed.

(* the F19 witness: formatter-normalisation followed by the compiler's equals the compiler's alone *)
Example f19_repaired :
  normalize_blocks (normalize_blocks f19_program (formatter_options keep27)) compiler_options
  = normalize_blocks f19_program compiler_options.
Proof. vm_compute. reflexivity. Qed.

(* non-vacuity: a program on which both option sets do change something (redundant block stripped, multi-step
   block lifted by the compiler / kept by the formatter, compound consequence grouped by the formatter) *)
Definition ex_program : program :=
  Program [StmtExpression (Sequence
    [Chain None (Some 0) [lit 5; Block (Expression [Branch (Sequence [Chain None (Some 4) [lit 6; lit 7]]) None])];
     Chain None (Some 20) [Block (Expression [Branch (Sequence [Chain None (Some 22) [lit 1]; Chain None (Some 25) [lit 2]]) None])];
     Chain None (Some 40) [lit 0; Block (Expression
        [Branch (Sequence [Chain None (Some 44) [Match (SxAtom 0)]])
                (Some (Sequence [Chain None (Some 50) [lit 8]; Chain None (Some 53) [lit 9]]));
         Branch (Sequence [Chain None (Some 60) [lit 3]]) None])]])].

Example normalize_idempotent_nonvacuous :
  normalize_blocks ex_program compiler_options <> ex_program /\
  normalize_blocks ex_program (formatter_options (fun _ => false)) <> ex_program /\
  normalize_blocks ex_program compiler_options <> normalize_blocks ex_program (formatter_options (fun _ => false)) /\
  normalize_blocks (normalize_blocks ex_program (formatter_options (fun _ => false))) compiler_options
    = normalize_blocks ex_program compiler_options.
Proof.
  split; [intros Heq; vm_compute in Heq; discriminate Heq|].
  split; [intros Heq; vm_compute in Heq; discriminate Heq|].
  split; [intros Heq; vm_compute in Heq; discriminate Heq|].
  vm_compute. reflexivity.
Qed.
