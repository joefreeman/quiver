(* BuiltinTyped.v — C01, builtin rows: every modelled pure builtin (Typed.v `builtin_sigs`, the
   mirror of the `register_builtin!` table) respects its REGISTERED signature:
     * `builtin_result_typed_all`: on EVERY argument (well-typed or not, well-formed ropes or not) a
       value outcome inhabits the registered result TypeSpec — read off the implementation models of
       Builtins.v directly (no `agrees`, no well-formedness hypothesis);
     * `builtin_only_domain_errors_all`: on an argument that inhabits the registered parameter
       TypeSpec and whose binaries are well-formed ropes, the builtin does not panic and the only
       error class it reports is InvalidArgument (never TypeMismatch) — binary_*/vector_* via their
       `agrees` theorems and the shape of the reference specs, integer_* directly.
   Both say which leaves a definition has, and are proved by one syntactic walk over it. *)
From Quiver Require Import Base Builtins BuiltinSpec BuiltinWf
  BinaryProofs BinaryShiftProofs BinaryBitsProofs VectorProofs.
From Quiver Require Import typed.Typed.
From Coq Require Import List.
Import ListNotations.

Definition outcome_in {A} (V : A -> Prop) (E : err -> Prop) (N : Prop) (o : outcome A) : Prop :=
  match o with Val v => V v | Err e => E e | Panic _ => N end.

Lemma outcome_in_top {A} (o : outcome A) : outcome_in (fun _ => True) (fun _ => True) True o.
Proof. destruct o; exact I. Qed.

Lemma outcome_in_bind {A B} (V : B -> Prop) E N (o : outcome A) (f : A -> outcome B) :
  outcome_in (fun _ => True) E N o -> (forall x, outcome_in V E N (f x)) -> outcome_in V E N (obind o f).
Proof. intros Ho Hf. destruct o; [apply Hf|exact Ho|exact Ho]. Qed.

Lemma obind_val_inv {A B} (o : outcome A) (f : A -> outcome B) v :
  obind o f = Val v -> exists x, o = Val x /\ f x = Val v.
Proof.
  destruct o as [x|e|n]; cbn [obind]; intros H; [exists x; split; [reflexivity | exact H] | discriminate H ..].
Qed.

Lemma alloc_val_inv r v : alloc r = Val v -> v = BBin r.
Proof.
  unfold alloc. destruct (Z.ltb MAX_BINARY_SIZE (rlen r)); intros H; [discriminate H|].
  injection H as <-. reflexivity.
Qed.

(* One step of the syntactic walk over a definition e, the goal being `outcome_in V E N e`: reduce
   the exposed redexes, then look at the head of e.  A leaf is checked; a conditional or a match is
   split; a bound sub-computation is opened only when its errors or panics matter (when E and N
   hold of everything, as for result typing, loops and argument narrowing are never looked into);
   anything else is a defined name, and is unfolded. *)
Ltac head_of t := lazymatch t with ?f _ => head_of f | _ => t end.
Ltac walk_step :=
  cbv beta iota zeta;
  lazymatch goal with
  | |- outcome_in _ _ _ (Val _) => first [exact I | reflexivity]
  | |- outcome_in _ _ _ (Err _) => first [exact I | reflexivity]
  | |- outcome_in _ _ _ (Panic _) => exact I
  | |- outcome_in _ _ _ (obind _ _) => apply outcome_in_bind; [try apply outcome_in_top|intro]
  | |- outcome_in _ _ _ (if ?c then _ else _) => destruct c
  | |- outcome_in _ _ _ (match ?x with _ => _ end) => destruct x
  | |- outcome_in _ _ _ ?e => let h := head_of e in unfold h
  end.
Ltac walk := repeat walk_step.

Lemma result_typed_row n impl p s :
  (forall a, outcome_in (bspec_inhab s) (fun _ => True) True (impl a)) -> result_typed (mk_bsig n impl p s).
Proof. intros H a v Hv. specialize (H a). cbn [bs_impl] in Hv. rewrite Hv in H. exact H. Qed.

Theorem builtin_result_typed_all : Forall result_typed builtin_sigs.
Proof.
  unfold builtin_sigs.
  repeat (apply Forall_cons; [apply result_typed_row; intro a; walk|]).
  apply Forall_nil.
Qed.

(* domain errors only: no panic, and an error is InvalidArgument *)
Definition de {A} : outcome A -> Prop :=
  outcome_in (fun _ => True) (fun e => e = InvalidArgument) False.

Lemma only_domain_errors_row n impl p s :
  (forall a, wf_bval a -> bspec_inhab p a -> de (impl a)) -> only_domain_errors wf_bval (mk_bsig n impl p s).
Proof. intros H. exact H. Qed.

(* `agrees` gives panic-freedom and transports the error class to the reference spec (which has
   no Panic leaf, so `de` of it says: not TypeMismatch) *)
Lemma de_of_agrees impl spec a :
  agrees impl spec -> wf_bval a -> de (spec (flatten a)) -> de (impl a).
Proof.
  intros Hag Hwf Hes. destruct (Hag a Hwf) as [Heq Hout]. rewrite <- Heq in Hes.
  destruct (impl a) as [v|e|n]; [exact I|exact Hes|exact Hout].
Qed.

(* inversion of `bspec_inhab <registered parameter spec> a`: a becomes the tuple of that shape *)
Ltac inv_ty H :=
  unfold bspec_inhab in H;
  repeat (cbn in H;
          match type of H with
          | context [match ?x with _ => _ end] => is_var x; destruct x; try discriminate H
          end);
  clear H.

(* The 28 binary_* / vector_* rows go through `de_of_agrees` with their `agrees` theorem: on the
   flattened well-typed argument the spec's catch-all TypeMismatch arm is not taken.  The 15
   integer_* rows have no `agrees` theorem in the list and are walked directly on the model, which
   has no Panic leaf; a rope row without its theorem would be walked directly too, and the walk
   closes such a row only if no Panic leaf is left on a well-typed argument. *)
Theorem builtin_only_domain_errors_all : Forall (only_domain_errors wf_bval) builtin_sigs.
Proof.
  unfold builtin_sigs.
  repeat (apply Forall_cons;
    [apply only_domain_errors_row; intros a Hwf Hty;
     try (eapply de_of_agrees;
          [first
             [ exact binary_new_correct | exact binary_length_correct | exact binary_concat_correct
             | exact binary_repeat_correct | exact binary_and_correct | exact binary_or_correct
             | exact binary_xor_correct | exact binary_not_correct | exact binary_shift_correct
             | exact binary_popcount_correct | exact binary_get_correct | exact binary_set_correct
             | exact binary_slice_correct | exact binary_index_correct | exact binary_hash32_correct
             | exact binary_hash64_correct | exact binary_append_correct
             | exact vector_add_correct | exact vector_subtract_correct | exact vector_multiply_correct
             | exact vector_less_than_correct | exact vector_equal_correct
             | exact vector_greater_than_correct | exact vector_dot_correct | exact vector_take_correct
             | exact vector_get_correct | exact vector_push_correct | exact vector_sum_correct ]
          |exact Hwf|]);
     clear Hwf; inv_ty Hty; cbn [flatten map]; unfold de; walk|]).
  apply Forall_nil.
Qed.

Example builtin_sigs_length : List.length builtin_sigs = 43%nat.
Proof. reflexivity. Qed.

Local Open Scope Z_scope.

(* a well-typed, well-formed argument on which the documented domain error IS reported: the
   `Err` arm of `only_domain_errors` is inhabited *)
Example domain_error_witness :
  let a := BTup [BInt 1; BInt 0] in
  wf_bval a /\ bspec_inhab s_int_int a /\ impl_integer_divide a = Err InvalidArgument.
Proof. cbn zeta. split; [|split]; [cbn [wf_bval]; auto | reflexivity | reflexivity]. Qed.

(* a union-result builtin returns both variants of its registered result spec on well-typed,
   well-formed arguments: nil when the byte is absent, an integer when it is present *)
Example union_result_witness :
  let r := Owned [10; 20; 30] in
  let a_nil := BTup [BBin r; BInt 99; BInt 0] in
  let a_int := BTup [BBin r; BInt 20; BInt 0] in
  wf_bval a_nil /\ wf_bval a_int /\
  bspec_inhab s_bin_int_int a_nil /\ bspec_inhab s_bin_int_int a_int /\
  impl_binary_index a_nil = Val (BTup []) /\ impl_binary_index a_int = Val (BInt 1) /\
  impl_vector_get (BTup [BBin (Owned [1; 0; 0; 0; 2; 0; 0; 0]); BInt 4; BInt 1]) = Val (BInt 2) /\
  impl_vector_get (BTup [BBin (Owned [1; 0; 0; 0; 2; 0; 0; 0]); BInt 4; BInt 2]) = Val (BTup []).
Proof.
  cbn zeta.
  assert (Hwf : wf (Owned [10; 20; 30])).
  { cbn [wf length]. unfold bytes_ok, MAX_BINARY_SIZE. split; [repeat constructor; lia | cbn; lia]. }
  assert (Hwa : forall x y, wf_bval (BTup [BBin (Owned [10; 20; 30]); BInt x; BInt y])).
  { intros x y. cbn [wf_bval]. auto. }
  split; [apply Hwa|]. split; [apply Hwa|].
  repeat split; vm_compute; reflexivity.
Qed.

Print Assumptions builtin_result_typed_all.
Print Assumptions builtin_only_domain_errors_all.
