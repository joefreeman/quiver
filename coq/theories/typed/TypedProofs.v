(* TypedProofs.v — C01: what holds of the definitions of Typed.v whatever the compiler does: reading a
   field of a well-typed tuple, the oracle's decision procedure on first-order values, an accepted
   run-time type test, the instructions that only move values, and the monitor (`obligations`:
   O1-O4 and Oext) over a run. *)
From Quiver Require Import Base Types Sem Rel RelProofs Builtins.
From Quiver Require vm.Vm.
From Quiver Require Import typed.Typed.
From Coq Require Import Arith Lia.
Close Scope Z_scope.
Open Scope nat_scope.

(* H equates the handler of one instruction (the body of Vm.step) with a result: split on every
   test the handler makes, dropping the arms that cannot give that result *)
Ltac handler_cases H :=
  repeat match type of H with
         | context [match ?e with _ => _ end] => destruct e eqn:?; try discriminate
         | context [if ?e then _ else _] => destruct e eqn:?; try discriminate
         end.

(* like `injection`, which would also simplify the two states *)
Lemma Next_inj (a b : Vm.state) : Vm.Next a = Vm.Next b -> a = b.
Proof. intros [= ->]. reflexivity. Qed.

Lemma Forall2_nth_l {A B} (Q : A -> B -> Prop) l1 l2 :
  Forall2 Q l1 l2 -> forall i x, nth_error l1 i = Some x -> exists y, nth_error l2 i = Some y /\ Q x y.
Proof.
  induction 1 as [|a b l1 l2 Hab _ IH]; intros [|i] x Hi; try discriminate; cbn in *.
  - injection Hi as <-. eauto.
  - apply IH. exact Hi.
Qed.

Lemma Forall_app_intro {A} (Q : A -> Prop) l1 l2 : Forall Q l1 -> Forall Q l2 -> Forall Q (l1 ++ l2).
Proof. intros H1 H2. apply Forall_app. split; assumption. Qed.
Lemma Forall_firstn {A} (Q : A -> Prop) n l : Forall Q l -> Forall Q (firstn n l).
Proof. intros H. rewrite <- (firstn_skipn n l) in H. apply Forall_app in H. apply H. Qed.
Lemma Forall_skipn {A} (Q : A -> Prop) n l : Forall Q l -> Forall Q (skipn n l).
Proof. intros H. rewrite <- (firstn_skipn n l) in H. apply Forall_app in H. apply H. Qed.
Lemma Forall_nth_error {A} (Q : A -> Prop) l n a : Forall Q l -> nth_error l n = Some a -> Q a.
Proof. intros H Hn. rewrite Forall_forall in H. apply H. eapply nth_error_In. exact Hn. Qed.

Section GetTyped.
  Variable P : tprog.

  Lemma wt_all_Forall (l : list Bytecode.value) :
    (fix all (l : list Bytecode.value) : Prop :=
       match l with [] => True | x :: l' => wt_value P x /\ all l' end) l <-> Forall (wt_value P) l.
  Proof.
    induction l as [|x l IH]; [split; constructor|]. rewrite Forall_cons_iff, IH. reflexivity.
  Qed.

  (* wt_tuple and wt_fun are the interface to `wt_value`: its anonymous `fix all` is unfolded
     nowhere else *)
  Lemma wt_tuple t fs :
    wt_value P (Bytecode.VTuple t fs) <->
    (exists info, lookup_tuple (tp_reg P) t = Some info /\
                  Forall2 (fun x (f : option nat * nat) => vinhab P x (snd f)) fs (tfields info))
    /\ Forall (wt_value P) fs.
  Proof. cbn [wt_value]. rewrite wt_all_Forall. reflexivity. Qed.

  Lemma wt_fun f caps :
    wt_value P (Bytecode.VFun f caps) <->
    nth_error (tp_fn_caps P) f = Some (List.length caps) /\ f < List.length (tp_fn_type P) /\ Forall (wt_value P) caps.
  Proof. cbn [wt_value]. rewrite wt_all_Forall. reflexivity. Qed.

  (* executor.rs handle_get: the field read from a well-typed tuple inhabits the field type its
     tuple type declares at that position, and is itself well-typed *)
  Theorem get_typed : forall t fs i v,
    wt_value P (Bytecode.VTuple t fs) -> nth_error fs i = Some v ->
    wt_value P v /\
    exists info f, lookup_tuple (tp_reg P) t = Some info /\ nth_error (tfields info) i = Some f /\
                   vinhab P v (snd f).
  Proof.
    intros t fs i v Hwt Hi. apply wt_tuple in Hwt. destruct Hwt as [[info [Hinfo HF]] Hall].
    split.
    - rewrite Forall_forall in Hall. apply Hall. eapply nth_error_In. exact Hi.
    - destruct (Forall2_nth_l _ _ _ HF _ _ Hi) as [f [Hf Hv]]. exists info, f. auto.
  Qed.
End GetTyped.

Section Sound.
  Variable Q : registry.
  Variables k cap nf : nat.

  Lemma first_orderb_fields name fs :
    first_orderb (VTup name fs) = true -> forall f, In f fs -> first_orderb (snd f) = true.
  Proof.
    induction fs as [|x fs IH]; intros H f Hin; [destruct Hin|].
    cbn in H. apply andb_true_iff in H. destruct H as [Hx Hr].
    destruct Hin as [<-|Hin]; [exact Hx|apply IH; assumption].
  Qed.

  (* one level: if membership one level down (ih) is sound for the first-order components, the
     walk through unions / cycles / tuples / partials is sound *)
  Lemma walk_inh_sound (en : env -> nat -> list value) (ih : env -> value -> nat -> bool)
        (R : env -> value -> nat -> Prop) :
    (forall E v t, first_orderb v = true -> ih E v t = true -> R E v t) ->
    forall fuel E v t, first_orderb v = true -> walk_inh Q en ih fuel E v t = true -> Inh Q R E v t.
  Proof.
    intros Hih fuel. induction fuel as [|fuel IH]; intros E v t Hfo H; [discriminate|].
    cbn [walk_inh] in H.
    destruct (lookup_type Q t) as [ty|] eqn:Ht; [|discriminate].
    destruct ty as [| | |tid|pname pfields|p r rc|d|vs|s r|rn|vn].
    - destruct v; try discriminate. apply Inh_int. exact Ht.
    - destruct v; try discriminate. apply Inh_bin. exact Ht.
    - destruct v; try discriminate. apply Inh_ref. exact Ht.
    - destruct (lookup_tuple Q tid) as [info|] eqn:Hinfo; [|discriminate].
      destruct v as [| | |name fs| | |]; try discriminate.
      apply andb_true_iff in H. destruct H as [Hname Hfs].
      apply opt_eqb_eq in Hname. subst name.
      eapply Inh_tuple; [exact Ht|exact Hinfo|].
      pose proof (first_orderb_fields _ _ Hfo) as Hfof.
      clear Hfo Hinfo. revert fs Hfs Hfof. generalize (tfields info) as tys.
      induction tys as [|[l ft] tys IHt]; intros [|[l' fv] fs] Hfs Hfof; cbn in Hfs; try discriminate.
      + constructor.
      + apply andb_true_iff in Hfs. destruct Hfs as [Hh Hrest]. apply andb_true_iff in Hh. destruct Hh as [Hl Hv].
        constructor.
        * split; cbn; [apply opt_eqb_eq; exact Hl|]. apply Hih; [apply (Hfof (l', fv)); left; reflexivity|exact Hv].
        * apply IHt; [exact Hrest|]. intros f Hin. apply Hfof. right. exact Hin.
    - destruct v as [| | |name fs| | |]; try discriminate.
      apply andb_true_iff in H. destruct H as [Hname Hfs].
      eapply Inh_partial; [exact Ht| |].
      + destruct pname as [pn|]; [right; apply opt_eqb_eq; exact Hname|left; reflexivity].
      + intros l ft Hin. rewrite forallb_forall in Hfs. specialize (Hfs (l, ft) Hin).
        unfold has_field in Hfs. apply existsb_exists in Hfs. destruct Hfs as [[l' fv] [Hinv Hc]].
        cbn in Hc. apply andb_true_iff in Hc. destruct Hc as [Hl Hv]. apply opt_eqb_eq in Hl. cbn in Hl. subst l'.
        exists fv. split; [exact Hinv|]. apply Hih; [apply (first_orderb_fields _ _ Hfo (Some l, fv)); exact Hinv|exact Hv].
    - (* callable: not first-order *)
      destruct v; try discriminate.
    - destruct d as [|d].
      + eapply Inh_dangling; [exact Ht|reflexivity].
      + destruct (nth_error E d) as [s|] eqn:Hs.
        * eapply Inh_cycle; [exact Ht|exact Hs|]. apply IH; assumption.
        * eapply Inh_dangling; [exact Ht|]. cbn. exact Hs.
    - apply existsb_exists in H. destruct H as [u [Hu Hw]].
      eapply Inh_union; [exact Ht|exact Hu|]. apply IH; assumption.
    - (* process: not first-order *)
      destruct v; try discriminate.
    - destruct v; try discriminate. apply Nat.eqb_eq in H. subst. apply Inh_res. exact Ht.
    - discriminate.
  Qed.

  (* soundness of the judgement ./check C01 applies, on the fragment where it is exact:
     for a value holding no function / process, acceptance implies membership (Sem.inhab) *)
  Theorem inhabv_sound_fo : forall n E v t,
    first_orderb v = true -> inhabv k cap nf Q n E v t = true -> inhab Q n E v t.
  Proof.
    induction n as [|m IH]; intros E v t Hfo H; [discriminate|].
    cbn [inhabv] in H. cbn [inhab].
    eapply walk_inh_sound; [|exact Hfo|exact H].
    intros E' v' t' Hfo' H'. apply IH; assumption.
  Qed.
End Sound.

Section IsType.
  Variable R : registry.
  Variable cfg : rel_cfg.
  (* the run-time table consulted by `IsType t` (executor.rs handle_is_type): pattern type id ->
     the type id describing the value's concrete type -> accepted? *)
  Variable table : nat -> nat -> bool.
  (* what is assumed of the table: an accepted pair is in the relation is_compatible (C08 proves
     this of the real table) *)
  Hypothesis table_sound :
    forall t tag, table t tag = true -> exists fuel, is_compatible_with cfg fuel R tag t = Some true.

  Theorem istype_refines :
    cfg_retract cfg = true ->
    forall t tag n e,
      cf_domain cfg R tag = true -> cf_domain cfg R t = true ->
      table t tag = true -> inhab R n [] e tag -> inhab R n [] e t.
  Proof.
    intros Hret t tag n e Htag Ht Hacc Hv.
    destruct (table_sound t tag Hacc) as [fuel Hc].
    exact (compat_sound_cf cfg R fuel tag t Hret Htag Ht Hc n e Hv).
  Qed.
End IsType.

Section Moves.
  Import Quiver.vm.Vm.
  Variable Pvm : program.

  (* v is w itself or an immediate component of w *)
  Definition direct_part (v w : value) : Prop :=
    v = w \/ match w with VTuple _ fs => In v fs | VFun _ caps => In v caps | _ => False end.

  (* what the machine makes itself without a Tuple/Function instruction *)
  Definition atom (v : value) : Prop :=
    match v with
    | VInt _ | VBuiltin _ | VProc _ _ => True
    | VTuple t [] => t = NIL \/ t = OK
    | _ => False
    end.

  Definition origin (s : state) (x : ext) (v : value) : Prop :=
    (exists w, (In w (stack s) \/ In w (locals s)) /\ direct_part v w) \/ x_value x = Some v \/ atom v.

  Definition held (s : state) (v : value) : Prop := In v (stack s) \/ In v (locals s).

  (* the instruction about to run is not one of the two value constructors *)
  Definition not_constructor (s : state) : Prop :=
    forall fr code i, frames s = fr :: (tl (frames s)) -> code_of Pvm (fr_fn fr) = Some code ->
      nth_error code (fr_pc fr) = Some i ->
      (forall t, i <> ITuple t) /\ (forall f, i <> IFunction f).

  Lemma Forall_popn (Q : value -> Prop) n : forall st acc vs st',
    popn n st acc = Some (vs, st') -> Forall Q st -> Forall Q st'.
  Proof.
    induction n as [|n IH]; intros st acc vs st' H Hst; cbn in H.
    - inversion H; subst. exact Hst.
    - destruct st as [|a t]; [discriminate|]. eapply IH; [exact H|]. inversion Hst; assumption.
  Qed.

  Lemma atom_nil : atom vnil. Proof. left. reflexivity. Qed.
  Lemma atom_ok : atom vok. Proof. right. reflexivity. Qed.
  Lemma part_refl v : direct_part v v.
  Proof. left. reflexivity. Qed.
  Lemma part_field v t fs n : nth_error fs n = Some v -> direct_part v (VTuple t fs).
  Proof. intros H. right. eapply nth_error_In. exact H. Qed.
  Lemma Forall_caps (Q : value -> Prop) f caps : (forall v, direct_part v (VFun f caps) -> Q v) -> Forall Q caps.
  Proof. intros H. apply Forall_forall. intros v Hv. apply H. right. exact Hv. Qed.

  Create HintDb moves discriminated.
  Hint Resolve Forall_nil Forall_cons Forall_app_intro Forall_firstn Forall_skipn
       part_refl atom_nil atom_ok : moves.
  Hint Extern 1 (direct_part _ (VTuple _ _)) => eapply part_field; eassumption : moves.
  Hint Extern 0 (atom _) => exact I : moves.
  Hint Extern 2 (Forall _ _) => eapply Forall_popn; [eassumption|] : moves.
  Hint Extern 2 (Forall _ _) => eapply Forall_caps; eassumption : moves.

  (* executor.rs: every handler other than handle_tuple / handle_function only moves, copies or
     drops values: each value held after the step was held before (or is an immediate component of
     a held tuple / function: Get, Call), came from outside, or is an atom.  For any predicate O
     that holds of those three kinds. *)
  Lemma step_moves (O : value -> Prop) s x s' :
    not_constructor s -> step Pvm s x = Next s' ->
    (forall w, held s w -> forall v, direct_part v w -> O v) ->
    (forall v, x_value x = Some v -> O v) -> (forall v, atom v -> O v) ->
    forall v, held s' v -> O v.
  Proof.
    intros Hnc H Hheld Hext Hatom.
    assert (Hst : Forall (fun w => forall v, direct_part v w -> O v) (stack s)).
    { apply Forall_forall. intros w Hw. apply Hheld. left. exact Hw. }
    assert (Hs : Forall O (stack s)).
    { eapply Forall_impl; [|exact Hst]. intros w Hw. apply Hw. apply part_refl. }
    assert (Hlo : Forall O (locals s)).
    { apply Forall_forall. intros w Hw. apply (Hheld w); [right; exact Hw|apply part_refl]. }
    clear Hheld.
    enough (Forall O (stack s') /\ Forall O (locals s')) as [H1 H2].
    { intros v [Hv|Hv]; [rewrite Forall_forall in H1; auto|rewrite Forall_forall in H2; auto]. }
    unfold step in H. unfold not_constructor in Hnc.
    destruct s as [stk loc frs per]. cbn [stack locals frames persistent] in *.
    destruct frs as [|fr rest]; [destruct stk; discriminate|].
    destruct (code_of Pvm (fr_fn fr)) as [code|] eqn:Hcode; [|discriminate].
    specialize (Hnc fr code).
    destruct (nth_error code (fr_pc fr)) as [i|] eqn:Hi.
    2:{ (* frame exit *)
      apply Next_inj in H. subst s'. unfold bump. destruct rest, per; cbn; auto with moves. }
    specialize (Hnc i eq_refl Hcode eq_refl). destruct Hnc as [Hnt Hnf].
    (* per handler: the next stack and locals are the old ones under cons, app, firstn, skipn, popn
       and nth_error, which `moves` knows (no cbn: it would open `skipn (S n)` of Rotate) *)
    destruct i; try (exfalso; eapply Hnt; reflexivity); try (exfalso; eapply Hnf; reflexivity);
      handler_cases H; apply Next_inj in H; subst s';
      cbv beta iota delta [bump with_stack with_locals with_frames stack locals frames persistent];
      repeat match goal with
             | Hf : Forall _ (_ :: _) |- _ => apply Forall_cons_iff in Hf; destruct Hf
             | Hn : nth_error ?l _ = Some _, Hf : Forall O ?l |- _ =>
                 pose proof (Forall_nth_error O _ _ _ Hf Hn); clear Hn
             end;
      split; auto 6 with moves.
  Qed.

  Theorem data_moves_origin : forall s x s',
    not_constructor s -> step Pvm s x = Next s' -> forall v, held s' v -> origin s x v.
  Proof.
    intros s x s' Hnc H. apply (step_moves (origin s x) s x s' Hnc H).
    - intros w Hw v Hv. left. exists w. auto.
    - intros v Hv. right. left. exact Hv.
    - intros v Hv. right. right. exact Hv.
  Qed.

  Theorem data_moves_preserve : forall (Qv : value -> Prop),
    (forall v, atom v -> Qv v) ->
    (forall t fs, Qv (VTuple t fs) -> Forall Qv fs) ->
    (forall f caps, Qv (VFun f caps) -> Forall Qv caps) ->
    forall s x s',
      not_constructor s -> step Pvm s x = Next s' ->
      (forall v, held s v -> Qv v) -> (forall v, x_value x = Some v -> Qv v) ->
      forall v, held s' v -> Qv v.
  Proof.
    intros Qv Hatom Htup Hfun s x s' Hnc Hstep Hs Hx.
    apply (step_moves Qv s x s' Hnc Hstep); [|exact Hx|exact Hatom].
    intros w Hw v [->|Hpart]; [apply Hs; exact Hw|].
    destruct w; try contradiction.
    - specialize (Htup _ _ (Hs _ Hw)). rewrite Forall_forall in Htup. apply Htup. exact Hpart.
    - specialize (Hfun _ _ (Hs _ Hw)). rewrite Forall_forall in Hfun. apply Hfun. exact Hpart.
  Qed.
End Moves.

Section MonitorSound.
  Import Quiver.vm.Vm.
  Variable Pvm : program.
  Variable P : tprog.
  Variable r0 : nat.           (* the result type promised for the entry frame (any type id) *)

  (* monitor invariant: one promised result type per frame; the outermost promise is r0, said as
     `last m r0 = r0` so that it survives pushes and pops above it; once the last frame has
     returned, the value left on the stack inhabits r0 *)
  Definition MI (s : state) (m : list nat) : Prop :=
    List.length m = List.length (frames s) /\ last m r0 = r0 /\
    (frames s = [] -> exists v st, stack s = v :: st /\ vinhab P v r0).

  Lemma MI_same s s' m :
    MI s m -> frames s <> [] -> List.length (frames s') = List.length (frames s) -> MI s' m.
  Proof.
    intros [Hl [Hlast _]] Hne Hlen. split; [congruence|]. split; [exact Hlast|].
    intros He. rewrite He in Hlen. destruct (frames s); [contradiction|discriminate].
  Qed.

  Lemma MI_push s s' m r fr :
    MI s m -> frames s <> [] -> frames s' = fr :: frames s -> MI s' (r :: m).
  Proof.
    intros [Hl [Hlast _]] Hne Hfr. split; [rewrite Hfr; cbn; congruence|]. split.
    - destruct m as [|a m']; [destruct (frames s); [contradiction|discriminate]|exact Hlast].
    - intros He. rewrite Hfr in He. discriminate.
  Qed.

  (* only Call on a function value pushes a frame (the case split is that of `mon_step`) *)
  Lemma instr_frames s x s' fr i :
    step Pvm s x = Next s' -> cur_instr Pvm s = Some (fr, Some i) ->
    match i, stack s with
    | ICall, VFun _ _ :: _ => exists fr', frames s' = fr' :: frames s
    | _, _ => List.length (frames s') = List.length (frames s)
    end.
  Proof.
    unfold step, cur_instr. intros H Hcur.
    destruct (frames s) as [|fr0 rest] eqn:Hfr; [discriminate|].
    destruct (code_of Pvm (fr_fn fr0)) as [code|]; [|discriminate].
    injection Hcur as -> Hi. rewrite Hi in H.
    destruct i; handler_cases H; apply Next_inj in H; subst s';
      unfold bump, with_stack, with_locals, with_frames; cbn; rewrite ?Hfr; eauto.
  Qed.

  (* only the arm of `step` without frames returns Finished *)
  Lemma step_finished s x v s' : step Pvm s x = Finished v s' -> frames s = [].
  Proof.
    unfold step. destruct (frames s) as [|fr rest]; [reflexivity|]. intros H. exfalso.
    destruct (code_of Pvm (fr_fn fr)) as [code|]; [|discriminate].
    destruct (nth_error code (fr_pc fr)) as [i|]; [|discriminate].
    destruct i; handler_cases H; discriminate.
  Qed.

  Lemma MI_step s m x s' :
    MI s m -> O3 Pvm P s m -> step Pvm s x = Next s' -> MI s' (mon_step Pvm P s m).
  Proof.
    intros HMI Ho3 H.
    destruct (cur_instr Pvm s) as [[fr [i|]]|] eqn:Hcur.
    - assert (Hne : frames s <> []).
      { unfold cur_instr in Hcur. destruct (frames s); discriminate. }
      pose proof (instr_frames _ _ _ _ _ H Hcur) as Hf. unfold mon_step. rewrite Hcur.
      destruct i; try (eapply MI_same; eassumption).
      destruct (stack s) as [|[] ?]; try (eapply MI_same; eassumption).
      destruct Hf as [fr' Hf]. destruct (fn_sig P _) as [[[? ?] ?]|]; eapply MI_push; eassumption.
    - (* frame exit *)
      unfold mon_step. rewrite Hcur. specialize (Ho3 fr Hcur).
      unfold cur_instr in Hcur. unfold step in H.
      destruct (frames s) as [|fr0 rest] eqn:Hfr; [discriminate|].
      destruct (code_of Pvm (fr_fn fr0)) as [code|]; [|discriminate].
      injection Hcur as -> Hi. rewrite Hi in H.
      inversion H; subst s'; clear H.
      destruct HMI as [Hl [Hlast _]]. rewrite Hfr in Hl.
      destruct m as [|r m']; [discriminate|]. cbn in Hl. injection Hl as Hl. cbn [tl].
      destruct rest as [|fr2 rest2].
      + destruct m'; [|discriminate]. cbn in Hlast. subst r.
        split; [reflexivity|]. split; [reflexivity|]. intros _.
        unfold bump; cbn. destruct (stack s) as [|v st]; [contradiction|]. exists v, st. split; [reflexivity|exact Ho3].
      + split; [unfold bump; cbn; exact Hl|]. split.
        * destruct m' as [|a m'']; [discriminate|exact Hlast].
        * unfold bump; cbn. discriminate.
    - unfold cur_instr in Hcur. unfold step in H.
      destruct (frames s) as [|fr rest]; [destruct (stack s); discriminate|].
      destruct (code_of Pvm (fr_fn fr)); discriminate.
  Qed.

  Lemma run_sound : forall xs s m,
    MI s m -> run_ok Pvm P s m xs ->
    match run_res Pvm s xs with
    | Some (Fault f) => type_fault f = false
    | Some (Finished v _) => result_inhabits P v r0
    | _ => True
    end.
  Proof.
    induction xs as [|x xs IH]; intros s m HMI Hok; [exact I|].
    cbn [run_ok] in Hok. destruct Hok as [Hob Hnext]. cbn [run_res].
    destruct (step Pvm s x) as [s'|v s'|f] eqn:Hstep.
    - apply (IH s' (mon_step Pvm P s m)); [eapply MI_step; [exact HMI|apply Hob|exact Hstep]|exact Hnext].
    - pose proof (step_finished _ _ _ _ Hstep) as Hfr.
      destruct HMI as [_ [_ Hres]]. destruct (Hres Hfr) as [v' [st [Hst Hv]]].
      unfold step in Hstep. rewrite Hfr, Hst in Hstep. inversion Hstep; subst. exact Hv.
    - destruct Hob as [_ [_ [_ [Ho4 _]]]]. unfold O4 in Ho4. rewrite Hstep in Ho4. exact Ho4.
  Qed.

  (* the monitor theorem: if the obligations hold at every step of a run started with the promise
     r0, the run does not end in a VM-level type failure (this is O4), and a finished run's result
     inhabits r0 (this rests on O3 at every frame exit; O1, O2 and Oext are not needed for it) *)
  Theorem monitor_sound : forall entry arg xs,
    run_ok Pvm P (init_state entry [] arg false) [r0] xs ->
    match run_res Pvm (init_state entry [] arg false) xs with
    | Some (Fault f) => type_fault f = false
    | Some (Finished v _) => result_inhabits P v r0
    | _ => True
    end.
  Proof.
    intros entry arg xs Hok. eapply run_sound; [|exact Hok].
    split; [reflexivity|]. split; [reflexivity|]. cbn. discriminate.
  Qed.
End MonitorSound.
