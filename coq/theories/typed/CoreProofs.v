(* CoreProofs.v — C01: safety of the core typing judgement of Core.v.  The central statement is
   `core_safe`: an expression accepted at T, run with the judgement's own fuel in an environment
   that respects the typing environment, evaluates to a value of [[T]].  A result obtained with ANY
   fuel is that same value, because more fuel never changes a result (`eval_mono`). *)
From Quiver Require Import Base typed.Core.
From Coq Require Import Arith Lia.
Close Scope Z_scope.
Open Scope nat_scope.

Lemma cty_ind2 (P : cty -> Prop) :
  P TyInt -> P TyBin ->
  (forall n ts, Forall P ts -> P (TyTup n ts)) ->
  (forall ts, Forall P ts -> P (TyUnion ts)) ->
  forall t, P t.
Proof.
  intros HI HB HT HU.
  fix IH 1. intros [| |n ts|ts].
  - exact HI.
  - exact HB.
  - apply HT. induction ts as [|t ts IHts]; constructor; [apply IH|exact IHts].
  - apply HU. induction ts as [|t ts IHts]; constructor; [apply IH|exact IHts].
Qed.

Lemma olab_eqb_spec a b : olab_eqb a b = true <-> a = b.
Proof. destruct a, b; cbn; rewrite ?Nat.eqb_eq; split; congruence. Qed.

Lemma olabs_eqb_spec : forall l1 l2, olabs_eqb l1 l2 = true <-> l1 = l2.
Proof.
  induction l1 as [|a l1 IH]; intros [|b l2]; cbn; [split; congruence ..|].
  rewrite andb_true_iff, olab_eqb_spec, IH. split; [intros [-> ->]; reflexivity|intros H; inversion H; auto].
Qed.

Lemma oname_eqb_spec a b : oname_eqb a b = true <-> a = b.
Proof.
  destruct a as [n ls], b as [m ms]. unfold oname_eqb. cbn [fst snd].
  rewrite andb_true_iff, olab_eqb_spec, olabs_eqb_spec.
  split; [intros [-> ->]; reflexivity|intros H; inversion H; auto].
Qed.

Lemma all2b_Forall2 {A B} (f : A -> B -> bool) l1 l2 :
  all2b f l1 l2 = true <-> Forall2 (fun a b => f a b = true) l1 l2.
Proof.
  revert l2. induction l1 as [|a l1 IH]; intros [|b l2]; cbn [all2b].
  - split; [constructor|reflexivity].
  - split; [discriminate|intros H; inversion H].
  - split; [discriminate|intros H; inversion H].
  - rewrite andb_true_iff, IH. split.
    + intros [H1 H2]. constructor; assumption.
    + intros H. inversion H; subst. split; assumption.
Qed.

Lemma all2b_eq {A} (f : A -> A -> bool) l :
  Forall (fun a => forall b, f a b = true -> a = b) l -> forall l', all2b f l l' = true -> l = l'.
Proof.
  induction 1 as [|a l Ha _ IH]; intros [|b l'] H; cbn [all2b] in H; try discriminate; [reflexivity|].
  apply andb_true_iff in H. destruct H as [H1 H2]. f_equal; [apply Ha; exact H1|apply IH; exact H2].
Qed.

Lemma Forall2_length {A B} (R : A -> B -> Prop) l1 l2 : Forall2 R l1 l2 -> List.length l1 = List.length l2.
Proof. intros H. induction H; cbn; congruence. Qed.

Lemma Forall2_nth {A B} (R : A -> B -> Prop) l1 l2 : Forall2 R l1 l2 ->
  forall j, match nth_error l1 j, nth_error l2 j with
            | Some a, Some b => R a b
            | None, None => True
            | _, _ => False
            end.
Proof. induction 1 as [|a b l1 l2 Hab _ IH]; intros [|j]; cbn [nth_error]; [exact I|exact I|exact Hab|apply IH]. Qed.

Lemma ex_in_one {A} (P : A -> Prop) a : (exists x, In x [a] /\ P x) <-> P a.
Proof.
  split; [intros [x [[<-|[]] H]]; exact H|intros H; exists a; split; [left; reflexivity|exact H]].
Qed.

Lemma memb_tup n ts m vs :
  memb (CTup m vs) (TyTup n ts) = true <->
  n = m /\ Forall2 (fun t v => memb v t = true) ts vs.
Proof. cbn [memb]. rewrite andb_true_iff, all2b_Forall2, oname_eqb_spec. reflexivity. Qed.

Lemma memb_union v ts : memb v (TyUnion ts) = true <-> exists t, In t ts /\ memb v t = true.
Proof. cbn [memb]. rewrite existsb_exists. reflexivity. Qed.

Lemma memb_variants v t : memb v t = true <-> exists u, In u (variants t) /\ memb v u = true.
Proof.
  destruct t; cbn [Core.variants]; [symmetry; apply (ex_in_one (fun u => memb v u = true)) ..|apply memb_union].
Qed.

Lemma cty_eqb_eq : forall a b, cty_eqb a b = true -> a = b.
Proof.
  induction a as [| |n ts IH|ts IH] using cty_ind2; intros [| |m us|us] H; cbn [cty_eqb] in H;
    try discriminate; try reflexivity.
  - apply andb_true_iff in H. destruct H as [Hn Hall]. apply oname_eqb_spec in Hn. subst m.
    f_equal. exact (all2b_eq _ _ IH _ Hall).
  - f_equal. exact (all2b_eq _ _ IH _ H).
Qed.

Lemma dedup_In l : forall u, In u (dedup l) <-> In u l.
Proof.
  induction l as [|t l IH]; intros u; cbn [dedup]; [reflexivity|]. split.
  - intros [<-|H]; [left; reflexivity|]. apply filter_In in H. right. apply (proj1 (IH u)). apply H.
  - intros [<-|H]; [left; reflexivity|].
    destruct (cty_eqb t u) eqn:E.
    + left. apply cty_eqb_eq. exact E.
    + right. apply filter_In. split; [apply (proj2 (IH u)); exact H|rewrite E; reflexivity].
Qed.

Lemma memb_mk_union v ts :
  memb v (mk_union ts) = true <-> exists t, In t ts /\ memb v t = true.
Proof.
  unfold mk_union.
  assert (Hflat : (exists u, In u (dedup (flat_map Core.variants ts)) /\ memb v u = true) <->
                  (exists t, In t ts /\ memb v t = true)).
  { split.
    - intros [u [Hin Hu]]. apply (proj1 (dedup_In _ _)) in Hin. apply in_flat_map in Hin. destruct Hin as [t [Ht Hut]].
      exists t. split; [exact Ht|]. apply memb_variants. exists u. auto.
    - intros [t [Ht Hv]]. apply memb_variants in Hv. destruct Hv as [u [Hu Hm]].
      exists u. split; [|exact Hm]. apply (proj2 (dedup_In _ _)). apply in_flat_map. exists t. auto. }
  rewrite <- Hflat.
  destruct (dedup (flat_map Core.variants ts)) as [|u [|u2 l]];
    [apply memb_union|symmetry; apply (ex_in_one (fun u => memb v u = true))|apply memb_union].
Qed.

Lemma subty_sound : forall s t v, subty s t = true -> memb v s = true -> memb v t = true.
Proof.
  induction s as [| |n ss IH|ss IH] using cty_ind2; intros t v Hs Hv; cbn [subty] in Hs.
  4:{ rewrite forallb_forall in Hs. apply memb_union in Hv. destruct Hv as [s [Hin Hm]].
      rewrite Forall_forall in IH. eapply IH; [exact Hin|apply Hs; exact Hin|exact Hm]. }
  (* a non-union s is below one variant u of t *)
  all: apply existsb_exists in Hs; destruct Hs as [u [Hu Hi]]; apply memb_variants; exists u; split; [exact Hu|].
  - destruct u; try discriminate. exact Hv.
  - destruct u; try discriminate. exact Hv.
  - destruct u as [| |m us|]; try discriminate.
    apply andb_true_iff in Hi. destruct Hi as [Hn Hall]. apply oname_eqb_spec in Hn. subst m.
    destruct v as [| |m vs]; try discriminate.
    apply memb_tup in Hv. destruct Hv as [<- Hvs]. apply memb_tup. split; [reflexivity|].
    apply all2b_Forall2 in Hall.
    clear Hu. revert us vs Hall Hvs. induction IH as [|s ss Hs' _ IHss]; intros us vs Hall Hvs;
      inversion Hall; subst; inversion Hvs; subst; constructor.
    + eapply Hs'; eassumption.
    + eapply IHss; eassumption.
Qed.

Lemma memb_not_union_variant v t u :
  In u (variants t) -> memb v u = true -> memb v t = true.
Proof. intros Hin Hm. apply memb_variants. exists u. auto. Qed.

Lemma disj_sound : forall s t v, disj s t = true -> memb v s = true -> memb v t = false.
Proof.
  induction s as [| |n ss IH|ss IH] using cty_ind2; intros t v Hd Hv; cbn [disj] in Hd; rewrite forallb_forall in Hd.
  4:{ apply memb_union in Hv. destruct Hv as [s [Hin Hm]].
      rewrite Forall_forall in IH. eapply IH; [exact Hin|apply Hd; exact Hin|exact Hm]. }
  (* a non-union s: were v in t, it would be in a variant u of t, which the test has ruled out *)
  all: destruct (memb v t) eqn:E; [exfalso|reflexivity];
    apply memb_variants in E; destruct E as [u [Hu Hm]]; specialize (Hd u Hu).
  - destruct v; try discriminate. destruct u; discriminate.
  - destruct v; try discriminate. destruct u; discriminate.
  - destruct v as [| |m vs]; try discriminate. apply memb_tup in Hv. destruct Hv as [<- Hvs].
    destruct u as [| |m us|]; try discriminate.
    apply memb_tup in Hm. destruct Hm as [-> Hus].
    rewrite (proj2 (oname_eqb_spec n n) eq_refl) in Hd.
    rewrite (Forall2_length _ _ _ Hvs), <- (Forall2_length _ _ _ Hus), Nat.eqb_refl in Hd. cbn [negb orb] in Hd.
    (* some field types are disjoint, yet the field's value is in both *)
    clear Hu. revert us vs Hd Hvs Hus. induction IH as [|s ss Hs' _ IHss]; intros us vs Hd Hvs Hus;
      inversion Hvs as [|? v0 ? ? Hv0]; subst; inversion Hus as [|u0 ? ? ? Hu0]; subst;
      cbn [any2b] in Hd; [discriminate|].
    apply orb_true_iff in Hd. destruct Hd as [Hd|Hd]; [|eapply IHss; eassumption].
    rewrite (Hs' _ _ Hd Hv0) in Hu0. discriminate.
Qed.

(* only the variables of G are constrained; in G and in rho the first binding of a name wins *)
Definition env_ok (rho : env) (G : tenv) : Prop :=
  forall x t, lookup x G = Some t -> exists v, lookup x rho = Some v /\ memb v t = true.

Lemma env_ok_nil : env_ok [] [].
Proof. intros x t Hx. discriminate. Qed.

Lemma env_ok_cons rho G x v t : env_ok rho G -> memb v t = true -> env_ok ((x, v) :: rho) ((x, t) :: G).
Proof.
  intros H Hv y ty Hy. cbn [lookup] in *. destruct (Nat.eqb y x).
  - inversion Hy; subst. exists v. auto.
  - apply H. exact Hy.
Qed.

Lemma env_ok_narrow rho G x v t :
  env_ok rho G -> lookup x rho = Some v -> memb v t = true -> env_ok rho ((x, t) :: G).
Proof.
  intros H Hx Hv y ty Hy. cbn [lookup] in Hy. destruct (Nat.eqb y x) eqn:E.
  - inversion Hy; subst. apply Nat.eqb_eq in E. subst. exists v. auto.
  - apply H. exact Hy.
Qed.

Lemma selects_sound p u v rho b :
  selects p u = Some b -> memb v u = true ->
  match pmatch p v rho with Some _ => b = true | None => b = false end.
Proof.
  destruct p as [t|n bs]; cbn [selects pmatch]; intros Hs Hv.
  - destruct (subty u t) eqn:E.
    + rewrite (subty_sound _ _ _ E Hv). congruence.
    + destruct (disj u t) eqn:D; [|discriminate]. rewrite (disj_sound _ _ _ D Hv). congruence.
  - destruct u as [| |m us|]; try discriminate; destruct v as [| |m' vs]; try discriminate; try congruence.
    apply memb_tup in Hv. destruct Hv as [<- Hvs]. rewrite <- (Forall2_length _ _ _ Hvs).
    destruct (oname_eqb n m && Nat.eqb (List.length bs) (List.length us)); congruence.
Qed.

(* a decisive pattern partitions the values of the scrutinee's variants as the run-time match does *)
Lemma split_sound p : forall us m r v rho,
  split_variants p us = Some (m, r) ->
  (exists u, In u us /\ memb v u = true) ->
  match pmatch p v rho with
  | Some _ => exists u, In u m /\ memb v u = true
  | None => exists u, In u r /\ memb v u = true
  end.
Proof.
  induction us as [|u0 us IH]; intros m r v rho Hs [u [Hin Hv]]; [destruct Hin|].
  cbn [split_variants] in Hs.
  destruct (selects p u0) as [b|] eqn:Esel; [|discriminate].
  destruct (split_variants p us) as [[m' r']|]; [|destruct b; discriminate].
  destruct Hin as [<-|Hin].
  - pose proof (selects_sound _ _ _ rho _ Esel Hv) as Hb.
    destruct (pmatch p v rho); subst b; inversion Hs; subst; exists u0; (split; [left; reflexivity|exact Hv]).
  - specialize (IH m' r' v rho eq_refl (ex_intro _ u (conj Hin Hv))).
    destruct b, (pmatch p v rho); inversion Hs; subst; destruct IH as [u' [Hu' Hm']];
      exists u'; (split; [cbn [In]; auto|exact Hm']).
Qed.

(* what is selected by a variant pattern is a tuple type of the pattern's shape *)
Lemma split_matched_shape n bs : forall us m r,
  split_variants (PTup n bs) us = Some (m, r) ->
  forall u, In u m -> exists ts, u = TyTup n ts /\ List.length ts = List.length bs.
Proof.
  induction us as [|u0 us IH]; intros m r Hs u Hin; cbn [split_variants] in Hs.
  - inversion Hs; subst. destruct Hin.
  - destruct (selects (PTup n bs) u0) as [[|]|] eqn:Esel; try discriminate;
      destruct (split_variants (PTup n bs) us) as [[m' r']|] eqn:Esp; try discriminate;
      inversion Hs; subst; clear Hs.
    + destruct Hin as [<-|Hin]; [|eapply IH; [reflexivity|exact Hin]].
      cbn [selects] in Esel. destruct u0 as [| |k ts|]; try discriminate. inversion Esel as [E].
      apply andb_true_iff in E. destruct E as [E1 E2]. apply oname_eqb_spec in E1. apply Nat.eqb_eq in E2.
      subst. exists ts. auto.
    + eapply IH; [reflexivity|exact Hin].
Qed.

(* i is the position in the pattern of the first binder of bs: the j-th of them binds field i + j *)
Lemma bind_ok ms : forall bs i vs rho G,
  List.length bs = List.length vs ->
  (forall j v, nth_error vs j = Some v -> memb v (mk_union (field_types ms (i + j))) = true) ->
  env_ok rho G -> env_ok (bind_all bs vs rho) (bind_types bs i ms G).
Proof.
  induction bs as [|b bs IH]; intros i vs rho G Hlen Hvs Hok.
  - destruct vs; [exact Hok|discriminate].
  - destruct vs as [|v vs]; [discriminate|]. cbn in Hlen. injection Hlen as Hlen.
    assert (Hrest : forall j w, nth_error vs j = Some w -> memb w (mk_union (field_types ms (S i + j))) = true).
    { intros j w Hj. replace (S i + j) with (i + S j) by lia. apply Hvs. exact Hj. }
    destruct b as [x|]; cbn [bind_all bind_types].
    + apply IH; [exact Hlen|exact Hrest|]. apply env_ok_cons; [exact Hok|].
      specialize (Hvs 0 v eq_refl). rewrite Nat.add_0_r in Hvs. exact Hvs.
    + apply IH; [exact Hlen|exact Hrest|exact Hok].
Qed.

Lemma pat_binds_ok p us m r v rho rho' G :
  split_variants p us = Some (m, r) ->
  (exists u, In u m /\ memb v u = true) ->
  pmatch p v rho = Some rho' -> env_ok rho G -> env_ok rho' (pat_binds p m G).
Proof.
  intros Hs [u [Hin Hv]] Hp Hok. destruct p as [t|n bs]; cbn [pmatch pat_binds] in *.
  - destruct (memb v t); inversion Hp; subst. exact Hok.
  - destruct v as [| |k vs]; try discriminate.
    destruct (oname_eqb n k && Nat.eqb (List.length bs) (List.length vs)) eqn:E; [|discriminate].
    inversion Hp; subst; clear Hp. apply andb_true_iff in E. destruct E as [_ El]. apply Nat.eqb_eq in El.
    destruct (split_matched_shape _ _ _ _ _ Hs u Hin) as [ts [-> Hts]].
    apply memb_tup in Hv. destruct Hv as [_ Hvs].
    apply bind_ok; [exact El| |exact Hok].
    intros j w Hj. cbn [Nat.add]. apply memb_mk_union.
    pose proof (Forall2_nth _ _ _ Hvs j) as Hn. rewrite Hj in Hn.
    destruct (nth_error ts j) as [tj|] eqn:Htj; [|contradiction].
    exists tj. split; [|exact Hn]. unfold field_types. apply in_flat_map. exists (TyTup n ts).
    split; [exact Hin|]. rewrite Htj. left. reflexivity.
Qed.

Section Soundness.
  Variable fns : list fdef.

  (* the statement at one fuel, used as induction hypothesis *)
  Definition safe_at (k : nat) : Prop :=
    forall G e T rho, infer fns k G e = Some T -> env_ok rho G ->
      exists v, eval fns k rho e = Some v /\ memb v T = true.

  Lemma map_opt_safe k G rho : safe_at k -> env_ok rho G ->
    forall es ts, map_opt (infer fns k G) es = Some ts ->
      exists vs, map_opt (eval fns k rho) es = Some vs /\ Forall2 (fun t v => memb v t = true) ts vs.
  Proof.
    intros IH Hok. induction es as [|e es IHes]; intros ts Ht; cbn [map_opt] in *.
    - inversion Ht. exists []. split; [reflexivity|constructor].
    - destruct (infer fns k G e) as [t|] eqn:Et; [|discriminate].
      destruct (map_opt (infer fns k G) es) as [ts'|]; [|discriminate]. inversion Ht; subst.
      destruct (IH _ _ _ _ Et Hok) as [v [-> Hv]]. destruct (IHes _ eq_refl) as [vs [-> Hvs]].
      exists (v :: vs). split; [reflexivity|constructor; assumption].
  Qed.

  (* what has been collected from the branches so far stays inside the block's type *)
  Lemma infer_case_acc (inf : tenv -> exp -> option cty) x G d : forall brs rest acc T,
    infer_case inf x G d brs rest acc = Some T ->
    forall w t, In t acc -> memb w t = true -> memb w T = true.
  Proof.
    induction brs as [|[p b] brs IHb]; intros rest acc T Hi w t Hin Hw; cbn [infer_case] in Hi.
    - destruct (inf ((x, mk_union rest) :: G) d) as [td|]; [|discriminate].
      inversion Hi; subst. apply memb_mk_union. exists t. split; [apply in_or_app; left; exact Hin|exact Hw].
    - destruct (split_variants p rest) as [[m r]|]; [|discriminate].
      destruct m as [|m0 ms].
      + eapply IHb; eassumption.
      + destruct (inf (pat_binds p (m0 :: ms) ((x, mk_union (m0 :: ms)) :: G)) b) as [tb|]; [|discriminate].
        eapply IHb; [exact Hi| |exact Hw]. apply in_or_app. left. exact Hin.
  Qed.

  (* the branch loop: the scrutinee's value lies in one of the variants `rest` still possible;
     the loop returns a value, and it lies in the block's type *)
  Lemma case_safe k x G d rho v : safe_at k -> env_ok rho G -> lookup x rho = Some v ->
    forall brs rest acc T,
      (exists u, In u rest /\ memb v u = true) ->
      infer_case (infer fns k) x G d brs rest acc = Some T ->
      exists w, eval_case (eval fns k) v rho d brs = Some w /\ memb w T = true.
  Proof.
    intros IH Hok Hx. induction brs as [|[p b] brs IHb]; intros rest acc T Hrest Hi; cbn [infer_case eval_case] in *.
    - destruct (infer fns k ((x, mk_union rest) :: G) d) as [td|] eqn:Ed; [|discriminate].
      destruct (IH _ _ _ rho Ed) as [w [Hw Hm]].
      { eapply env_ok_narrow; [exact Hok|exact Hx|]. apply memb_mk_union. exact Hrest. }
      exists w. split; [exact Hw|]. inversion Hi; subst. apply memb_mk_union.
      exists td. split; [apply in_or_app; right; left; reflexivity|exact Hm].
    - destruct (split_variants p rest) as [[m r]|] eqn:Es; [|discriminate].
      pose proof (split_sound p rest m r v rho Es Hrest) as Hsp.
      destruct (pmatch p v rho) as [rho'|] eqn:Ep.
      + (* the branch is taken: something was matched *)
        destruct m as [|m0 ms]; [destruct Hsp as [u [[] _]]|].
        destruct (infer fns k (pat_binds p (m0 :: ms) ((x, mk_union (m0 :: ms)) :: G)) b) as [tb|] eqn:Eb; [|discriminate].
        destruct (IH _ _ _ rho' Eb) as [w [Hw Hm]].
        { eapply pat_binds_ok; [exact Es|exact Hsp|exact Ep|].
          eapply env_ok_narrow; [exact Hok|exact Hx|]. apply memb_mk_union. exact Hsp. }
        exists w. split; [exact Hw|].
        eapply infer_case_acc; [exact Hi| |exact Hm]. apply in_or_app. right. left. reflexivity.
      + (* the branch is not taken: the value is in the complement *)
        destruct m as [|m0 ms].
        * eapply IHb; [exact Hsp|exact Hi].
        * destruct (infer fns k (pat_binds p (m0 :: ms) ((x, mk_union (m0 :: ms)) :: G)) b) as [tb|]; [|discriminate].
          destruct r as [|r0 rs]; [destruct Hsp as [u [[] _]]|].
          eapply IHb; [exact Hsp|exact Hi].
  Qed.

  Lemma safe_step k : safe_at k -> safe_at (S k).
  Proof.
    intros IH G e T rho Hi Hok.
    destruct e as [z|l|nm es|x|e1 i|e1 lb|e1 e2|e1|x e1 e2|x t e1 e2|x brs d|f e1]; cbn [infer eval] in *.
    - (* EInt *) inversion Hi. eauto.
    - (* EBinLit *) inversion Hi. eauto.
    - (* ETup *) destruct (map_opt (infer fns k G) es) as [ts|] eqn:Et; [|discriminate]. inversion Hi; subst.
      destruct (map_opt_safe k G rho IH Hok es ts Et) as [vs [-> Hvs]].
      exists (CTup nm vs). split; [reflexivity|]. apply memb_tup. auto.
    - (* EVar *) exact (Hok x T Hi).
    - (* EGet *) destruct (infer fns k G e1) as [t1|] eqn:E1; [|discriminate].
      destruct t1 as [| |nm ts|]; try discriminate.
      destruct (IH _ _ _ _ E1 Hok) as [v1 [-> Hm]].
      destruct v1 as [| |nm' vs]; try discriminate. apply memb_tup in Hm. destruct Hm as [_ Hvs].
      pose proof (Forall2_nth _ _ _ Hvs i) as Hn. rewrite Hi in Hn.
      destruct (nth_error vs i) as [vi|]; [eauto|contradiction].
    - (* EGetL *) destruct (infer fns k G e1) as [t1|] eqn:E1; [|discriminate].
      destruct t1 as [| |nm ts|]; try discriminate.
      destruct (IH _ _ _ _ E1 Hok) as [v1 [-> Hm]].
      destruct v1 as [| |nm' vs]; try discriminate. apply memb_tup in Hm. destruct Hm as [<- Hvs].
      destruct (label_index lb (snd nm)) as [i|]; [|discriminate].
      pose proof (Forall2_nth _ _ _ Hvs i) as Hn. rewrite Hi in Hn.
      destruct (nth_error vs i) as [vi|]; [eauto|contradiction].
    - (* EAdd *) destruct (infer fns k G e1) as [[| | |]|] eqn:E1; try discriminate.
      destruct (infer fns k G e2) as [[| | |]|] eqn:E2; try discriminate.
      destruct (IH _ _ _ _ E1 Hok) as [v1 [-> H1]]. destruct (IH _ _ _ _ E2 Hok) as [v2 [-> H2]].
      destruct v1; try discriminate. destruct v2; try discriminate. inversion Hi. eauto.
    - (* ELen *) destruct (infer fns k G e1) as [[| | |]|] eqn:E1; try discriminate.
      destruct (IH _ _ _ _ E1 Hok) as [v1 [-> H1]]. destruct v1; try discriminate. inversion Hi. eauto.
    - (* ELet *) destruct (infer fns k G e1) as [t1|] eqn:E1; [|discriminate].
      destruct (IH _ _ _ _ E1 Hok) as [v1 [-> H1]].
      eapply IH; [exact Hi|]. apply env_ok_cons; assumption.
    - (* ELetAs *) destruct (infer fns k G e1) as [t1|] eqn:E1; [|discriminate].
      destruct (IH _ _ _ _ E1 Hok) as [v1 [-> Hm1]].
      destruct (split_variants (PTy t) (Core.variants t1)) as [[m r]|] eqn:Es; [|discriminate].
      pose proof (split_sound (PTy t) _ m r v1 rho Es (proj1 (memb_variants v1 t1) Hm1)) as Hsp.
      cbn [pmatch] in Hsp.
      destruct (memb v1 t).
      + destruct m as [|m0 ms]; [destruct Hsp as [u [[] _]]|].
        destruct (infer fns k ((x, mk_union (m0 :: ms)) :: G) e2) as [t2|] eqn:E2; [|discriminate].
        destruct (IH _ _ _ ((x, v1) :: rho) E2) as [v [Hv Hm]].
        { apply env_ok_cons; [exact Hok|]. apply memb_mk_union. exact Hsp. }
        exists v. split; [exact Hv|]. destruct r; inversion Hi; subst; [exact Hm|].
        apply memb_mk_union. exists t2. split; [left; reflexivity|exact Hm].
      + exists v_nil. split; [reflexivity|].
        destruct m as [|m0 ms]; [inversion Hi; reflexivity|].
        destruct (infer fns k ((x, mk_union (m0 :: ms)) :: G) e2) as [t2|]; [|discriminate].
        destruct r as [|r0 rs]; [destruct Hsp as [u [[] _]]|].
        inversion Hi; subst. apply memb_mk_union. exists ty_nil. split; [right; left; reflexivity|reflexivity].
    - (* ECase *) destruct (lookup x G) as [tx|] eqn:Ex; [|discriminate].
      destruct (Hok x tx Ex) as [vx [Hvx Hmx]]. rewrite Hvx.
      eapply case_safe; [exact IH|exact Hok|exact Hvx| |exact Hi].
      apply memb_variants. exact Hmx.
    - (* ECall *) destruct (nth_error fns f) as [[tp body]|]; [|discriminate].
      destruct (infer fns k G e1) as [ta|] eqn:Ea; [|discriminate].
      destruct (subty ta tp) eqn:Esub; [|discriminate].
      destruct (IH _ _ _ _ Ea Hok) as [a [-> Ha]].
      eapply IH; [exact Hi|]. apply env_ok_cons; [exact env_ok_nil|]. eapply subty_sound; eassumption.
  Qed.

  (* no accepted core expression gets stuck: evaluation runs in lock-step with the fuel the
     judgement itself used, so it finishes, with a value of the inferred type *)
  Theorem core_safe k : safe_at k.
  Proof. induction k as [|k IHk]; [intros G e T rho Hi; discriminate|apply safe_step; exact IHk]. Qed.

  Lemma map_opt_mono {A B} (f g : A -> option B) : (forall a b, f a = Some b -> g a = Some b) ->
    forall l bs, map_opt f l = Some bs -> map_opt g l = Some bs.
  Proof.
    intros Hfg. induction l as [|a l IH]; intros bs H; cbn [map_opt] in *; [exact H|].
    destruct (f a) as [b|] eqn:Ea; [|discriminate]. destruct (map_opt f l) as [bs'|]; [|discriminate].
    rewrite (Hfg _ _ Ea), (IH _ eq_refl). exact H.
  Qed.

  Lemma eval_case_mono (ev ev' : env -> exp -> option cval) :
    (forall rho e v, ev rho e = Some v -> ev' rho e = Some v) ->
    forall v rho d brs w, eval_case ev v rho d brs = Some w -> eval_case ev' v rho d brs = Some w.
  Proof.
    intros H v rho d. induction brs as [|[p b] brs IH]; intros w Hw; cbn [eval_case] in *; [apply H; exact Hw|].
    destruct (pmatch p v rho); [apply H; exact Hw|apply IH; exact Hw].
  Qed.

  Lemma eval_mono : forall n m, n <= m ->
    forall rho e v, eval fns n rho e = Some v -> eval fns m rho e = Some v.
  Proof.
    induction n as [|n IH]; intros m Hle rho e v H; [discriminate|].
    destruct m as [|m]; [lia|]. specialize (IH m (le_S_n _ _ Hle)).
    destruct e as [z|l|nm es|x|e1 i|e1 lb|e1 e2|e1|x e1 e2|x t e1 e2|x brs d|f e1]; cbn [eval] in *.
    - (* EInt *) exact H.
    - (* EBinLit *) exact H.
    - (* ETup *) destruct (map_opt (eval fns n rho) es) as [vs|] eqn:E; [|discriminate].
      rewrite (map_opt_mono _ _ (IH rho) _ _ E). exact H.
    - (* EVar *) exact H.
    - (* EGet *) destruct (eval fns n rho e1) as [v1|] eqn:E1; [|discriminate]. rewrite (IH _ _ _ E1). exact H.
    - (* EGetL *) destruct (eval fns n rho e1) as [v1|] eqn:E1; [|discriminate]. rewrite (IH _ _ _ E1). exact H.
    - (* EAdd *) destruct (eval fns n rho e1) as [v1|] eqn:E1; [|discriminate]. rewrite (IH _ _ _ E1).
      destruct (eval fns n rho e2) as [v2|] eqn:E2; [|destruct v1; discriminate]. rewrite (IH _ _ _ E2). exact H.
    - (* ELen *) destruct (eval fns n rho e1) as [v1|] eqn:E1; [|discriminate]. rewrite (IH _ _ _ E1). exact H.
    - (* ELet *) destruct (eval fns n rho e1) as [v1|] eqn:E1; [|discriminate]. rewrite (IH _ _ _ E1). apply IH. exact H.
    - (* ELetAs *) destruct (eval fns n rho e1) as [v1|] eqn:E1; [|discriminate]. rewrite (IH _ _ _ E1).
      destruct (memb v1 t); [apply IH; exact H|exact H].
    - (* ECase *) destruct (lookup x rho) as [vx|]; [|discriminate]. eapply eval_case_mono; [exact IH|exact H].
    - (* ECall *) destruct (nth_error fns f) as [[tp body]|]; [|discriminate].
      destruct (eval fns n rho e1) as [v1|] eqn:E1; [|discriminate]. rewrite (IH _ _ _ E1). apply IH. exact H.
  Qed.

  (* the statement of C01: a core expression the judgement accepts at type T, evaluated in an environment
     that respects the typing environment, yields - when it yields a value - a value of T *)
  Theorem core_soundness : forall n k G e T rho v,
    infer fns k G e = Some T -> env_ok rho G -> eval fns n rho e = Some v -> memb v T = true.
  Proof.
    intros n k G e T rho v Hi Hok He. destruct (core_safe k G e T rho Hi Hok) as [v' [He' Hm]].
    apply (eval_mono _ _ (Nat.le_max_l n k)) in He. apply (eval_mono _ _ (Nat.le_max_r n k)) in He'.
    rewrite He in He'. inversion He'; subst. exact Hm.
  Qed.

  Theorem core_progress : forall k G e T rho,
    infer fns k G e = Some T -> env_ok rho G -> exists v, eval fns k rho e = Some v.
  Proof. intros k G e T rho Hi Hok. destruct (core_safe k G e T rho Hi Hok) as [v [Hv _]]. eauto. Qed.

  Corollary core_type_safety : forall k e T,
    infer fns k [] e = Some T -> exists v, eval fns k [] e = Some v /\ memb v T = true.
  Proof. intros k e T Hi. exact (core_safe k [] e T [] Hi env_ok_nil). Qed.

  (* whole programs: accepted => the main expression evaluates to a value of the inferred type *)
  Corollary core_program_safety : forall k e T,
    infer_prog fns k e = Some T -> exists v, eval fns k [] e = Some v /\ memb v T = true.
  Proof.
    intros k e T H. unfold infer_prog in H.
    destruct (forallb _ fns); [|discriminate]. apply core_type_safety. exact H.
  Qed.
End Soundness.
