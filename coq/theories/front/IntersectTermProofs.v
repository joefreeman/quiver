(* front/IntersectTermProofs.v — termination of intersect_types / intersect_pair (Narrow.v;
   narrowing.rs:303-372 incl. the exact-meet arms for callable / process types, fix 79f9965).

   The registry GROWS while the algorithm runs (never, the meet tuples, unions are registered), but
   the recursion only ever descends into ids of the registry it started from: variants and field
   types of the operands, never a result.  So the argument is relative to a base registry P0 with
   topologically ordered ids whose tuple ids are all in range (`closed_tuples`), and every
   intermediate registry `extends P0`.  Measure: the id of the self-side operand — each
   intersect_types -> intersect_pair -> intersect_types round trip moves to a child of it.

   The relation checks made on the way (types_overlap / is_compatible / contains_cycle on pairs of
   BASE ids, in a grown registry) are a hypothesis here (`rel_answers_on`); it is discharged in
   NarrowBoundProofs.v from rel_fuel >= rel_bound n by check_rel_terminates_window and contains_cycle_fuel. *)
From Quiver Require Import Base Types Rel Narrow RelProofs TypesProofs.
From Quiver.front Require Import Totality RelTermProofs.
From Coq Require Import Arith Lia.
Close Scope Z_scope.
Open Scope nat_scope.

(* every tuple id mentioned by a type is in range (what register_tuple / register_type produce) *)
Definition closed_tuples (P : registry) : Prop :=
  forall id tid, lookup_type P id = Some (TTuple tid) -> exists info, lookup_tuple P tid = Some info.

Definition closed_tuplesb (P : registry) : bool :=
  forallb (fun t => match t with
                    | TTuple tid => match lookup_tuple P tid with Some _ => true | None => false end
                    | _ => true
                    end) (types P).

Lemma closed_tuplesb_ok P : closed_tuplesb P = true -> closed_tuples P.
Proof.
  unfold closed_tuplesb, closed_tuples. intros H id tid Hl. rewrite forallb_forall in H.
  specialize (H (TTuple tid) (nth_error_In _ _ Hl)). cbn in H.
  destruct (lookup_tuple P tid) as [info|]; [eexists; reflexivity|discriminate].
Qed.

Definition grows {X} (P : registry) (r : option (registry * X)) : Prop :=
  exists P' x, r = Some (P', x) /\ extends P P'.

Lemma grows_refl {X} P (x : X) : grows P (Some (P, x)).
Proof. exists P, x. split; [reflexivity|apply extends_refl]. Qed.

Lemma grows_trans {X} P P1 (r : option (registry * X)) : extends P P1 -> grows P1 r -> grows P r.
Proof. intros H (P' & x & E & H'). exists P', x. split; [exact E|eapply extends_trans; eassumption]. Qed.

(* the two ways the algorithms sequence their steps: on an optional result, and on a pair *)
Lemma grows_bind {X Y} P (r : option (registry * X)) (k : registry -> X -> option (registry * Y)) :
  grows P r -> (forall P1 x, extends P P1 -> grows P1 (k P1 x)) ->
  grows P (match r with Some (P1, x) => k P1 x | None => None end).
Proof. intros (P1 & x & -> & H) Hk. exact (grows_trans _ _ _ H (Hk _ _ H)). Qed.

Lemma grows_let {X Y} P (pr : registry * X) (k : registry -> X -> option (registry * Y)) :
  (forall P1 x, pr = (P1, x) -> extends P P1) -> (forall P1 x, extends P P1 -> grows P1 (k P1 x)) ->
  grows P (let '(P1, x) := pr in k P1 x).
Proof. destruct pr as [P1 x]. intros H Hk. exact (grows_trans _ _ _ (H _ _ eq_refl) (Hk _ _ (H _ _ eq_refl))). Qed.

Lemma grows_register_type P t : grows P (Some (register_type P t)).
Proof. destruct (register_type P t) as [P' id] eqn:E. exists P', id. split; [reflexivity|apply (register_type_spec _ _ _ _ E)]. Qed.

Lemma never_extends P P' id : never P = (P', id) -> extends P P'.
Proof. unfold never. intros H. apply (register_type_spec _ _ _ _ H). Qed.

Lemma union_type_ids_extends P ids P' id : union_type_ids P ids = (P', id) -> extends P P'.
Proof.
  unfold union_type_ids. intros H.
  destruct (dedup [] _) as [|x [|y l]].
  - eapply never_extends; exact H.
  - inversion H; subst. apply extends_refl.
  - apply (register_type_spec _ _ _ _ H).
Qed.

Lemma grows_union P ids : grows P (Some (union_type_ids P ids)).
Proof. destruct (union_type_ids P ids) as [P' id] eqn:E. exists P', id. split; [reflexivity|apply (union_type_ids_extends _ _ _ _ E)]. Qed.

Lemma dangling_variants P id : ntypes P <= id -> get_type_variants P id = [].
Proof. intros H. unfold get_type_variants. rewrite lookup_dangling by exact H. reflexivity. Qed.

Section Isect.
  Variable cfg : rel_cfg.
  Variable rel_fuel : nat.
  Variable P0 : registry.
  Hypothesis Htopo : topo P0.
  Hypothesis Hclosed : closed_tuples P0.

  Notation n0 := (ntypes P0).

  (* the relation checks answer on pairs of base ids, in every extension of the base registry *)
  Definition rel_answers_on : Prop :=
    forall P x y, extends P0 P -> x < n0 -> y < n0 ->
      (exists r, types_overlap cfg rel_fuel P x y = Some r) /\
      (exists r, is_compatible cfg rel_fuel P x y = Some r) /\
      (exists r, cyclic cfg rel_fuel P x = Some r).
  Hypothesis Hrel : rel_answers_on.

  (* `grows` at results that are ids, word for word; everything below speaks of `grows` *)
  Definition ok2 (P : registry) (r : option (registry * nat)) : Prop :=
    exists P' x, r = Some (P', x) /\ extends P P'.

  Lemma ok2_trans P P1 r : extends P P1 -> ok2 P1 r -> ok2 P r.
  Proof. exact (grows_trans P P1 r). Qed.

  Lemma base_lookup P id : extends P0 P -> id < n0 -> exists t, lookup_type P0 id = Some t /\ lookup_type P id = Some t.
  Proof.
    intros [HT _] Hid. destruct (lookup_type P0 id) as [t|] eqn:E.
    - exists t. split; [reflexivity|apply HT; exact E].
    - apply nth_error_None in E. unfold ntypes in Hid. lia.
  Qed.

  (* the variants of a base id are base ids, no larger than it *)
  Lemma base_variants P id v : extends P0 P -> id < n0 -> In v (get_type_variants P id) -> v <= id.
  Proof.
    intros HE Hid Hin. destruct (base_lookup P id HE Hid) as [t [H0 HP]].
    unfold get_type_variants in Hin. rewrite HP in Hin.
    destruct t; try (destruct Hin as [<-|[]]; lia).
    pose proof (Htopo id _ H0 v Hin). lia.
  Qed.

  (* the loops, given that the recursive calls answer *)
  Section Loops.
    Variable ipair itypes : registry -> nat -> nat -> option (registry * nat).

    Lemma isect_inner_ok nid av : forall bvs P pieces,
      extends P0 P -> (forall P' bv, extends P0 P' -> In bv bvs -> grows P' (ipair P' av bv)) ->
      grows P (isect_inner ipair nid P pieces av bvs).
    Proof.
      induction bvs as [|bv bvs IH]; intros P pieces HE Hp; cbn; [apply grows_refl|].
      apply grows_bind; [apply Hp; [exact HE|left; reflexivity]|intros P1 x H1].
      apply IH; [eapply extends_trans; eassumption|intros P' b H Hb; apply Hp; [exact H|right; exact Hb]].
    Qed.

    Lemma isect_outer_ok nid bvs : forall avs P pieces,
      extends P0 P -> (forall P' av bv, extends P0 P' -> In av avs -> In bv bvs -> grows P' (ipair P' av bv)) ->
      grows P (isect_outer ipair nid bvs P pieces avs).
    Proof.
      induction avs as [|av avs IH]; intros P pieces HE Hp; cbn; [apply grows_refl|].
      apply grows_bind; [apply isect_inner_ok; [exact HE|intros P' b H Hb; apply Hp; [exact H|left; reflexivity|exact Hb]]|intros P1 x H1].
      apply IH; [eapply extends_trans; eassumption|intros P' a b H Ha Hb; apply Hp; [exact H|right; exact Ha|exact Hb]].
    Qed.

    Lemma isect_fields_ok : forall fs1 fs2 P acc,
      extends P0 P ->
      (forall P' f1 f2, extends P0 P' -> In f1 fs1 -> In f2 fs2 -> grows P' (itypes P' (snd f1) (snd f2))) ->
      grows P (isect_fields itypes P acc fs1 fs2).
    Proof.
      induction fs1 as [|[n1 f1] fs1 IH]; intros [|[n2 f2] fs2] P acc HE Hp; cbn; try apply grows_refl.
      apply grows_bind; [apply (Hp P (n1, f1) (n2, f2)); [exact HE|left; reflexivity..]|intros P1 fi H1].
      apply grows_let; [apply never_extends|intros P2 nv H2].
      destruct (Nat.eqb fi nv); [apply grows_refl|].
      apply IH; [eapply extends_trans; [exact HE|eapply extends_trans; eassumption]|].
      intros P' a b H Ha Hb. apply Hp; [exact H|right; exact Ha|right; exact Hb].
    Qed.
  End Loops.

  Definition types_part (m : nat) : Prop :=
    forall fuel P a b, extends P0 P -> a < n0 -> b < n0 -> a <= m -> 2 * m + 2 <= fuel ->
      grows P (intersect_types cfg rel_fuel fuel P a b).
  Definition pair_part (m : nat) : Prop :=
    forall fuel P a b, extends P0 P -> a < n0 -> b < n0 -> a <= m -> 2 * m + 1 <= fuel ->
      grows P (intersect_pair cfg rel_fuel fuel P a b).

  (* Only three arms of intersect_pair recurse, each on children of both operands; every other arm
     answers at once or by the overlap check. *)
  Lemma pair_step m : (forall m', m' < m -> types_part m') -> pair_part m.
  Proof.
    intros IH fuel P a b HE Ha Hb Hm Hf.
    destruct fuel as [|f]; [lia|]. simpl intersect_pair.
    destruct (Nat.eqb a b); [apply grows_refl|].
    apply grows_let; [apply never_extends|intros P1 nid H1].
    assert (HE1 : extends P0 P1) by (eapply extends_trans; eassumption).
    destruct (base_lookup P1 a HE1 Ha) as [ta [H0a Hla]]. destruct (base_lookup P1 b HE1 Hb) as [tb [H0b Hlb]].
    destruct (Hrel P1 a b HE1 Ha Hb) as [[rov Hov] [[rab Hab] [rca Hca]]].
    destruct (Hrel P1 b a HE1 Hb Ha) as [_ [[rba Hba] [rcb Hcb]]].
    rewrite Hla, Hlb, Hov, Hca, Hcb, Hab, Hba.
    assert (Hdef : grows P1 (if rov then Some (P1, a) else Some (P1, nid))) by (destruct rov; apply grows_refl).
    assert (Hrec : forall P' x y, extends P0 P' -> x < a -> y < b -> grows P' (intersect_types cfg rel_fuel f P' x y)).
    { intros P' x y HE' Hx Hy. apply (IH (m - 1) ltac:(lia)); try assumption; lia. }
    pose proof (Htopo a ta H0a) as Hca'. pose proof (Htopo b tb H0b) as Hcb'.
    destruct ta as [| | |tid1|pn1 pf1|p1 r1 c1|d1|vs1|sd1 rv1|rs1|v1];
      destruct tb as [| | |tid2|pn2 pf2|p2 r2 c2|d2|vs2|sd2 rv2|rs2|v2];
      try apply grows_refl; try exact Hdef; cbn in Hca', Hcb'.
    - (* tuple / tuple *)
      destruct (Hclosed a tid1 H0a) as [i1 Ht1]. destruct (Hclosed b tid2 H0b) as [i2 Ht2].
      rewrite Ht1 in Hca'. rewrite Ht2 in Hcb'. rewrite (proj2 HE1 _ _ Ht1), (proj2 HE1 _ _ Ht2).
      destruct (_ || _); [apply grows_refl|].
      apply grows_bind; [apply isect_fields_ok; [exact HE1|]|intros P2 [fields|] H2; [|apply grows_refl]].
      + intros P' f1 f2 HE' Hf1 Hf2. apply Hrec; [exact HE'|apply Hca'|apply Hcb']; apply in_map; assumption.
      + apply grows_let; [intros P3 tid E; apply (register_tuple_spec _ _ _ _ _ E)|intros; apply grows_register_type].
    - (* callable / callable: exact meet of two non-recursive function types *)
      destruct rca, rcb; try exact Hdef. destruct rab, rba; try apply grows_refl.
      apply grows_let; [apply union_type_ids_extends|intros P2 parameter H2].
      apply grows_bind; [apply Hrec; [eapply extends_trans; eassumption|apply Hca'|apply Hcb']; cbn; auto|intros P3 result H3].
      apply grows_let; [apply union_type_ids_extends|intros; apply grows_register_type].
    - (* process / process: meet of the components that both sides know *)
      destruct rca, rcb; try exact Hdef. destruct rab, rba; try apply grows_refl.
      (* Narrow.v's local `meet`, unfolded *)
      assert (Hmeet : forall P' o1 o2, extends P0 P' -> (forall x, o1 = Some x -> x < a) -> (forall y, o2 = Some y -> y < b) ->
                grows P' match o1, o2 with
                         | Some x, Some y => match intersect_types cfg rel_fuel f P' x y with
                                             | Some (P'', m0) => Some (P'', Some m0) | None => None end
                         | Some x, None => Some (P', Some x)
                         | None, Some y => Some (P', Some y)
                         | None, None => Some (P', None)
                         end).
      { intros P' [x|] [y|] HE' Hx Hy; try apply grows_refl.
        apply grows_bind; [apply Hrec; auto|intros; apply grows_refl]. }
      apply grows_bind; [apply Hmeet; [exact HE1|intros x ->; apply Hca'|intros y ->; apply Hcb']; cbn; auto|intros P2 send H2].
      apply grows_bind; [apply Hmeet; [eapply extends_trans; eassumption|intros x ->; apply Hca'|intros y ->; apply Hcb'];
                         apply in_or_app; cbn; auto|intros; apply grows_register_type].
  Qed.

  Lemma types_step m : pair_part m -> types_part m.
  Proof.
    intros HP fuel P a b HE Ha Hb Hm Hf.
    destruct fuel as [|f]; [lia|]. simpl intersect_types.
    apply grows_let; [apply never_extends|intros P1 nid H1].
    apply grows_bind; [apply isect_outer_ok; [eapply extends_trans; eassumption|]|intros; apply grows_union].
    intros P' av bv HE' Hav Hbv.
    pose proof (base_variants P a av HE Ha Hav). pose proof (base_variants P b bv HE Hb Hbv).
    apply HP; try assumption; lia.
  Qed.

  Theorem intersect_fuel_enough : forall m, types_part m /\ pair_part m.
  Proof.
    induction m as [m IH] using lt_wf_ind.
    assert (HP : pair_part m) by (apply pair_step; intros m' Hlt; apply (IH m' Hlt)).
    split; [apply types_step; exact HP|exact HP].
  Qed.
End Isect.
