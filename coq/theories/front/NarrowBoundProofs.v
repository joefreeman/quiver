(* front/NarrowBoundProofs.v — intersect_types terminates within narrow_bound n = 2n+2 on every registry
   with topologically ordered ids and in-range tuple ids, provided the relation fuel is at least
   rel_bound n.  Combines IntersectTermProofs.v (descent on base ids while the registry grows) with
   the windowed forms of check_rel_fuel_enough and contains_cycle_fuel (the relation is run on base
   ids inside the grown registry: only the base part needs to be topologically ordered). *)
From Quiver Require Import Base Types Rel Narrow RelProofs TypesProofs.
From Quiver.front Require Import Totality RelTermProofs NarrowTermProofs IntersectTermProofs RelTermWitness.
From Coq Require Import Arith Lia.
Close Scope Z_scope.
Open Scope nat_scope.

Lemma cc_bound_le_rel_bound n : cc_bound n <= rel_bound n.
Proof. unfold cc_bound. rewrite rel_bound_formula. nia. Qed.

Section Discharge.
  Variable cfg : rel_cfg.
  Variable rel_fuel : nat.
  Variable P0 : registry.
  Hypothesis Hcall : cfg_callable_assume cfg = true.
  Hypothesis Htopo : topo P0.
  Hypothesis Hclosed : closed_tuples P0.
  Hypothesis Hrf : rel_bound (ntypes P0) <= rel_fuel.

  (* the base part of every extension is still topologically ordered *)
  Lemma window_topo P : extends P0 P -> topo_below (ntypes P0) P.
  Proof.
    intros HE id t Hid Hl c Hc.
    destruct (base_lookup P0 P id HE Hid) as [t0 [H0 HP]]. rewrite HP in Hl. inversion Hl; subst t0.
    apply (Htopo id t H0).
    destruct t; try exact Hc.
    cbn in Hc |- *. destruct (Hclosed id _ H0) as [info Hi]. rewrite Hi. rewrite (proj2 HE _ _ Hi) in Hc. exact Hc.
  Qed.

  Lemma rel_answers_discharged : rel_answers_on cfg rel_fuel P0.
  Proof.
    intros P x y HE Hx Hy. pose proof (window_topo P HE) as HW.
    assert (Hmode : forall mode, exists r, option_map fst (check_rel cfg P mode rel_fuel [] [] [] x y) = Some r).
    { intros mode.
      destruct (check_rel_terminates_window cfg P mode Hcall (ntypes P0) HW rel_fuel x y Hx Hy Hrf) as [r [A' E]].
      rewrite E. eexists; reflexivity. }
    repeat split; [exact (Hmode Any)|exact (Hmode All)|].
    unfold cyclic. pose proof (cc_bound_le_rel_bound (ntypes P0)). unfold cc_bound in *.
    destruct (contains_cycle_fuel cfg P (ntypes P0) HW rel_fuel x [] Hx ltac:(lia)) as [r E].
    rewrite E. eexists; reflexivity.
  Qed.
End Discharge.

Theorem intersect_types_terminates : forall cfg P rel_fuel fuel a b,
  cfg_callable_assume cfg = true -> topob P = true -> closed_tuplesb P = true ->
  rel_bound (ntypes P) <= rel_fuel -> narrow_bound (ntypes P) <= fuel ->
  exists P' r, intersect_types cfg rel_fuel fuel P a b = Some (P', r) /\ extends P P'.
Proof.
  intros cfg P rel_fuel fuel a b Hcall Ht Hc Hrf Hf.
  pose proof (topob_topo P Ht) as Htopo. pose proof (closed_tuplesb_ok P Hc) as Hclosed.
  unfold narrow_bound in Hf.
  destruct (lt_dec a (ntypes P)) as [Ha|Ha]; [destruct (lt_dec b (ntypes P)) as [Hb|Hb]|].
  - destruct (intersect_fuel_enough cfg rel_fuel P Htopo Hclosed
                (rel_answers_discharged cfg rel_fuel P Hcall Htopo Hclosed Hrf) a) as [HT _].
    apply (HT fuel P a b (extends_refl P) Ha Hb (le_n a)). lia.
  - (* a dangling id has no variants: the loop over them never runs *)
    destruct fuel as [|f]; [lia|]. simpl intersect_types. rewrite (dangling_variants P b) by lia.
    apply grows_let; [apply never_extends|intros P1 nid H1].
    apply grows_bind; [apply (isect_outer_ok P1); [apply extends_refl|intros P' av bv _ _ []]|intros; apply grows_union].
  - destruct fuel as [|f]; [lia|]. simpl intersect_types. rewrite (dangling_variants P a) by lia.
    apply grows_let; [apply never_extends|intros P1 nid H1]. apply grows_union.
Qed.

Corollary intersect_types_terminates_current : forall P rel_fuel fuel a b,
  topob P = true -> closed_tuplesb P = true ->
  rel_bound (ntypes P) <= rel_fuel -> narrow_bound (ntypes P) <= fuel ->
  intersect_types current_cfg rel_fuel fuel P a b <> None.
Proof.
  intros P rel_fuel fuel a b Ht Hc Hrf Hf.
  destruct (intersect_types_terminates current_cfg P rel_fuel fuel a b eq_refl Ht Hc Hrf Hf) as [P' [r [E _]]].
  rewrite E. discriminate.
Qed.

(* non-vacuity: the recursive list registry (int list vs bin list) and the F55 function types meet
   the hypotheses; the meets are computed inside the bounds *)
Lemma intersect_nonvacuous :
  topob reg_list = true /\ closed_tuplesb reg_list = true /\
  narrow_bound (ntypes reg_list) = 18 /\
  (exists P' r, intersect_types current_cfg (rel_bound (ntypes reg_list)) 18 reg_list 4 7 = Some (P', r) /\ r = 3) /\
  intersect_types current_cfg (rel_bound (ntypes reg_list)) 3 reg_list 4 7 = None /\
  topob reg_F55 = true /\ closed_tuplesb reg_F55 = true /\
  (exists P' r, intersect_types current_cfg (rel_bound (ntypes reg_F55)) (narrow_bound (ntypes reg_F55)) reg_F55 4 3 = Some (P', r)).
Proof.
  vm_compute. repeat split; try reflexivity; eexists _, _; try split; reflexivity.
Qed.

(* non-vacuity of the complement statement (ComplementTermProofs.v): (int list) minus (bin list) on the
   recursive list registry is computed at the bound, not with 3 units, and 100 units change nothing *)
Lemma complement_nonvacuous :
  (exists P' r, compute_complement current_cfg (rel_bound (ntypes reg_list)) (narrow_bound (ntypes reg_list)) reg_list 4 7 = Some (P', r)) /\
  compute_complement current_cfg (rel_bound (ntypes reg_list)) 3 reg_list 4 7 = None /\
  compute_complement current_cfg (rel_bound (ntypes reg_list)) 100 reg_list 4 7
  = compute_complement current_cfg (rel_bound (ntypes reg_list)) (narrow_bound (ntypes reg_list)) reg_list 4 7.
Proof. vm_compute. repeat split; try reflexivity. eexists _, _; reflexivity. Qed.
