(* front/StringLocProofs.v — the located error of parse_string_content lies inside its segment,
   on a character boundary (the backslash); the loop agrees with C17's Escape.unescape. *)
From Quiver Require Import Base Escape.
From Quiver.front Require Import StringLoc.

Lemma len_utf8_pos c : (1 <= len_utf8 c <= 4)%nat.
Proof. unfold len_utf8. destruct (c <? 128), (c <? 2048), (c <? 65536); lia. Qed.

Lemma len_utf8_backslash : len_utf8 92 = 1%nat.
Proof. reflexivity. Qed.

Lemma unesc_char_ascii e d : unesc_char e = Some d -> len_utf8 e = 1%nat.
Proof.
  unfold unesc_char, len_utf8. intros H. destruct (e <? 128) eqn:E; [reflexivity|].
  apply Z.ltb_ge in E. rewrite !(proj2 (Z.eqb_neq e _)) in H by lia. discriminate.
Qed.

(* psc recurses on the tail, and after an escape on the tail of the tail *)
Lemma list_ind_tl (P : list Z -> Prop) :
  P [] -> (forall c t, P t -> P (tl t) -> P (c :: t)) -> forall s, P s.
Proof.
  intros Hnil Hcons s. enough (P s /\ P (tl s)) by tauto.
  induction s as [|c t [IH1 IH2]]; auto.
Qed.

(* erasing the position gives C17's model *)
Lemma psc_unescape : forall s o,
  match psc s o with
  | PscOk r => unescape s = Some r
  | PscErr _ _ _ => unescape s = None
  end.
Proof.
  induction s as [|c t IH IH'] using list_ind_tl; intros o; [reflexivity|]. cbn [psc unescape].
  destruct (c =? 92).
  - destruct t as [|e t']; [reflexivity|]. destruct (unesc_char e) as [d|]; [|reflexivity].
    specialize (IH' (o + 1 + 1)%nat). cbn [tl] in IH'.
    destruct (psc t' (o + 1 + 1)%nat); cbn [psc_cons]; rewrite IH'; reflexivity.
  - specialize (IH (o + len_utf8 c)%nat).
    destruct (psc t (o + len_utf8 c)%nat); cbn [psc_cons]; rewrite IH; reflexivity.
Qed.

(* the error, when there is one: at the backslash of the offending escape *)
Lemma psc_error_located : forall s o off len esc,
  psc s o = PscErr off len esc ->
  exists pre post,
    s = pre ++ 92 :: post /\ off = (o + byte_len pre)%nat /\
    ((post = [] /\ len = 1%nat /\ esc = [92]) \/
     (exists e post', post = e :: post' /\ unesc_char e = None /\ len = 2%nat /\ esc = [92; e])).
Proof.
  induction s as [|c t IH IH'] using list_ind_tl; intros o off len esc H; [discriminate|].
  cbn [psc] in H. destruct (c =? 92) eqn:Hc.
  - apply Z.eqb_eq in Hc. subst c. destruct t as [|e t'].
    + injection H as <- <- <-. exists [], []. cbn. repeat split; [lia|left; auto].
    + cbn [tl] in IH'. destruct (unesc_char e) as [d|] eqn:He.
      * destruct (psc t' (o + 1 + 1)%nat) as [r|o2 l2 e2] eqn:Hp; cbn [psc_cons] in H; [discriminate|].
        injection H as -> -> ->.
        destruct (IH' _ _ _ _ Hp) as [pre [post [-> [-> Hk]]]].
        exists (92 :: e :: pre), post. split; [reflexivity|]. split; [|exact Hk].
        cbn [byte_len]. rewrite len_utf8_backslash, (unesc_char_ascii e d He). lia.
      * injection H as <- <- <-. exists [], (e :: t'). cbn. repeat split; [lia|].
        right. exists e, t'. auto.
  - destruct (psc t (o + len_utf8 c)%nat) as [r|o2 l2 e2] eqn:Hp; cbn [psc_cons] in H; [discriminate|].
    injection H as -> -> ->.
    destruct (IH _ _ _ _ Hp) as [pre [post [-> [-> Hk]]]].
    exists (c :: pre), post. split; [reflexivity|]. split; [cbn [byte_len]; lia|exact Hk].
Qed.

Lemma byte_len_app a b : byte_len (a ++ b) = (byte_len a + byte_len b)%nat.
Proof. induction a as [|c a IH]; cbn [app byte_len]; [reflexivity|rewrite IH; lia]. Qed.

(* the reported span [offset, offset + length) lies inside the segment
   [base, base + len(segment)) — `base` is span.location_offset() — and starts at a character *)
Theorem escape_error_offset_in_range : forall s base off len esc,
  psc s base = PscErr off len esc ->
  (base <= off)%nat /\ (off < base + byte_len s)%nat /\ (off + len <= base + byte_len s)%nat /\
  exists pre, firstn (length pre) s = pre /\ off = (base + byte_len pre)%nat.
Proof.
  intros s base off len esc H.
  destruct (psc_error_located s base off len esc H) as [pre [post [-> [-> Hk]]]].
  rewrite byte_len_app. cbn [byte_len]. rewrite len_utf8_backslash.
  repeat split; try lia.
  - destruct Hk as [[-> [-> _]]|[e [post' [-> [_ [-> _]]]]]]; cbn [byte_len]; [lia|].
    pose proof (len_utf8_pos e). lia.
  - exists pre. split; [|reflexivity].
    rewrite firstn_app, Nat.sub_diag, firstn_all. cbn. apply app_nil_r.
Qed.

(* the located loop agrees with Escape.unescape, and a reported span lies inside the text *)
Theorem unescape_total_located : forall s,
  (exists r, parse_string_content_loc s = PscOk r /\ unescape s = Some r) \/
  (exists off len esc, parse_string_content_loc s = PscErr off len esc /\ unescape s = None /\
                       (off < byte_len s)%nat /\ (off + len <= byte_len s)%nat).
Proof.
  intros s. unfold parse_string_content_loc. pose proof (psc_unescape s 0%nat) as H.
  destruct (psc s 0%nat) as [r|off len esc] eqn:E.
  - left. exists r. auto.
  - right. exists off, len, esc. destruct (escape_error_offset_in_range s 0%nat off len esc E) as [_ [H1 [H2 _]]].
    repeat split; auto.
Qed.

(* `length: 2` counts the escaped character as one byte: for a multi-byte character the END of the
   reported span falls inside that character (slicing the source with it would panic).  The error
   value is currently dropped by the only caller (single_line_string maps it to a Failure at the
   opening quote), so this is latent. *)
Lemma escape_error_span_end_not_boundary :
  exists s off len esc, parse_string_content_loc s = PscErr off len esc /\
    (off + len < byte_len s)%nat /\
    forall pre, firstn (length pre) s = pre -> byte_len pre <> (off + len)%nat.
Proof.
  exists [92; 233], 0%nat, 2%nat, [92; 233]. split; [reflexivity|]. split; [cbn; lia|].
  intros pre Hpre. destruct pre as [|a [|b [|c pre]]]; cbn in Hpre |- *.
  - lia.
  - inversion Hpre; subst. cbn. lia.
  - inversion Hpre; subst. cbn. lia.
  - inversion Hpre.
Qed.
