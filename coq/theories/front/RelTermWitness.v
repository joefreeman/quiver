(* front/RelTermWitness.v — concrete registries: non-vacuity of the termination theorem (by evaluation),
   and the two ways it fails when a hypothesis is dropped: without the callable assumption no fuel
   is enough (by induction on the fuel), with an id cycle 100 times the bound is not (by evaluation). *)
From Quiver Require Import Base Types Rel RelProofs.
From Quiver.front Require Import Totality RelTermProofs.
From Coq Require Import Arith Lia.
Close Scope Z_scope.
Open Scope nat_scope.

(* The F55 shape, minimised (found by running the pre-F55 model variant on generated recursive
   function types):   0 = ^1   1 = ^2   2 = #^1 -> ^2 (receive ^1)   3 = #(2) -> ^1   4 = #^1 -> ^1
   `is_compatible(4, 3)` re-enters the Callable arm for ever when that arm records no assumption. *)
Definition reg_F55 : registry :=
  mk_reg (tuples new_registry)
         [TCycle 1; TCycle 2; TCallable 0 1 0; TCallable 2 0 0; TCallable 0 0 0].

Lemma reg_F55_topo : topob reg_F55 = true.
Proof. vm_compute. reflexivity. Qed.

(* the code as it is: answers well inside the bound B(5) = 649 *)
Lemma F55_current_terminates :
  rel_bound (ntypes reg_F55) = 649 /\
  is_compatible_with current_cfg 649 reg_F55 4 3 = Some true /\
  is_compatible_with current_cfg 11 reg_F55 4 3 = Some true /\
  is_compatible_with current_cfg 10 reg_F55 4 3 = None.
Proof. vm_compute. repeat split; reflexivity. Qed.

(* ids that are NOT topologically ordered: type 0 = Tuple 2 = N0[type 1], type 1 = Tuple 3 = N0[type 0].
   The tuple arm records no assumption, so check_type_relation(0, 1) never returns (a registry that
   Program::register_* cannot produce bottom-up: a field refers to a type registered later). *)
Definition reg_idcycle : registry :=
  mk_reg (tuples new_registry ++ [mk_tuple (Some 0) [(None, 1)]; mk_tuple (Some 0) [(None, 0)]])
         [TTuple 2; TTuple 3].

Lemma idcycle_not_topo_and_exceeds :
  topob reg_idcycle = false /\
  check_rel current_cfg reg_idcycle All (100 * rel_bound (ntypes reg_idcycle)) [] [] [] 0 1 = None.
Proof. vm_compute. split; reflexivity. Qed.

(* two recursive first-order types (lists of int, lists of bin): both modes, well inside *)
Definition reg_list : registry :=
  (* 0 = int, 1 = ^1, 2 = Tuple Cons[int, ^1] (tuple 3), 3 = Tuple Nil (tuple 2), 4 = Nil | Cons[int, ^],
     5 = bin, 6 = Tuple Cons[bin, ^1] (tuple 4), 7 = Nil | Cons[bin, ^] *)
  mk_reg (tuples new_registry ++ [mk_tuple (Some 0) []; mk_tuple (Some 1) [(None, 0); (None, 1)];
                                   mk_tuple (Some 1) [(None, 5); (None, 1)]])
         [TInteger; TCycle 1; TTuple 3; TTuple 2; TUnion [3; 2]; TBinary; TTuple 4; TUnion [3; 6]].

Lemma reg_list_checks :
  topob reg_list = true /\ rel_bound (ntypes reg_list) = 2404 /\
  is_compatible_with current_cfg 2404 reg_list 4 7 = Some false /\
  types_overlap_with current_cfg 2404 reg_list 4 7 = Some true /\
  rel_depth current_cfg reg_list All 4 7 2404 = Some 4.
Proof. vm_compute. repeat split; reflexivity. Qed.

(* F55 as a theorem: without the callable assumption the model runs out of EVERY fuel.
   The activation (self 3, pattern 4) with stacks [2;3] / [4] re-enters itself after ten nested
   calls (3,4) -> (4,2) -> (4,3) -> (2,4) -> (3,4), the assumption set staying empty: no fuel is
   enough, i.e. the real function recursed until the stack overflowed.
   The activations, as (self stack, pattern stack, self, pattern):
     0 = [] [] 4 3 (the entry)   1 = [3] [4] 2 4        2 = [2;3] [4] 3 4
     3 = [4] [2;3] 4 2           4 = [4] [2;3] 4 3      5 = [2;3] [4] 2 4
   `Tij`: out of fuel at j gives out of fuel at i, the number of `S` being the calls nested between them.
   The loop 2 <- 3 <- 4 <- 5 <- 2 costs 2 + 3 + 2 + 3 = 10; going round it, every state is reached with
   2 or 3 units less, which is why loop_diverges takes its hypothesis at f and at S f. *)
Local Notation cr f ss ps s p := (check_rel partial_cfg reg_F55 All f [] ss ps s p).

Lemma T23 f : cr f [4] [2;3] 4 2 = None -> cr (S (S f)) [2;3] [4] 3 4 = None.
Proof. intros H. cbn. rewrite H. reflexivity. Qed.

Lemma T34 f : cr f [4] [2;3] 4 3 = None -> cr (S (S (S f))) [4] [2;3] 4 2 = None.
Proof. intros H. cbn. rewrite H. reflexivity. Qed.
Lemma T45 f : cr f [2;3] [4] 2 4 = None -> cr (S (S f)) [4] [2;3] 4 3 = None.
Proof. intros H. cbn. rewrite H. reflexivity. Qed.
Lemma T52 f : cr f [2;3] [4] 3 4 = None -> cr (S (S (S f))) [2;3] [4] 2 4 = None.
Proof. intros H. cbn. rewrite H. reflexivity. Qed.
Lemma T12 f : cr f [2;3] [4] 3 4 = None -> cr (S (S (S f))) [3] [4] 2 4 = None.
Proof. intros H. cbn. rewrite H. reflexivity. Qed.
Lemma T01 f : cr f [3] [4] 2 4 = None -> cr (S (S f)) [] [] 4 3 = None.
Proof. intros H. cbn. rewrite H. reflexivity. Qed.

Lemma loop_diverges : forall f,
  cr f [2;3] [4] 3 4 = None /\ cr f [4] [2;3] 4 2 = None /\ cr f [4] [2;3] 4 3 = None /\ cr f [2;3] [4] 2 4 = None.
Proof.
  induction f as [f IH] using lt_wf_ind.
  destruct f as [|[|[|f]]]; try (repeat split; reflexivity).
  destruct (IH f ltac:(lia)) as [A0 [B0 [C0 D0]]].
  destruct (IH (S f) ltac:(lia)) as [A1 [B1 [C1 D1]]].
  repeat split.
  - apply T23. exact B1.
  - apply T34. exact C0.
  - apply T45. exact D1.
  - apply T52. exact A0.
Qed.

Theorem F55_partial_cfg_diverges : forall fuel,
  check_rel partial_cfg reg_F55 All fuel [] [] [] 4 3 = None.
Proof.
  intros fuel. destruct fuel as [|[|f]]; try reflexivity.
  apply T01. destruct f as [|[|[|f]]]; try reflexivity.
  apply T12. apply (loop_diverges f).
Qed.

(* in particular the proved bound is exceeded, and ten times the bound as well *)
Lemma F55_partial_cfg_exceeds_bound :
  check_rel partial_cfg reg_F55 All (rel_bound (ntypes reg_F55)) [] [] [] 4 3 = None /\
  check_rel partial_cfg reg_F55 All (10 * rel_bound (ntypes reg_F55)) [] [] [] 4 3 = None.
Proof. split; apply F55_partial_cfg_diverges. Qed.
