(* front/NarrowTermProofs.v — termination of the recursive helpers of narrowing.rs on the model
   (Narrow.v): contains_cycle (narrowing.rs:277-295).  intersect_types and compute_complement are in
   IntersectTermProofs.v / NarrowBoundProofs.v and ComplementTermProofs.v. *)
From Quiver Require Import Base Types Rel Narrow RelProofs.
From Quiver.front Require Import Totality RelTermProofs.
From Coq Require Import Arith Lia.
Close Scope Z_scope.
Open Scope nat_scope.

(* the `any` loop of contains_cycle as a top-level function (the model has it as a local fix) *)
Definition any_child_of (rec : list nat -> nat -> option (bool * list nat))
  : list nat -> list nat -> option (bool * list nat) :=
  fix any_child (seen : list nat) (children : list nat) {struct children} : option (bool * list nat) :=
    match children with
    | [] => Some (false, seen)
    | c :: children' =>
      match rec seen c with
      | None => None
      | Some (true, seen') => Some (true, seen')
      | Some (false, seen') => any_child seen' children'
      end
    end.

Lemma any_child_of_ok rec : forall cs seen,
  (forall c seen', In c cs -> exists r, rec seen' c = Some r) ->
  exists r, any_child_of rec seen cs = Some r.
Proof.
  induction cs as [|c cs IH]; intros seen Hrec; cbn.
  - eexists; reflexivity.
  - destruct (Hrec c seen (or_introl eq_refl)) as [[b s'] E]. rewrite E.
    destruct b; [eexists; reflexivity|].
    apply IH. intros c0 s0 Hc0. apply Hrec. right; exact Hc0.
Qed.

Section CC.
  Variable cfg : rel_cfg.
  Variable P : registry.
  Variable K : nat.
  Hypothesis Htopo : topo_below K P.

  (* every id below K, registered or not: fuel > id suffices — one activation per level of the
     (topologically ordered) type graph; `seen` only cuts the walk shorter *)
  Lemma contains_cycle_fuel : forall fuel t seen,
    t < K -> t < fuel -> exists r, contains_cycle cfg fuel P seen t = Some r.
  Proof.
    induction fuel as [|f IH]; intros t seen HK Hlt; [lia|].
    cbn [contains_cycle]. fold (any_child_of (contains_cycle cfg f P)).
    destruct (existsb (Nat.eqb t) seen); [eexists; reflexivity|].
    assert (Hkids : forall cs, (forall c, In c cs -> c < t) -> forall seen0,
              exists r, any_child_of (contains_cycle cfg f P) seen0 cs = Some r).
    { intros cs Hcs seen0. apply any_child_of_ok. intros c s' Hc. specialize (Hcs c Hc). apply IH; lia. }
    destruct (lookup_type P t) as [ty|] eqn:Hl; [|eexists; reflexivity].
    pose proof (Htopo t ty HK Hl) as Hch.
    (* the ids the walk descends into are `children P ty` (on the literal list [p; r; rc] the unfolding above
       has already run the loop, so the list is given by hand) *)
    destruct ty as [| | |tid|pn fs|p r rc|d|vs|sd rv|rs|v]; try (eexists; reflexivity).
    - cbn in Hch. destruct (lookup_tuple P tid) as [info|]; [exact (Hkids _ Hch _)|eexists; reflexivity].
    - exact (Hkids _ Hch _).
    - destruct (cfg_cc_callable cfg); [exact (Hkids [p; r; rc] Hch (t :: seen))|eexists; reflexivity].
    - exact (Hkids _ Hch _).
    - destruct (cfg_cc_callable cfg); [exact (Hkids _ Hch _)|eexists; reflexivity].
  Qed.
End CC.

Theorem contains_cycle_terminates : forall cfg P fuel seen t,
  topob P = true -> cc_bound (ntypes P) <= fuel ->
  exists r, contains_cycle cfg fuel P seen t = Some r.
Proof.
  intros cfg P fuel seen t Ht Hf. unfold cc_bound in Hf.
  destruct (lt_dec t (ntypes P)) as [Hin|Hout].
  - apply (contains_cycle_fuel cfg P (ntypes P)); [apply topo_topo_below, topob_topo, Ht|exact Hin|lia].
  - (* dangling id: not in `seen` => looked up, not found, `false` at once *)
    destruct fuel as [|f]; [lia|]. cbn [contains_cycle].
    destruct (existsb (Nat.eqb t) seen); [eexists; reflexivity|].
    rewrite lookup_dangling by lia. eexists; reflexivity.
Qed.

(* union_type_ids (typing.rs:30-53) is not recursive: flatten one level, dedup, register — a plain
   function in the model (no fuel); stated for completeness of the list in DESIGN §6 *)
Theorem union_type_ids_total : forall P ids, exists P' id, union_type_ids P ids = (P', id).
Proof. intros P ids. destruct (union_type_ids P ids) as [P' id]. eauto. Qed.
