(* front/ComplementTermProofs.v — the recursion depth of compute_complement / subtract_one
   (Narrow.v; narrowing.rs:403-479) is at most 2n+2.

   Unlike intersect_types, compute_complement feeds its RESULTS back into subtract_one (the pieces
   left after one narrowed variant are the operands for the next), so the self side of a call may
   be an id registered during the run.  The NARROWED side never is: it is always a variant, or a
   field type of a variant, of the narrowed operand.  Measure: the id of the narrowed side.

   The relation checks of subtract_one's shortcut are made on (piece, narrowed variant) in the
   grown registry, where the piece may be new; whether THEY answer depends on rel_fuel and the
   size the registry has reached.  The statement proved here is therefore about the structural
   fuel alone: beyond narrow_bound n it is irrelevant — two runs with the same relation fuel and
   any two structural fuels >= narrow_bound n give the same outcome (in particular: if any fuel
   gives an answer, narrow_bound n does; a None can then only come from the relation fuel). *)
From Quiver Require Import Base Types Rel Narrow RelProofs TypesProofs.
From Quiver.front Require Import Totality IntersectTermProofs.
From Coq Require Import Arith Lia.
Close Scope Z_scope.
Open Scope nat_scope.

Definition same_ext {X} (P : registry) (r r' : option (registry * X)) : Prop :=
  r = r' /\ forall P' x, r = Some (P', x) -> extends P P'.
(* one run: its result, if there is one, is in a registry that extends P.  "A run extends" is proved as the
   diagonal of "two runs agree": the loop lemmas with sub1' := sub1, from the registry the run starts in. *)
Notation ext_if P r := (same_ext P r r).

Lemma same_ext_some {X} P P' (x : X) : extends P P' -> ext_if P (Some (P', x)).
Proof. intros H. split; [reflexivity|intros Q y [= <- <-]; exact H]. Qed.

Lemma same_ext_none {X} P : ext_if P (@None (registry * X)).
Proof. split; [reflexivity|intros Q y [=]]. Qed.

Lemma same_ext_trans {X} P P1 (r r' : option (registry * X)) : extends P P1 -> same_ext P1 r r' -> same_ext P r r'.
Proof. intros H [E Hr]. split; [exact E|intros Q y E'; exact (extends_trans _ _ _ H (Hr _ _ E'))]. Qed.

Lemma same_ext_bind {X Y} P (r r' : option (registry * X)) (k k' : registry -> X -> option (registry * Y)) :
  same_ext P r r' -> (forall P1 x, extends P P1 -> same_ext P1 (k P1 x) (k' P1 x)) ->
  same_ext P (match r with Some (P1, x) => k P1 x | None => None end)
             (match r' with Some (P1, x) => k' P1 x | None => None end).
Proof.
  intros [<- Hr] Hk. destruct r as [[P1 x]|]; [|apply same_ext_none].
  exact (same_ext_trans _ _ _ _ (Hr _ _ eq_refl) (Hk _ _ (Hr _ _ eq_refl))).
Qed.

Lemma same_ext_let {X Y} P (pr : registry * X) (k k' : registry -> X -> option (registry * Y)) :
  (forall P1 x, pr = (P1, x) -> extends P P1) -> (forall P1 x, extends P P1 -> same_ext P1 (k P1 x) (k' P1 x)) ->
  same_ext P (let '(P1, x) := pr in k P1 x) (let '(P1, x) := pr in k' P1 x).
Proof. destruct pr as [P1 x]. intros H Hk. exact (same_ext_trans _ _ _ _ (H _ _ eq_refl) (Hk _ _ (H _ _ eq_refl))). Qed.

Lemma grows_ext_if {X} P (r : option (registry * X)) : grows P r -> ext_if P r.
Proof. intros (P1 & x & -> & H). apply same_ext_some, H. Qed.

(* the loops, for two recursive-call functions that agree on the registries of a run: the extensions of P0 *)
Section Loops.
  Variable P0 : registry.
  Variable sub1 sub1' : registry -> nat -> nat -> option (registry * list nat).
  Variable compl compl' : registry -> nat -> nat -> option (registry * nat).

  Lemma per_piece_same nv : (forall P pc, extends P0 P -> same_ext P (sub1 P pc nv) (sub1' P pc nv)) ->
    forall pieces P next, extends P0 P ->
      same_ext P (compl_per_piece sub1 P next pieces nv) (compl_per_piece sub1' P next pieces nv).
  Proof.
    intros Hag. induction pieces as [|pc pieces IH]; intros P next HI; cbn; [apply same_ext_some, extends_refl|].
    apply same_ext_bind; [apply Hag, HI|intros P1 out H1; apply IH; eapply extends_trans; eassumption].
  Qed.

  Lemma per_nv_same : forall nvs, (forall P pc nv, extends P0 P -> In nv nvs -> same_ext P (sub1 P pc nv) (sub1' P pc nv)) ->
    forall P pieces, extends P0 P -> same_ext P (compl_per_nv sub1 P pieces nvs) (compl_per_nv sub1' P pieces nvs).
  Proof.
    induction nvs as [|nv nvs IH]; intros Hag P pieces HI; cbn; [apply same_ext_some, extends_refl|].
    apply same_ext_bind; [apply per_piece_same; [intros Q pc H; apply Hag; [exact H|left; reflexivity]|exact HI]|intros P1 next H1].
    apply IH; [intros Q pc nv' H Hin; apply Hag; [exact H|right; exact Hin]|eapply extends_trans; eassumption].
  Qed.

  Lemma fields_same nid name all : forall fs1 fs2,
    (forall P f1 f2, extends P0 P -> In f2 fs2 -> same_ext P (compl P f1 (snd f2)) (compl' P f1 (snd f2))) ->
    forall P out i, extends P0 P ->
      same_ext P (compl_fields compl nid name all P out i fs1 fs2) (compl_fields compl' nid name all P out i fs1 fs2).
  Proof.
    induction fs1 as [|[n1 f1] fs1 IH]; intros [|[n2 f2] fs2] Hag P out i HI; cbn; try (apply same_ext_some, extends_refl).
    assert (Hag' : forall Q g1 g2, extends P0 Q -> In g2 fs2 -> same_ext Q (compl Q g1 (snd g2)) (compl' Q g1 (snd g2)))
      by (intros Q g1 g2 H Hin; apply Hag; [exact H|right; exact Hin]).
    apply same_ext_bind; [apply (Hag P f1 (n2, f2) HI); left; reflexivity|intros P1 fc H1].
    pose proof (extends_trans _ _ _ HI H1) as HI1.
    destruct (Nat.eqb fc nid); [apply IH; assumption|].
    apply same_ext_let; [intros P2 tid E; apply (register_tuple_spec _ _ _ _ _ E)|intros P2 tid H2].
    apply same_ext_let; [intros P3 id E; apply (register_type_spec _ _ _ _ E)|intros P3 id H3].
    apply IH; [exact Hag'|]. eapply extends_trans; [eapply extends_trans; eassumption|exact H3].
  Qed.
End Loops.

Section ComplExt.
  Variable cfg : rel_cfg.
  Variable rel_fuel : nat.

  (* subtract_one answers without a recursive call — the same whatever the structural fuel — or runs the
     field loop on two registered tuples, the narrowed one looked up through b *)
  Lemma sub_cases f f' P a b :
    same_ext P (subtract_one cfg rel_fuel (S f) P a b) (subtract_one cfg rel_fuel (S f') P a b) \/
    (exists P1 nid id2 i1 i2,
       never P = (P1, nid) /\ lookup_type P b = Some (TTuple id2) /\ lookup_tuple P1 id2 = Some i2 /\
       subtract_one cfg rel_fuel (S f) P a b =
         compl_fields (compute_complement cfg rel_fuel f) nid (tname i1) (tfields i1) P1 [] 0 (tfields i1) (tfields i2) /\
       subtract_one cfg rel_fuel (S f') P a b =
         compl_fields (compute_complement cfg rel_fuel f') nid (tname i1) (tfields i1) P1 [] 0 (tfields i1) (tfields i2)).
  Proof.
    (* an early answer is in P itself or, once `never` is registered, in P1 *)
    assert (Here : forall l : list nat, ext_if P (Some (P, l))) by (intros; apply same_ext_some, extends_refl).
    pose proof (@same_ext_none (list nat) P) as Hnone.
    simpl subtract_one.
    destruct (Nat.eqb a b); [auto|].
    destruct (lookup_type P a) as [ta|]; [|auto]. destruct (lookup_type P b) as [tb|]; [|auto].
    destruct (_ || _); [auto|].
    destruct (cyclic cfg rel_fuel P a) as [ca|]; [|auto].
    destruct (if ca then _ else _) as [cyc|]; [|auto].
    destruct (if cyc then _ else _) as [[early|]|]; [auto| |auto].
    destruct (never P) as [P1 nid] eqn:En.
    assert (Hnev : forall l : list nat, ext_if P (Some (P1, l))) by (intros; apply same_ext_some, (never_extends _ _ _ En)).
    destruct ta; auto. destruct tb; auto.
    destruct (lookup_tuple P1 _) as [i1|]; [|auto]. destruct (lookup_tuple P1 _) as [i2|] eqn:Ht2; [|auto].
    destruct (_ || _); [auto|].
    right. do 5 eexists. repeat split; try reflexivity. exact Ht2.
  Qed.

  Lemma complement_extends : forall fuel,
    (forall P o nr, ext_if P (compute_complement cfg rel_fuel fuel P o nr)) /\
    (forall P a b, ext_if P (subtract_one cfg rel_fuel fuel P a b)).
  Proof.
    induction fuel as [|f [IHc IHs]]; [split; intros; apply same_ext_none|].
    split.
    - intros P o nr. simpl compute_complement.
      apply same_ext_bind; [apply (per_nv_same P); [intros; apply IHs|apply extends_refl]|intros; apply grows_ext_if, grows_union].
    - intros P a b.
      destruct (sub_cases f f P a b) as [H|(P1 & nid & id2 & i1 & i2 & En & _ & _ & -> & _)]; [exact H|].
      eapply same_ext_trans; [apply (never_extends _ _ _ En)|apply (fields_same P1); [intros; apply IHc|apply extends_refl]].
  Qed.
End ComplExt.

Section Stable.
  Variable cfg : rel_cfg.
  Variable rel_fuel : nat.
  Variable P0 : registry.
  Hypothesis Htopo : topo P0.
  Hypothesis Hclosed : closed_tuples P0.
  Notation n0 := (ntypes P0).

  Definition compl_stable (m : nat) : Prop :=
    forall f f' P o nr, extends P0 P -> nr < n0 -> nr <= m -> 2 * m + 2 <= f -> 2 * m + 2 <= f' ->
      compute_complement cfg rel_fuel f P o nr = compute_complement cfg rel_fuel f' P o nr.
  Definition sub_stable (m : nat) : Prop :=
    forall f f' P a b, extends P0 P -> b < n0 -> b <= m -> 2 * m + 1 <= f -> 2 * m + 1 <= f' ->
      subtract_one cfg rel_fuel f P a b = subtract_one cfg rel_fuel f' P a b.

  Lemma sub_step m : (forall m', m' < m -> compl_stable m') -> sub_stable m.
  Proof.
    intros IH f f' P a b HE Hb Hm Hf Hf'.
    destruct f as [|f]; [lia|]. destruct f' as [|f']; [lia|].
    destruct (sub_cases cfg rel_fuel f f' P a b) as [[E _]|(P1 & nid & id2 & i1 & i2 & En & Hlb & Ht2 & -> & ->)]; [exact E|].
    (* the narrowed side is a base tuple: its field types are smaller base ids *)
    destruct (base_lookup P0 P b HE Hb) as [tb [H0b Hlb']]. rewrite Hlb in Hlb'. injection Hlb' as <-.
    destruct (Hclosed b id2 H0b) as [info Hi].
    assert (HE1 : extends P0 P1) by (eapply extends_trans; [exact HE|apply (never_extends _ _ _ En)]).
    rewrite (proj2 HE1 _ _ Hi) in Ht2. injection Ht2 as <-.
    (* the equality is the first half of same_ext *)
    eapply proj1, (fields_same P0); [|exact HE1].
    intros Q g1 g2 HE' Hin. pose proof (topo_tuple P0 Htopo b id2 info g2 H0b Hi Hin).
    split; [apply (IH (m - 1) ltac:(lia)); [exact HE'|lia|lia|lia|lia]|apply complement_extends].
  Qed.

  Lemma compl_step m : sub_stable m -> compl_stable m.
  Proof.
    intros HS f f' P o nr HE Hnr Hm Hf Hf'.
    destruct f as [|f]; [lia|]. destruct f' as [|f']; [lia|]. simpl compute_complement.
    destruct (per_nv_same P0 (subtract_one cfg rel_fuel f) (subtract_one cfg rel_fuel f')
                (get_type_variants P nr)) with (P := P) (pieces := get_type_variants P o) as [-> _]; [|exact HE|reflexivity].
    intros Q pc nv HE' Hin. pose proof (base_variants P0 Htopo P nr nv HE Hnr Hin).
    split; [apply HS; try assumption; lia|apply complement_extends].
  Qed.

  Theorem complement_fuel_stable : forall m, compl_stable m /\ sub_stable m.
  Proof.
    induction m as [m IH] using lt_wf_ind.
    assert (HS : sub_stable m) by (apply sub_step; intros m' Hlt; apply (IH m' Hlt)).
    split; [apply compl_step; exact HS|exact HS].
  Qed.
End Stable.

Theorem complement_fuel_irrelevant : forall cfg rel_fuel P fuel fuel' o nr,
  topob P = true -> closed_tuplesb P = true ->
  narrow_bound (ntypes P) <= fuel -> narrow_bound (ntypes P) <= fuel' ->
  compute_complement cfg rel_fuel fuel P o nr = compute_complement cfg rel_fuel fuel' P o nr.
Proof.
  intros cfg rel_fuel P fuel fuel' o nr Ht Hc Hf Hf'. unfold narrow_bound in *.
  destruct (lt_dec nr (ntypes P)) as [Hin|Hout].
  - destruct (complement_fuel_stable cfg rel_fuel P (topob_topo P Ht) (closed_tuplesb_ok P Hc) nr) as [HC _].
    apply HC; try apply extends_refl; try assumption; lia.
  - (* a dangling narrowed id has no variants: nothing is subtracted *)
    destruct fuel as [|f]; [lia|]. destruct fuel' as [|f']; [lia|]. simpl compute_complement.
    rewrite (dangling_variants P nr) by lia. reflexivity.
Qed.

(* whenever some structural fuel beyond the bound gives an answer, narrow_bound n gives the same one:
   the recursion never goes deeper than narrow_bound n *)
Corollary complement_bound_suffices : forall cfg rel_fuel P fuel o nr r,
  topob P = true -> closed_tuplesb P = true -> narrow_bound (ntypes P) <= fuel ->
  compute_complement cfg rel_fuel fuel P o nr = Some r ->
  compute_complement cfg rel_fuel (narrow_bound (ntypes P)) P o nr = Some r.
Proof.
  intros cfg rel_fuel P fuel o nr r Ht Hc Hge H.
  rewrite <- H. apply complement_fuel_irrelevant; try assumption. lia.
Qed.
