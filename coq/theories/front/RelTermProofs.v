(* front/RelTermProofs.v — termination of check_type_relation (Rel.check_rel) with an explicit fuel
   bound, for every variant of the model that records the coinductive assumption in the Callable arm
   (fix e7dcc7d, F55) — in particular `current_cfg` — on topologically ordered registries.

   Measure.  Let n = number of registered types.  A call (A, self, pattern) is measured by
     U(A)        = number of pairs in [0,n) x [0,n) that are NOT in the assumption set A
     w(s, p)     = 2*(s+p) (+1 when s is a Partial and p a Tuple: the one arm that re-dispatches with
                   the sides swapped)
   * an arm that records the pair (union left / union right / callable) runs its sub-calls with the
     pair assumed: U drops by one for the whole sub-tree (retraction on failure happens only when
     the arm RETURNS, and restores exactly the caller's set, so the caller's measure is unchanged:
     `ext`, the result always extends the input set);
   * a structural arm (tuple / partial / process) descends to strictly smaller ids (hypothesis
     `Htopo`): w drops;
   * a Cycle arm jumps UP to an enclosing union / callable taken from a stack — w may grow, U does
     not change.  After at most two such jumps (self side first, then pattern side) neither side is a
     Cycle and one side is a union or a callable: that pair is assumed (return) or recorded (U drops)
     (`Landing`, `Semi` in check_rel_fuel_enough).
   Hence depth <= U*(W+5) + w + 4 with W = 4n the largest weight: one level of U costs a full descent
   (W), the activation that records, and the two jumps; 5 and 4 are not tight. *)
From Quiver Require Import Base Types Rel RelStep RelProofs.
From Quiver.front Require Import Totality.
From Coq Require Import Arith Lia.
Close Scope Z_scope.
Open Scope nat_scope.

(* the ids below K are topologically ordered (`topo P`: for every K).  Only they are ever visited when the
   operands are below K, so a registry that has grown since still qualifies: narrowing needs that. *)
Definition topo_below (K : nat) (P : registry) : Prop :=
  forall id t, id < K -> lookup_type P id = Some t -> forall c, In c (children P t) -> c < id.

Lemma topo_topo_below K P : topo P -> topo_below K P.
Proof. intros H id t _. apply H. Qed.

Lemma lookup_dangling P id : ntypes P <= id -> lookup_type P id = None.
Proof. apply nth_error_None. Qed.

Definition ext (A' A : assumptions) : Prop := exists new, A' = new ++ A.

Lemma ext_refl A : ext A A.
Proof. exists []. reflexivity. Qed.

Lemma ext_trans A B C : ext A B -> ext B C -> ext A C.
Proof. intros [n1 ->] [n2 ->]. exists (n1 ++ n2). rewrite app_assoc. reflexivity. Qed.

Lemma ext_cons k A : ext (k :: A) A.
Proof. exists [k]. reflexivity. Qed.

Lemma assumed_app new A k : assumed (new ++ A) k = assumed new k || assumed A k.
Proof. unfold assumed. apply existsb_app. Qed.

Lemma assumed_ext A' A k : ext A' A -> assumed A k = true -> assumed A' k = true.
Proof. intros [new ->] H. rewrite assumed_app, H. apply orb_true_r. Qed.

Lemma key_eqb_refl k : key_eqb k k = true.
Proof. destruct k. unfold key_eqb. cbn. rewrite !Nat.eqb_refl. reflexivity. Qed.

Lemma assumed_head k A : assumed (k :: A) k = true.
Proof. unfold assumed. cbn. rewrite key_eqb_refl. reflexivity. Qed.

(* retraction restores the caller's set *)
Lemma truncate_ext (A' A : assumptions) k : ext A' (k :: A) -> truncate_to (length A) A' = A.
Proof.
  intros [new ->]. replace (new ++ k :: A) with ((new ++ [k]) ++ A) by (rewrite <- app_assoc; reflexivity).
  apply truncate_app.
Qed.

Definition all_pairs (n : nat) : list (nat * nat) := list_prod (seq 0 n) (seq 0 n).
Definition unassumed (n : nat) (A : assumptions) : nat :=
  length (filter (fun k => negb (assumed A k)) (all_pairs n)).

Lemma in_all_pairs n s p : s < n -> p < n -> In (s, p) (all_pairs n).
Proof. intros Hs Hp. unfold all_pairs. apply in_prod; apply in_seq; lia. Qed.

Lemma all_pairs_length n : length (all_pairs n) = n * n.
Proof. unfold all_pairs. rewrite prod_length, !seq_length. reflexivity. Qed.

Lemma filter_length_le {X} (f g : X -> bool) l :
  (forall x, f x = true -> g x = true) -> length (filter f l) <= length (filter g l).
Proof.
  intros H. induction l as [|a l IH]; cbn; [lia|].
  destruct (f a) eqn:Fa.
  - rewrite (H a Fa). cbn. lia.
  - destruct (g a); cbn; lia.
Qed.

Lemma filter_length_lt {X} (f g : X -> bool) l k :
  (forall x, f x = true -> g x = true) -> In k l -> g k = true -> f k = false ->
  length (filter f l) < length (filter g l).
Proof.
  intros H Hin Gk Fk. apply in_split in Hin. destruct Hin as (l1 & l2 & ->).
  rewrite !filter_app, !app_length. cbn. rewrite Fk, Gk. cbn.
  pose proof (filter_length_le f g l1 H). pose proof (filter_length_le f g l2 H). lia.
Qed.

Lemma unassumed_nil n : unassumed n [] = n * n.
Proof.
  unfold unassumed. rewrite <- all_pairs_length.
  induction (all_pairs n) as [|a l IH]; cbn; [reflexivity|]. f_equal. exact IH.
Qed.

Lemma not_assumed_ext A' A k : ext A' A -> negb (assumed A' k) = true -> negb (assumed A k) = true.
Proof. intros He. destruct (assumed A k) eqn:E; [rewrite (assumed_ext _ _ _ He E)|]; auto. Qed.

Lemma unassumed_ext n A' A : ext A' A -> unassumed n A' <= unassumed n A.
Proof. intros He. apply filter_length_le. intros k. apply not_assumed_ext. exact He. Qed.

Lemma unassumed_insert n A' A s p :
  ext A' A -> s < n -> p < n -> assumed A (s, p) = false -> assumed A' (s, p) = true ->
  unassumed n A' < unassumed n A.
Proof.
  intros He Hs Hp Hf Ht. apply filter_length_lt with (k := (s, p));
    [intros k; apply not_assumed_ext; exact He|apply in_all_pairs; assumption|rewrite Hf; reflexivity|rewrite Ht; reflexivity].
Qed.

(* The notion of this file: the result r is an answer whose assumption set extends A.
   `rec_ok rec A ss ps s p` below is `out_ok (rec A ss ps s p) A`, and `answers f` is `rec_ok (check_rel .. f)`. *)
Definition out_ok (r : res) (A : assumptions) : Prop := exists b A', r = Some (b, A') /\ ext A' A.

Lemma out_ok_refl b A : out_ok (Some (b, A)) A.
Proof. exists b, A. split; [reflexivity|apply ext_refl]. Qed.

(* RelStep's folds answer from every set that extends A0 when each of their calls does *)
Lemma all_from {X} A0 (call : X -> assumptions -> res) xs :
  Forall (fun x => forall A, ext A A0 -> out_ok (call x A) A) xs -> forall A, ext A A0 -> out_ok (all_of call xs A) A.
Proof.
  apply (all_of_answers call (fun A => ext A A0) (fun A A' => ext A' A)); [apply ext_refl|intros A B C H1 H2|intros A B H1 H2];
    exact (ext_trans _ _ _ H2 H1).
Qed.

Lemma any_from {X} A0 (call : X -> assumptions -> res) xs :
  Forall (fun x => forall A, ext A A0 -> out_ok (call x A) A) xs -> forall A, ext A A0 -> out_ok (any_of call xs A) A.
Proof.
  apply (any_of_answers call (fun A => ext A A0) (fun A A' => ext A' A)); [apply ext_refl|intros A B C H1 H2|intros A B H1 H2];
    exact (ext_trans _ _ _ H2 H1).
Qed.

Lemma and_then_ok r k A : out_ok r A -> (forall A1, ext A1 A -> out_ok (k A1) A1) -> out_ok (and_then r k) A.
Proof.
  intros (b & A1 & -> & X1) Hk. destruct b; cbn; [|exists false, A1; auto].
  destruct (Hk A1 X1) as (b2 & A2 & E & X2). exists b2, A2. split; [exact E|eapply ext_trans; eassumption].
Qed.

Section Term.
  Variable cfg : rel_cfg.
  Variable P : registry.
  Variable mode : union_mode.
  Hypothesis Hcall : cfg_callable_assume cfg = true.
  (* the WINDOW: Htopo is `topo_below K P`, written out because it is part of the statements below.
     Only ids below K are ever visited (the operands, their descendants, the stacked ancestors).
     K = ntypes P gives the plain statement. *)
  Variable K : nat.
  Hypothesis Htopo : forall id t, id < K -> lookup_type P id = Some t -> forall c, In c (children P t) -> c < id.

  Notation n := K.

  Definition is_uc (id : nat) : bool :=
    match lookup_type P id with
    | Some (TUnion _) | Some (TCallable _ _ _) => true
    | _ => false
    end.
  Definition is_cyc (id : nat) : bool :=
    match lookup_type P id with Some (TCycle _) => true | _ => false end.
  Definition flag (s p : nat) : nat :=
    match lookup_type P s, lookup_type P p with
    | Some (TPartial _ _), Some (TTuple _) => 1
    | _, _ => 0
    end.
  Definition w (s p : nat) : nat := 2 * (s + p) + flag s p.
  Definition stack_ok (st : list nat) : Prop := forall id, In id st -> is_uc id = true /\ id < n.

  Lemma flag_le s p : flag s p <= 1.
  Proof. unfold flag. destruct (lookup_type P s) as [[]|]; destruct (lookup_type P p) as [[]|]; lia. Qed.

  Lemma w_bound s p : s < n -> p < n -> w s p <= rel_W n.
  Proof. intros Hs Hp. unfold w, rel_W. pose proof (flag_le s p). lia. Qed.

  Lemma w_child s p s' p' : s' + p' < s + p -> w s' p' < w s p.
  Proof. intros H. unfold w. pose proof (flag_le s' p'). lia. Qed.

  Lemma stack_ok_nil : stack_ok [].
  Proof. intros id []. Qed.

  Lemma stack_ok_push st id : stack_ok st -> is_uc id = true -> id < n -> stack_ok (push_once st id).
  Proof.
    intros H Hid Hlt. unfold push_once. destruct (stack_contains st id); [exact H|].
    intros x [<-|Hx]; [split; assumption|apply H; exact Hx].
  Qed.

  Lemma resolve_uc st d id : stack_ok st -> resolve_cycle st d = Some id -> is_uc id = true /\ id < n.
  Proof.
    intros H Hr. destruct d as [|d]; [discriminate|]. cbn in Hr. apply H. eapply nth_error_In. exact Hr.
  Qed.

  Lemma is_uc_of s t : lookup_type P s = Some t ->
    is_uc s = match t with TUnion _ | TCallable _ _ _ => true | _ => false end.
  Proof. intros H. unfold is_uc. rewrite H. reflexivity. Qed.

  Lemma is_cyc_of s t : lookup_type P s = Some t ->
    is_cyc s = match t with TCycle _ => true | _ => false end.
  Proof. intros H. unfold is_cyc. rewrite H. reflexivity. Qed.

  Lemma uc_not_cyc id : is_uc id = true -> is_cyc id = false.
  Proof. unfold is_uc, is_cyc. destruct (lookup_type P id) as [[]|]; congruence. Qed.

  Definition rec_ok (rec : assumptions -> list nat -> list nat -> nat -> nat -> res)
             (A : assumptions) (ss ps : list nat) (s p : nat) : Prop :=
    exists b A', rec A ss ps s p = Some (b, A') /\ ext A' A.

  (* the calls one activation on (A, s, p) can make, as (A', s', p'):
     a structural arm descends (w drops), and if a side is a union or a callable the pair has been
     recorded; a Cycle arm jumps to a stacked union / callable and leaves A as it is *)
  Inductive call_rel (A : assumptions) (s p : nat) : assumptions -> nat -> nat -> Prop :=
  | cr_down A' s' p' : is_cyc s = false -> is_cyc p = false -> s' < n -> p' < n -> w s' p' < w s p -> ext A' A ->
      (is_uc s = false /\ is_uc p = false) \/ (assumed A (s, p) = false /\ assumed A' (s, p) = true) ->
      call_rel A s p A' s' p'
  | cr_self s' : is_cyc s = true -> s' < n -> is_uc s' = true -> call_rel A s p A s' p
  | cr_pat p' : is_cyc s = false -> is_cyc p = true -> p' < n -> is_uc p' = true -> call_rel A s p A s p'.

  Lemma retract_ok (r : res) k A : out_ok r (k :: A) -> out_ok (retract cfg (length A) r) A.
  Proof.
    intros (b & A' & -> & X). pose proof (ext_trans _ _ _ X (ext_cons k A)) as X'. unfold retract.
    destruct b; [exists true, A'; auto|]. destruct (cfg_retract cfg); [|exists false, A'; auto].
    rewrite (truncate_ext _ _ _ X). apply out_ok_refl.
  Qed.

  (* The proof follows the arms of check_type_relation.  Every arm that descends calls on children of
     s and p (`Hdown`); the arms that record the pair run their calls from (s, p) :: A. *)
  Lemma step_spec rec A ss ps s p :
    s < n -> p < n -> stack_ok ss -> stack_ok ps ->
    (forall A' ss' ps' s' p', stack_ok ss' -> stack_ok ps' -> call_rel A s p A' s' p' ->
                              out_ok (rec A' ss' ps' s' p') A') ->
    out_ok (step cfg P mode rec A ss ps s p) A.
  Proof.
    intros Hsn Hpn Hss Hps Hrec.
    destruct (Nat.eqb s p) eqn:Heq; [rewrite step_fast by exact Heq; apply out_ok_refl|].
    destruct (assumed A (s, p)) eqn:Has; [rewrite step_assumed by assumption; apply out_ok_refl|].
    destruct (lookup_type P s) as [st|] eqn:Hls; [|rewrite step_unregistered by auto; apply out_ok_refl].
    destruct (lookup_type P p) as [pt|] eqn:Hlp; [|rewrite step_unregistered by auto; apply out_ok_refl].
    pose proof (is_uc_of _ _ Hls) as Hucs. pose proof (is_uc_of _ _ Hlp) as Hucp.
    pose proof (is_cyc_of _ _ Hls) as Hcys. pose proof (is_cyc_of _ _ Hlp) as Hcyp.
    pose proof (Htopo s st Hsn Hls) as Hcs. pose proof (Htopo p pt Hpn Hlp) as Hcp.
    assert (Hdown : forall A0, ext A0 A ->
              (is_uc s = false /\ is_uc p = false) \/ assumed A0 (s, p) = true ->
              is_cyc s = false -> is_cyc p = false ->
              forall ss' ps', stack_ok ss' -> stack_ok ps' ->
              forall k, fst k < n -> snd k < n -> fst k + snd k < s + p ->
              forall A', ext A' A0 -> out_ok (call_pair rec ss' ps' k A') A').
    { intros A0 X0 Hrecd C1 C2 ss' ps' S1 S2 k K1 K2 Hlt A' X. unfold call_pair. apply Hrec; [exact S1|exact S2|].
      apply cr_down; try assumption; [apply w_child; exact Hlt|eapply ext_trans; eassumption|].
      destruct Hrecd as [Hn|Hr]; [left; exact Hn|right; split; [exact Has|eapply assumed_ext; eassumption]]. }
    pose proof (Hdown _ (ext_cons (s, p) A) (or_intror (assumed_head _ _))) as Hrecorded.
    assert (Hplain : is_uc s = false -> is_uc p = false -> is_cyc s = false -> is_cyc p = false ->
              forall k, fst k < n -> snd k < n -> fst k + snd k < s + p ->
              forall A', ext A' A -> out_ok (call_pair rec ss ps k A') A')
      by (intros U1 U2 C1 C2; exact (Hdown _ (ext_refl A) (or_introl (conj U1 U2)) C1 C2 ss ps Hss Hps)).
    assert (Hsel : stack_ok (if cfg_selfstack cfg then ss else ps)) by (destruct (cfg_selfstack cfg); assumption).
    assert (S1 : is_uc s = true -> stack_ok (if cfg_selfstack cfg then push_once ss s else ss)).
    { intros Hu. destruct (cfg_selfstack cfg); [apply stack_ok_push|]; assumption. }
    assert (S2 : is_uc p = true -> stack_ok (push_once ps p)) by (intros Hu; apply stack_ok_push; assumption).
    assert (Hself : is_cyc s = true -> forall d, out_ok (cycle_self cfg rec A ss ps p d) A).
    { intros C d. unfold cycle_self. destruct (resolve_cycle _ d) as [sid|] eqn:Hres; [|apply out_ok_refl].
      destruct (resolve_uc _ _ _ Hsel Hres) as [Hu Hlt]. apply Hrec; [exact Hss|exact Hps|apply cr_self; assumption]. }
    destruct (step_viewP cfg P mode rec A ss ps s p st pt Heq Has Hls Hlp);
      cbn in Hucs, Hucp, Hcys, Hcyp, Hcs, Hcp; try apply out_ok_refl.
    - (* both cycles *) destruct (Nat.eqb d1 d2); [apply out_ok_refl|apply Hself; exact Hcys].
    - apply Hself; exact Hcys.
    - (* cycle on the pattern side *)
      rewrite (plain_cyc _ H) in Hcys.
      destruct (resolve_cycle ps d) as [pid|] eqn:Hres; [|apply out_ok_refl].
      destruct (resolve_uc _ _ _ Hps Hres) as [Hu Hlt]. apply Hrec; [exact Hss|exact Hps|apply cr_pat; assumption].
    - (* union on the left *)
      rewrite (plain_cyc _ H) in Hcyp. apply (retract_ok _ (s, p)).
      destruct mode; [rewrite all_left_fold; apply (all_from ((s, p) :: A))|rewrite any_left_fold; apply (any_from ((s, p) :: A))];
        try apply ext_refl;
        apply Forall_map, Forall_forall; intros u Hu; specialize (Hcs u Hu);
        apply (Hrecorded Hcys Hcyp _ _ (S1 Hucs) Hps); cbn; lia.
    - (* union on the right *)
      rewrite (plain_cyc _ (base_plain _ H)) in Hcys. apply (retract_ok _ (s, p)).
      rewrite any_right_fold. apply (any_from ((s, p) :: A)); [|apply ext_refl].
      apply Forall_map, Forall_forall. intros u Hu. specialize (Hcp u Hu).
      apply (Hrecorded Hcys Hcyp _ _ Hss (S2 Hucp)); cbn; lia.
    - (* tuple / tuple *)
      destruct (Nat.eqb id1 id2); [apply out_ok_refl|].
      destruct (lookup_tuple P id1) as [info1|]; [|apply out_ok_refl].
      destruct (lookup_tuple P id2) as [info2|]; [|apply out_ok_refl].
      destruct (_ && _); [|apply out_ok_refl].
      rewrite tuple_fields_fold. apply (all_from A); [|apply ext_refl].
      apply Forall_forall. intros [[n1 t1] [n2 t2]] Hin A' X. unfold field_call. cbn [fst snd].
      destruct (opt_eqb n1 n2); [|apply out_ok_refl].
      apply (Hplain Hucs Hucp Hcys Hcyp (t1, t2)); [| | |exact X]; cbn.
      all: specialize (Hcs t1 (in_map snd _ _ (in_combine_l _ _ _ _ Hin)));
           specialize (Hcp t2 (in_map snd _ _ (in_combine_r _ _ _ _ Hin))); lia.
    - (* tuple / partial *)
      destruct (lookup_tuple P cid) as [info|]; [|apply out_ok_refl].
      destruct (match pn with Some _ => _ | None => _ end); [|apply out_ok_refl].
      rewrite all_partial_fields_fold. apply (all_from A); [|apply ext_refl].
      apply Forall_forall. intros [l t] Hin A' X. cbn [fst snd]. rewrite any_concrete_field_fold.
      apply (any_from A); [|exact X].
      apply Forall_map, Forall_forall. intros cf Hc. apply filter_In in Hc. destruct Hc as [Hc _].
      specialize (Hcs _ (in_map snd _ _ Hc)). specialize (Hcp _ (in_map snd _ _ Hin)).
      apply (Hplain Hucs Hucp Hcys Hcyp); cbn in *; lia.
    - (* partial / partial *)
      match goal with |- context [if ?c then Some (false, A) else _] => destruct c end; [apply out_ok_refl|].
      rewrite all_partial_partial_fold. apply (all_from A); [|apply ext_refl].
      apply Forall_forall. intros [l t] Hin A' X. unfold partial_field_call. cbn [fst snd].
      destruct (_ && negb _); [apply out_ok_refl|]. rewrite any_partial_field_fold.
      apply (any_from A); [|exact X].
      apply Forall_map, Forall_forall. intros f0 Hc. apply filter_In in Hc. destruct Hc as [Hc _].
      specialize (Hcs _ (in_map snd _ _ Hc)). specialize (Hcp _ (in_map snd _ _ Hin)).
      apply (Hplain Hucs Hucp Hcys Hcyp); cbn in *; lia.
    - (* partial / tuple: ANY mode re-dispatches with the sides (and stacks) swapped; w drops by the flag *)
      destruct (_ && _); [|apply out_ok_refl].
      apply Hrec; [exact Hps|exact Hss|]. apply cr_down; try assumption; [|apply ext_refl|left; split; assumption].
      unfold w, flag. rewrite Hls, Hlp. lia.
    - (* process / process *)
      destruct (_ && _); [apply out_ok_refl|].
      assert (Hcomp : forall o1 o2 A', (forall a, o1 = Some a -> a < s) -> (forall b, o2 = Some b -> b < p) -> ext A' A ->
                out_ok (match o1, o2 with Some a, Some b => rec A' ss ps a b | _, _ => Some (true, A') end) A').
      { intros [a|] [b|] A' H1 H2 X; try apply out_ok_refl. specialize (H1 a eq_refl). specialize (H2 b eq_refl).
        apply (Hplain Hucs Hucp Hcys Hcyp (a, b)); [| | |exact X]; cbn; lia. }
      destruct (Hcomp s1 s2 A) as (b1 & A1 & -> & X1);
        [intros a ->; apply Hcs; cbn; auto|intros b ->; apply Hcp; cbn; auto|apply ext_refl|].
      destruct (Hcomp r1 r2 A1) as (b2 & A2 & -> & X2);
        [intros a ->; apply Hcs, in_or_app; cbn; auto|intros b ->; apply Hcp, in_or_app; cbn; auto|exact X1|].
      exists (b1 && b2), A2. split; [reflexivity|eapply ext_trans; eassumption].
    - (* callable / callable: the pair is recorded (Hcall), the three component checks run under it;
         ANY mode with the F25 repair answers `true` at once *)
      destruct (_ && _); [apply out_ok_refl|]. rewrite Hcall. cbv zeta. apply (retract_ok _ (s, p)).
      specialize (S1 Hucs). specialize (S2 Hucp).
      (* the stacks of the contravariant calls are those of the covariant one, swapped or not *)
      assert (SC : stack_ok (if cfg_selfstack cfg then push_once ps p else if cfg_selfstack cfg then push_once ss s else ss) /\
                   stack_ok (if cfg_selfstack cfg then if cfg_selfstack cfg then push_once ss s else ss else push_once ps p))
        by (destruct (cfg_selfstack cfg); split; assumption).
      destruct SC as [SC1 SC2].
      assert (p1 < s /\ r1 < s /\ c1 < s /\ p2 < p /\ r2 < p /\ c2 < p) as (? & ? & ? & ? & ? & ?)
        by (repeat split; (apply Hcs || apply Hcp); cbn; auto).
      specialize (Hrecorded Hcys Hcyp).
      apply and_then_ok; [apply (Hrecorded _ _ SC1 SC2 (p2, p1)); [cbn; lia..|apply ext_refl]|intros A1 X1].
      apply and_then_ok; [apply (Hrecorded _ _ S1 S2 (r1, r2)); [cbn; lia..|exact X1]|intros A2 X2].
      apply (Hrecorded _ _ SC1 SC2 (c2, c1)); [cbn; lia..|eapply ext_trans; eassumption].
  Qed.

  Definition answers (f : nat) (A : assumptions) (ss ps : list nat) (s p : nat) : Prop :=
    rec_ok (check_rel cfg P mode f) A ss ps s p.

  Lemma answers_S f A ss ps s p :
    s < n -> p < n -> stack_ok ss -> stack_ok ps ->
    (forall A' ss' ps' s' p', stack_ok ss' -> stack_ok ps' -> call_rel A s p A' s' p' -> answers f A' ss' ps' s' p') ->
    answers (S f) A ss ps s p.
  Proof. exact (step_spec (check_rel cfg P mode f) A ss ps s p). Qed.   (* check_rel (S f) is step (check_rel f) *)

  Theorem check_rel_fuel_enough : forall U m f A ss ps s p,
    unassumed n A <= U -> stack_ok ss -> stack_ok ps -> s < n -> p < n -> w s p <= m ->
    rel_need n U m <= f -> answers f A ss ps s p.
  Proof.
    induction U as [U IHU] using lt_wf_ind.
    (* a pair with a union / callable side and no cycle side: immediate, or recorded *)
    assert (Landing : forall f A ss ps s p,
              unassumed n A <= U -> stack_ok ss -> stack_ok ps -> s < n -> p < n ->
              is_cyc s = false -> is_cyc p = false -> (is_uc s = true \/ is_uc p = true) ->
              U * rel_C n + 1 <= f -> answers f A ss ps s p).
    { intros f A ss ps s p HU Hss Hps Hs Hp C1 C2 Huc Hf.
      destruct f as [|f]; [lia|]. apply answers_S; [exact Hs|exact Hp|exact Hss|exact Hps|].
      intros ? ss' ps' ? ? S1 S2 D. destruct D as [A' s' p' _ _ Hs' Hp' _ X Hrecd|s' C|p' _ C]; [|congruence..].
      (* no Cycle arm; a side is a union or a callable, so the pair has been recorded *)
      destruct Hrecd as [[U1 U2]|[Has Ha']]; [destruct Huc; congruence|].
      pose proof (unassumed_insert n A' A s p X Hs Hp Has Ha') as Hlt.
      apply (IHU (U - 1) ltac:(lia) (rel_W n) f A' ss' ps' s' p' ltac:(lia) S1 S2 Hs' Hp' (w_bound _ _ Hs' Hp')).
      unfold rel_need, rel_C in *. nia. }
    (* self side a union / callable, pattern side anything *)
    assert (Semi : forall f A ss ps s p,
              unassumed n A <= U -> stack_ok ss -> stack_ok ps -> s < n -> p < n ->
              is_uc s = true -> U * rel_C n + 2 <= f -> answers f A ss ps s p).
    { intros f A ss ps s p HU Hss Hps Hs Hp Hucs Hf.
      pose proof (uc_not_cyc _ Hucs) as C1.
      destruct (is_cyc p) eqn:C2; [|apply (Landing f A ss ps s p HU Hss Hps Hs Hp C1 C2 (or_introl Hucs)); lia].
      destruct f as [|f]; [lia|]. apply answers_S; [exact Hs|exact Hp|exact Hss|exact Hps|].
      intros ? ss' ps' ? ? S1 S2 D. destruct D as [A' s' p' _ C|s' C|p' _ _ Hp' Hu]; [congruence..|].
      (* only the pattern-side Cycle arm: it lands on (s, p') with p' a union or a callable *)
      apply (Landing f A ss' ps' s p' HU S1 S2 Hs Hp' C1 (uc_not_cyc _ Hu) (or_intror Hu)). lia. }
    induction m as [m IHm] using lt_wf_ind. intros f A ss ps s p HU Hss Hps Hs Hp Hw Hf.
    unfold rel_need in Hf. destruct f as [|f]; [lia|]. apply answers_S; [exact Hs|exact Hp|exact Hss|exact Hps|].
    intros ? ss' ps' ? ? S1 S2 [A' s' p' _ _ Hs' Hp' Hlt X _|s' _ Hs' Hu|p' C1 _ Hp' Hu].
    - (* descent *) pose proof (unassumed_ext n A' A X).
      apply (IHm (w s' p') ltac:(lia) f A' ss' ps' s' p' ltac:(lia) S1 S2 Hs' Hp' (le_n _)). unfold rel_need. lia.
    - (* self-side Cycle: lands on a union / callable s' *) apply (Semi f A ss' ps' s' p HU S1 S2 Hs' Hp Hu). lia.
    - (* pattern-side Cycle, s no Cycle *)
      apply (Landing f A ss' ps' s p' HU S1 S2 Hs Hp' C1 (uc_not_cyc _ Hu) (or_intror Hu)). lia.
  Qed.

  (* the entry points: is_compatible / types_overlap start from empty state (types.rs:204-234) *)
  Theorem check_rel_terminates_window : forall fuel a b,
    a < n -> b < n -> rel_bound n <= fuel -> exists r A', check_rel cfg P mode fuel [] [] [] a b = Some (r, A').
  Proof.
    intros fuel a b Ha Hb Hf.
    destruct (check_rel_fuel_enough (n * n) (rel_W n) fuel [] [] [] a b) as [r [A' [E _]]];
      [rewrite unassumed_nil; lia|apply stack_ok_nil|apply stack_ok_nil|exact Ha|exact Hb|apply w_bound; assumption|exact Hf|].
    exists r, A'. exact E.
  Qed.
End Term.

(* an id that is not registered is looked up, not found, and the answer is `false` at once *)
Lemma dangling_answers cfg P mode fuel A ss ps a b : 0 < fuel -> ntypes P <= a \/ ntypes P <= b ->
  exists r A', check_rel cfg P mode fuel A ss ps a b = Some (r, A').
Proof.
  intros Hf Hd. destruct fuel as [|f]; [lia|]. cbn [check_rel].
  destruct (Nat.eqb a b) eqn:Heq; [rewrite step_fast by exact Heq; eauto|].
  destruct (assumed A (a, b)) eqn:Has; [rewrite step_assumed by assumption; eauto|].
  rewrite step_unregistered; [eauto|exact Heq|exact Has|].
  destruct Hd; [left|right]; apply lookup_dangling; assumption.
Qed.

(* the plain statement: the window is the whole registry *)
Theorem check_rel_terminates_topo : forall cfg P mode,
  cfg_callable_assume cfg = true -> topo P ->
  forall fuel a b, rel_bound (ntypes P) <= fuel -> exists r A', check_rel cfg P mode fuel [] [] [] a b = Some (r, A').
Proof.
  intros cfg P mode Hcall Htopo fuel a b Hf.
  destruct (lt_dec a (ntypes P)) as [Ha|Ha]; [destruct (lt_dec b (ntypes P)) as [Hb|Hb]|].
  - apply (check_rel_terminates_window cfg P mode Hcall (ntypes P) (topo_topo_below _ _ Htopo)); assumption.
  - apply dangling_answers; [unfold rel_bound, rel_need in Hf; lia|right; lia].
  - apply dangling_answers; [unfold rel_bound, rel_need in Hf; lia|left; lia].
Qed.

(* the shapes in which props/C18.v states it: `<> None` for every such cfg, `exists` for the code as it is *)
Theorem check_rel_terminates_gen : forall cfg P mode fuel a b,
  cfg_callable_assume cfg = true -> topob P = true -> rel_bound (ntypes P) <= fuel ->
  check_rel cfg P mode fuel [] [] [] a b <> None.
Proof.
  intros cfg P mode fuel a b Hc Ht Hf.
  destruct (check_rel_terminates_topo cfg P mode Hc (topob_topo P Ht) fuel a b Hf) as [r [A' E]].
  rewrite E. discriminate.
Qed.

Theorem check_rel_terminates_current : forall P mode fuel a b,
  topob P = true -> rel_bound (ntypes P) <= fuel ->
  exists r A', check_rel current_cfg P mode fuel [] [] [] a b = Some (r, A').
Proof.
  intros P mode fuel a b Ht Hf.
  exact (check_rel_terminates_topo current_cfg P mode eq_refl (topob_topo P Ht) fuel a b Hf).
Qed.

Corollary is_compatible_terminates : forall P fuel a b,
  topob P = true -> rel_bound (ntypes P) <= fuel ->
  exists r, is_compatible_with current_cfg fuel P a b = Some r.
Proof.
  intros P fuel a b Ht Hf. unfold is_compatible_with.
  destruct (check_rel_terminates_current P All fuel a b Ht Hf) as [r [A' E]]. rewrite E. exists r. reflexivity.
Qed.

Corollary types_overlap_terminates : forall P fuel a b,
  topob P = true -> rel_bound (ntypes P) <= fuel ->
  exists r, types_overlap_with current_cfg fuel P a b = Some r.
Proof.
  intros P fuel a b Ht Hf. unfold types_overlap_with.
  destruct (check_rel_terminates_current P Any fuel a b Ht Hf) as [r [A' E]]. rewrite E. exists r. reflexivity.
Qed.

Lemma rel_bound_formula n : rel_bound n = n * n * (4 * n + 5) + 4 * n + 4.
Proof. unfold rel_bound, rel_need, rel_C, rel_W. lia. Qed.
