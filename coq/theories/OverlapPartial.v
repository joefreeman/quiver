(* OverlapPartial.v — overlap_complete on the cycle-free fragment WITH partial types (and callables,
   processes), for the model variants that contain the F25p repair (7ba69a0: ANY mode answers
   (Partial, Tuple) by the swapped call and treats a label only the pattern partial names as
   compatible) and the F25 repair (dea0269).  A `false` of types_overlap is a proof of disjointness
   over all values whose tuples carry each label at most once (`wfv`).  The premise on the VALUES is
   necessary: OverlapPartialEx.overlap_partial_needs_distinct_labels is a value with a repeated label
   that belongs to two partial types the checker (rightly, for real tuples) calls disjoint. *)
From Quiver Require Import Base Types Rel Sem SemProofs RelProofs OverlapProofs.
From Coq Require Import Arith.
Close Scope Z_scope.
Open Scope nat_scope.

(* every tuple inside the value carries each label at most once *)
Inductive wfv : value -> Prop :=
| wfv_int : forall z, wfv (VInt z)
| wfv_bin : forall b, wfv (VBin b)
| wfv_ref : forall r, wfv (VRef r)
| wfv_res : forall r, wfv (VRes r)
| wfv_fun : forall c, wfv (VFun c)
| wfv_proc : forall c, wfv (VProc c)
| wfv_tup : forall name fs,
    (forall l v1 v2, In (Some l, v1) fs -> In (Some l, v2) fs -> v1 = v2) ->
    (forall f, In f fs -> wfv (snd f)) ->
    wfv (VTup name fs).

Lemma wfv_tup_inv name fs : wfv (VTup name fs) ->
  (forall l v1 v2, In (Some l, v1) fs -> In (Some l, v2) fs -> v1 = v2) /\ (forall f, In f fs -> wfv (snd f)).
Proof. inversion 1; auto. Qed.

Fixpoint fopb (P : registry) (k : nat) (t : nat) : bool :=
  match k with
  | 0 => false
  | S k' =>
    match lookup_type P t with
    | Some TInteger | Some TBinary | Some TReference | Some (TResource _) => true
    | Some (TCallable _ _ _) | Some (TProcess _ _) => true
    | Some (TUnion vs) => forallb (fopb P k') vs
    | Some (TTuple tid) =>
      match lookup_tuple P tid with
      | Some info => forallb (fun f => fopb P k' (snd f)) (tfields info)
      | None => false
      end
    | Some (TPartial _ pfs) => forallb (fun f => fopb P k' (snd f)) pfs
    | _ => false
    end
  end.

Lemma fopb_frag P : forall k t, fopb P k t = true -> frag P true true t.
Proof.
  induction k as [|k IH]; intros t H; [discriminate|]. cbn in H.
  destruct (lookup_type P t) as [ty|] eqn:Hl; [|discriminate].
  destruct ty as [| | |tid|pn fs|p r rc|d|vs|s r|r|v]; try discriminate.
  - eapply frag_int; eassumption.
  - eapply frag_bin; eassumption.
  - eapply frag_ref; eassumption.
  - destruct (lookup_tuple P tid) as [info|] eqn:Ht; [|discriminate].
    eapply frag_tuple; [eassumption|eassumption|]. rewrite forallb_forall in H. intros f Hf. apply IH. apply H. exact Hf.
  - eapply frag_partial; [reflexivity|eassumption|]. rewrite forallb_forall in H. intros f Hf. apply IH. apply H. exact Hf.
  - eapply frag_callable; [reflexivity|eassumption].
  - eapply frag_union; [eassumption|]. rewrite forallb_forall in H. intros u Hu. apply IH. apply H. exact Hu.
  - eapply frag_process; [reflexivity|eassumption].
  - eapply frag_res; eassumption.
Qed.

(* cycle-free types built from ints, bins, refs, resources, tuples, PARTIALS, unions, callables,
   processes (components of callables / processes unconstrained) *)
Definition fop_domain (P : registry) (t : nat) : bool := fopb P (S (length (types P))) t.

Lemma overlap_complete_wfv cfg P fn fuel a b r :
  (fn = true -> cfg_any_callable cfg = true) -> cfg_partial_any cfg = true ->
  frag P fn true a -> frag P fn true b ->
  types_overlap_with cfg fuel P a b = Some r ->
  (exists n v, wfv v /\ inhab P n [] v a /\ inhab P n [] v b) -> r = true.
Proof.
  intros Hfn Hpa. apply (overlap_complete_frag cfg P fn true wfv); [| |exact Hfn|intros _; exact Hpa].
  - intros name fs Hw. apply (wfv_tup_inv _ _ Hw).
  - intros _ name fs Hw. apply (wfv_tup_inv _ _ Hw).
Qed.

Theorem overlap_complete_fop : forall cfg P fuel a b r,
  cfg_any_callable cfg = true -> cfg_partial_any cfg = true ->
  fop_domain P a = true -> fop_domain P b = true ->
  types_overlap_with cfg fuel P a b = Some r ->
  (exists n v, wfv v /\ inhab P n [] v a /\ inhab P n [] v b) -> r = true.
Proof.
  intros cfg P fuel a b r Hany Hpa Ha Hb.
  apply (overlap_complete_wfv cfg P true); [intros _; exact Hany|exact Hpa|eapply fopb_frag; exact Ha|eapply fopb_frag; exact Hb].
Qed.
