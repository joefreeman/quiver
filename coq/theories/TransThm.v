(* TransThm.v — on the cycle-free fragment is_compatible is the reference relation R of TransProofs.v
   (by TransCheck.check_exact), hence transitive. *)
From Quiver Require Import Base Types TypesProofs Rel Sem SemProofs RelProofs TransProofs TransCheck.
From Coq Require Import Arith Lia.
Close Scope Z_scope.
Open Scope nat_scope.

Fixpoint nodupb_ty (l : list ty) : bool :=
  match l with
  | [] => true
  | x :: l' => negb (existsb (ty_eqb x) l') && nodupb_ty l'
  end.

Lemma nodupb_ty_inj l : nodupb_ty l = true ->
  forall x y t, nth_error l x = Some t -> nth_error l y = Some t -> x = y.
Proof.
  induction l as [|a l IH]; intros H x y t Hx Hy; [destruct x; discriminate|].
  cbn in H. apply andb_true_iff in H. destruct H as [Hna Hl]. apply negb_true_iff in Hna.
  assert (Hnot : forall i, nth_error l i = Some a -> False).
  { intros i Hi. assert (existsb (ty_eqb a) l = true); [|congruence].
    apply existsb_exists. exists a. split; [eapply nth_error_In; exact Hi|apply ty_eqb_refl]. }
  destruct x as [|x], y as [|y]; cbn in Hx, Hy.
  - reflexivity.
  - inversion Hx; subst. exfalso. eapply Hnot; exact Hy.
  - inversion Hy; subst. exfalso. eapply Hnot; exact Hx.
  - f_equal. eapply IH; eassumption.
Qed.

(* the fragment on which transitivity is stated: ids topologically ordered, no duplicate type
   entries (both maintained by Program::register_type), no Cycle / Variable reachable.  The proof
   reads the first and the last conjunct only (compat_trans_topo): two Tuple types with the same
   tuple id are answered by the `id1 == id2` shortcut of the tuple arm. *)
Definition trans_domain (P : registry) (t : nat) : bool :=
  topob P && nodupb_ty (types P) && cfb P true (S (length (types P))) t.

(* on the fragment, is_compatible IS the reference relation *)
Lemma is_compatible_exact cfg P fuel a b :
  cfg_retract cfg = true -> cfg_partial_name cfg = true -> topo P ->
  CF P true a -> CF P true b -> a + b < fuel ->
  is_compatible_with cfg fuel P a b = Some (R P a b).
Proof.
  intros Hret Hpn Ht Ca Cb Hf. unfold is_compatible_with.
  destruct (check_exact cfg P Hret Hpn Ht fuel [] [] [] a b Hf Ca Cb) as (A1 & -> & _); [intros k []|reflexivity].
Qed.

Theorem compat_trans_topo : forall cfg P fuel a b c,
  cfg_retract cfg = true -> cfg_partial_name cfg = true -> topo P ->
  CF P true a -> CF P true b -> CF P true c ->
  a + b < fuel -> b + c < fuel -> a + c < fuel ->
  is_compatible_with cfg fuel P a b = Some true ->
  is_compatible_with cfg fuel P b c = Some true ->
  is_compatible_with cfg fuel P a c = Some true.
Proof.
  intros cfg P fuel a b c Hret Hpn Ht Ca Cb Cc Fab Fbc Fac Hab Hbc.
  rewrite is_compatible_exact in Hab, Hbc |- * by assumption. f_equal.
  apply (R_trans P Ht a b c); congruence.
Qed.

Theorem compat_trans_cf : forall cfg P fuel a b c,
  cfg_retract cfg = true -> cfg_partial_name cfg = true ->
  trans_domain P a = true -> trans_domain P b = true -> trans_domain P c = true ->
  a + b < fuel -> b + c < fuel -> a + c < fuel ->
  is_compatible_with cfg fuel P a b = Some true ->
  is_compatible_with cfg fuel P b c = Some true ->
  is_compatible_with cfg fuel P a c = Some true.
Proof.
  intros cfg P fuel a b c Hret Hpn Da Db Dc. unfold trans_domain in *.
  apply andb_true_iff in Da. destruct Da as [Da Ca]. apply andb_true_iff in Da. destruct Da as [Ht _].
  apply andb_true_iff in Db. destruct Db as [_ Cb]. apply andb_true_iff in Dc. destruct Dc as [_ Cc].
  apply (compat_trans_topo cfg P fuel a b c Hret Hpn (topob_topo P Ht)); eapply (cfb_CF P true); eassumption.
Qed.
