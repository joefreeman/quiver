(* NumSurd.v — theorems about the surd kernel of the %num model: exactness of add/sub/mul/div in
   Q(sqrt n), canonical `build` forms, nil on incompatible radicals, the sign decision, the
   square-free search, and "never a runtime error" for every exported operation. *)
From Coq Require Import QArith Lia ZArith.
From Quiver Require Import Base Num NumProofs.
Open Scope Z_scope.

Definition nonsquare (n : Z) : Prop := forall k, k * k <> n.
Definition squarefree (n : Z) : Prop := forall k, 1 < k -> ~ (k * k | n).

Lemma squarefree_nonsquare n : 1 < n -> squarefree n -> nonsquare n.
Proof.
  intros Hn Hsf k E. apply (Hsf (Z.abs k)).
  - nia.
  - exists 1. rewrite <- E. nia.
Qed.

(* num.qv's header asks for a square-free radical; the proofs need only that it is not a square
   (squarefree_nonsquare), so that is all well-formedness requires *)
Definition wf_num (x : num) : Prop :=
  match x with
  | NC c => wfc c
  | NSurd a b n => wfc a /\ wfc b /\ ~ cq b == 0 /\ 1 < n /\ nonsquare n
  end.
Definition wf_opt (o : opt) : Prop := match o with Some x => wf_num x | None => True end.
Definition is_surd (x : num) : Prop := match x with NSurd _ _ _ => True | NC _ => False end.

Lemma nonsquare_between k n : k * k < n < (k + 1) * (k + 1) -> nonsquare n.
Proof. intros H j E. assert (0 <= k) by nia. assert (k < Z.abs j < k + 1) by nia. lia. Qed.

Lemma wf_sqrt k n : k * k < n < (k + 1) * (k + 1) -> wf_num (NSurd (CInt 0) (CInt 1) n).
Proof.
  intros H. repeat split; try apply wfc_int; [discriminate | nia | now apply (nonsquare_between k)].
Qed.

(* elements of Q(sqrt n) as pairs (a, b) = a + b sqrt n *)
Definition qpair := (Q * Q)%type.
Definition peq (p q : qpair) : Prop := fst p == fst q /\ snd p == snd q.
Definition padd (p q : qpair) : qpair := (fst p + fst q, snd p + snd q)%Q.
Definition psub (p q : qpair) : qpair := (fst p - fst q, snd p - snd q)%Q.
Definition pmul (n : Z) (p q : qpair) : qpair :=
  (fst p * fst q + snd p * snd q * inject_Z n, fst p * snd q + snd p * fst q)%Q.
Definition pnorm (n : Z) (q : qpair) : Q := (fst q * fst q - snd q * snd q * inject_Z n)%Q.
Definition pdiv (n : Z) (p q : qpair) : qpair :=
  ((fst p * fst q - snd p * snd q * inject_Z n) / pnorm n q, (snd p * fst q - fst p * snd q) / pnorm n q)%Q.
Definition pzero (p : qpair) : Prop := fst p == 0 /\ snd p == 0.

Lemma pzero_dec (p : qpair) : {pzero p} + {~ pzero p}.
Proof. unfold pzero. destruct (Qeq_dec (fst p) 0), (Qeq_dec (snd p) 0); [left | right | right | right]; tauto. Qed.

(* a coefficient c denotes (c, 0) in every Q(sqrt n): with a surd, it takes the surd's radical *)
Definition denotes (x : num) (n : Z) (p : qpair) : Prop :=
  match x with
  | NC c => cq c == fst p /\ snd p == 0
  | NSurd a b m => m = n /\ cq a == fst p /\ cq b == snd p
  end.

Lemma denotes_peq x n p q : denotes x n p -> peq p q -> denotes x n q.
Proof. destruct x; cbn; intros H [E1 E2]; now rewrite <- E1, <- E2. Qed.

(* the canonical forms `build` produces: lowered coefficients; a surd only with b <> 0 *)
Definition lowered (c : coeff) : Prop := match c with CRat _ d => d <> 1 | CInt _ => True end.
Definition built (x : num) : Prop :=
  match x with
  | NC c => lowered c
  | NSurd a b _ => lowered a /\ lowered b
  end.

(* o returns a well-formed number in build form that denotes p in Q(sqrt n) *)
Definition gives (o : outcome (option num)) (n : Z) (p : qpair) : Prop :=
  exists r, o = Val (Some r) /\ denotes r n p /\ wf_num r /\ built r.
(* o returns nil or a well-formed number *)
Definition returns_wf (o : outcome opt) : Prop := exists v, o = Val v /\ wf_opt v.

Lemma pdiv_pmul n p q : ~ pnorm n q == 0 -> peq (pmul n (pdiv n p q) q) p.
Proof.
  destruct p as [a b], q as [c d]. unfold peq, pmul, pdiv, pnorm. cbn [fst snd]. intros H.
  split; field; exact H.
Qed.

(* x^2 = n y^2 with y <> 0 makes n a square: for a/b = x/|y| in lowest terms, a^2 = n b^2, so b
   divides a and is coprime to it: b = 1 *)
Lemma nonsquare_irrational n x y : nonsquare n -> y <> 0 -> x * x <> n * (y * y).
Proof.
  intros Hn Hy E. destruct (div_gcd_canon x (Z.abs y)) as [[Hb G] X]; [lia |].
  set (a := x / _) in *. set (b := Z.abs y / _) in *.
  assert (E' : a * a = n * (b * b)).
  { apply Z.mul_cancel_r with (p := y * y); [nia |].
    replace (a * a * (y * y)) with (a * Z.abs y * (a * Z.abs y)) by (rewrite <- (Z.abs_square y); ring).
    rewrite X. replace (x * b * (x * b)) with (x * x * (b * b)) by ring. rewrite E. ring. }
  assert (Hdiv : (b | a)) by (apply Z.gauss with a; [exists (n * b); lia | now rewrite Z.gcd_comm]).
  assert (Hd : (b | Z.gcd a b)) by (apply Z.gcd_greatest; [exact Hdiv | apply Z.divide_refl]).
  rewrite G in Hd. apply Z.divide_1_r in Hd. apply (Hn a). nia.
Qed.

Lemma norm_nonzero n a b : nonsquare n -> canon a -> canon b ->
  ~ (qval a == 0 /\ qval b == 0) -> ~ (qval a * qval a - qval b * qval b * inject_Z n == 0)%Q.
Proof.
  destruct a as [p q], b as [r s]. intros Hn [Hq _] [Hs _] Hnz E. rewrite !qval_zero in Hnz.
  unfold qval, inject_Z, Qeq, Qminus, Qplus, Qmult, Qopp in E. cbn [Qnum Qden] in E.
  rewrite !Pos2Z.inj_mul, !Z2Pos.id in E by assumption.
  assert (E' : (p * s) * (p * s) = n * ((r * q) * (r * q))) by nia.
  destruct (Z.eq_dec r 0) as [->|Hr]; [apply Hnz; nia |].
  apply (nonsquare_irrational n (p * s) (r * q) Hn); [nia | exact E'].
Qed.

Lemma lower_rat_spec r : canon r ->
  wfc (lower (rat_coeff r)) /\ cq (lower (rat_coeff r)) == qval r /\ lowered (lower (rat_coeff r)).
Proof.
  destruct r as [n d]. intros C. cbn [rat_coeff lower].
  destruct (Z.eqb_spec d 1) as [->|Hd]; repeat split; try reflexivity; [apply wfc_int | apply C.. | exact Hd].
Qed.

Lemma qval_int n : qval (Rat n 1) = inject_Z n.
Proof. reflexivity. Qed.

Lemma rsign_zero r : reflect (qval r == 0) (rsign r =? 0).
Proof.
  destruct r as [n d]. unfold rsign. rewrite bi_compare_zero.
  destruct (Z.eqb_spec n 0); constructor; now rewrite qval_zero.
Qed.

Lemma build_spec a b n : canon a -> canon b -> 1 < n -> nonsquare n ->
  exists r, build a b n = Val r /\ denotes r n (qval a, qval b) /\ wf_num r /\ built r /\
            (is_surd r <-> ~ qval b == 0).
Proof.
  intros Ha Hb Hn Hns. unfold build. rewrite bi_compare_zero.
  destruct (Z.eqb_spec n 1) as [->|_]; [lia |].
  destruct (lower_rat_spec a Ha) as (Wa & Va & La), (lower_rat_spec b Hb) as (Wb & Vb & Lb).
  destruct (rsign_zero b) as [S|S]; eexists; (split; [reflexivity |]); cbn [denotes wf_num built is_surd fst snd].
  - (* b = 0: the coefficient a alone *)
    split; [now split |]. split; [exact Wa |]. split; [exact La |]. split; [contradiction | intros H; exact (H S)].
  - (* b <> 0: a surd; the lowered b has the value of b *)
    split; [now repeat split |]. split; [repeat split; try assumption; now rewrite Vb |]. split; [now split | tauto].
Qed.

(* canonical rationals whose values are the two components of p *)
Definition parts (a b : rat) (p : qpair) : Prop := canon a /\ canon b /\ qval a == fst p /\ qval b == snd p.

Lemma build_some a b n p : parts a b p -> 1 < n -> nonsquare n ->
  gives (r <- build a b n ;; Val (Some r)) n p.
Proof.
  intros (Ha & Hb & Va & Vb) Hn Hns. destruct (build_spec a b n Ha Hb Hn Hns) as (r & -> & D & W & B & _).
  exists r. split; [reflexivity |]. split; [| now split]. now apply (denotes_peq _ _ _ _ D).
Qed.

(* the test `b rsign =0` of `radical` tells a coefficient from a surd *)
Lemma explode_denotes x n p : wf_num x -> denotes x n p ->
  exists a b m, explode x = (a, b, m) /\ parts a b p /\
    if rsign b =? 0 then ~ is_surd x else is_surd x /\ m = n /\ 1 < n /\ nonsquare n.
Proof.
  destruct x as [c|a b m]; cbn [wf_num denotes explode].
  - intros Hc [V Z0]. exists (to_rational c), (Rat 0 1), 1. split; [reflexivity |].
    split; [now repeat split; try apply (wfc_int 0) |]. exact (fun H => H).
  - intros (Ha & Hb & Hnz & Hn & Hns) (<- & Va & Vb). exists (to_rational a), (to_rational b), m.
    split; [reflexivity |]. split; [now repeat split |]. now destruct (rsign_zero (to_rational b)).
Qed.

Lemma with_radical_denotes {A} x y n px py (k : rat -> rat -> rat -> rat -> Z -> outcome (option A)) :
  wf_num x -> wf_num y -> is_surd x \/ is_surd y -> denotes x n px -> denotes y n py ->
  exists a1 b1 a2 b2, with_radical x y k = k a1 b1 a2 b2 n /\
    parts a1 b1 px /\ parts a2 b2 py /\ 1 < n /\ nonsquare n.
Proof.
  intros Hx Hy Hs Dx Dy.
  destruct (explode_denotes x n px Hx Dx) as (a1 & b1 & n1 & E1 & P1 & R1).
  destruct (explode_denotes y n py Hy Dy) as (a2 & b2 & n2 & E2 & P2 & R2).
  exists a1, b1, a2, b2. unfold with_radical, radical. rewrite E1, E2.
  destruct (rsign b1 =? 0), (rsign b2 =? 0); [tauto | | |].
  - destruct R2 as (_ & -> & Hn & Hns). tauto.
  - destruct R1 as (_ & -> & Hn & Hns). tauto.
  - destruct R1 as (_ & -> & Hn & Hns), R2 as (_ & -> & _). rewrite bi_compare_zero, Z.eqb_refl. tauto.
Qed.

Lemma with_radical_mixed {A} a b n c d m (k : rat -> rat -> rat -> rat -> Z -> outcome (option A)) :
  wf_num (NSurd a b n) -> wf_num (NSurd c d m) -> n <> m ->
  with_radical (NSurd a b n) (NSurd c d m) k = Val None.
Proof.
  intros (_ & _ & Hb & _) (_ & _ & Hd & _) Hne. unfold with_radical, radical. cbn [explode].
  destruct (rsign_zero (to_rational b)); [contradiction |].
  destruct (rsign_zero (to_rational d)); [contradiction |].
  rewrite bi_compare_zero. now destruct (Z.eqb_spec n m).
Qed.

Lemma radicals_cases x y : is_surd x \/ is_surd y ->
  (exists a b n c d m, x = NSurd a b n /\ y = NSurd c d m /\ n <> m) \/
  (exists n px py, denotes x n px /\ denotes y n py).
Proof.
  intros Hs. destruct x as [cx|a b n], y as [cy|c d m]; cbn [is_surd] in Hs.
  - tauto.
  - right. exists m, (cq cx, 0%Q), (cq c, cq d). cbn. repeat split; reflexivity.
  - right. exists n, (cq a, cq b), (cq cy, 0%Q). cbn. repeat split; reflexivity.
  - destruct (Z.eq_dec n m) as [<-|Hne]; [right | left; now exists a, b, n, c, d, m].
    exists n, (cq a, cq b), (cq c, cq d). cbn. repeat split; reflexivity.
Qed.

Lemma coeffs_or_surd x y : (exists cx cy, x = NC cx /\ y = NC cy) \/ is_surd x \/ is_surd y.
Proof. destruct x, y; cbn; eauto. Qed.

Lemma surd_dispatch x y : is_surd x \/ is_surd y ->
  add (Some x) (Some y) = surd_add x y /\ sub (Some x) (Some y) = surd_sub x y /\
  mul (Some x) (Some y) = surd_mul x y /\ div (Some x) (Some y) = surd_div x y /\
  compare (Some x) (Some y) = surd_compare x y.
Proof. destruct x as [[]|], y as [[]|]; cbn [is_surd]; intros []; try contradiction; repeat split. Qed.

(* f is one of the surd operations of num.qv:180-229: the prologue followed by a continuation k that,
   run on canonical parts representing p and q in Q(sqrt n), returns pop n p q in build form, and
   nil where the precondition on q fails *)
Definition surd_kernel (f : num -> num -> outcome (option num))
    (pop : Z -> qpair -> qpair -> qpair) (pre : Z -> qpair -> Prop) : Prop :=
  exists k, (forall x y, f x y = with_radical x y k) /\
    forall a1 b1 a2 b2 n p q, parts a1 b1 p -> parts a2 b2 q -> 1 < n -> nonsquare n ->
      (pre n q -> gives (k a1 b1 a2 b2 n) n (pop n p q)) /\
      (~ pre n q -> k a1 b1 a2 b2 n = Val None).

Lemma componentwise_kernel f rop (qop : Q -> Q -> Q) :
  (forall x y, f x y = with_radical x y (fun a1 b1 a2 b2 n =>
     a <- rop a1 a2 ;; b <- rop b1 b2 ;; r <- build a b n ;; Val (Some r))) ->
  (forall x y, canon x -> canon y -> yields (rop x y) (qop (qval x) (qval y))) ->
  Proper (Qeq ==> Qeq ==> Qeq) qop ->
  surd_kernel f (fun _ p q => (qop (fst p) (fst q), qop (snd p) (snd q))) (fun _ _ => True).
Proof.
  intros Hf Hrop Hq. eexists. split; [exact Hf |].
  intros a1 b1 a2 b2 n p q (Ca1 & Cb1 & A1 & B1) (Ca2 & Cb2 & A2 & B2) Hn Hns.
  split; [intros _ | tauto].
  step (Hrop a1 a2 Ca1 Ca2) as a [Ca Va]. step (Hrop b1 b2 Cb1 Cb2) as b [Cb Vb].
  apply build_some; try assumption. repeat split; try assumption; cbn [fst snd]; [now rewrite Va, A1, A2 | now rewrite Vb, B1, B2].
Qed.

Lemma surd_add_kernel : surd_kernel surd_add (fun _ => padd) (fun _ _ => True).
Proof. apply (componentwise_kernel surd_add radd Qplus); [reflexivity | apply radd_spec | apply Qplus_comp]. Qed.

Lemma surd_sub_kernel : surd_kernel surd_sub (fun _ => psub) (fun _ _ => True).
Proof. apply (componentwise_kernel surd_sub rsub Qminus); [reflexivity | apply rsub_spec | apply Qminus_comp]. Qed.

Lemma surd_mul_kernel : surd_kernel surd_mul pmul (fun _ _ => True).
Proof.
  eexists. split; [reflexivity |].
  intros a1 b1 a2 b2 n p q (Ca1 & Cb1 & A1 & B1) (Ca2 & Cb2 & A2 & B2) Hn Hns.
  split; [intros _ | tauto].
  step (rmul_spec a1 a2 Ca1 Ca2) as aa [Caa Vaa]. step (rmul_spec b1 b2 Cb1 Cb2) as bb [Cbb Vbb].
  step (rmul_spec bb (Rat n 1) Cbb (wfc_int n)) as bbn [Cbbn Vbbn].
  step (radd_spec aa bbn Caa Cbbn) as a [Ca Va].
  step (rmul_spec a1 b2 Ca1 Cb2) as ab [Cab Vab]. step (rmul_spec a2 b1 Ca2 Cb1) as ba [Cba Vba].
  step (radd_spec ab ba Cab Cba) as b [Cb Vb].
  apply build_some; try assumption. repeat split; try assumption; cbn [pmul fst snd].
  - now rewrite Va, Vaa, Vbbn, Vbb, qval_int, A1, A2, B1, B2.
  - rewrite Vb, Vab, Vba, A1, A2, B1, B2. ring.
Qed.

Lemma surd_div_kernel : surd_kernel surd_div pdiv (fun _ q => ~ pzero q).
Proof.
  eexists. split; [reflexivity |].
  intros a1 b1 a2 b2 n p q (Ca1 & Cb1 & A1 & B1) (Ca2 & Cb2 & A2 & B2) Hn Hns.
  step (rmul_spec a2 a2 Ca2 Ca2) as aa [Caa Vaa]. step (rmul_spec b2 b2 Cb2 Cb2) as bb [Cbb Vbb].
  step (rmul_spec bb (Rat n 1) Cbb (wfc_int n)) as bbn [Cbbn Vbbn].
  step (rsub_spec aa bbn Caa Cbbn) as dd [Cdd Vdd].
  rewrite Vaa, Vbbn, Vbb, qval_int, A2, B2 in Vdd.
  split; intros Hq.
  - assert (Hdd : ~ qval dd == 0).
    { rewrite Vdd, <- A2, <- B2. unfold pzero in Hq. rewrite <- A2, <- B2 in Hq. now apply norm_nonzero. }
    destruct (rsign_zero dd) as [|_]; [contradiction |].
    step (rmul_spec a1 a2 Ca1 Ca2) as a12 [Ca12 Va12]. step (rmul_spec b1 b2 Cb1 Cb2) as b12 [Cb12 Vb12].
    step (rmul_spec b12 (Rat n 1) Cb12 (wfc_int n)) as b12n [Cb12n Vb12n].
    step (rsub_spec a12 b12n Ca12 Cb12n) as na [Cna Vna]. step (rquot_spec na dd Cna Cdd Hdd) as a [Ca Va].
    step (rmul_spec b1 a2 Cb1 Ca2) as ba [Cba Vba]. step (rmul_spec a1 b2 Ca1 Cb2) as ab [Cab Vab].
    step (rsub_spec ba ab Cba Cab) as nb [Cnb Vnb]. step (rquot_spec nb dd Cnb Cdd Hdd) as b [Cb Vb].
    apply build_some; try assumption. repeat split; try assumption; unfold pdiv, pnorm; cbn [fst snd].
    + now rewrite Va, Vna, Va12, Vb12n, Vb12, Vdd, qval_int, A1, A2, B1, B2.
    + now rewrite Vb, Vnb, Vba, Vab, Vdd, A1, A2, B1, B2.
  - destruct (pzero_dec q) as [[Z1 Z2]|]; [| contradiction].
    destruct (rsign_zero dd) as [_|Hdd]; [reflexivity |]. exfalso. apply Hdd. rewrite Vdd, Z1, Z2. ring.
Qed.

Lemma surd_kernel_exact f pop pre x y n px py :
  surd_kernel f pop pre -> wf_num x -> wf_num y -> is_surd x \/ is_surd y ->
  denotes x n px -> denotes y n py -> pre n py -> gives (f x y) n (pop n px py).
Proof.
  intros (k & -> & Hk) Hx Hy Hs Dx Dy Hp.
  destruct (with_radical_denotes x y n px py k Hx Hy Hs Dx Dy) as (a1 & b1 & a2 & b2 & -> & P1 & P2 & Hn & Hns).
  now apply (Hk a1 b1 a2 b2 n px py).
Qed.

Lemma surd_kernel_total f pop pre x y :
  surd_kernel f pop pre -> (forall n q, pre n q \/ ~ pre n q) ->
  wf_num x -> wf_num y -> is_surd x \/ is_surd y -> returns_wf (f x y).
Proof.
  intros (k & -> & Hk) Hdec Hx Hy Hs.
  destruct (radicals_cases x y Hs) as [(a & b & n & c & d & m & -> & -> & Hne) | (n & px & py & Dx & Dy)].
  - exists None. split; [now apply with_radical_mixed | exact I].
  - destruct (with_radical_denotes x y n px py k Hx Hy Hs Dx Dy) as (a1 & b1 & a2 & b2 & -> & P1 & P2 & Hn & Hns).
    destruct (Hk a1 b1 a2 b2 n px py P1 P2 Hn Hns) as [Hok Hnil], (Hdec n py) as [Hp|Hp].
    + destruct (Hok Hp) as (r & -> & _ & W & _). now exists (Some r).
    + rewrite (Hnil Hp). now exists None.
Qed.

Theorem surd_arith_exact x y n px py :
  wf_num x -> wf_num y -> is_surd x \/ is_surd y -> 1 < n -> denotes x n px -> denotes y n py ->
  (exists r, add (Some x) (Some y) = Val (Some r) /\ denotes r n (padd px py) /\ wf_num r /\ built r) /\
  (exists r, sub (Some x) (Some y) = Val (Some r) /\ denotes r n (psub px py) /\ wf_num r /\ built r) /\
  (exists r, mul (Some x) (Some y) = Val (Some r) /\ denotes r n (pmul n px py) /\ wf_num r /\ built r) /\
  (~ pzero py -> exists r, div (Some x) (Some y) = Val (Some r) /\ denotes r n (pdiv n px py) /\ wf_num r /\ built r).
Proof.
  intros Hx Hy Hs _ Dx Dy.
  destruct (surd_dispatch x y Hs) as (-> & -> & -> & -> & _).
  split; [| split; [| split]].
  - now apply (surd_kernel_exact _ _ _ x y n px py surd_add_kernel).
  - now apply (surd_kernel_exact _ _ _ x y n px py surd_sub_kernel).
  - now apply (surd_kernel_exact _ _ _ x y n px py surd_mul_kernel).
  - now apply (surd_kernel_exact _ _ _ x y n px py surd_div_kernel).
Qed.

Theorem mixed_radicals_nil a b n c d m :
  let x := NSurd a b n in let y := NSurd c d m in
  wf_num x -> wf_num y -> n <> m ->
  add (Some x) (Some y) = Val None /\ sub (Some x) (Some y) = Val None /\
  mul (Some x) (Some y) = Val None /\ div (Some x) (Some y) = Val None /\
  compare (Some x) (Some y) = Val None /\
  eqp (Some x) (Some y) = Val false /\ ltp (Some x) (Some y) = Val false /\ lep (Some x) (Some y) = Val false /\
  gtp (Some x) (Some y) = Val false /\ gep (Some x) (Some y) = Val false /\
  min_fixed (Some x) (Some y) = Val None /\ max_fixed (Some x) (Some y) = Val None /\
  (forall z, clamp_fixed (Some x) (Some y) z = Val None \/ z = None).
Proof.
  intros x y Hx Hy Hne.
  assert (C : compare (Some x) (Some y) = Val None) by now apply with_radical_mixed.
  do 4 (split; [now apply with_radical_mixed |]). split; [exact C |].
  unfold eqp, ltp, lep, gtp, gep, pred, min_fixed, max_fixed, clamp_fixed. rewrite C.
  repeat split. intros [z|]; [left | right]; reflexivity.
Qed.

Definition sqrt2 := NSurd (CInt 0) (CInt 1) 2.
Definition sqrt3 := NSurd (CInt 0) (CInt 1) 3.
Definition sqrt5 := NSurd (CInt 0) (CInt 1) 5.

(* F14: `min`, `max`, `clamp` (the variants without the `=('int)c` guard on the comparison) return
   their first operand on incompatible radicals; witness sqrt 2, sqrt 3, sqrt 5 *)
Theorem minmax_mixed_radicals_refuted :
  exists x y z, wf_num x /\ wf_num y /\ wf_num z /\
    (exists a b n c d m, x = NSurd a b n /\ y = NSurd c d m /\ n <> m) /\
    min (Some x) (Some y) = Val (Some x) /\ max (Some x) (Some y) = Val (Some x) /\
    clamp (Some x) (Some y) (Some z) = Val (Some x).
Proof.
  exists sqrt2, sqrt3, sqrt5.
  split; [apply (wf_sqrt 1); lia |]. split; [apply (wf_sqrt 1); lia |]. split; [apply (wf_sqrt 2); lia |].
  split; [exists (CInt 0), (CInt 1), 2, (CInt 0), (CInt 1), 3; repeat split; lia |].
  repeat split; vm_compute; reflexivity.
Qed.

(* the decision procedure of num.qv:154-176, as a function of the values *)
Definition surd_sign (qa qb : Q) (n : Z) : Z :=
  match (qb ?= 0)%Q with
  | Eq => zcmp (qa ?= 0)%Q
  | Gt => match (qa ?= 0)%Q with Lt => - zcmp (qa * qa ?= qb * qb * inject_Z n)%Q | _ => 1 end
  | Lt => match (qa ?= 0)%Q with Gt => zcmp (qa * qa ?= qb * qb * inject_Z n)%Q | _ => -1 end
  end.

Lemma zcmp_bi a b : bi_compare a b = zcmp (a ?= b).
Proof. exact (bi_compare_zcmp a b). Qed.

Lemma ssign_spec a b n : canon a -> canon b ->
  ssign a b n = Val (surd_sign (qval a) (qval b) n).
Proof.
  intros Ca Cb. unfold ssign, surd_sign. rewrite !rsign_spec.
  destruct (qval b ?= 0)%Q; cbn [zcmp bi_compare Z.compare Z.eqb]; [reflexivity | |].
  all: step (rmul_spec a a Ca Ca) as aa [Caa Vaa]; step (rmul_spec b b Cb Cb) as bb [Cbb Vbb];
    step (rmul_spec bb (Rat n 1) Cbb (wfc_int n)) as bbn [Cbbn Vbbn];
    rewrite (rcompare_spec aa bbn Caa Cbbn), Vaa, Vbbn, Vbb, qval_int;
    destruct (qval a ?= 0)%Q; cbn [zcmp bi_compare Z.compare Z.eqb]; try reflexivity.
  now destruct (_ ?= _)%Q.
Qed.

Lemma surd_sign_range qa qb n : surd_sign qa qb n = -1 \/ surd_sign qa qb n = 0 \/ surd_sign qa qb n = 1.
Proof.
  unfold surd_sign. destruct (qb ?= 0)%Q; destruct (qa ?= 0)%Q;
    try destruct (qa * qa ?= qb * qb * inject_Z n)%Q; cbn; lia.
Qed.

Lemma surd_sign_proper qa qa' qb qb' n : qa == qa' -> qb == qb' -> surd_sign qa qb n = surd_sign qa' qb' n.
Proof.
  intros H1 H2. unfold surd_sign.
  assert (E1 : (qb ?= 0)%Q = (qb' ?= 0)%Q) by now rewrite H2.
  assert (E2 : (qa ?= 0)%Q = (qa' ?= 0)%Q) by now rewrite H1.
  assert (E3 : (qa * qa ?= qb * qb * inject_Z n)%Q = (qa' * qa' ?= qb' * qb' * inject_Z n)%Q) by now rewrite H1, H2.
  now rewrite E1, E2, E3.
Qed.

Lemma compare_surd x y : wf_num x -> wf_num y -> is_surd x \/ is_surd y ->
  (exists a b n c d m, x = NSurd a b n /\ y = NSurd c d m /\ n <> m /\ compare (Some x) (Some y) = Val None) \/
  (exists n px py, 1 < n /\ nonsquare n /\ denotes x n px /\ denotes y n py /\
     compare (Some x) (Some y) = Val (Some (surd_sign (fst (psub px py)) (snd (psub px py)) n))).
Proof.
  intros Hx Hy Hs. destruct (surd_dispatch x y Hs) as (_ & _ & _ & _ & ->).
  unfold surd_compare.
  destruct (radicals_cases x y Hs) as [(a & b & n & c & d & m & -> & -> & Hne) | (n & px & py & Dx & Dy)].
  - left. exists a, b, n, c, d, m. now rewrite with_radical_mixed.
  - right. exists n, px, py.
    edestruct (with_radical_denotes (A:=Z) x y n px py)
      as (a1 & b1 & a2 & b2 & E & (Ca1 & Cb1 & A1 & B1) & (Ca2 & Cb2 & A2 & B2) & Hn & Hns);
      [exact Hx | exact Hy | exact Hs | exact Dx | exact Dy |].
    rewrite E. do 4 (split; [assumption |]). cbn [fst snd psub] in *.
    step (rsub_spec a1 a2 Ca1 Ca2) as a [Ca Va]. step (rsub_spec b1 b2 Cb1 Cb2) as b [Cb Vb].
    rewrite (ssign_spec a b n Ca Cb). cbn [obind].
    do 2 f_equal. apply surd_sign_proper; [now rewrite Va, A1, A2 | now rewrite Vb, B1, B2].
Qed.

Definition cmp_value (c : option Z) : Prop := c = None \/ c = Some (-1) \/ c = Some 0 \/ c = Some 1.

Lemma compare_total x y : wf_num x -> wf_num y ->
  exists c, compare (Some x) (Some y) = Val c /\ cmp_value c.
Proof.
  intros Hx Hy. unfold cmp_value. destruct (coeffs_or_surd x y) as [(cx & cy & -> & ->) | Hs].
  - rewrite compare_coeff by assumption. eexists. split; [reflexivity |].
    destruct (cq cx ?= cq cy)%Q; cbn; tauto.
  - destruct (compare_surd x y Hx Hy Hs) as
      [(? & ? & ? & ? & ? & ? & _ & _ & _ & E) | (n & px & py & _ & _ & _ & _ & E)];
      rewrite E; eexists; (split; [reflexivity |]); [tauto |].
    destruct (surd_sign_range (fst (psub px py)) (snd (psub px py)) n) as [-> | [-> | ->]]; tauto.
Qed.

(* the last clause (every e below d has been tried) is what makes the final m square-free *)
Definition sq_inv (N : Z) (s : sqstate) : Prop :=
  let '(k, m, d) := s in
  0 < k /\ 0 < m /\ 2 <= d /\ k * k * m = N /\ (forall e, 2 <= e < d -> ~ (e * e | m)).
Definition sq_post (N : Z) (r : outcome (Z * Z)) : Prop :=
  exists k m, r = Val (k, m) /\ 0 < k /\ 0 < m /\ k * k * m = N /\ squarefree m.
(* potential: 0 on terminal states (d^2 > m), else 2m - d + 1 > 0 *)
Definition sq_mu (s : sqstate) : Z := let '(k, m, d) := s in if d * d <=? m then 2 * m - d + 1 else 0.

Lemma sq_mu_nonneg s : sq_inv 1 s \/ True -> 0 <= sq_mu s \/ True.
Proof. tauto. Qed.

Lemma sq_mu_ge_0 s : 0 <= sq_mu s.
Proof. destruct s as [[k m] d]. unfold sq_mu. destruct (Z.leb_spec (d * d) m); nia. Qed.

Lemma sqfree_step_spec N s : sq_inv N s ->
  match sqfree_step s with
  | inr r => sq_post N r
  | inl s' => sq_inv N s' /\ sq_mu s' + 1 <= sq_mu s
  end.
Proof.
  destruct s as [[k m] d]. intros (Hk & Hm & Hd & HN & Hsf). unfold sqfree_step.
  rewrite bi_compare_pos.
  destruct (Z.ltb_spec m (d * d)) as [Hterm|Hcont].
  - exists k, m. repeat split; try assumption.
    intros e He [q Hq]. assert (0 < q) by nia. assert (e < d) by nia. apply (Hsf e); [lia | exists q; exact Hq].
  - assert (Hdd : d * d <> 0) by nia.
    unfold bi_modulo, bi_divide. destruct (Z.eqb_spec (d * d) 0) as [?|_]; [contradiction |].
    unfold sq_mu. destruct (Z.leb_spec (d * d) m) as [_|?]; [| lia].
    destruct (Z.eqb_spec (Z.rem m (d * d)) 0) as [Hrem|Hrem].
    + apply Z.rem_divide in Hrem; [| exact Hdd]. destruct Hrem as [q Hq].
      rewrite Hq, Z.quot_mul by exact Hdd. assert (Hq0 : 0 < q) by nia.
      split; [| destruct (Z.leb_spec (d * d) q); nia].
      repeat split; try nia.
      intros e He [q' Hq']. apply (Hsf e He). exists (q' * (d * d)). rewrite Hq, Hq'. ring.
    + split; [| destruct (Z.leb_spec ((d + 1) * (d + 1)) m); nia].
      repeat split; try assumption; try lia.
      intros e He Hdiv. destruct (Z.eq_dec e d) as [->|Hne].
      * apply Hrem. now apply Z.rem_divide.
      * apply (Hsf e); [lia | exact Hdiv].
Qed.

(* sqfree_pow n either stops or has made 2^n steps *)
Lemma sqfree_pow_spec N n s : sq_inv N s ->
  match sqfree_pow n s with
  | inr r => sq_post N r
  | inl s' => sq_inv N s' /\ sq_mu s' + 2 ^ Z.of_nat n <= sq_mu s
  end.
Proof.
  revert s. induction n as [|n IH]; intros s Hs; cbn [sqfree_pow].
  - exact (sqfree_step_spec N s Hs).
  - pose proof (IH s Hs) as H1. destruct (sqfree_pow n s) as [s1|r]; [| exact H1].
    destruct H1 as (I1 & M1). pose proof (IH s1 I1) as H2.
    destruct (sqfree_pow n s1) as [s2|r]; [| exact H2].
    split; [apply H2 |]. rewrite Nat2Z.inj_succ, Z.pow_succ_r by lia. lia.
Qed.

(* the fuel passed by `sqfree` always suffices, no modulo/divide by zero is reached, and the result
   is the square-free factorisation: N = k^2 m with m square-free *)
Theorem sqfree_spec N : 0 < N -> sq_post N (sqfree 1 N 2).
Proof.
  intros HN. unfold sqfree.
  assert (I0 : sq_inv N (1, N, 2)) by (repeat split; lia).
  pose proof (sqfree_pow_spec N (sqfree_fuel N) (1, N, 2) I0) as H.
  destruct (sqfree_pow (sqfree_fuel N) (1, N, 2)) as [s'|r]; [| exact H].
  exfalso. destruct H as (_ & M). pose proof (sq_mu_ge_0 s').
  assert (Hmu : sq_mu (1, N, 2) <= 2 * N) by (unfold sq_mu; destruct (2 * 2 <=? N); lia).
  (* 2N < 2^(2 + log2 N) *)
  unfold sqfree_fuel in M. pose proof (Z.log2_nonneg N).
  rewrite !Nat2Z.inj_succ, Z2Nat.id, !Z.pow_succ_r in M by lia.
  pose proof (Z.log2_spec N HN) as [_ Hl]. rewrite Z.pow_succ_r in Hl by assumption. lia.
Qed.

Theorem sqrt_coeff c p q : wfc c -> to_rational c = Rat p q ->
  (p < 0 -> sqrt (Some (NC c)) = Val None) /\
  (p = 0 -> sqrt (Some (NC c)) = Val (Some (NInt 0))) /\
  (0 < p -> exists r, sqrt (Some (NC c)) = Val (Some r) /\ built r /\
      ((exists c', r = NC c' /\ wfc c' /\ (0 < cq c')%Q /\ cq c' * cq c' == cq c) \/
       (exists b m, r = NSurd (CInt 0) b m /\ wfc b /\ (0 < cq b)%Q /\ 1 < m /\ squarefree m /\
                    cq b * cq b * inject_Z m == cq c))).
Proof.
  intros Hc E. pose proof (wfc_den c p q Hc E) as Hq.
  cbn [sqrt]. rewrite E, bi_compare_neg, bi_compare_zero.
  split; [| split].
  - intros Hp. destruct (Z.ltb_spec p 0); [reflexivity | lia].
  - now intros ->.
  - intros Hp. destruct (Z.ltb_spec p 0); [lia |]. destruct (Z.eqb_spec p 0); [lia |].
    destruct (sqfree_spec (p * q) ltac:(nia)) as (k & m & -> & Hk & Hm & Hkm & Hsf). cbn [obind].
    step (reduce_yields k q _ ltac:(lia) (Qeq_sym _ _ (qval_div k q Hq))) as b [Cb Vb].
    destruct (lower_rat_spec b Cb) as (Wb & Vb' & Lb).
    assert (Hbpos : (0 < qval b)%Q) by (rewrite Vb; unfold qval, Qlt; cbn [Qnum Qden]; lia).
    assert (Hval : qval b * qval b * inject_Z m == cq c).
    { rewrite Vb. unfold cq. rewrite E. unfold qval, inject_Z, Qeq, Qmult. cbn [Qnum Qden].
      rewrite !Pos2Z.inj_mul, !Z2Pos.id by assumption. nia. }
    unfold build. rewrite bi_compare_zero. destruct (Z.eqb_spec m 1) as [->|Hm1].
    + (* N = k^2: a plain rational / integer, 0 + k/q *)
      step (radd_spec (Rat 0 1) b (wfc_int 0) Cb) as r [Cr Vr].
      change (qval (Rat 0 1)) with 0%Q in Vr. rewrite Qplus_0_l in Vr.
      destruct (lower_rat_spec r Cr) as (W & V & L). rewrite Vr in V.
      eexists. split; [reflexivity |]. split; [exact L |]. left. eexists. split; [reflexivity |].
      split; [exact W |]. rewrite V. split; [exact Hbpos |]. rewrite <- Hval. change (inject_Z 1) with 1%Q. ring.
    + (* a genuine surd 0 + (k/q) sqrt m *)
      destruct (rsign_zero b) as [Z0|_]; [rewrite Z0 in Hbpos; discriminate |].
      eexists. split; [reflexivity |]. split; [split; [exact I | exact Lb] |].
      right. exists (lower (rat_coeff b)), m. rewrite Vb'.
      split; [reflexivity |]. repeat split; try assumption. lia.
Qed.

Lemma wfc_result_opt r : wfc r -> wf_opt (Some (NC r)).
Proof. intros H. exact H. Qed.

Lemma arith_total x y : wf_opt x -> wf_opt y ->
  returns_wf (add x y) /\ returns_wf (sub x y) /\ returns_wf (mul x y) /\ returns_wf (div x y).
Proof.
  intros Hx Hy. destruct x as [x|]; [| repeat split; now exists None].
  destruct y as [y|]; [| unfold add, sub, mul; rewrite !arith_nil_r, div_nil_r; repeat split; now exists None].
  destruct (coeffs_or_surd x y) as [(cx & cy & -> & ->) | Hs].
  - destruct (add_coeff cx cy Hx Hy) as (r1 & -> & W1 & _), (sub_coeff cx cy Hx Hy) as (r2 & -> & W2 & _),
      (mul_coeff cx cy Hx Hy) as (r3 & -> & W3 & _).
    do 3 (split; [eexists; split; [reflexivity | assumption] |]).
    destruct (div_coeff cx cy Hx Hy) as [Hz Hnz], (Qeq_dec (cq cy) 0) as [Z0|NZ].
    + rewrite (Hz Z0). now exists None.
    + destruct (Hnz NZ) as (n & d & -> & C & _). now exists (Some (NRat n d)).
  - destruct (surd_dispatch x y Hs) as (-> & -> & -> & -> & _).
    split; [apply (surd_kernel_total _ _ _ x y surd_add_kernel); auto |].
    split; [apply (surd_kernel_total _ _ _ x y surd_sub_kernel); auto |].
    split; [apply (surd_kernel_total _ _ _ x y surd_mul_kernel); auto |].
    apply (surd_kernel_total _ _ _ x y surd_div_kernel); auto.
    intros _ q. destruct (pzero_dec q); tauto.
Qed.

Lemma compare_opt_total x y : wf_opt x -> wf_opt y -> exists c, compare x y = Val c /\ cmp_value c.
Proof.
  intros Hx Hy. destruct x as [x|]; [| exists None; now split; [| left]].
  destruct y as [y|]; [now apply compare_total | rewrite compare_nil_r; exists None; now split; [| left]].
Qed.

Lemma after_compare {B} x y (g : option Z -> outcome B) : wf_opt x -> wf_opt y ->
  (forall c, cmp_value c -> exists w, g c = Val w) -> exists w, (c <- compare x y ;; g c) = Val w.
Proof. intros Hx Hy Hg. destruct (compare_opt_total x y Hx Hy) as (c & -> & Hc). exact (Hg c Hc). Qed.

Lemma pred_total ok x y : wf_opt x -> wf_opt y -> exists b, pred ok x y = Val b.
Proof. intros Hx Hy. apply after_compare; [assumption.. |]. intros [z|] _; eexists; reflexivity. Qed.

Lemma neg_abs_total x : wf_opt x -> returns_wf (neg x) /\ returns_wf (abs x).
Proof.
  intros Hx. destruct x as [[c|a b n]|]; [| | split; now exists None].
  - destruct (neg_coeff c Hx) as (r & -> & W & _), (abs_coeff c Hx) as (r' & -> & W' & _).
    split; eexists; (split; [reflexivity | assumption]).
  - pose proof Hx as (Ha & Hb & Hnz & Hn & Hns).
    assert (N : returns_wf (neg (Some (NSurd a b n)))).
    { cbn [neg]. step (rneg_spec _ Ha) as ra [Ca Va]. step (rneg_spec _ Hb) as rb [Cb Vb].
      destruct (build_some ra rb n (qval ra, qval rb)) as (r & -> & _ & W & _); try assumption; [now repeat split |].
      now exists (Some r). }
    split; [exact N |]. cbn [abs]. rewrite (ssign_spec _ _ n Ha Hb). cbn [obind].
    destruct (_ =? -1); [exact N | now exists (Some (NSurd a b n))].
Qed.

Lemma to_int_total x : wf_num x -> exists t, to_int (Some x) = Val (Some t).
Proof.
  intros Hx. destruct x as [c|a b n].
  - destruct (to_rational c) as [m d] eqn:E. rewrite (to_int_coeff c m d Hx E). eauto.
  - destruct Hx as (Ha & Hb & _ & Hn & _). cbn [to_int]. rewrite (ssign_spec _ _ n Ha Hb). cbn [obind].
    revert Ha Hb. unfold wfc. generalize (to_rational a) (to_rational b). intros ra rb Ca Cb.
    (* the parts, negated or not, keep positive denominators (so integer_divide by qa*qb is defined),
       and (pb*qa)^2 * n >= 0 (so integer_sqrt is) *)
    destruct (bi_compare _ 0 =? -1); cbn [obind];
      [step (rneg_spec ra Ca) as ra' [Ca' _]; step (rneg_spec rb Cb) as rb' [Cb' _]
      | rename ra into ra', rb into rb', Ca into Ca', Cb into Cb'];
      destruct ra' as [pa qa], rb' as [pb qb], Ca' as [Hqa _], Cb' as [Hqb _].
    all: unfold bi_sqrt; pose proof (Z.square_nonneg (pb * qa));
      destruct (Z.ltb_spec (pb * qa * (pb * qa) * n) 0); [nia |]; cbn [obind];
      rewrite bi_divide_ok by nia; cbn [obind]; eauto.
Qed.

Lemma floor_ceil_total x : wf_num x ->
  (exists f, floor (Some x) = Val (Some f)) /\ (exists f, ceil (Some x) = Val (Some f)).
Proof.
  intros Hx. unfold floor, ceil. destruct (to_int_total x Hx) as (t & ->). cbn [obind optz_num option_map].
  destruct (compare_total x (NInt t) Hx (wfc_int t)) as (c & -> & [-> | [-> | [-> | ->]]]);
    split; eexists; reflexivity.
Qed.

Lemma round_total x : wf_num x -> exists f, round (Some x) = Val (Some f).
Proof.
  intros Hx. unfold round. destruct (proj1 (floor_ceil_total x Hx)) as (f & ->). cbn [obind need_int].
  assert (Hmid : wf_num (NRat (f * 2 + 1) 2)) by (split; [lia | apply gcd_odd_2]).
  destruct (compare_total x _ Hx Hmid) as (c & -> & [-> | [-> | [-> | ->]]]); cbn [obind];
    try (eexists; reflexivity); destruct (bi_compare f 0 =? -1); eexists; reflexivity.
Qed.

Lemma sqrt_total x : wf_opt x -> exists v, sqrt x = Val v.
Proof.
  intros Hx. destruct x as [[c|a b n]|]; try (eexists; reflexivity).
  destruct (to_rational c) as [p q] eqn:E.
  destruct (sqrt_coeff c p q Hx E) as (H1 & H2 & H3).
  destruct (Z.lt_trichotomy p 0) as [Hp|[Hp|Hp]].
  - rewrite (H1 Hp). eauto.
  - rewrite (H2 Hp). eauto.
  - destruct (H3 Hp) as (r & -> & _). eauto.
Qed.

Lemma min_max_total x y : wf_opt x -> wf_opt y ->
  (exists v, min x y = Val v) /\ (exists v, max x y = Val v) /\
  (exists v, min_fixed x y = Val v) /\ (exists v, max_fixed x y = Val v).
Proof.
  intros Hx Hy. destruct x as [a|], y as [b|]; try (repeat split; eexists; reflexivity).
  unfold min, max, min_fixed, max_fixed.
  repeat split; apply after_compare; auto; intros c [-> | [-> | [-> | ->]]]; eexists; reflexivity.
Qed.

Lemma clamp_total x y z : wf_opt x -> wf_opt y -> wf_opt z ->
  (exists v, clamp x y z = Val v) /\ (exists v, clamp_fixed x y z = Val v).
Proof.
  intros Hx Hy Hz. destruct x as [a|], y as [b|], z as [c|]; try (split; eexists; reflexivity).
  unfold clamp, clamp_fixed.
  split; apply after_compare; auto; intros c1 [-> | [-> | [-> | ->]]]; try (eexists; reflexivity);
    apply after_compare; auto; intros c2 [-> | [-> | [-> | ->]]]; eexists; reflexivity.
Qed.

Lemma wf_val o : returns_wf o -> exists v, o = Val v.
Proof. intros (v & E & _). eauto. Qed.
Lemma val_of_some {A} (x : opt) (o : opt -> outcome (option A)) :
  o None = Val None -> (forall a, x = Some a -> exists t, o x = Val (Some t)) -> exists v, o x = Val v.
Proof. intros H0 H. destruct x as [a|]; [destruct (H a eq_refl) |]; eauto. Qed.
Lemma res_total {A B} (o : outcome A) (f : A -> B) :
  (exists v, o = Val v) -> exists w, (r <- o ;; Val (f r)) = Val w.
Proof. intros (v & ->). now eexists. Qed.

Theorem never_errs op x y z : wf_opt x -> wf_opt y -> wf_opt z ->
  exists v, run_op op [x; y; z] = Val v.
Proof.
  intros Hx Hy Hz. unfold run_op, arg, rn, rz, rb. cbn [nth].
  destruct (arith_total x y Hx Hy) as (A & S & M & D), (neg_abs_total x Hx) as [N Ab],
    (min_max_total x y Hx Hy) as (Mi & Ma & Mif & Maf), (clamp_total x y z Hx Hy Hz) as [C Cf].
  destruct op; apply res_total.
  - (* add *) exact (wf_val _ A).
  - (* sub *) exact (wf_val _ S).
  - (* mul *) exact (wf_val _ M).
  - (* div *) exact (wf_val _ D).
  - (* neg *) exact (wf_val _ N).
  - (* abs *) exact (wf_val _ Ab).
  - (* min *) exact Mi.
  - (* max *) exact Ma.
  - (* clamp *) exact C.
  - (* sign *) destruct (compare_opt_total x (Some (NInt 0)) Hx (wfc_int 0)) as (c & E & _). eauto.
  - (* sqrt *) now apply sqrt_total.
  - (* numer *) destruct x as [[[]|]|]; eexists; reflexivity.
  - (* denom *) destruct x as [[[]|]|]; eexists; reflexivity.
  - (* to_int *) apply (val_of_some x to_int); [reflexivity |]. intros a ->. now apply to_int_total.
  - (* floor *) apply (val_of_some x floor); [reflexivity |]. intros a ->. now apply floor_ceil_total.
  - (* ceil *) apply (val_of_some x ceil); [reflexivity |]. intros a ->. now apply floor_ceil_total.
  - (* round *) apply (val_of_some x round); [reflexivity |]. intros a ->. now apply round_total.
  - (* eq? *) now apply pred_total.
  - (* lt? *) now apply pred_total.
  - (* le? *) now apply pred_total.
  - (* gt? *) now apply pred_total.
  - (* ge? *) now apply pred_total.
  - (* min_fixed *) exact Mif.
  - (* max_fixed *) exact Maf.
  - (* clamp_fixed *) exact Cf.
Qed.
