(* OverlapProofs.v — completeness of the ANY mode of check_rel (types_overlap) on the cycle-free
   fragment: a `false` answer is a proof of disjointness.  Holds for every variant of the model and
   needs no invariant on the assumptions: in ANY mode an assumption hit answers `true`, which is never
   wrong for completeness.
   The fragment always has ints, bins, refs, resources, tuples and unions (`FO`); callable / process
   types and partial types may be admitted too, each at a price: the former need the F25 repair, the
   latter the F25p repair and values whose tuples carry each label at most once. *)
From Quiver Require Import Base Types Rel RelStep Sem SemProofs TypesProofs RelProofs.
From Coq Require Import Arith.
Close Scope Z_scope.
Open Scope nat_scope.

Section Overlap.
  Variable P : registry.

  Inductive FO : nat -> Prop :=
  | FO_int : forall t, lookup_type P t = Some TInteger -> FO t
  | FO_bin : forall t, lookup_type P t = Some TBinary -> FO t
  | FO_ref : forall t, lookup_type P t = Some TReference -> FO t
  | FO_res : forall t r, lookup_type P t = Some (TResource r) -> FO t
  | FO_union : forall t vs, lookup_type P t = Some (TUnion vs) -> (forall u, In u vs -> FO u) -> FO t
  | FO_tuple : forall t tid info, lookup_type P t = Some (TTuple tid) -> lookup_tuple P tid = Some info ->
      (forall f, In f (tfields info) -> FO (snd f)) -> FO t.

  Lemma FO_inv t st : FO t -> lookup_type P t = Some st ->
    match st with
    | TInteger | TBinary | TReference | TResource _ => True
    | TUnion vs => forall u, In u vs -> FO u
    | TTuple tid => exists info, lookup_tuple P tid = Some info /\ forall f, In f (tfields info) -> FO (snd f)
    | _ => False
    end.
  Proof.
    intros [] Hl; match goal with H : lookup_type P _ = _ |- _ => rewrite Hl in H; injection H as -> end; eauto.
  Qed.
End Overlap.

Lemma Forall2_len {A B} (R : A -> B -> Prop) l1 l2 : Forall2 R l1 l2 -> length l1 = length l2.
Proof. induction 1; cbn; congruence. Qed.

Lemma Forall2_combine_Exists {X Y Z} (R1 : X -> Z -> Prop) (R2 : Y -> Z -> Prop) (Q : X * Y -> Prop) l1 l2 zs :
  Forall2 R1 l1 zs -> Forall2 R2 l2 zs -> Exists Q (combine l1 l2) ->
  exists x y z, In z zs /\ R1 x z /\ R2 y z /\ Q (x, y).
Proof.
  intros H1. revert l2. induction H1 as [|x z l1 zs Hxz _ IH]; intros l2 H2 HQ; inversion H2; subst; cbn in HQ;
    inversion HQ; subst.
  - exists x, x0, z. cbn. auto.
  - destruct (IH _ H4 H0) as (x' & y' & z' & Hz & Hr). exists x', y', z'. cbn. auto.
Qed.

Lemma shape_clash st pt v : base st = true -> base pt = true -> same_head st pt = false ->
  shape st v = true -> shape pt v = true -> False.
Proof. destruct v, st; try discriminate; destruct pt; discriminate. Qed.

Lemma false_spec {X} (call : X -> assumptions -> res) (Q : X -> Prop) x :
  (forall A A', call x A = Some (false, A') -> Q x) ->
  call_spec call (fun _ => True) (fun _ _ => True) (fun _ => True) Q x.
Proof. intros Hx A [] A' _ Hc; split; eauto. Qed.

Lemma any_of_false {X} (call : X -> assumptions -> res) (Q : X -> Prop) xs :
  Forall (fun x => forall A A', call x A = Some (false, A') -> Q x) xs ->
  forall A A1, any_of call xs A = Some (false, A1) -> Forall Q xs.
Proof.
  intros Hxs A A1 H.
  refine (proj2 (any_of_spec call _ _ _ _ _ _ Q xs (Forall_impl _ (false_spec call Q) Hxs) A false A1 I H)); auto.
Qed.

Lemma all_of_false {X} (call : X -> assumptions -> res) (Q : X -> Prop) xs :
  Forall (fun x => forall A A', call x A = Some (false, A') -> Q x) xs ->
  forall A A1, all_of call xs A = Some (false, A1) -> Exists Q xs.
Proof.
  intros Hxs A A1 H.
  refine (proj2 (all_of_spec call _ _ _ _ _ _ Q xs (Forall_impl _ (false_spec call Q) Hxs) A false A1 I H)); auto.
Qed.

Lemma retract_false cfg mark r A1 : retract cfg mark r = Some (false, A1) -> exists A2, r = Some (false, A2).
Proof. unfold retract. destruct r as [[[] A2]|]; [discriminate|eauto|discriminate]. Qed.

Section Fragment.
  Variable cfg : rel_cfg.
  Variable P : registry.
  (* what the fragment admits beside FO: callable and process types (components unconstrained), partial types *)
  Variables fn pa : bool.

  Inductive frag : nat -> Prop :=
  | frag_int : forall t, lookup_type P t = Some TInteger -> frag t
  | frag_bin : forall t, lookup_type P t = Some TBinary -> frag t
  | frag_ref : forall t, lookup_type P t = Some TReference -> frag t
  | frag_res : forall t r, lookup_type P t = Some (TResource r) -> frag t
  | frag_union : forall t vs, lookup_type P t = Some (TUnion vs) -> (forall u, In u vs -> frag u) -> frag t
  | frag_tuple : forall t tid info, lookup_type P t = Some (TTuple tid) -> lookup_tuple P tid = Some info ->
      (forall f, In f (tfields info) -> frag (snd f)) -> frag t
  | frag_callable : forall t p r rc, fn = true -> lookup_type P t = Some (TCallable p r rc) -> frag t
  | frag_process : forall t s r, fn = true -> lookup_type P t = Some (TProcess s r) -> frag t
  | frag_partial : forall t pn pfs, pa = true -> lookup_type P t = Some (TPartial pn pfs) ->
      (forall f, In f pfs -> frag (snd f)) -> frag t.

  Lemma frag_inv t st : frag t -> lookup_type P t = Some st ->
    match st with
    | TInteger | TBinary | TReference | TResource _ => True
    | TUnion vs => forall u, In u vs -> frag u
    | TTuple tid => exists info, lookup_tuple P tid = Some info /\ forall f, In f (tfields info) -> frag (snd f)
    | TPartial _ pfs => pa = true /\ forall f, In f pfs -> frag (snd f)
    | TCallable _ _ _ | TProcess _ _ => fn = true
    | TCycle _ | TVariable _ => False
    end.
  Proof.
    intros [] Hl; match goal with H : lookup_type P _ = _ |- _ => rewrite Hl in H; injection H as -> end; eauto.
  Qed.

  Lemma FO_frag t : FO P t -> frag t.
  Proof.
    induction 1; [eapply frag_int|eapply frag_bin|eapply frag_ref|eapply frag_res|eapply frag_union|eapply frag_tuple];
      eassumption.
  Qed.

  (* the values over which disjointness is claimed: closed under tuple fields; if the fragment has
     partial types, a tuple carries each label at most once *)
  Variable W : value -> Prop.
  Hypothesis W_fields : forall name fs, W (VTup name fs) -> forall f, In f fs -> W (snd f).
  Hypothesis W_labels : pa = true -> forall name fs, W (VTup name fs) ->
    forall l v1 v2, In (Some l, v1) fs -> In (Some l, v2) fs -> v1 = v2.

  Definition disjoint (s p : nat) : Prop :=
    forall n E1 E2 v, W v -> inhab P n E1 v s -> inhab P n E2 v p -> False.

  Lemma disjoint_sym s p : disjoint s p -> disjoint p s.
  Proof. intros H n E1 E2 v Hw H1 H2. exact (H n E2 E1 v Hw H2 H1). Qed.

  Lemma disjoint_union_left s vs p :
    lookup_type P s = Some (TUnion vs) -> (forall v, In v vs -> disjoint v p) -> disjoint s p.
  Proof.
    intros Hs Hall n E1 E2 v Hw H1 H2. destruct n; [contradiction|].
    destruct (inhab_inv _ _ _ _ _ _ H1 Hs) as (u & Hu & H1'). exact (Hall u Hu _ _ _ _ Hw H1' H2).
  Qed.

  Lemma disjoint_heads s p st pt :
    lookup_type P s = Some st -> lookup_type P p = Some pt ->
    (forall v, shape st v = true -> shape pt v = true -> False) -> disjoint s p.
  Proof. intros Hs Hp Hc n E1 E2 v _ H1 H2. exact (Hc v (inhab_shape _ _ _ _ _ _ H1 Hs) (inhab_shape _ _ _ _ _ _ H2 Hp)). Qed.

  Definition field_disjoint (k : (option nat * nat) * (option nat * nat)) : Prop :=
    fst (fst k) <> fst (snd k) \/ disjoint (snd (fst k)) (snd (snd k)).

  Lemma disjoint_tuple s p id1 id2 i1 i2 :
    lookup_type P s = Some (TTuple id1) -> lookup_type P p = Some (TTuple id2) ->
    lookup_tuple P id1 = Some i1 -> lookup_tuple P id2 = Some i2 ->
    (tname i1 <> tname i2 \/ length (tfields i1) <> length (tfields i2) \/
     Exists field_disjoint (combine (tfields i1) (tfields i2))) ->
    disjoint s p.
  Proof.
    intros Hs Hp Ht1 Ht2 Hd n E1 E2 v Hw H1 H2. destruct n; [contradiction|].
    destruct (inhab_inv _ _ _ _ _ _ H1 Hs) as (i1' & fs & Ht1' & -> & HF1).
    destruct (inhab_inv _ _ _ _ _ _ H2 Hp) as (i2' & fs' & Ht2' & Hv & HF2).
    rewrite Ht1 in Ht1'. rewrite Ht2 in Ht2'. injection Ht1' as <-. injection Ht2' as <-. injection Hv as Hn <-.
    destruct Hd as [Hd|[Hd|Hd]]; [exact (Hd Hn)|apply Hd; rewrite (Forall2_len _ _ _ HF1); symmetry; exact (Forall2_len _ _ _ HF2)|].
    destruct (Forall2_combine_Exists _ _ _ _ _ _ HF1 HF2 Hd) as ([l1 t1] & [l2 t2] & [l fv] & Hfv & [Hl1 Hm1] & [Hl2 Hm2] & [Hne|Hdis]);
      cbn in *; [congruence|].
    exact (Hdis _ _ _ _ (W_fields _ _ Hw _ Hfv) Hm1 Hm2).
  Qed.

  (* concrete tuple vs partial: the names clash, or one label of the partial is carried by the tuple
     only with types disjoint from the partial's (possibly by no field at all) *)
  Lemma disjoint_tuple_partial s p tid info pn pfs :
    lookup_type P s = Some (TTuple tid) -> lookup_tuple P tid = Some info ->
    lookup_type P p = Some (TPartial pn pfs) ->
    ((exists nm, pn = Some nm /\ tname info <> Some nm) \/
     Exists (fun pf => forall ct, In (Some (fst pf), ct) (tfields info) -> disjoint ct (snd pf)) pfs) ->
    disjoint s p.
  Proof.
    intros Hs Ht Hp Hd n E1 E2 v Hw H1 H2. destruct n; [contradiction|].
    destruct (inhab_inv _ _ _ _ _ _ H1 Hs) as (info' & fs & Ht' & -> & HF).
    rewrite Ht in Ht'. injection Ht' as <-.
    destruct (inhab_inv _ _ _ _ _ _ H2 Hp) as (name & fs' & Hv & Hname & Hfields). injection Hv as <- <-.
    destruct Hd as [(nm & -> & Hne)|Hd]; [destruct Hname; congruence|].
    apply Exists_exists in Hd. destruct Hd as ([l pt] & Hin & Hdis).
    destruct (Hfields l pt Hin) as (fv & Hfv & Hmem).
    destruct (Forall2_In_r _ _ _ _ HF Hfv) as ([cl ct] & Hc & Hlab & Hcm). cbn in Hlab, Hcm, Hdis. subst cl.
    exact (Hdis ct Hc _ _ _ _ (W_fields _ _ Hw _ Hfv) Hcm Hmem).
  Qed.

  (* partial vs partial: two different names, or a common label with disjoint types *)
  Lemma disjoint_partial_partial s p pn1 f1 pn2 f2 :
    pa = true ->
    lookup_type P s = Some (TPartial pn1 f1) -> lookup_type P p = Some (TPartial pn2 f2) ->
    ((exists n1 n2, pn1 = Some n1 /\ pn2 = Some n2 /\ n1 <> n2) \/
     Exists (fun k2 => exists t1, In (fst k2, t1) f1 /\ disjoint t1 (snd k2)) f2) ->
    disjoint s p.
  Proof.
    intros Hpa Hs Hp Hd n E1 E2 v Hw H1 H2. destruct n; [contradiction|].
    destruct (inhab_inv _ _ _ _ _ _ H1 Hs) as (name & fs & -> & Hn1 & Hf1).
    destruct (inhab_inv _ _ _ _ _ _ H2 Hp) as (name' & fs' & Hv & Hn2 & Hf2). injection Hv as <- <-.
    destruct Hd as [(n1 & n2 & -> & -> & Hne)|Hd]; [destruct Hn1, Hn2; congruence|].
    apply Exists_exists in Hd. destruct Hd as ([l t2] & Hi2 & t1 & Hi1 & Hdis). cbn in Hi1, Hdis.
    destruct (Hf1 _ _ Hi1) as (v1 & Hv1 & Hm1). destruct (Hf2 _ _ Hi2) as (v2 & Hv2 & Hm2).
    rewrite <- (W_labels Hpa _ _ Hw _ _ _ Hv1 Hv2) in Hm2.
    exact (Hdis _ _ _ _ (W_fields _ _ Hw _ Hv1) Hm1 Hm2).
  Qed.

  Hypothesis Hfn : fn = true -> cfg_any_callable cfg = true.
  Hypothesis Hpa : pa = true -> cfg_partial_any cfg = true.

  (* The proof follows the arms of check_type_relation; an arm that answers `false` names the reason
     why the two types share no value. *)
  Lemma overlap_false_disjoint : forall fuel A ss ps s p A1,
    frag s -> frag p -> check_rel cfg P Any fuel A ss ps s p = Some (false, A1) -> disjoint s p.
  Proof.
    induction fuel as [|f IH]; intros A ss ps s p A1 Hs Hp H; [discriminate|].
    cbn [check_rel] in H.
    destruct (Nat.eqb s p) eqn:Heq; [rewrite step_fast in H by exact Heq; discriminate|].
    destruct (assumed A (s, p)) eqn:Has; [rewrite step_assumed in H by assumption; discriminate|].
    set (rec := check_rel cfg P Any f) in *.
    (* a run of recursive calls on pairs of the fragment that answers false *)
    assert (Hpairs : forall ss0 ps0 ks A0 A2, Forall (fun k => frag (fst k) /\ frag (snd k)) ks ->
              any_of (call_pair rec ss0 ps0) ks A0 = Some (false, A2) -> Forall (fun k => disjoint (fst k) (snd k)) ks).
    { intros ss0 ps0 ks A0 A2 Hks. apply any_of_false. eapply Forall_impl; [|exact Hks].
      intros k [Hk1 Hk2] A3 A4. apply IH; assumption. }
    destruct (lookup_type P s) as [st|] eqn:Hls; [|destruct Hs; congruence].
    destruct (lookup_type P p) as [pt|] eqn:Hlp; [|destruct Hp; congruence].
    pose proof (frag_inv _ _ Hs Hls) as Is. pose proof (frag_inv _ _ Hp Hlp) as Ip.
    revert H. destruct (step_viewP cfg P Any rec A ss ps s p st pt Heq Has Hls Hlp); cbn in Is, Ip;
      try contradiction; intros Hck; try discriminate Hck.
    - (* empty union *) eapply disjoint_union_left; [exact Hls|intros ? []].
    - (* resources *)
      injection Hck as Hr _. apply (disjoint_heads _ _ _ _ Hls Hlp). intros [] H1 H2; try discriminate.
      apply Nat.eqb_eq in H1. apply Nat.eqb_eq in H2. apply Nat.eqb_neq in Hr. congruence.
    - (* union on the left *)
      apply retract_false in Hck. destruct Hck as [A2 Hck]. rewrite any_left_fold in Hck. apply Hpairs in Hck.
      + eapply disjoint_union_left; [exact Hls|]. intros u Hu. rewrite Forall_map, Forall_forall in Hck. exact (Hck u Hu).
      + apply Forall_map, Forall_forall. intros u Hu. split; [exact (Is u Hu)|exact Hp].
    - (* union on the right *)
      apply retract_false in Hck. destruct Hck as [A2 Hck]. rewrite any_right_fold in Hck. apply Hpairs in Hck.
      + apply disjoint_sym. eapply disjoint_union_left; [exact Hlp|]. intros u Hu. apply disjoint_sym.
        rewrite Forall_map, Forall_forall in Hck. exact (Hck u Hu).
      + apply Forall_map, Forall_forall. intros u Hu. split; [exact Hs|exact (Ip u Hu)].
    - (* tuple / tuple *)
      destruct Is as [info1 [Hlt1 Hfs1]]. destruct Ip as [info2 [Hlt2 Hfs2]]. rewrite Hlt1, Hlt2 in Hck.
      destruct (id1 =? id2); [discriminate|].
      eapply disjoint_tuple; [exact Hls|exact Hlp|exact Hlt1|exact Hlt2|].
      destruct (opt_eqb (tname info1) (tname info2)) eqn:Hn;
        [|left; intros Hnn; rewrite Hnn, opt_eqb_refl in Hn; discriminate].
      destruct (length (tfields info1) =? length (tfields info2)) eqn:Hlen; [|right; left; apply Nat.eqb_neq; exact Hlen].
      right; right. cbn in Hck. rewrite tuple_fields_fold in Hck. revert Hck. apply all_of_false.
      apply Forall_forall. intros [[n1 t1] [n2 t2]] Hin A0 A2 Hc. unfold field_call in Hc. cbn in Hc.
      destruct (opt_eqb n1 n2) eqn:Hnn; [|left; cbn; intros Hx; rewrite Hx, opt_eqb_refl in Hnn; discriminate].
      right. revert Hc. apply IH; [apply (Hfs1 (n1, t1)); eapply in_combine_l|apply (Hfs2 (n2, t2)); eapply in_combine_r]; exact Hin.
    - (* tuple / partial *)
      destruct Is as [info [Hlt Hfs]]. destruct Ip as [_ Hpf]. rewrite Hlt in Hck.
      eapply disjoint_tuple_partial; [exact Hls|exact Hlt|exact Hlp|].
      destruct (match pn with Some n => opt_eqb (tname info) (Some n) | None => true end) eqn:Hn.
      + right. rewrite all_partial_fields_fold in Hck. revert Hck. apply all_of_false.
        apply Forall_forall. intros [l t] Hin A0 A2 Hc ct Hct. cbn in Hc |- *.
        rewrite any_concrete_field_fold in Hc. apply Hpairs in Hc.
        * rewrite Forall_map, Forall_forall in Hc. apply (Hc (Some l, ct)). apply filter_In. split; [exact Hct|apply opt_eqb_refl].
        * apply Forall_map, Forall_forall. intros cf Hcf. apply filter_In in Hcf. split; [apply Hfs, Hcf|apply (Hpf (l, t)), Hin].
      + left. destruct pn as [nm|]; [|discriminate]. exists nm. split; [reflexivity|].
        intros Hx. rewrite Hx, opt_eqb_refl in Hn. discriminate.
    - (* partial / partial *)
      destruct Is as [Hpa' Hpf1]. destruct Ip as [_ Hpf2]. rewrite andb_false_r in Hck.
      eapply disjoint_partial_partial; [exact Hpa'|exact Hls|exact Hlp|].
      match type of Hck with (if ?c then _ else _) = _ => destruct c eqn:Hcl end.
      + left. destruct n1 as [a|], n2 as [b|]; try discriminate. exists a, b. repeat split.
        apply Nat.eqb_neq. apply negb_true_iff. exact Hcl.
      + right. rewrite all_partial_partial_fold in Hck. revert Hck. apply all_of_false.
        apply Forall_forall. intros [l t2] Hin A0 A2 Hc. unfold partial_field_call in Hc. cbn in Hc |- *.
        rewrite (Hpa Hpa') in Hc. cbn in Hc.
        destruct (existsb (fun f0 => fst f0 =? l) f1) eqn:Hex; [cbn in Hc|discriminate].
        apply existsb_exists in Hex. destruct Hex as [[l1 t1] [Hin1 Hl]]. apply Nat.eqb_eq in Hl. cbn in Hl. subst l1.
        exists t1. split; [exact Hin1|]. rewrite any_partial_field_fold in Hc. apply Hpairs in Hc.
        * rewrite Forall_map, Forall_forall in Hc. apply (Hc (l, t1)). apply filter_In. split; [exact Hin1|apply Nat.eqb_refl].
        * apply Forall_map, Forall_forall. intros f0 Hf0. apply filter_In in Hf0. split; [apply Hpf1, Hf0|apply (Hpf2 (l, t2)), Hin].
    - (* partial / tuple: the swapped call *)
      rewrite (Hpa (proj1 Is)) in Hck. apply disjoint_sym. revert Hck. apply IH; assumption.
    - (* process / process *) rewrite (Hfn Is) in Hck. discriminate.
    - (* callable / callable *) rewrite (Hfn Is) in Hck. discriminate.
    - (* no arm *) apply (disjoint_heads _ _ _ _ Hls Hlp). intros v. apply shape_clash; assumption.
  Qed.

  Theorem overlap_complete_frag fuel a b r :
    frag a -> frag b -> types_overlap_with cfg fuel P a b = Some r ->
    (exists n v, W v /\ inhab P n [] v a /\ inhab P n [] v b) -> r = true.
  Proof.
    intros Ha Hb Hr (n & v & Hw & Hva & Hvb). destruct r; [reflexivity|exfalso].
    unfold types_overlap_with in Hr.
    destruct (check_rel cfg P Any fuel [] [] [] a b) as [[r A1]|] eqn:Hc; [|discriminate]. injection Hr as ->.
    exact (overlap_false_disjoint _ _ _ _ _ _ _ Ha Hb Hc _ _ _ _ Hw Hva Hvb).
  Qed.
End Fragment.

(* boolean form of FO *)
Fixpoint fob (P : registry) (k : nat) (t : nat) : bool :=
  match k with
  | 0 => false
  | S k' =>
    match lookup_type P t with
    | Some TInteger | Some TBinary | Some TReference | Some (TResource _) => true
    | Some (TUnion vs) => forallb (fob P k') vs
    | Some (TTuple tid) =>
      match lookup_tuple P tid with
      | Some info => forallb (fun f => fob P k' (snd f)) (tfields info)
      | None => false
      end
    | _ => false
    end
  end.

Lemma fob_FO P : forall k t, fob P k t = true -> FO P t.
Proof.
  induction k as [|k IH]; intros t H; [discriminate|]. cbn in H.
  destruct (lookup_type P t) as [ty|] eqn:Hl; [|discriminate].
  destruct ty as [| | |tid|pn fs|p r rc|d|vs|s r|r|v]; try discriminate.
  - eapply FO_int; eassumption.
  - eapply FO_bin; eassumption.
  - eapply FO_ref; eassumption.
  - destruct (lookup_tuple P tid) as [info|] eqn:Ht; [|discriminate].
    eapply FO_tuple; [eassumption|eassumption|]. rewrite forallb_forall in H. intros f Hf. apply IH. apply H. exact Hf.
  - eapply FO_union; [eassumption|]. rewrite forallb_forall in H. intros u Hu. apply IH. apply H. exact Hu.
  - eapply FO_res; eassumption.
Qed.

Definition fo_domain (P : registry) (t : nat) : bool := fob P (S (length (types P))) t.

(* without partial types no premise on the values is needed *)
Lemma overlap_complete_nopartial cfg P fn fuel a b r :
  (fn = true -> cfg_any_callable cfg = true) -> frag P fn false a -> frag P fn false b ->
  types_overlap_with cfg fuel P a b = Some r ->
  (exists n v, inhab P n [] v a /\ inhab P n [] v b) -> r = true.
Proof.
  intros Hfn Ha Hb Hr (n & v & Hv).
  eapply (overlap_complete_frag cfg P fn false (fun _ => True)); [auto|discriminate|exact Hfn|discriminate|exact Ha|exact Hb|exact Hr|].
  exists n, v. auto.
Qed.

Lemma overlap_complete_on_FO cfg P fuel a b r :
  FO P a -> FO P b -> types_overlap_with cfg fuel P a b = Some r ->
  (exists n v, inhab P n [] v a /\ inhab P n [] v b) -> r = true.
Proof. intros Ha Hb. apply (overlap_complete_nopartial cfg P false); [discriminate|apply FO_frag; exact Ha|apply FO_frag; exact Hb]. Qed.

Theorem overlap_complete_fo : forall cfg P fuel a b r,
  fo_domain P a = true -> fo_domain P b = true ->
  types_overlap_with cfg fuel P a b = Some r ->
  (exists n v, inhab P n [] v a /\ inhab P n [] v b) -> r = true.
Proof. intros cfg P fuel a b r Ha Hb. apply overlap_complete_on_FO; eapply fob_FO; eassumption. Qed.
