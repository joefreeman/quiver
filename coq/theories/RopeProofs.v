(* RopeProofs.v — representation invariant of the rope model and its denotation theorems. *)
From Quiver Require Export Rope.

(* Slice and Tiled nodes are in the normal form that BinaryData::slice / ::tiled produce (an empty
   slice is Owned [], a whole-parent slice is the parent, count 0 or an empty unit is Owned [], count 1
   is the unit); `t` of a Concat is the cached total_length; every length is at most MAX_BINARY_SIZE
   because Executor::allocate_binary_data refuses anything longer. *)
Fixpoint wf (r : rope) : Prop :=
  match r with
  | Owned bs => bytes_ok bs /\ Z.of_nat (length bs) <= MAX_BINARY_SIZE
  | Zeroed n => 0 <= n <= MAX_BINARY_SIZE
  | Slice p off len => wf p /\ 0 <= off /\ 0 < len /\ off + len <= rlen p
  | Concat l rr t => wf l /\ wf rr /\ t = rlen l + rlen rr /\ t <= MAX_BINARY_SIZE
  | Tiled u c => wf u /\ 2 <= c /\ 0 < rlen u /\ rlen u * c <= MAX_BINARY_SIZE
  end.

Lemma nth_error_firstn_lt {A} (l : list A) n i :
  (i < n)%nat -> nth_error (firstn n l) i = nth_error l i.
Proof.
  revert l i; induction n as [|n IH]; intros l i H; [lia|].
  destruct l as [|x l]; [destruct i; reflexivity|].
  destruct i as [|i]; simpl; [reflexivity|]. apply IH; lia.
Qed.

Lemma nth_error_firstn_ge {A} (l : list A) n i :
  (n <= i)%nat -> nth_error (firstn n l) i = None.
Proof.
  intros H. apply nth_error_None. pose proof (firstn_le_length n l). lia.
Qed.

Lemma nth_error_skipn_add {A} (l : list A) k i :
  nth_error (skipn k l) i = nth_error l (k + i).
Proof.
  revert l; induction k as [|k IH]; intros l; [reflexivity|].
  destruct l as [|x l]; simpl; [destruct i; reflexivity|apply IH].
Qed.

Lemma skipn_nth_cons {A} (l : list A) i x :
  nth_error l i = Some x -> skipn i l = x :: skipn (S i) l.
Proof.
  revert l; induction i as [|i IH]; intros l H; destruct l as [|y l]; try discriminate.
  - simpl in H. injection H as ->. reflexivity.
  - simpl in H. apply IH in H. exact H.
Qed.

Lemma firstn_S_nth {A} (l : list A) k x : nth_error l k = Some x -> firstn (S k) l = firstn k l ++ [x].
Proof.
  revert l. induction k as [|k IH]; intros [|y l] H; try discriminate.
  - cbn in H. injection H as ->. reflexivity.
  - cbn [nth_error] in H. cbn [firstn app]. f_equal. exact (IH l H).
Qed.

Lemma skipn_repeat {A} (x : A) n k : skipn k (repeat x n) = repeat x (n - k).
Proof.
  revert k; induction n as [|n IH]; intros [|k]; cbn [repeat skipn Nat.sub]; try reflexivity.
  apply IH.
Qed.

Lemma skipn_skipn_add {A} (l : list A) x y : skipn x (skipn y l) = skipn (y + x) l.
Proof.
  revert l; induction y as [|y IH]; intros l; [reflexivity|].
  destruct l as [|a l]; cbn [skipn Nat.add]; [destruct x; reflexivity|apply IH].
Qed.

Lemma Forall_firstn_keep {A} (P : A -> Prop) n l : Forall P l -> Forall P (firstn n l).
Proof.
  intros H; revert n; induction H; intros [|n]; simpl; constructor; auto.
Qed.

Lemma Forall_skipn_keep {A} (P : A -> Prop) n l : Forall P l -> Forall P (skipn n l).
Proof.
  intros H; revert n; induction H; intros [|n]; simpl; auto.
Qed.

Lemma Forall_repeat_intro {A} (P : A -> Prop) x n : P x -> Forall P (repeat x n).
Proof. intros H; induction n; simpl; constructor; auto. Qed.

Lemma Forall_concat_repeat {A} (P : A -> Prop) u n :
  Forall P u -> Forall P (concat (repeat u n)).
Proof.
  intros H; induction n as [|n IH]; simpl; [constructor|].
  apply Forall_app; split; assumption.
Qed.

Lemma length_concat_repeat {A} (u : list A) c :
  length (concat (repeat u c)) = (c * length u)%nat.
Proof.
  induction c as [|c IH]; simpl; [reflexivity|]. rewrite app_length, IH. reflexivity.
Qed.

Lemma concat_repeat_nil {A} c : concat (repeat (@nil A) c) = [].
Proof. induction c; simpl; auto. Qed.

Lemma nth_error_concat_repeat {A} (u : list A) c q o :
  (q < c)%nat -> (o < length u)%nat ->
  nth_error (concat (repeat u c)) (q * length u + o) = nth_error u o.
Proof.
  revert c; induction q as [|q IH]; intros c Hq Ho; (destruct c as [|c]; [lia|]);
    simpl repeat; simpl concat.
  - simpl. apply nth_error_app1; lia.
  - rewrite nth_error_app2 by (simpl; lia).
    replace (S q * length u + o - length u)%nat with (q * length u + o)%nat by (simpl; lia).
    apply IH; lia.
Qed.

Lemma skipn_concat_repeat {A} (u : list A) c q o :
  (q < c)%nat -> (o <= length u)%nat ->
  skipn (q * length u + o) (concat (repeat u c)) =
  skipn o u ++ concat (repeat u (c - q - 1)).
Proof.
  revert c; induction q as [|q IH]; intros c Hq Ho; (destruct c as [|c]; [lia|]);
    simpl repeat; simpl concat; rewrite skipn_app.
  - simpl. replace (o - length u)%nat with 0%nat by lia.
    rewrite Nat.sub_0_r. reflexivity.
  - rewrite (skipn_all2 u) by (simpl; lia).
    replace (S q * length u + o - length u)%nat with (q * length u + o)%nat by (simpl; lia).
    rewrite IH by lia. simpl. reflexivity.
Qed.

Lemma list_find_bound b l p : list_find b l = Some p -> 0 <= p < Z.of_nat (length l).
Proof.
  revert p; induction l as [|a l IH]; intros p H; cbn [list_find] in H; [discriminate|].
  cbn [length]. destruct (a =? b).
  - injection H as <-. lia.
  - destruct (list_find b l) as [p'|]; cbn [option_map] in H; [|discriminate].
    injection H as <-. specialize (IH p' eq_refl). lia.
Qed.

Lemma list_find_app b l1 l2 :
  list_find b (l1 ++ l2) =
  match list_find b l1 with
  | Some p => Some p
  | None => option_map (fun p => p + Z.of_nat (length l1)) (list_find b l2)
  end.
Proof.
  induction l1 as [|a l1 IH]; cbn [app list_find length].
  - destruct (list_find b l2); cbn [option_map]; [f_equal; lia|reflexivity].
  - destruct (a =? b); [reflexivity|]. rewrite IH.
    destruct (list_find b l1); cbn [option_map]; [reflexivity|].
    destruct (list_find b l2); cbn [option_map]; [f_equal; lia|reflexivity].
Qed.

Lemma list_find_firstn b n l :
  list_find b (firstn n l) =
  match list_find b l with
  | Some p => if p <? Z.of_nat n then Some p else None
  | None => None
  end.
Proof.
  revert l; induction n as [|n IH]; intros l.
  - cbn [firstn list_find]. destruct (list_find b l) as [p|] eqn:E; [|reflexivity].
    apply list_find_bound in E. destruct (Z.ltb_spec p (Z.of_nat 0)); [lia|reflexivity].
  - destruct l as [|a l]; cbn [firstn list_find]; [reflexivity|].
    destruct (a =? b).
    + destruct (Z.ltb_spec 0 (Z.of_nat (S n))); [reflexivity|lia].
    + rewrite IH. destruct (list_find b l) as [p|]; cbn [option_map]; [|reflexivity].
      destruct (Z.ltb_spec p (Z.of_nat n)); destruct (Z.ltb_spec (Z.succ p) (Z.of_nat (S n)));
        cbn [option_map]; try lia; reflexivity.
Qed.

Lemma list_find_repeat_ne b x n : (x =? b) = false -> list_find b (repeat x n) = None.
Proof.
  intros H; induction n as [|n IH]; cbn [repeat list_find]; [reflexivity|].
  rewrite H, IH. reflexivity.
Qed.

Lemma list_find_repeat_S b x n :
  list_find b (repeat x (S n)) = if x =? b then Some 0 else None.
Proof.
  cbn [repeat list_find]. destruct (x =? b) eqn:E; [reflexivity|].
  rewrite list_find_repeat_ne by exact E. reflexivity.
Qed.

Lemma list_find_concat_repeat_none b u k :
  list_find b u = None -> list_find b (concat (repeat u k)) = None.
Proof.
  intros H; induction k as [|k IH]; cbn [repeat concat]; [reflexivity|].
  rewrite list_find_app, H, IH. reflexivity.
Qed.

Lemma list_find_concat_repeat_some b u k p :
  list_find b u = Some p -> list_find b (concat (repeat u (S k))) = Some p.
Proof.
  intros H. cbn [repeat concat]. rewrite list_find_app, H. reflexivity.
Qed.

(* characterisation of list_find, so that find_from is visibly "the first index" *)
Lemma list_find_spec b l p : list_find b l = Some p <->
  (0 <= p /\ nth_error l (Z.to_nat p) = Some b /\ forall q, (q < Z.to_nat p)%nat -> nth_error l q <> Some b).
Proof.
  revert p; induction l as [|a l IH]; intros p; cbn [list_find].
  - split; [discriminate|]. intros (_ & H & _). destruct (Z.to_nat p); discriminate.
  - destruct (Z.eqb_spec a b) as [E|E].
    + split.
      * intros H; injection H as <-. split; [lia|]. split; [simpl; congruence|].
        intros q Hq. simpl in Hq. lia.
      * intros (Hp & Hn & Hq). destruct (Z.to_nat p) as [|n] eqn:En.
        -- f_equal. lia.
        -- exfalso. apply (Hq 0%nat); [lia|]. simpl. congruence.
    + split.
      * intros H. destruct (list_find b l) as [p'|] eqn:E'; cbn [option_map] in H; [|discriminate].
        injection H as <-. destruct (proj1 (IH p') eq_refl) as (Hp & Hn & Hq).
        rewrite Z2Nat.inj_succ by lia. split; [lia|]. split; [exact Hn|].
        intros [|q] Hlt; simpl; [congruence|]. apply Hq; lia.
      * intros (Hp & Hn & Hq). destruct (Z.to_nat p) as [|n] eqn:En.
        -- simpl in Hn. congruence.
        -- simpl in Hn.
           assert (Hrec : list_find b l = Some (p - 1)).
           { apply IH. replace (Z.to_nat (p - 1)) with n by lia.
             split; [lia|]. split; [exact Hn|].
             intros q Hlt. apply (Hq (S q)). lia. }
           rewrite Hrec. cbn [option_map]. f_equal. lia.
Qed.

Lemma list_find_none b l : list_find b l = None <-> ~ In b l.
Proof.
  induction l as [|a l IH]; cbn [list_find In].
  - split; auto.
  - destruct (Z.eqb_spec a b) as [E|E].
    + split; [discriminate|]. intros H; exfalso; apply H; left; exact E.
    + destruct (list_find b l); cbn [option_map].
      * split; [discriminate|]. intros H.
        assert (Hn : ~ In b l) by (intros Hi; apply H; right; exact Hi).
        apply IH in Hn. discriminate.
      * split; [|reflexivity]. intros _ [H|H]; [exact (E H)|]. revert H. apply IH. reflexivity.
Qed.

(* byte_at tests the index before it matches on the rope, so cbn does not unfold it on a variable *)
Lemma byte_at_eq r i :
  byte_at r i =
  if (i <? 0) || (rlen r <=? i) then None else
  match r with
  | Owned bs => nth_error bs (Z.to_nat i)
  | Zeroed _ => Some 0
  | Slice p off _ => byte_at p (off + i)
  | Concat l rr _ => if i <? rlen l then byte_at l i else byte_at rr (i - rlen l)
  | Tiled u _ => byte_at u (i mod rlen u)
  end.
Proof. destruct r; reflexivity. Qed.

Lemma out_test_false i L : 0 <= i < L -> (i <? 0) || (L <=? i) = false.
Proof.
  intros H. destruct (Z.ltb_spec i 0); destruct (Z.leb_spec L i); try lia; reflexivity.
Qed.

Lemma out_test_true i L : ~ (0 <= i < L) -> (i <? 0) || (L <=? i) = true.
Proof.
  intros H. destruct (Z.ltb_spec i 0); destruct (Z.leb_spec L i); try lia; reflexivity.
Qed.

(* Z <-> nat decomposition of an index into a tiled list *)
Lemma tile_index_split (i m : Z) : 0 <= i -> 0 < m ->
  0 <= i / m /\ 0 <= i mod m < m /\ i = m * (i / m) + i mod m /\
  Z.to_nat i = (Z.to_nat (i / m) * Z.to_nat m + Z.to_nat (i mod m))%nat.
Proof.
  intros Hi Hm.
  assert (H1 : 0 <= i / m) by (apply Z.div_pos; lia).
  assert (H2 : 0 <= i mod m < m) by (apply Z.mod_pos_bound; lia).
  assert (H3 : i = m * (i / m) + i mod m) by (apply Z.div_mod; lia).
  repeat split; try lia.
  all: apply Nat2Z.inj; rewrite Nat2Z.inj_add, Nat2Z.inj_mul, !Z2Nat.id by lia; lia.
Qed.

Lemma wf_rlen_bound r : wf r -> 0 <= rlen r <= MAX_BINARY_SIZE.
Proof.
  induction r as [bs|n|p IHp off len|l IHl rr IHr t|u IHu c]; cbn [wf rlen]; intros H.
  - lia.
  - lia.
  - destruct H as (Hp & H0 & H1 & H2). specialize (IHp Hp). lia.
  - destruct H as (Hl & Hr & Ht & Hb). specialize (IHl Hl). specialize (IHr Hr). lia.
  - destruct H as (Hu & Hc & Hl & Hb). split; [|exact Hb]. apply Z.mul_nonneg_nonneg; lia.
Qed.

Theorem rlen_bytes_of r : wf r -> rlen r = Z.of_nat (length (bytes_of r)).
Proof.
  induction r as [bs|n|p IHp off len|l IHl rr IHr t|u IHu c]; cbn [wf rlen bytes_of]; intros H.
  - reflexivity.
  - rewrite repeat_length. lia.
  - destruct H as (Hp & H0 & H1 & H2). specialize (IHp Hp).
    rewrite firstn_length, skipn_length. lia.
  - destruct H as (Hl & Hr & Ht & Hb). rewrite app_length, Nat2Z.inj_add, <- IHl, <- IHr by assumption.
    exact Ht.
  - destruct H as (Hu & Hc & Hl & Hb). rewrite length_concat_repeat, Nat2Z.inj_mul, <- IHu by assumption.
    rewrite Z2Nat.id by lia. lia.
Qed.

Theorem bytes_of_ok r : wf r -> bytes_ok (bytes_of r).
Proof.
  unfold bytes_ok.
  induction r as [bs|n|p IHp off len|l IHl rr IHr t|u IHu c]; cbn [wf bytes_of]; intros H.
  - exact (proj1 H).
  - apply Forall_repeat_intro. lia.
  - apply Forall_firstn_keep, Forall_skipn_keep, IHp, H.
  - destruct H as (Hl & Hr & _). apply Forall_app; split; auto.
  - apply Forall_concat_repeat, IHu, H.
Qed.

Lemma byte_at_out r i : ~ (0 <= i < rlen r) -> byte_at r i = None.
Proof. intros H. rewrite byte_at_eq, out_test_true by exact H. reflexivity. Qed.

Lemma byte_at_in r : wf r -> forall i, 0 <= i < rlen r ->
  byte_at r i = nth_error (bytes_of r) (Z.to_nat i).
Proof.
  induction r as [bs|n|p IHp off len|l IHl rr IHr t|u IHu c]; intros H i Hi;
    rewrite byte_at_eq, out_test_false by exact Hi; cbn [wf rlen bytes_of] in *.
  - reflexivity.
  - symmetry. apply nth_error_repeat. lia.
  - destruct H as (Hp & H0 & H1 & H2).
    rewrite IHp by (try exact Hp; lia).
    rewrite nth_error_firstn_lt by lia. rewrite nth_error_skipn_add.
    f_equal. lia.
  - destruct H as (Hl & Hr & Ht & Hb).
    pose proof (rlen_bytes_of l Hl) as Ll. pose proof (rlen_bytes_of rr Hr) as Lr.
    destruct (Z.ltb_spec i (rlen l)) as [Hlt|Hge].
    + rewrite IHl by (try exact Hl; lia).
      rewrite nth_error_app1 by lia. reflexivity.
    + rewrite IHr by (try exact Hr; lia).
      rewrite nth_error_app2 by lia. f_equal. lia.
  - destruct H as (Hu & Hc & Hl & Hb).
    pose proof (rlen_bytes_of u Hu) as Lu.
    destruct (tile_index_split i (rlen u)) as (Q0 & M0 & Ei & En); [lia|lia|].
    rewrite IHu by (try exact Hu; lia).
    rewrite En. replace (Z.to_nat (rlen u)) with (length (bytes_of u)) by lia.
    rewrite nth_error_concat_repeat; [reflexivity| |lia].
    assert (i / rlen u < c) by (apply Z.div_lt_upper_bound; lia). lia.
Qed.

Theorem byte_at_spec r i : wf r ->
  byte_at r i = if (0 <=? i) && (i <? rlen r) then nth_error (bytes_of r) (Z.to_nat i) else None.
Proof.
  intros H. destruct (Z.leb_spec 0 i), (Z.ltb_spec i (rlen r)); cbn [andb];
    [apply byte_at_in; [exact H | lia] | apply byte_at_out; lia ..].
Qed.

Lemma nth_byte bytes j : bytes_ok bytes -> 0 <= j < Z.of_nat (length bytes) ->
  exists b, nth_error bytes (Z.to_nat j) = Some b /\ 0 <= b < 256.
Proof.
  intros Hok Hj. destruct (nth_error bytes (Z.to_nat j)) as [b|] eqn:E.
  - exists b. split; [reflexivity|]. apply nth_error_In in E.
    unfold bytes_ok in Hok. rewrite Forall_forall in Hok. apply Hok. exact E.
  - apply nth_error_None in E. lia.
Qed.

Corollary byte_at_in_range r i : wf r -> 0 <= i < rlen r ->
  exists b, byte_at r i = Some b /\ nth_error (bytes_of r) (Z.to_nat i) = Some b /\ 0 <= b < 256.
Proof.
  intros H Hi. rewrite byte_at_in by assumption.
  destruct (nth_byte (bytes_of r) i (bytes_of_ok r H)) as (b & E & Hb);
    [rewrite <- rlen_bytes_of by exact H; exact Hi|].
  exists b. rewrite E. repeat split; lia.
Qed.

Lemma iter_from_spec r fuel : forall i, wf r -> 0 <= i -> i + Z.of_nat fuel = rlen r ->
  iter_from r i fuel = skipn (Z.to_nat i) (bytes_of r).
Proof.
  induction fuel as [|f IH]; intros i H Hi Hf; cbn [iter_from].
  - symmetry. apply skipn_all2. pose proof (rlen_bytes_of r H). lia.
  - destruct (byte_at_in_range r i H) as (b & Hb & Hn & _); [lia|].
    rewrite Hb. rewrite (skipn_nth_cons _ _ _ Hn). f_equal.
    rewrite IH by (try assumption; lia). f_equal. lia.
Qed.

Theorem rope_iter_spec r : wf r -> rope_iter r = bytes_of r.
Proof.
  intros H. unfold rope_iter. pose proof (wf_rlen_bound r H).
  rewrite iter_from_spec by (try assumption; lia). reflexivity.
Qed.

Lemma find_from_out b l off : Z.of_nat (length l) <= off -> find_from b l off = None.
Proof.
  intros H. unfold find_from. destruct (Z.leb_spec (Z.of_nat (length l)) off); [reflexivity|lia].
Qed.

(* the length test of find_from is redundant: beyond the end nothing is left to search *)
Lemma find_from_unfold b l off :
  find_from b l off = option_map (fun p => p + off) (list_find b (skipn (Z.to_nat off) l)).
Proof.
  unfold find_from. destruct (Z.leb_spec (Z.of_nat (length l)) off); [|reflexivity].
  rewrite skipn_all2 by lia. reflexivity.
Qed.

Lemma find_from_0 b l : find_from b l 0 = list_find b l.
Proof.
  rewrite find_from_unfold. change (Z.to_nat 0) with 0%nat. cbn [skipn].
  destruct (list_find b l); cbn [option_map]; [f_equal; lia|reflexivity].
Qed.

Lemma find_from_repeat0 b n off : 0 <= off ->
  find_from b (repeat 0 n) off = if (b =? 0) && (off <? Z.of_nat n) then Some off else None.
Proof.
  intros Hoff. destruct (Z.ltb_spec off (Z.of_nat n)) as [Hlt|Hge].
  - rewrite find_from_unfold, skipn_repeat.
    destruct (n - Z.to_nat off)%nat as [|k] eqn:E; [lia|].
    rewrite list_find_repeat_S. rewrite (Z.eqb_sym b 0).
    destruct (0 =? b); cbn [option_map andb]; [f_equal; lia|reflexivity].
  - rewrite find_from_out by (rewrite repeat_length; lia).
    rewrite andb_false_r. reflexivity.
Qed.

Lemma find_from_slice b l soff len off :
  0 <= soff -> 0 < len -> soff + len <= Z.of_nat (length l) -> 0 <= off ->
  find_from b (firstn (Z.to_nat len) (skipn (Z.to_nat soff) l)) off =
  if len <=? off then None
  else match find_from b l (soff + off) with
       | Some a => if a - soff <? len then Some (a - soff) else None
       | None => None
       end.
Proof.
  intros Hs Hl Hb Hoff.
  assert (Elen : Z.of_nat (length (firstn (Z.to_nat len) (skipn (Z.to_nat soff) l))) = len).
  { rewrite firstn_length, skipn_length. lia. }
  destruct (Z.leb_spec len off) as [Hge|Hlt].
  - apply find_from_out. lia.
  - rewrite !find_from_unfold, skipn_firstn_comm, skipn_skipn_add.
    replace (Z.to_nat (soff + off)) with (Z.to_nat soff + Z.to_nat off)%nat by lia.
    rewrite list_find_firstn.
    destruct (list_find b (skipn (Z.to_nat soff + Z.to_nat off) l)) as [p|]; cbn [option_map];
      [|reflexivity].
    destruct (Z.ltb_spec p (Z.of_nat (Z.to_nat len - Z.to_nat off)));
      destruct (Z.ltb_spec (p + (soff + off) - soff) len); cbn [option_map]; try lia;
      [f_equal; lia|reflexivity].
Qed.

Lemma find_from_app b l1 l2 off : 0 <= off ->
  find_from b (l1 ++ l2) off =
  if off <? Z.of_nat (length l1) then
    match find_from b l1 off with
    | Some i => Some i
    | None => option_map (fun i => i + Z.of_nat (length l1)) (find_from b l2 0)
    end
  else option_map (fun i => i + Z.of_nat (length l1)) (find_from b l2 (off - Z.of_nat (length l1))).
Proof.
  intros Hoff. rewrite !find_from_unfold, skipn_app, list_find_app, skipn_length.
  destruct (Z.ltb_spec off (Z.of_nat (length l1))) as [Hlt|Hge].
  - replace (Z.to_nat off - length l1)%nat with 0%nat by lia. cbn [skipn].
    destruct (list_find b (skipn (Z.to_nat off) l1)) as [p|]; cbn [option_map]; [reflexivity|].
    change (Z.to_nat 0) with 0%nat. cbn [skipn].
    destruct (list_find b l2) as [p|]; cbn [option_map]; [f_equal; lia|reflexivity].
  - rewrite (skipn_all2 l1) by lia. cbn [list_find].
    replace (Z.to_nat (off - Z.of_nat (length l1))) with (Z.to_nat off - length l1)%nat by lia.
    destruct (list_find b (skipn (Z.to_nat off - length l1) l2)) as [p|]; cbn [option_map];
      [f_equal; lia|reflexivity].
Qed.

Lemma find_from_tiled b u c off :
  0 < Z.of_nat (length u) -> 0 <= c -> 0 <= off ->
  find_from b (concat (repeat u (Z.to_nat c))) off =
  if (Z.of_nat (length u) =? 0) || (Z.of_nat (length u) * c <=? off) then None
  else match find_from b u (off mod Z.of_nat (length u)) with
       | Some p => Some (off / Z.of_nat (length u) * Z.of_nat (length u) + p)
       | None =>
           if off / Z.of_nat (length u) + 1 <? c then
             match find_from b u 0 with
             | Some p => Some ((off / Z.of_nat (length u) + 1) * Z.of_nat (length u) + p)
             | None => None
             end
           else None
       end.
Proof.
  (* off = su * m + o: what is left of the tiled list is the rest of the current copy, skipn o u,
     followed by the remaining whole copies; a hit is in the former, else in the first of the latter *)
  intros Hm Hc Hoff. set (m := Z.of_nat (length u)) in *.
  assert (Elen : Z.of_nat (length (concat (repeat u (Z.to_nat c)))) = m * c).
  { rewrite length_concat_repeat, Nat2Z.inj_mul, Z2Nat.id by lia. fold m. lia. }
  destruct (Z.eqb_spec m 0) as [E0|_]; [lia|]. cbn [orb].
  destruct (Z.leb_spec (m * c) off) as [Hout|Hin].
  - apply find_from_out. lia.
  - destruct (tile_index_split off m Hoff Hm) as (Q0 & M0 & Eo & En).
    assert (Qc : off / m < c) by (apply Z.div_lt_upper_bound; lia).
    set (su := off / m) in *. set (o := off mod m) in *.
    rewrite find_from_0, !find_from_unfold.
    rewrite En. replace (Z.to_nat m) with (length u) by (subst m; lia).
    rewrite skipn_concat_repeat by (subst m; lia).
    rewrite list_find_app.
    destruct (list_find b (skipn (Z.to_nat o) u)) as [p|]; cbn [option_map];
      [f_equal; lia|].
    rewrite skipn_length.
    destruct (Z.ltb_spec (su + 1) c) as [Hmore|Hlast].
    + destruct (Z.to_nat c - Z.to_nat su - 1)%nat as [|k] eqn:Ek; [lia|].
      destruct (list_find b u) as [p|] eqn:Eu.
      * rewrite (list_find_concat_repeat_some _ _ _ _ Eu). cbn [option_map].
        f_equal. subst m. lia.
      * rewrite (list_find_concat_repeat_none _ _ _ Eu). reflexivity.
    + replace (Z.to_nat c - Z.to_nat su - 1)%nat with 0%nat by lia. reflexivity.
Qed.

Theorem find_byte_spec r b off : wf r -> 0 <= off -> find_byte r b off = find_from b (bytes_of r) off.
Proof.
  revert off.
  induction r as [bs|n|p IHp soff len|l IHl rr IHr t|u IHu c]; intros off H Hoff;
    cbn [find_byte wf bytes_of] in *.
  - reflexivity.
  - rewrite find_from_repeat0 by exact Hoff. rewrite Z2Nat.id by lia. reflexivity.
  - destruct H as (Hp & H0 & H1 & H2).
    rewrite IHp by (try exact Hp; lia).
    rewrite find_from_slice by (try rewrite <- rlen_bytes_of by exact Hp; lia).
    reflexivity.
  - destruct H as (Hl & Hr & Ht & Hb). cbv zeta.
    pose proof (wf_rlen_bound l Hl) as Bl.
    rewrite find_from_app by exact Hoff. rewrite <- rlen_bytes_of by exact Hl.
    destruct (Z.ltb_spec off (rlen l)) as [Hlt|Hge].
    + rewrite IHl by (try exact Hl; lia). rewrite IHr by (try exact Hr; lia). reflexivity.
    + rewrite IHr by (try exact Hr; lia). reflexivity.
  - destruct H as (Hu & Hc & Hl & Hb). cbv zeta.
    pose proof (rlen_bytes_of u Hu) as Lu.
    assert (Hmod : 0 <= off mod rlen u < rlen u) by (apply Z.mod_pos_bound; lia).
    rewrite !IHu by (try exact Hu; lia).
    rewrite find_from_tiled by lia. rewrite <- Lu. reflexivity.
Qed.

Theorem mk_concat_wf l r : wf l -> wf r -> rlen l + rlen r <= MAX_BINARY_SIZE -> wf (mk_concat l r).
Proof.
  intros Hl Hr Hb. unfold mk_concat. cbn [wf]. repeat split; try assumption.
Qed.

Theorem mk_concat_bytes l r : bytes_of (mk_concat l r) = bytes_of l ++ bytes_of r.
Proof. reflexivity. Qed.

Theorem mk_slice_some p off len : wf p -> 0 <= off -> 0 <= len -> off + len <= rlen p ->
  exists s, mk_slice p off len = Some s /\ wf s /\
            bytes_of s = firstn (Z.to_nat len) (skipn (Z.to_nat off) (bytes_of p)).
Proof.
  intros Hp Hoff Hlen Hb. unfold mk_slice.
  destruct (Z.ltb_spec (rlen p) off) as [C1|C1]; [lia|].
  destruct (Z.ltb_spec (rlen p) (off + len)) as [C2|C2]; [lia|]. cbn [orb].
  destruct (Z.eqb_spec len 0) as [E0|N0].
  - exists (Owned []). split; [reflexivity|]. split.
    + cbn [wf length]. split; [constructor|]. unfold MAX_BINARY_SIZE. lia.
    + subst len. reflexivity.
  - destruct (Z.eqb_spec off 0) as [Eo|No]; [destruct (Z.eqb_spec len (rlen p)) as [El|Nl]|];
      cbn [andb].
    + exists p. split; [reflexivity|]. split; [exact Hp|].
      subst off. change (Z.to_nat 0) with 0%nat. cbn [skipn].
      rewrite firstn_all2; [reflexivity|]. pose proof (rlen_bytes_of p Hp). lia.
    + exists (Slice p off len). split; [reflexivity|]. split; [|reflexivity].
      cbn [wf]. repeat split; try assumption; lia.
    + exists (Slice p off len). split; [reflexivity|]. split; [|reflexivity].
      cbn [wf]. repeat split; try assumption; lia.
Qed.

Theorem mk_slice_none p off len : rlen p < off + len -> mk_slice p off len = None.
Proof.
  intros Hb. unfold mk_slice.
  destruct (Z.ltb_spec (rlen p) (off + len)) as [C2|C2]; [|lia].
  rewrite orb_true_r. reflexivity.
Qed.

Theorem mk_tiled_wf u c : wf u -> 0 <= c -> rlen u * c <= MAX_BINARY_SIZE -> wf (mk_tiled u c).
Proof.
  intros Hu Hc Hb. unfold mk_tiled. pose proof (wf_rlen_bound u Hu) as Bu.
  destruct (Z.eqb_spec c 0) as [E0|N0]; [|destruct (Z.eqb_spec (rlen u) 0) as [El|Nl]]; cbn [orb].
  - cbn [wf length]. split; [constructor|]. unfold MAX_BINARY_SIZE. lia.
  - cbn [wf length]. split; [constructor|]. unfold MAX_BINARY_SIZE. lia.
  - destruct (Z.eqb_spec c 1) as [E1|N1]; [exact Hu|].
    cbn [wf]. repeat split; try assumption; lia.
Qed.

Theorem mk_tiled_bytes u c : wf u -> bytes_of (mk_tiled u c) = concat (repeat (bytes_of u) (Z.to_nat c)).
Proof.
  intros Hu. unfold mk_tiled. pose proof (rlen_bytes_of u Hu) as Lu.
  destruct (Z.eqb_spec c 0) as [E0|N0]; [|destruct (Z.eqb_spec (rlen u) 0) as [El|Nl]]; cbn [orb].
  - subst c. reflexivity.
  - assert (En : bytes_of u = []) by (apply length_zero_iff_nil; lia).
    rewrite En, concat_repeat_nil. reflexivity.
  - destruct (Z.eqb_spec c 1) as [E1|N1]; [|reflexivity].
    subst c. change (Z.to_nat 1) with 1%nat. cbn [repeat concat]. rewrite app_nil_r. reflexivity.
Qed.

(* anything computed through the rope interface depends only on the denotation *)
Theorem shape_independent r1 r2 : wf r1 -> wf r2 -> bytes_of r1 = bytes_of r2 ->
  rlen r1 = rlen r2 /\ (forall i, byte_at r1 i = byte_at r2 i) /\ rope_iter r1 = rope_iter r2 /\
  (forall b off, 0 <= off -> find_byte r1 b off = find_byte r2 b off) /\
  (forall off len, 0 <= off -> 0 <= len ->
     option_map bytes_of (mk_slice r1 off len) = option_map bytes_of (mk_slice r2 off len)) /\
  (forall c, 0 <= c -> bytes_of (mk_tiled r1 c) = bytes_of (mk_tiled r2 c)) /\
  (forall r3, bytes_of (mk_concat r1 r3) = bytes_of (mk_concat r2 r3) /\ bytes_of (mk_concat r3 r1) = bytes_of (mk_concat r3 r2)).
Proof.
  intros H1 H2 E.
  assert (El : rlen r1 = rlen r2).
  { rewrite (rlen_bytes_of r1 H1), (rlen_bytes_of r2 H2), E. reflexivity. }
  split; [exact El|].
  split; [intros i; rewrite !byte_at_spec by assumption; rewrite El, E; reflexivity|].
  split; [rewrite !rope_iter_spec by assumption; exact E|].
  split; [intros b off Hoff; rewrite !find_byte_spec by assumption; rewrite E; reflexivity|].
  split.
  { intros off len Hoff Hlen. destruct (Z_le_dec (off + len) (rlen r1)) as [Hin|Hout].
    - destruct (mk_slice_some r1 off len H1 Hoff Hlen Hin) as (s1 & -> & _ & B1).
      destruct (mk_slice_some r2 off len H2 Hoff Hlen) as (s2 & -> & _ & B2); [lia|].
      cbn [option_map]. rewrite B1, B2, E. reflexivity.
    - rewrite (mk_slice_none r1 off len), (mk_slice_none r2 off len) by lia. reflexivity. }
  split; [intros c Hc; rewrite !mk_tiled_bytes by assumption; rewrite E; reflexivity|].
  intros r3. rewrite !mk_concat_bytes, E. split; reflexivity.
Qed.

(* non-vacuity: a concrete rope using all five constructors is wf *)
Example wf_example : wf (Concat (Slice (Owned [1;2;3;4;5]) 1 3) (Tiled (Concat (Zeroed 2) (Owned [255]) 3) 4) 15).
Proof.
  cbn [wf rlen length]. unfold bytes_ok, MAX_BINARY_SIZE.
  repeat split; try lia; repeat constructor; lia.
Qed.
