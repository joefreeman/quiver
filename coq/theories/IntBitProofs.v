(* IntBitProofs.v — integer_not / integer_shift / integer_popcount equal their reference specs
   (spec_integer_* of BuiltinSpec.v) on EVERY argument, ill-shaped ones included:
   `flatten_out (impl a) = spec (flatten a)`. No rope is involved, so there is no well-formedness
   premise and no wf_out as in `agrees`. *)
From Quiver Require Import BuiltinSpec BuiltinProofs.

Lemma in_i64_inv n : in_i64 n = true -> - two63 <= n < two63.
Proof.
  unfold in_i64. intros H. apply andb_true_iff in H. destruct H as [H1 H2].
  apply Z.leb_le in H1. apply Z.ltb_lt in H2. lia.
Qed.

Lemma two64_neq0 : two64 <> 0.
Proof. unfold two64. lia. Qed.

Lemma to_i64_0 : to_i64 0 = 0.
Proof. apply to_i64_id. unfold two63. lia. Qed.

Lemma lnot_spec_not n : - two63 <= n < two63 -> Z.lnot n = spec_not n.
Proof.
  intros Hn. unfold spec_not, wrap_u64.
  rewrite (to_i64_mod_eq (two64 - 1 - n mod two64) (Z.lnot n)).
  - symmetry. apply to_i64_id. unfold Z.lnot, Z.pred. lia.
  - rewrite (Z.mod_eq n two64) by apply two64_neq0.
    replace (two64 - 1 - (n - two64 * (n / two64))) with (Z.lnot n + (1 + n / two64) * two64)
      by (unfold Z.lnot, Z.pred; ring).
    apply Z.mod_add. apply two64_neq0.
Qed.

Theorem integer_not_correct : forall a : bval, flatten_out (impl_integer_not a) = spec_integer_not (flatten a).
Proof.
  intros a. destruct a as [n|r|fs|]; try reflexivity.
  unfold impl_integer_not, to_i64_checked. cbn [flatten spec_integer_not].
  destruct (in_i64 n) eqn:En; cbn [obind flatten_out flatten]; [|reflexivity].
  rewrite (lnot_spec_not n (in_i64_inv n En)). reflexivity.
Qed.

Lemma shl_small v k : 0 <= k -> to_i64 (Z.shiftl v k) = spec_shl v k.
Proof.
  intros Hk. unfold spec_shl, wrap_u64. rewrite Z.shiftl_mul_pow2 by assumption.
  apply to_i64_mod_eq. rewrite Z.mul_mod_idemp_l by apply two64_neq0. reflexivity.
Qed.

Lemma shl_big v k : 64 <= k -> spec_shl v k = 0.
Proof.
  intros Hk. unfold spec_shl.
  replace (2 ^ k) with (two64 * 2 ^ (k - 64)).
  - rewrite <- to_i64_0. apply to_i64_mod_eq.
    replace (wrap_u64 v * (two64 * 2 ^ (k - 64))) with ((wrap_u64 v * 2 ^ (k - 64)) * two64) by ring.
    rewrite Z.mod_mul by apply two64_neq0. rewrite Z.mod_0_l by apply two64_neq0. reflexivity.
  - unfold two64. rewrite <- Z.pow_add_r by lia. f_equal. lia.
Qed.

Lemma shl_zero v : - two63 <= v < two63 -> spec_shl v 0 = v.
Proof.
  intros Hv. unfold spec_shl. rewrite Z.pow_0_r, Z.mul_1_r, to_i64_wrap. apply to_i64_id. assumption.
Qed.

Lemma sar_big v k : - two63 <= v < two63 -> 63 <= k -> spec_sar v k = if 0 <=? v then 0 else -1.
Proof.
  intros Hv Hk. unfold spec_sar.
  assert (HP : two63 <= 2 ^ k) by (unfold two63; apply Z.pow_le_mono_r; lia).
  set (P := 2 ^ k) in *.
  destruct (Z.leb_spec 0 v) as [Hv0|Hv0].
  - apply Z.div_small. lia.
  - symmetry. apply Z.div_unique with (r := v + P); lia.
Qed.

Lemma shift_core v k : in_i64 v = true -> in_i64 k = true ->
  impl_integer_shift (BTup [BInt v; BInt k]) =
  Val (BInt (if 0 <=? k then spec_shl v k else spec_sar v (- k))).
Proof.
  intros Ev Ek. unfold impl_integer_shift, two_i64, to_i64_checked.
  rewrite Ev, Ek. cbn [obind fst snd]. cbv zeta.
  apply in_i64_inv in Ev. apply in_i64_inv in Ek.
  destruct (Z.eqb_spec k 0) as [Hk0|Hk0].
  - subst k. rewrite Z.leb_refl. rewrite shl_zero by assumption. reflexivity.
  - destruct (Z.leb_spec 64 (Z.abs k)) as [Hb|Hb];
    destruct (Z.ltb_spec 0 k) as [Hp|Hp];
    destruct (Z.leb_spec 0 k) as [Hq|Hq]; try lia; do 2 f_equal.
    + symmetry. apply shl_big. lia.
    + symmetry. apply sar_big; [assumption | lia].
    + rewrite Z.abs_eq by lia. apply shl_small. lia.
    + rewrite Z.abs_neq by lia. unfold spec_sar. apply Z.shiftr_div_pow2. lia.
Qed.

Theorem integer_shift_correct : forall a : bval, flatten_out (impl_integer_shift a) = spec_integer_shift (flatten a).
Proof.
  intros a. destruct a as [n|r|fs|]; try reflexivity.
  destruct fs as [|x [|y [|w fs]]]; try reflexivity.
  - (* one field *) destruct x; reflexivity.
  - (* two fields: unless both are i64, both sides stop at the same error *)
    destruct x as [v|?|?|]; try reflexivity.
    cbn [flatten map spec_integer_shift].
    destruct (in_i64 v) eqn:Ev, y as [k|?|?|]; try destruct (in_i64 k) eqn:Ek.
    1: rewrite shift_core by assumption; cbn [flatten]; rewrite Ek; reflexivity.
    all: unfold impl_integer_shift, two_i64, to_i64_checked; cbn [flatten]; rewrite Ev, ?Ek; reflexivity.
  - (* three or more fields *) destruct x; destruct y; reflexivity.
Qed.

Lemma filter_map_length {A B} (f : B -> bool) (g : A -> B) (l : list A) :
  length (filter f (map g l)) = length (filter (fun x => f (g x)) l).
Proof.
  induction l as [|x l IH]; [reflexivity|].
  cbn [map filter]. destruct (f (g x)); cbn [length]; rewrite IH; reflexivity.
Qed.

Lemma popcount_step z : 0 <= z -> popcount z = Z.b2z (Z.testbit z 0) + popcount (Z.div2 z).
Proof.
  intros Hz. destruct z as [|p|p]; [reflexivity | destruct p; reflexivity | lia].
Qed.

Lemma popcount_bits : forall (m : nat) (z : Z), 0 <= z < 2 ^ Z.of_nat m ->
  popcount z = Z.of_nat (length (filter (fun i => Z.testbit z (Z.of_nat i)) (seq 0 m))).
Proof.
  induction m as [|m IH]; intros z Hz.
  - change (2 ^ Z.of_nat 0) with 1 in Hz. assert (z = 0) by lia. subst z. reflexivity.
  - rewrite Nat2Z.inj_succ, Z.pow_succ_r in Hz by apply Nat2Z.is_nonneg.
    rewrite popcount_step by lia.
    cbn [seq]. rewrite <- seq_shift. cbn [filter].
    assert (Hd : 0 <= Z.div2 z < 2 ^ Z.of_nat m).
    { rewrite Z.div2_div. split; [apply Z.div_pos; lia | apply Z.div_lt_upper_bound; lia]. }
    rewrite (IH (Z.div2 z) Hd).
    assert (Hl : length (filter (fun i => Z.testbit z (Z.of_nat i)) (map S (seq 0 m))) =
                 length (filter (fun i => Z.testbit (Z.div2 z) (Z.of_nat i)) (seq 0 m))).
    { rewrite filter_map_length. f_equal. apply filter_ext. intros i.
      rewrite Nat2Z.inj_succ, Z.div2_div. symmetry. apply Z.div2_bits. apply Nat2Z.is_nonneg. }
    change (Z.of_nat 0) with 0.
    destruct (Z.testbit z 0); cbn [length Z.b2z]; rewrite Hl; [rewrite Nat2Z.inj_succ|]; lia.
Qed.

Lemma popcount_wrap n : popcount (wrap_u64 n) = spec_popcount64 n.
Proof.
  unfold spec_popcount64. apply popcount_bits.
  unfold wrap_u64. change (2 ^ Z.of_nat 64) with two64.
  apply Z.mod_pos_bound. unfold two64. lia.
Qed.

Theorem integer_popcount_correct : forall a : bval, flatten_out (impl_integer_popcount a) = spec_integer_popcount (flatten a).
Proof.
  intros a. destruct a as [n|r|fs|]; try reflexivity.
  unfold impl_integer_popcount, to_i64_checked. cbn [flatten spec_integer_popcount].
  destruct (in_i64 n) eqn:En; cbn [obind flatten_out flatten]; [|reflexivity].
  rewrite popcount_wrap. reflexivity.
Qed.

Example integer_shift_example :
  impl_integer_shift (BTup [BInt (-5); BInt (-1)]) = Val (BInt (-3)) /\
  impl_integer_shift (BTup [BInt 1; BInt 63]) = Val (BInt (- 2^63)).
Proof. split; vm_compute; reflexivity. Qed.

Example integer_popcount_example : impl_integer_popcount (BInt (-1)) = Val (BInt 64).
Proof. vm_compute. reflexivity. Qed.
