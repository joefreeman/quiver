(* TransCheck.v — on the cycle-free fragment (ids topologically ordered), the ALL mode of check_rel
   terminates for fuel > s + p and computes exactly the reference relation R of TransProofs.v,
   whatever assumption set it is started from (as long as that set is valid or in progress).
   With R_trans this gives transitivity of is_compatible (compat_trans_cf). *)
From Quiver Require Import Base Types Rel RelStep Sem SemProofs RelProofs TransProofs.
From Coq Require Import Arith Lia.
Close Scope Z_scope.
Open Scope nat_scope.

(* what the side conditions of the view's union-on-the-right and no-arm cases mean for ref_arm *)
Lemma ref_arm_union_right P r s p st ws :
  base st = true -> ref_arm P r s p st (TUnion ws) = existsb (fun w => r s w) ws.
Proof. destruct st; try discriminate; reflexivity. Qed.

Lemma ref_arm_other P r s p st pt :
  base st = true -> base pt = true -> same_head st pt = false -> ref_arm P r s p st pt = false.
Proof. destruct st as [| | | | | | | |[?|] [?|]| |], pt; try discriminate; reflexivity. Qed.

Section Exact.
  Variable cfg : rel_cfg.
  Variable P : registry.
  Hypothesis Hretract : cfg_retract cfg = true.
  Hypothesis Hpname : cfg_partial_name cfg = true.
  Hypothesis Htopo : topo P.

  Notation CF := (CF P true).
  Notation R := (R P).
  Notation below := (below P true).

  Definition Rk (k : nat * nat) : bool := R (fst k) (snd k).
  Definition validR (k : nat * nat) : Prop := Rk k = true.
  Notation InvR := (Inv validR).
  Notation PostR := (Post validR).

  Lemma retract_exact A s p r :
    (exists A2, r = Some (R s p, A2) /\ PostR ((s, p) :: A) A2) ->
    exists A1, retract cfg (length A) r = Some (R s p, A1) /\ PostR A A1.
  Proof. intros (A2 & -> & HP). apply (retract_Post validR cfg A (s, p)); [exact Hretract|exact HP|exact (fun H => H)]. Qed.

  Section Iter.
    Variable rec : assumptions -> list nat -> list nat -> nat -> nat -> res.
    Variable M : nat.
    Hypothesis HRS : forall A ss ps a b, CF a -> CF b -> a + b < M -> InvR A M ->
      exists A1, rec A ss ps a b = Some (R a b, A1) /\ PostR A A1.
    Variables ss ps : list nat.

    Let computes {X} (call : X -> assumptions -> res) (f : X -> bool) : X -> Prop :=
      call_total call (fun A => InvR A M) PostR f.

    Lemma pair_exact k : below M k -> computes (call_pair rec ss ps) Rk k.
    Proof. intros (Ha & Hb & Hlt) A HI. exact (HRS A ss ps _ _ Ha Hb Hlt HI). Qed.

    Lemma all_pairs_exact {X} (g : X -> nat * nat) xs A : (forall x, In x xs -> below M (g x)) -> InvR A M ->
      exists A1, all_of (call_pair rec ss ps) (map g xs) A = Some (forallb (fun x => Rk (g x)) xs, A1) /\ PostR A A1.
    Proof.
      intros Hxs HI. rewrite <- forallb_map.
      apply (all_of_total _ _ _ (Post_refl validR) (Post_trans validR) (Inv_Post validR M)); [|exact HI].
      apply Forall_map, Forall_forall. intros x Hx. apply pair_exact, Hxs, Hx.
    Qed.

    Lemma any_pairs_exact {X} (g : X -> nat * nat) xs A : (forall x, In x xs -> below M (g x)) -> InvR A M ->
      exists A1, any_of (call_pair rec ss ps) (map g xs) A = Some (existsb (fun x => Rk (g x)) xs, A1) /\ PostR A A1.
    Proof.
      intros Hxs HI. rewrite <- existsb_map.
      apply (any_of_total _ _ _ (Post_refl validR) (Post_trans validR) (Inv_Post validR M)); [|exact HI].
      apply Forall_map, Forall_forall. intros x Hx. apply pair_exact, Hxs, Hx.
    Qed.

    Lemma fields_exact f1 f2 A : (forall a b, In a f1 -> In b f2 -> below M (snd a, snd b)) -> InvR A M ->
      exists A1, tuple_fields rec A ss ps f1 f2 = Some (fields_ref R f1 f2, A1) /\ PostR A A1.
    Proof.
      intros Hf HI. rewrite tuple_fields_fold. unfold fields_ref.
      apply (all_of_total _ _ _ (Post_refl validR) (Post_trans validR) (Inv_Post validR M)); [|exact HI].
      apply Forall_forall. intros [[n1 t1] [n2 t2]] Hk A0 HI0. unfold field_call. cbn.
      destruct (opt_eqb n1 n2); cbn; [|eauto using Post_refl].
      refine (pair_exact (t1, t2) _ A0 HI0). apply (Hf (n1, t1) (n2, t2)); [eapply in_combine_l|eapply in_combine_r]; exact Hk.
    Qed.

    (* both partial arms: `call` asks, for one field of the pattern, the fields of the same label *)
    Lemma covers_exact {L} (lab : L -> nat -> bool) xs pfs (call : nat * nat -> assumptions -> res) A :
      (forall pf A0, call pf A0 =
         any_of (call_pair rec ss ps) (map (fun x => (snd x, snd pf)) (filter (fun x => lab (fst x) (fst pf)) xs)) A0) ->
      (forall x pf, In x xs -> In pf pfs -> below M (snd x, snd pf)) -> InvR A M ->
      exists A1, all_of call pfs A = Some (covers R lab xs pfs, A1) /\ PostR A A1.
    Proof.
      intros Hcall Hb HI. unfold covers.
      apply (all_of_total _ _ _ (Post_refl validR) (Post_trans validR) (Inv_Post validR M)); [|exact HI].
      apply Forall_forall. intros pf Hpf A0 HI0. rewrite Hcall. apply any_pairs_exact; [|exact HI0].
      intros x Hx. apply filter_In in Hx. apply Hb; [apply Hx|exact Hpf].
    Qed.
  End Iter.

  (* The proof follows the arms of check_type_relation, like RelProofs.check_sound: an arm that
     recurses does so on children of s or p, whose id-sum is smaller by `topo`; each call lowers
     s + p by at least 1, so fuel > s + p is enough. *)
  Lemma check_exact : forall fuel A ss ps s p,
    s + p < fuel -> CF s -> CF p -> InvR A (S (s + p)) ->
    exists A1, check_rel cfg P All fuel A ss ps s p = Some (R s p, A1) /\ PostR A A1.
  Proof.
    induction fuel as [|f IH]; intros A ss ps s p Hfuel Hs Hp HI; [lia|].
    cbn [check_rel].
    assert (Hconst : forall c : bool, exists A1, Some (c, A) = Some (c, A1) /\ PostR A A1) by eauto using Post_refl.
    destruct (Nat.eqb s p) eqn:Heq.
    { rewrite step_fast by exact Heq. apply Nat.eqb_eq in Heq. subst p. rewrite (R_refl P). exact (Hconst _). }
    destruct (assumed A (s, p)) eqn:Has.
    { rewrite step_assumed by assumption. destruct (HI _ (assumed_In _ _ Has)) as [Hv|Hm]; [|cbn in Hm; lia].
      unfold validR, Rk in Hv. cbn in Hv. rewrite Hv. exact (Hconst _). }
    set (rec := check_rel cfg P All f).
    assert (HRS : forall A0 ss0 ps0 a b, CF a -> CF b -> a + b < s + p -> InvR A0 (s + p) ->
              exists A2, rec A0 ss0 ps0 a b = Some (R a b, A2) /\ PostR A0 A2).
    { intros A0 ss0 ps0 a b Ha Hb Hlt HI0. apply IH; [lia|exact Ha|exact Hb|]. eapply Inv_weaken; [exact HI0|lia]. }
    assert (HI' : InvR A (s + p)) by (eapply Inv_weaken; [exact HI|lia]).
    assert (HIk : InvR ((s, p) :: A) (s + p)) by (apply Inv_push; [exact HI'|apply Nat.le_refl]).
    destruct (lookup_type P s) as [st|] eqn:Hls; [|destruct Hs; congruence].
    destruct (lookup_type P p) as [pt|] eqn:Hlp; [|destruct Hp; congruence].
    pose proof (CF_inv _ _ _ _ Hs Hls) as Is. pose proof (CF_inv _ _ _ _ Hp Hlp) as Ip.
    assert (Cs : forall c, In c (children P st) -> c < s) by (exact (Htopo s st Hls)).
    assert (Cp : forall c, In c (children P pt) -> c < p) by (exact (Htopo p pt Hlp)).
    assert (HRu : R s p = ref_arm P R s p st pt).
    { rewrite (R_unfold P Htopo). unfold subref_step. rewrite Heq, Hls, Hlp. reflexivity. }
    (* CF excludes the variable and cycle arms (Is / Ip become False); the others come in the order of step_view *)
    destruct (step_viewP cfg P All rec A ss ps s p st pt Heq Has Hls Hlp); cbn in Is, Ip, Cs, Cp;
      try contradiction; cbn [ref_arm union_variants struct_ref] in HRu.
    1-5: (* empty union, integer, binary, reference, resource: answered without a call *)
      (rewrite HRu; exact (Hconst _)).
    - (* union on the left *)
      apply retract_exact. rewrite HRu, all_left_fold. apply (all_pairs_exact rec (s + p) HRS); [|exact HIk].
      intros u Hu. repeat split; cbn; [apply Is; exact Hu|exact Hp|]. specialize (Cs u Hu). lia.
    - (* union on the right *)
      rewrite ref_arm_union_right in HRu by assumption.
      apply retract_exact. rewrite HRu, any_right_fold. apply (any_pairs_exact rec (s + p) HRS); [|exact HIk].
      intros u Hu. repeat split; cbn; [exact Hs|apply Ip; exact Hu|]. specialize (Cp u Hu). lia.
    - (* tuple / tuple *)
      destruct Is as [i1 [Hl1 Hf1]]. destruct Ip as [i2 [Hl2 Hf2]]. rewrite Hl1 in Cs. rewrite Hl2 in Cp.
      rewrite HRu, Hl1, Hl2. destruct (Nat.eqb id1 id2); [exact (Hconst _)|].
      destruct (opt_eqb _ _ && Nat.eqb _ _); [|exact (Hconst _)]. cbn [andb].
      apply (fields_exact rec (s + p) HRS); [|exact HI'].
      intros a b Ha Hb. repeat split; cbn; [apply Hf1; exact Ha|apply Hf2; exact Hb|].
      apply Nat.add_lt_mono; [apply Cs|apply Cp]; apply in_map; assumption.
    - (* tuple / partial *)
      destruct Is as [ci [Hl Hf]]. destruct Ip as [_ Hpf]. rewrite Hl in Cs.
      rewrite HRu, Hl. unfold name_fits. destruct (match pn with Some n => _ | None => true end); [|exact (Hconst _)]. cbn [andb].
      rewrite all_partial_fields_fold.
      apply (covers_exact rec (s + p) HRS ss ps tuple_label); [intros; apply any_concrete_field_fold| |exact HI'].
      intros x pf Hx Hpf0. repeat split; cbn; [apply Hf; exact Hx|apply Hpf; exact Hpf0|].
      apply Nat.add_lt_mono; [apply Cs|apply Cp]; apply in_map; assumption.
    - (* partial / partial *)
      destruct Is as [_ Hpf1]. destruct Ip as [_ Hpf2]. rewrite HRu, Hpname. cbn [andb].
      replace (match n2 with Some _ => negb (opt_eqb n1 n2) | None => false end) with (negb (name_fits n1 n2))
        by (destruct n2; reflexivity).
      destruct (name_fits n1 n2); cbn [negb andb]; [|exact (Hconst _)].
      rewrite all_partial_partial_fold.
      apply (covers_exact rec (s + p) HRS ss ps Nat.eqb); [| |exact HI'].
      { intros pf A0. unfold partial_field_call. rewrite andb_false_r. apply any_partial_field_fold. }
      intros x pf Hx Hpf. repeat split; cbn; [apply Hpf1; exact Hx|apply Hpf2; exact Hpf|].
      apply Nat.add_lt_mono; [apply Cs|apply Cp]; apply in_map; assumption.
    - (* partial / tuple *) rewrite HRu, andb_false_r. exact (Hconst _).
    - (* process / process *)
      destruct s1 as [s1|]; [|contradiction]. destruct r1 as [r1|]; [|contradiction]. destruct Is as [Hcs1 Hcr1].
      destruct s2 as [s2|]; [|contradiction]. destruct r2 as [r2|]; [|contradiction]. destruct Ip as [Hcs2 Hcr2].
      assert (s1 < s /\ r1 < s /\ s2 < p /\ r2 < p) as (? & ? & ? & ?)
        by (repeat split; (apply Cs || apply Cp); cbn; auto).
      cbn [struct_ref] in HRu. rewrite HRu, andb_false_r.
      destruct (HRS A ss ps s1 s2) as (A1' & -> & HP1); [assumption|assumption|lia|exact HI'|].
      destruct (HRS A1' ss ps r1 r2) as (A2' & -> & HP2); [assumption|assumption|lia|exact (Inv_Post _ _ _ _ HI' HP1)|].
      eexists. split; [reflexivity|eapply Post_trans; eassumption].
    - (* callable / callable *)
      destruct Is as (Hcp1 & Hcr1 & Hcc1). destruct Ip as (Hcp2 & Hcr2 & Hcc2).
      assert (p1 < s /\ r1 < s /\ c1 < s /\ p2 < p /\ r2 < p /\ c2 < p) as (? & ? & ? & ? & ? & ?)
        by (repeat split; (apply Cs || apply Cp); cbn; auto).
      (* the three component checks from any start set that satisfies the invariant *)
      assert (Hbody : forall A0 css cps ss1 ps1, InvR A0 (s + p) ->
                exists A2, and_then (rec A0 css cps p2 p1) (fun A1 =>
                           and_then (rec A1 ss1 ps1 r1 r2) (fun A2 => rec A2 css cps c2 c1)) = Some (R s p, A2) /\
                           PostR A0 A2).
      { intros A0 css cps ss1 ps1 HI0. rewrite HRu. unfold and_then.
        destruct (HRS A0 css cps p2 p1) as (A1' & -> & HP1); [assumption|assumption|lia|exact HI0|].
        destruct (R p2 p1); cbn [andb]; [|eauto].
        destruct (HRS A1' ss1 ps1 r1 r2) as (A2' & -> & HP2); [assumption|assumption|lia|exact (Inv_Post _ _ _ _ HI0 HP1)|].
        destruct (R r1 r2); cbn [andb]; [|eauto using Post_trans].
        destruct (HRS A2' css cps c2 c1) as (A3' & -> & HP3);
          [assumption|assumption|lia|exact (Inv_Post _ _ _ _ (Inv_Post _ _ _ _ HI0 HP1) HP2)|].
        eauto using Post_trans. }
      rewrite andb_false_r. cbv beta iota zeta. destruct (cfg_callable_assume cfg).
      + apply retract_exact, Hbody, HIk.
      + apply Hbody, HI'.
    - (* no arm *) rewrite HRu, ref_arm_other by assumption. exact (Hconst _).
  Qed.
End Exact.
