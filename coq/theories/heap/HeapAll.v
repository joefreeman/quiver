(* HeapAll.v — assembling the per-handler results: every instruction of the code as committed
   (fx = true) re-establishes the exact-count invariant, and so does Executor::step. *)
From Quiver Require Export heap.HeapInv heap.HeapHandlers heap.HeapSelect.
From Quiver Require Export heap.HeapExec heap.HeapTransfer heap.HeapVmFix heap.HeapSpawnFix.
Require Import Lia List Arith.
Import ListNotations.
Local Open Scope nat_scope.

Theorem exec_instr_good_all : forall P pid i x o h p,
  instr_pre p i -> Inv o h p -> Good o h p (exec_instr true P pid i x h p).
Proof.
  intros P pid i x o h p Hpre HI.
  (* every instruction but Select holds for either fx *)
  destruct i; try (apply exec_instr_good; [discriminate|assumption|assumption]).
  cbn [exec_instr]. apply (handle_select_good P (fun x o => handle_call_ht o P x)). exact HI.
Qed.

(* Executor::step of the code as committed (fx = true), any quantum q, any process, any inputs: the exact count
   holds again when the time slice ends, and every slot reachable before and after keeps its bytes
   and is not free. Side conditions: the running process has no Ok result holding references
   (it is running: `result` is None; resume_process takes it), every Spawn/Send executed in the
   slice finds its two operands and a process-handle target (`SlicePre`: what the bytecode
   verifier of C07 and typing guarantee), and — for a FAILING completion only — no awaiter of the
   process holds an Ok result with references (finding F45h). *)
Theorem exec_step_XInv_all : forall P x pid q xs dflt x',
  XInv x ->
  (forall pid0 p0 h0, pid = Some pid0 -> get_proc x pid0 = Some p0 -> ppf (x_heap x) = Val h0 ->
     result_refs (p_result p0) = [] /\ SlicePre true P instr_pre pid0 q xs dflt h0 p0) ->
  (forall pid0 w pw, pid = Some pid0 -> w <> pid0 -> get_proc x w = Some pw ->
     has_key pid0 (p_await pw) = true -> result_refs (p_result pw) = []) ->
  exec_step true P x pid q xs dflt = Val x' ->
  XInv x' /\
  (forall i, cnt i (all_refs x) > 0 -> cnt i (all_refs x') > 0 ->
     bytes_at (x_heap x') i = bytes_at (x_heap x) i /\ freed_at (x_heap x') i = false).
Proof.
  intros P x pid q xs dflt x' HX Hpre Hfail Hstep.
  eapply (exec_step_XInv true P instr_pre (exec_instr_good_all P)); eauto.
Qed.

(* the choke points of executor.rs:400-442 *)
Theorem chokepoints_good : forall o v n h p,
  Inv o h p ->
  Good o h p (push_value v h p) /\ Good o h p (pop_value h p) /\
  Good o h p (push_local v h p) /\ Good o h p (truncate_locals n h p).
Proof.
  intros o v n h p HI.
  exact (conj (push_value_I o v h p HI) (conj (pop_value_I o h p HI)
          (conj (push_local_I o v h p HI) (truncate_locals_I o n h p HI)))).
Qed.
