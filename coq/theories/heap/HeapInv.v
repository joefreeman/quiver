(* HeapInv.v — the accounting invariant in the form used for handlers, and the heap primitives as
   steps on it.

   Inv o h p : the heap is well formed and, for every slot i,
       refcounts[i] = (occurrences of i in the roots of all OTHER processes, `o`)
                    + (1 if cached constant) + (occurrences of i in the roots of the running process)
   — the exact count, for the running process taken out of the map as Executor::step does.
   Good o h p r : the result r of a handler started in (h, p) re-establishes Inv (also on the
   Err path, whose state persists), keeps every non-free slot's bytes (stable) and leaves the
   process result untouched.

   The same judgement comes in four more shapes, one per way of composing steps:
     InvX o x h p        Inv with x further references that are counted but held by no root
                         ("floating": between a raw move and its retain / release);
                         InvX o [] is Inv (InvX_nil)
     Rx o h0 x h p       InvX o x h p, reached from the heap h0 with the live bytes of h0 kept: the
                         state along a chain of heap primitives (below; HeapExec.v)
     StX o h0 p0 x h p   Rx and "the process result is that of p0" (HeapSelect.v, StX_Rx)
     G o h0 p0 r         the result r ends in StX o h0 p0 []: Good relative to an earlier start;
                         G o h p r <-> Good o h p r (HeapSelect.v, Good_G)
     HT o Pre m Post     the triple; HT o (Inv o) m (fun _ => Inv o) unfolds to
                         forall h p, Inv o h p -> Good o h p (m h p) (HeapHandlers.v);
                         GoodX is the same over InvX (HT_GoodX). *)
From Quiver Require Export heap.HeapVm heap.HeapProofs.
From Quiver Require Import heap.HeapTransfer.
Require Import Lia List Arith.
Import ListNotations.
Local Open Scope nat_scope.

Definition Inv (o : list nat) (h : heap) (p : proc) : Prop :=
  WFh h /\ forall i, rc_at h i = cnt i o + cnt i (cb_refs h) + cnt i (proc_refs p).

Definition Good {A} (o : list nat) (h : heap) (p : proc) (r : mres A) : Prop :=
  match r with
  | MVal _ h' p' | MErr _ h' p' => Inv o h' p' /\ stable h h' /\ p_result p' = p_result p
  | MPanic _ => True
  end.

(* a handler step seen from an arbitrary intermediate state: `x` is the list of references that
   are counted but not (or no longer) stored in the process — between a raw pop and its release,
   between a retain and the raw store *)
Definition InvX (o x : list nat) (h : heap) (p : proc) : Prop :=
  WFh h /\ forall i, rc_at h i = cnt i o + cnt i (cb_refs h) + cnt i (proc_refs p) + cnt i x.

Lemma InvX_nil o h p : InvX o [] h p <-> Inv o h p.
Proof.
  unfold InvX, Inv. split; intros [W H]; split; auto; intro i; specialize (H i);
    rewrite cnt_nil in *; lia.
Qed.

Lemma cnt_refs_list_cons i v vs : cnt i (refs_list (v :: vs)) = cnt i (refs_of v) + cnt i (refs_list vs).
Proof. unfold refs_list. cbn [flat_map]. apply cnt_app. Qed.
Lemma cnt_refs_list_app i a b : cnt i (refs_list (a ++ b)) = cnt i (refs_list a) + cnt i (refs_list b).
Proof. unfold refs_list. rewrite flat_map_app. apply cnt_app. Qed.
Lemma cnt_refs_list_nil i : cnt i (refs_list []) = 0.
Proof. reflexivity. Qed.
Lemma refs_list_firstn_skipn i n l :
  cnt i (refs_list l) = cnt i (refs_list (firstn n l)) + cnt i (refs_list (skipn n l)).
Proof. rewrite <- cnt_refs_list_app, firstn_skipn. reflexivity. Qed.

(* proc_refs as a sum, one summand per root kind *)
Lemma cnt_proc_refs i p :
  cnt i (proc_refs p) =
  cnt i (refs_list (p_stack p)) + cnt i (refs_list (p_locals p)) + cnt i (refs_list (p_mailbox p)) +
  cnt i (result_refs (p_result p)) + cnt i (sel_refs (p_sel p)) + cnt i (await_refs (p_await p)).
Proof. unfold proc_refs. rewrite !cnt_app. lia. Qed.

Lemma InvX_move o x x' h p p' :
  (forall i, cnt i (proc_refs p) + cnt i x = cnt i (proc_refs p') + cnt i x') ->
  InvX o x h p -> InvX o x' h p'.
Proof. intros E [W H]. split; auto. intro i. specialize (H i). specialize (E i). lia. Qed.

Lemma Inv_move o h p p' :
  (forall i, cnt i (proc_refs p') = cnt i (proc_refs p)) -> Inv o h p -> Inv o h p'.
Proof. intros E [W H]. split; [exact W|]. intro i. rewrite E. apply H. Qed.

(* the `awaiting` map: what `insert` displaces leaves the roots, what it stores enters them
   (an entry and a process result have the same shape, hence result_refs) *)
Lemma await_set_cnt k (a : option value) l l' old i :
  assoc_set k a l = (l', old) ->
  cnt i (await_refs l') + cnt i (result_refs old) = cnt i (await_refs l) + cnt i (result_refs (Some a)).
Proof.
  revert l' old. induction l as [|[j b] t IH]; intros l' old H; cbn [assoc_set] in H.
  - inversion H; subst. unfold await_refs. cbn [flat_map snd result_refs].
    rewrite app_nil_r, !cnt_nil. lia.
  - destruct (k =? j) eqn:E.
    + inversion H; subst. unfold await_refs. cbn [flat_map snd]. rewrite !cnt_app.
      destruct a, b; cbn [result_refs]; rewrite ?cnt_nil; lia.
    + destruct (assoc_set k a t) as [t' o] eqn:Es. inversion H; subst.
      specialize (IH _ _ eq_refl). unfold await_refs in *. cbn [flat_map snd].
      rewrite !cnt_app. lia.
Qed.

(* a displaced result joins the values to be released afterwards *)
Lemma cnt_stash i acc (old : option (option value)) :
  cnt i (refs_list (match old with Some (Some v) => acc ++ [v] | _ => acc end)) =
  cnt i (refs_list acc) + cnt i (result_refs old).
Proof.
  destruct old as [[v|]|]; cbn [result_refs];
    rewrite ?cnt_refs_list_app, ?cnt_refs_list_cons, ?cnt_refs_list_nil, ?cnt_nil; lia.
Qed.

(* reached from the heap h0: the invariant with excess x holds, and the live slots of h0 kept
   their bytes *)
Definition Rx (o : list nat) (h0 : heap) (x : list nat) (h : heap) (p : proc) : Prop :=
  InvX o x h p /\ stable h0 h.

Lemma Rx_init o h p : Inv o h p -> Rx o h [] h p.
Proof. intro HI. split; [apply InvX_nil; exact HI|apply stable_refl]. Qed.

Lemma Rx_move o x x' h0 h p p' :
  (forall i, cnt i (proc_refs p) + cnt i x = cnt i (proc_refs p') + cnt i x') ->
  Rx o h0 x h p -> Rx o h0 x' h p'.
Proof. intros E [HI HS]. split; [eapply InvX_move; eauto|exact HS]. Qed.

Lemma Rx_heap o x x' h0 h h' p :
  WFh h' -> stable h h' -> cbins h' = cbins h ->
  (forall i, rc_at h' i + cnt i x = rc_at h i + cnt i x') ->
  Rx o h0 x h p -> Rx o h0 x' h' p.
Proof.
  intros W' St Ecb E [[_ H] HS]. split; [|eapply stable_trans; eauto]. split; [exact W'|].
  intro i. specialize (H i). specialize (E i). unfold cb_refs. rewrite Ecb. fold (cb_refs h). lia.
Qed.

Lemma retain_Rx o x h0 h p l h' :
  Rx o h0 x h p -> retain_l h l = Val h' -> Rx o h0 (l ++ x) h' p.
Proof.
  intros S R. pose proof (retain_l_spec _ _ _ R) as (_ & _ & _ & _ & Ecb & _ & Hrc).
  eapply Rx_heap; [eapply retain_l_WF; [apply S|eauto]|eapply retain_l_stable; eauto|exact Ecb|
                  |exact S].
  intro i. rewrite Hrc, cnt_app. lia.
Qed.

Lemma release_Rx o x h0 h p l h' :
  Rx o h0 (l ++ x) h p -> release_l h l = Val h' -> Rx o h0 x h' p.
Proof.
  intros S R. pose proof (release_l_spec _ _ _ R) as (_ & _ & _ & Ecb & _ & Hrc & _).
  eapply Rx_heap; [eapply release_l_WF; [apply S|eauto]|eapply release_l_stable; eauto|exact Ecb|
                  |exact S].
  intro i. rewrite cnt_app, <- (Hrc i). lia.
Qed.

Lemma alloc_Rx o x h0 h p r h' i : Rx o h0 x h p -> alloc h r = Val (h', i) -> Rx o h0 x h' p.
Proof.
  intros S A.
  pose proof (alloc_spec _ _ _ _ (proj1 (proj1 S)) A) as (W' & _ & _ & _ & Hrc & _ & _ & Ecb & _ & St).
  eapply Rx_heap; [exact W'|exact St|exact Ecb| |exact S]. intro j. rewrite Hrc. reflexivity.
Qed.

Lemma materialize_Rx o x h0 h p i h' bs :
  Rx o h0 x h p -> materialize h i = Val (h', bs) -> Rx o h0 x h' p.
Proof.
  intros S A. pose proof (materialize_spec _ _ _ _ A) as (Erc & _ & _ & _ & Ecb & _ & _ & _).
  eapply Rx_heap; [eapply materialize_WF; [apply S|eauto]|eapply materialize_stable; eauto|exact Ecb|
                  |exact S].
  intro j. unfold rc_at. rewrite Erc. reflexivity.
Qed.

Lemma inject_Rx o x h0 h p v data h' v' :
  Rx o h0 x h p -> inject h v data = Val (h', v') -> Rx o h0 x h' p.
Proof.
  intros S A. destruct (inject_WF _ _ _ _ _ (proj1 (proj1 S)) A) as (W' & St & Hrc & _ & Ecb).
  eapply Rx_heap; [exact W'|exact St|exact Ecb| |exact S]. intro j. rewrite Hrc. reflexivity.
Qed.

(* counting side conditions `forall i, cnt i .. = cnt i ..` over explicit process records: `pcbn`
   computes the record projections, `cnt_norm` turns proc_refs into a sum over the kinds of roots
   and distributes cnt, `cnts` then lets lia add up *)
Ltac pcbn :=
  cbn [p_stack p_locals p_frames p_pers p_mailbox p_result p_sel p_await p_unreported
       set_stack set_locals set_frames set_mailbox set_result set_sel set_await set_unreported
       ss_frame ss_instr ss_sources ss_cursors ss_start ss_recv
       set_cursor set_recv live_cursor fail_proc new_proc].

Ltac cnt_norm :=
  rewrite ?cnt_proc_refs; pcbn; cbn [sel_refs result_refs await_refs flat_map]; pcbn;
  rewrite ?cnt_app, ?cnt_refs_list_app, ?cnt_refs_list_cons, ?cnt_refs_list_nil, ?cnt_nil.
Ltac cnts := let i := fresh "i" in intro i; cnt_norm; lia.
