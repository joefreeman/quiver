(* HeapSpawnFix.v — spawn_process as committed (fix_F46: one bundled injection) keeps the exact
   count. *)
From Quiver Require Import heap.HeapInv heap.HeapTransfer heap.HeapExec heap.HeapVmFix.
Require Import Lia List Arith.
Import ListNotations.
Local Open Scope nat_scope.

Lemma spawn_process_f46_XInv x pid fn caps arg data pers x' :
  XInv x -> get_proc x pid = None -> spawn_process_f46 x pid fn caps arg data pers = Val x' ->
  XInv x' /\ xstable x x'.
Proof.
  intros X G H. unfold spawn_process_f46 in H.
  pose proof (Rx_init _ _ _ (XInv_take_none _ _ (new_proc pers) X G eq_refl)) as S.
  destruct fn as [f|].
  - apply obind_val in H as ([h1 b] & Hi & H).
    destruct b as [| | |t fs| | | |]; try discriminate H.
    destruct (rev fs) as [|a1 rl] eqn:Er; [discriminate H|].
    apply obind_val in H as (h2 & Hr2 & H).
    apply obind_val in H as (h3 & Hr3 & H). injection H as <-.
    eapply inject_Rx in S; [|exact Hi]. eapply retain_Rx in S; [|exact Hr2].
    eapply retain_Rx in S; [|exact Hr3].
    apply (XInv_put_Rx _ _ _ _ X). revert S. apply Rx_move. cnts.
  - injection H as <-. change (put_proc x pid ?q) with (put_proc (put_heap x (x_heap x)) pid q).
    apply (XInv_put_Rx _ _ _ _ X). revert S. apply Rx_move. cnts.
Qed.

(* the F46 witness of HeapExec.spawn_orphans_refuted, on spawn_process_f46: no orphan is left *)
Example spawn_f46_no_orphan :
  exists x', spawn_process_f46 (mkExec empty_heap []) 1 (Some 0) [VBin 0] (VInt 0%Z) [[1%Z]] false = Val x' /\
             rcs (x_heap x') = [1] /\ freed (x_heap x') = [false] /\ length (cells (x_heap x')) = 1.
Proof. eexists. split; [vm_compute; reflexivity|]. repeat split. Qed.
