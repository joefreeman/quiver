(* HeapTransfer.v — extract_heap_data / inject_heap_data copy a value faithfully between heaps. *)
From Quiver Require Import heap.Heap heap.HeapProofs.
Require Import Lia List Arith.
Import ListNotations.
Local Open Scope nat_scope.

Section ValueInd.
  Variable P : value -> Prop.
  Hypothesis HInt : forall z, P (VInt z).
  Hypothesis HBin : forall i, P (VBin i).
  Hypothesis HRef : forall r, P (VRef r).
  Hypothesis HTuple : forall t fs, Forall P fs -> P (VTuple t fs).
  Hypothesis HFun : forall f cs, Forall P cs -> P (VFun f cs).
  Hypothesis HBuiltin : forall b, P (VBuiltin b).
  Hypothesis HProc : forall p f, P (VProc p f).
  Hypothesis HRes : forall r ty, P (VRes r ty).

  Fixpoint value_ind' (v : value) : P v :=
    match v with
    | VInt z => HInt z
    | VBin i => HBin i
    | VRef r => HRef r
    | VTuple t fs =>
        HTuple t fs
          ((fix go (l : list value) : Forall P l :=
              match l with
              | [] => Forall_nil P
              | x :: r => Forall_cons x (value_ind' x) (go r)
              end) fs)
    | VFun f cs =>
        HFun f cs
          ((fix go (l : list value) : Forall P l :=
              match l with
              | [] => Forall_nil P
              | x :: r => Forall_cons x (value_ind' x) (go r)
              end) cs)
    | VBuiltin b => HBuiltin b
    | VProc p f => HProc p f
    | VRes r ty => HRes r ty
    end.
End ValueInd.

Fixpoint omap_list {A B} (g : A -> option B) (l : list A) : option (list B) :=
  match l with
  | [] => Some []
  | x :: r => match g x, omap_list g r with
              | Some x', Some r' => Some (x' :: r')
              | _, _ => None
              end
  end.

Lemma omap_list_fix {A B} (g : A -> option B) l :
  (fix go (l : list A) : option (list B) :=
     match l with
     | [] => Some []
     | x :: r => match g x, go r with
                 | Some x', Some r' => Some (x' :: r')
                 | _, _ => None
                 end
     end) l = omap_list g l.
Proof. induction l as [|x r IH]; simpl; [|rewrite IH]; reflexivity. Qed.

Lemma remap_list_omap f l : remap_list f l = omap_list (remap f) l.
Proof. induction l as [|x r IH]; simpl; [reflexivity|]. rewrite IH. reflexivity. Qed.

Lemma remap_tuple f t fs :
  remap f (VTuple t fs) = option_map (VTuple t) (omap_list (remap f) fs).
Proof. simpl. f_equal. apply omap_list_fix. Qed.

Lemma remap_fun f g cs :
  remap f (VFun g cs) = option_map (VFun g) (omap_list (remap f) cs).
Proof. simpl. f_equal. apply omap_list_fix. Qed.

(* d is a denotation that reads the bytes of binary i as b i: what `denote h` and
   `denote_data data` have in common *)
Definition Den (d : value -> option dval) (b : nat -> option (list Z)) : Prop :=
  (forall i, d (VBin i) = option_map DBin (b i)) /\
  (forall t fs, d (VTuple t fs) = option_map (DNode t false) (omap_list d fs)) /\
  (forall g cs, d (VFun g cs) = option_map (DNode g true) (omap_list d cs)) /\
  (forall v, match v with VBin _ | VTuple _ _ | VFun _ _ => True | _ => d v = Some (DLeaf v) end).

Lemma denote_Den h : Den (denote h) (fun i => option_map bytes_of (nth_error (cells h) i)).
Proof.
  split; [|split; [|split]].
  - intro i. simpl. destruct (nth_error (cells h) i); reflexivity.
  - intros t fs. simpl. f_equal. apply omap_list_fix.
  - intros g cs. simpl. f_equal. apply omap_list_fix.
  - intros []; first [exact I|reflexivity].
Qed.

Lemma denote_data_Den data : Den (denote_data data) (nth_error data).
Proof.
  split; [|split; [|split]].
  - reflexivity.
  - intros t fs. simpl. f_equal. apply omap_list_fix.
  - intros g cs. simpl. f_equal. apply omap_list_fix.
  - intros []; first [exact I|reflexivity].
Qed.

(* pointwise transport of a denotation along a partial renaming *)
Lemma omap_list_transport {A A' C} (r : A -> option A') (d1 : A' -> option C)
      (d2 : A -> option C) (l : list A) :
  Forall (fun x => forall x', r x = Some x' -> d1 x' = d2 x) l ->
  forall l', omap_list r l = Some l' -> omap_list d1 l' = omap_list d2 l.
Proof.
  induction 1 as [|x t Hx Ht IH]; intros l' H; simpl in H.
  - inversion H; subst. reflexivity.
  - destruct (r x) as [x'|] eqn:Ex; [|discriminate].
    destruct (omap_list r t) as [t'|] eqn:Et; [|discriminate].
    inversion H; subst l'. simpl. rewrite (Hx _ eq_refl), (IH _ eq_refl). reflexivity.
Qed.

Lemma option_map_Some {A B} (f : A -> B) o b :
  option_map f o = Some b -> exists a, o = Some a /\ b = f a.
Proof. destruct o as [a|]; simpl; intros H; [|discriminate]. inversion H; eauto. Qed.

(* a renaming that is sound on binaries is sound on all values *)
Lemma remap_transport (f : nat -> option nat) d1 b1 d2 b2 :
  Den d1 b1 -> Den d2 b2 -> (forall i k, f i = Some k -> b1 k = b2 i) ->
  forall v v', remap f v = Some v' -> d1 v' = d2 v.
Proof.
  intros (B1 & T1 & F1 & L1) (B2 & T2 & F2 & L2) Hb.
  induction v as [z|i|r|t fs IH|g cs IH|b|p g|r ty] using value_ind'; intros v' H;
    (* a leaf is renamed to itself and denotes itself on both sides *)
    try (simpl in H; injection H as <-;
         match goal with |- d1 ?v = _ => exact (eq_trans (L1 v) (eq_sym (L2 v))) end).
  - simpl in H. apply option_map_Some in H as (k & Hk & ->).
    rewrite B1, B2, (Hb _ _ Hk). reflexivity.
  - rewrite remap_tuple in H. apply option_map_Some in H as (fs' & Hfs & ->).
    rewrite T1, T2. f_equal. eapply omap_list_transport; eauto.
  - rewrite remap_fun in H. apply option_map_Some in H as (cs' & Hcs & ->).
    rewrite F1, F2. f_equal. eapply omap_list_transport; eauto.
Qed.

Lemma index_of_nth : forall l x k, index_of x l = Some k -> nth_error l k = Some x.
Proof.
  induction l as [|y t IH]; intros x k H; simpl in H; [discriminate|].
  destruct (x =? y) eqn:E.
  - inversion H; subst k. apply Nat.eqb_eq in E. subst y. reflexivity.
  - apply option_map_Some in H as (k' & Hk' & ->). simpl. apply IH; assumption.
Qed.

Lemma read_all_nth : forall idx h data, read_all h idx = Val data ->
  forall k i, nth_error idx k = Some i ->
  exists r, nth_error (cells h) i = Some r /\ nth_error data k = Some (bytes_of r).
Proof.
  induction idx as [|a t IH]; intros h data H k i Hk; simpl in H.
  - destruct k; discriminate Hk.
  - destruct (nth_error (cells h) a) as [r|] eqn:Ea; [|discriminate].
    apply obind_val in H as (rest & Hrest & H). inversion H; subst data.
    destruct k as [|k]; simpl in Hk.
    + inversion Hk; subst a. exists r. split; [assumption|reflexivity].
    + simpl. eapply IH; eauto.
Qed.

Lemma read_all_length : forall idx h data, read_all h idx = Val data -> length data = length idx.
Proof.
  induction idx as [|a t IH]; intros h data H; simpl in H.
  - inversion H; reflexivity.
  - destruct (nth_error (cells h) a) as [r|]; [|discriminate].
    apply obind_val in H as (rest & Hrest & H). inversion H; subst data.
    simpl. f_equal. eapply IH; eauto.
Qed.

Lemma remap_denote_extract h idx data :
  read_all h idx = Val data ->
  forall v v', remap (fun i => index_of i idx) v = Some v' -> denote_data data v' = denote h v.
Proof.
  intros Hread. apply (remap_transport _ _ _ _ _ (denote_data_Den data) (denote_Den h)).
  intros i k Hk. apply index_of_nth in Hk.
  destruct (read_all_nth _ _ _ Hread _ _ Hk) as (r & Hr & Hd). rewrite Hr, Hd. reflexivity.
Qed.

Lemma extract_inv h v v' data : extract h v = Val (v', data) ->
  read_all h (sort_u (refs_of v)) = Val data /\
  remap (fun i => index_of i (sort_u (refs_of v))) v = Some v'.
Proof.
  unfold extract. intros H. apply obind_val in H as (d & Hd & H).
  destruct (remap _ v) as [w|] eqn:Er; [|discriminate].
  inversion H; subst. auto.
Qed.

Lemma extract_denote h v v' data :
  extract h v = Val (v', data) -> denote_data data v' = denote h v.
Proof.
  intros H. apply extract_inv in H as [Hr Hm]. eapply remap_denote_extract; eauto.
Qed.

Lemma alloc_all_spec : forall data h h' js, WFh h -> alloc_all h data = Val (h', js) ->
  WFh h' /\ stable h h' /\ (forall j, rc_at h' j = rc_at h j) /\ pending h' = pending h /\
  cbins h' = cbins h /\
  (forall k j, nth_error js k = Some j ->
     j < length (cells h') /\ freed_at h' j = false /\
     exists bs, nth_error data k = Some bs /\ bytes_at h' j = bs).
Proof.
  induction data as [|bs t IH]; intros h h' js W H; simpl in H.
  - injection H as <- <-. split; [assumption|]. split; [apply stable_refl|].
    do 3 (split; [reflexivity|]). intros [|k] j Hk; discriminate Hk.
  - apply obind_val in H as ([h1 i] & Ha & H).
    apply obind_val in H as ([h2 js'] & Hall & H). injection H as <- <-.
    destruct (alloc_spec _ _ _ _ W Ha) as (W1 & _ & Hfi & Hci & Hrc1 & _ & Hp1 & Hcb1 & _ & St1).
    destruct (IH _ _ _ W1 Hall) as (W' & St' & Hrc' & Hp' & Hcb' & Hnth').
    split; [assumption|]. split; [eapply stable_trans; eauto|].
    split; [intros j; rewrite Hrc'; apply Hrc1|]. split; [congruence|]. split; [congruence|].
    intros [|k] j Hk; simpl in Hk; [|apply Hnth'; assumption].
    (* the slot allocated first is live in h1, so the later allocations leave it alone *)
    injection Hk as <-. apply nth_error_Some_lt in Hci as Hi1.
    destruct St' as [Lle Sb]. destruct (Sb i Hi1 Hfi) as [Hf' Hb'].
    split; [lia|]. split; [assumption|]. exists bs. split; [reflexivity|].
    rewrite Hb'. unfold bytes_at. rewrite (nth_error_nth _ _ (Owned []) Hci). reflexivity.
Qed.

Lemma inject_inv h v data h' v' : inject h v data = Val (h', v') ->
  exists js, alloc_all h data = Val (h', js) /\ remap (fun k => nth_error js k) v = Some v'.
Proof.
  unfold inject. intros H. apply obind_val in H as ([h1 js] & Ha & H).
  destruct (remap _ v) as [w|] eqn:Er; [|discriminate].
  inversion H; subst. eauto.
Qed.

Lemma inject_denote h2 v' data h2' v'' :
  WFh h2 -> inject h2 v' data = Val (h2', v'') -> denote h2' v'' = denote_data data v'.
Proof.
  intros W H. apply inject_inv in H as (js & Ha & Hm).
  destruct (alloc_all_spec _ _ _ _ W Ha) as (_ & _ & _ & _ & _ & Hnth).
  revert v' v'' Hm. apply (remap_transport _ _ _ _ _ (denote_Den h2') (denote_data_Den data)).
  intros k j Hk. destruct (Hnth _ _ Hk) as (Hj & _ & bs & Hbs & Hb).
  rewrite Hbs, (nth_error_nth' _ (Owned []) Hj). simpl.
  unfold bytes_at in Hb. rewrite Hb. reflexivity.
Qed.

Lemma inject_WF h2 v data h2' v' :
  WFh h2 -> inject h2 v data = Val (h2', v') ->
  WFh h2' /\ stable h2 h2' /\ (forall j, rc_at h2' j = rc_at h2 j) /\
  pending h2' = pending h2 /\ cbins h2' = cbins h2.
Proof.
  intros W H. apply inject_inv in H as (js & Ha & Hm).
  destruct (alloc_all_spec _ _ _ _ W Ha) as (W' & St & Hrc & Hp & Hcb & _).
  auto.
Qed.

Lemma inject_stable h2 v data h2' v' :
  WFh h2 -> inject h2 v data = Val (h2', v') -> stable h2 h2'.
Proof. intros W H. apply (inject_WF _ _ _ _ _ W H). Qed.

Theorem transfer_copies_l : forall h h2 v v' data h2' v'',
  WFh h2 -> extract h v = Val (v', data) -> inject h2 v' data = Val (h2', v'') ->
  denote h2' v'' = denote h v.
Proof.
  intros h h2 v v' data h2' v'' W He Hi.
  rewrite (inject_denote _ _ _ _ _ W Hi). apply (extract_denote _ _ _ _ He).
Qed.

Definition src_heap : heap :=
  mkHeap [Owned [1%Z; 2%Z]; Owned [9%Z]; Concat (Owned [3%Z]) (Owned [4%Z]) 2%Z]
         [1; 1; 2] [] [] [false; false; false] [].
Definition src_val : value := VTuple 5 [VBin 2; VBin 0; VInt 7%Z; VBin 2].

(* destination: slot 0 live, slot 1 free *)
Definition dst_heap : heap :=
  mkHeap [Owned [7%Z]; Owned []] [1; 0] [1] [] [false; true] [].

Example dst_heap_WF : WFh dst_heap.
Proof. apply WFh_check. reflexivity. Qed.

Example transfer_example :
  exists v' data h2' v'',
    extract src_heap src_val = Val (v', data) /\
    v' = VTuple 5 [VBin 1; VBin 0; VInt 7%Z; VBin 1] /\
    data = [[1%Z; 2%Z]; [3%Z; 4%Z]] /\
    inject dst_heap v' data = Val (h2', v'') /\
    v'' = VTuple 5 [VBin 2; VBin 1; VInt 7%Z; VBin 2] /\
    cells h2' = [Owned [7%Z]; Owned [1%Z; 2%Z]; Owned [3%Z; 4%Z]] /\
    free h2' = [] /\
    denote h2' v'' = denote src_heap src_val /\
    denote src_heap src_val =
      Some (DNode 5 false [DBin [3%Z; 4%Z]; DBin [1%Z; 2%Z]; DLeaf (VInt 7%Z); DBin [3%Z; 4%Z]]).
Proof.
  do 4 eexists.
  split; [vm_compute; reflexivity|]. split; [reflexivity|]. split; [reflexivity|].
  split; [vm_compute; reflexivity|]. split; [reflexivity|]. split; [reflexivity|].
  split; [reflexivity|]. split; vm_compute; reflexivity.
Qed.

Print Assumptions transfer_copies_l.
Print Assumptions inject_WF.
