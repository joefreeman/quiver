(* HeapHandlers.v — every instruction handler of HeapVm.v (except Select) re-establishes the
   accounting invariant `Inv` of HeapInv.v: `Inv o h p -> Good o h p (handler args h p)`.

   Method: a Hoare triple `HT o Pre m Post` over the handler monad whose Err post-condition is
   fixed to `Inv o` (the state reached at an Err persists), a bind rule, one triple per choke
   point, then one composition per handler. Inside a choke point, and in Spawn and Send, which
   pop raw and release afterwards, references float between the process and the count: these are
   run forward with the rules of HeapSelect.v. *)
From Quiver Require Import heap.HeapInv heap.HeapSelect.
Require Import Lia List Arith.
Import ListNotations.
Local Open Scope nat_scope.

Definition HT {A} (o : list nat) (Pre : heap -> proc -> Prop) (m : M A)
           (Post : A -> heap -> proc -> Prop) : Prop :=
  forall h p, Pre h p ->
    match m h p with
    | MVal a h' p' => Post a h' p' /\ stable h h' /\ p_result p' = p_result p
    | MErr _ h' p' => Inv o h' p' /\ stable h h' /\ p_result p' = p_result p
    | MPanic _ => True
    end.

(* the triple with floating references: HT with InvX pre/post *)
Definition GoodX {A} (o : list nat) (Q : A -> list nat) (h0 : heap) (p0 : proc) (r : mres A) : Prop :=
  match r with
  | MVal a h' p' => InvX o (Q a) h' p' /\ stable h0 h' /\ p_result p' = p_result p0
  | MErr _ h' p' => Inv o h' p' /\ stable h0 h' /\ p_result p' = p_result p0
  | MPanic _ => True
  end.

Lemma HT_GoodX {A} o x (m : M A) Q :
  HT o (InvX o x) m (fun a => InvX o (Q a)) <-> (forall h p, InvX o x h p -> GoodX o Q h p (m h p)).
Proof. unfold HT, GoodX. split; intros H h p HI; specialize (H h p HI); exact H. Qed.

Lemma HT_bind {A B} o Pre (m : M A) Mid (k : A -> M B) Post :
  HT o Pre m Mid -> (forall a, HT o (Mid a) (k a) Post) -> HT o Pre (mbind m k) Post.
Proof.
  intros Hm Hk h p HP. unfold mbind. specialize (Hm h p HP).
  destruct (m h p) as [a h1 p1|e h1 p1|n]; auto.
  destruct Hm as (HM & S1 & R1). specialize (Hk a h1 p1 HM).
  destruct (k a h1 p1) as [b h2 p2|e h2 p2|n]; auto.
  - destruct Hk as (HQ & S2 & R2). split; [auto|]. split; [eapply stable_trans; eauto|congruence].
  - destruct Hk as (HQ & S2 & R2). split; [auto|]. split; [eapply stable_trans; eauto|congruence].
Qed.

Lemma HT_pre {A} o (Pre Pre' : heap -> proc -> Prop) (m : M A) Post :
  HT o Pre m Post -> (forall h p, Pre' h p -> Pre h p) -> HT o Pre' m Post.
Proof. intros H HP h p HP'. exact (H h p (HP _ _ HP')). Qed.

Lemma HT_ret {A} o (Pre : heap -> proc -> Prop) (a : A) (Post : A -> heap -> proc -> Prop) :
  (forall h p, Pre h p -> Post a h p) -> HT o Pre (mret a) Post.
Proof. intros H h p HP. unfold mret. split; [auto|]. split; [apply stable_refl|reflexivity]. Qed.

Lemma HT_fail {A} o (Pre : heap -> proc -> Prop) e (Post : A -> heap -> proc -> Prop) :
  (forall h p, Pre h p -> Inv o h p) -> HT o Pre (mfail e) Post.
Proof. intros H h p HP. unfold mfail. split; [auto|]. split; [apply stable_refl|reflexivity]. Qed.

Lemma HT_panic {A} o Pre n (Post : A -> heap -> proc -> Prop) : HT o Pre (mpanic n) Post.
Proof. intros h p HP. exact I. Qed.

Lemma HT_mget {B} o (Pre : heap -> proc -> Prop) (k : proc -> M B) Post :
  (forall p0, HT o (fun h p => Pre h p /\ p = p0) (k p0) Post) -> HT o Pre (mbind mget k) Post.
Proof.
  intros H h p HP. unfold mbind, mget. exact (H p h p (conj HP eq_refl)).
Qed.

Lemma of_G {A} o (m : M A) :
  (forall h0 p0 h p, StX o h0 p0 [] h p -> G o h0 p0 (m h p)) -> HT o (Inv o) m (fun _ => Inv o).
Proof. intros H h p HI. change (Good o h p (m h p)). apply Good_G, H, StX_init, HI. Qed.

Lemma push_value_I o v : HT o (Inv o) (push_value v) (fun _ => Inv o).
Proof.
  apply of_G. intros h0 p0 h p S. apply G_ret_end.
  eapply G_push_value with (x := @nil nat); [exact S|]. intros h' S'. apply G_end_val, S'.
Qed.

Lemma pop_value_I o : HT o (Inv o) pop_value (fun _ => Inv o).
Proof.
  apply of_G. intros h0 p0 h p S. unfold pop_value. apply G_raw_pop.
  destruct p as [[|v st] lo fr pe mb rs se aw ur]; pcbn; [apply G_end_val, S|].
  t_release (@nil nat). apply G_end_val. assumption.
Qed.

Lemma push_local_I o v : HT o (Inv o) (push_local v) (fun _ => Inv o).
Proof.
  apply of_G. intros h0 p0 h p S. destruct p as [st lo fr pe mb rs se aw ur]. unfold push_local.
  apply G_ret_end, G_assoc. t_retain (refs_of v). apply G_end_val. t_done.
Qed.

Lemma truncate_locals_I o len : HT o (Inv o) (truncate_locals len) (fun _ => Inv o).
Proof.
  intros h p HI. unfold truncate_locals, release_vals.
  destruct (len <? length (p_locals p)); [|auto using stable_refl].
  destruct (release_l h _) as [h'|e|n] eqn:R; [|destruct (release_l_no_err _ _ _ R)|exact I].
  assert (S : Rx o h (refs_list (skipn len (p_locals p)) ++ []) h
                 (set_locals p (firstn len (p_locals p)))).
  { generalize (Rx_init _ _ _ HI). apply Rx_move. intro i. cnt_norm.
    rewrite (refs_list_firstn_skipn i len (p_locals p)). lia. }
  destruct (release_Rx _ _ _ _ _ _ _ S R) as [HI' St]. split; [apply InvX_nil, HI'|auto].
Qed.

Lemma pop_req_I o : HT o (Inv o) pop_req (fun _ => Inv o).
Proof.
  unfold pop_req. eapply HT_bind; [apply pop_value_I|]. intros [v|].
  - apply HT_ret; auto.
  - apply HT_fail; auto.
Qed.

Lemma push_locals_I o vs : HT o (Inv o) (push_locals vs) (fun _ => Inv o).
Proof.
  induction vs as [|v t IH]; cbn [push_locals].
  - apply HT_ret; auto.
  - eapply HT_bind; [apply push_local_I|]. intros ?. exact IH.
Qed.

Lemma pop_n_I o n : forall acc, HT o (Inv o) (pop_n n acc) (fun _ => Inv o).
Proof.
  induction n as [|n IH]; intro acc; cbn [pop_n].
  - apply HT_ret; auto.
  - eapply HT_bind; [apply pop_req_I|]. intros v. apply IH.
Qed.

Lemma HT_update o (Pre : heap -> proc -> Prop) (g : proc -> proc) :
  (forall h p, Pre h p -> Inv o h p /\ p_result (g p) = p_result p /\
                          forall i, cnt i (proc_refs (g p)) = cnt i (proc_refs p)) ->
  HT o Pre (fun h p => MVal tt h (g p)) (fun _ => Inv o).
Proof.
  intros H h p HP. destruct (H h p HP) as (HI & HR & E).
  split; [exact (Inv_move _ _ _ _ E HI)|]. split; [apply stable_refl|exact HR].
Qed.

Lemma bump_pc_I o : HT o (Inv o) bump_pc (fun _ => Inv o).
Proof. apply HT_update. auto. Qed.

Lemma set_top_pc_I o pc : HT o (Inv o) (set_top_pc pc) (fun _ => Inv o).
Proof. apply HT_update. auto. Qed.

Lemma raw_push_norefs_I o v : refs_of v = [] -> HT o (Inv o) (raw_push v) (fun _ => Inv o).
Proof.
  intro E. apply HT_update. intros h p HI. split; [exact HI|]. split; [reflexivity|].
  intro i. cnt_norm. rewrite E, cnt_nil. lia.
Qed.

(* `mput (set_frames p0 f)` right after `mget` *)
Lemma put_frames_I o p0 f :
  HT o (fun h p => Inv o h p /\ p = p0) (mput (set_frames p0 f)) (fun _ => Inv o).
Proof. apply (HT_update o _ (fun _ => set_frames p0 f)). intros h p [HI ->]. auto. Qed.

(* `mput (set_stack p0 s')` right after `mget`, s' a reordering of the stack *)
Lemma put_stack_I o p0 s' :
  (forall i, cnt i (refs_list s') = cnt i (refs_list (p_stack p0))) ->
  HT o (fun h p => Inv o h p /\ p = p0) (mput (set_stack p0 s')) (fun _ => Inv o).
Proof.
  intro E. apply (HT_update o _ (fun _ => set_stack p0 s')). intros h p [HI ->].
  split; [exact HI|]. split; [reflexivity|]. intro i. cnt_norm. rewrite E. reflexivity.
Qed.

Lemma top_frame_I o : HT o (Inv o) top_frame (fun _ => Inv o).
Proof.
  intros h p HI. unfold top_frame. destruct (p_frames p); auto using stable_refl.
Qed.

Lemma mheap_I {A} o (f : heap -> outcome (heap * A)) :
  (forall h p h' a, Inv o h p -> f h = Val (h', a) -> Inv o h' p /\ stable h h') ->
  HT o (Inv o) (mheap f) (fun _ => Inv o).
Proof.
  intros Hf h p HI. unfold mheap.
  destruct (f h) as [[h' a]|e|n] eqn:E; [|auto using stable_refl|exact I].
  destruct (Hf _ _ _ _ HI E). auto.
Qed.

Lemma run_beff_I o e : HT o (Inv o) (run_beff e) (fun _ => Inv o).
Proof.
  destruct e as [r|tbl|i]; apply mheap_I; intros h p h' [] HI E; apply Rx_init in HI;
    rewrite <- InvX_nil; change (Rx o h [] h' p).
  - apply obind_val in E as ([h1 j] & A & E). injection E as <-. eapply alloc_Rx; eauto.
  - destruct (lookup_tbl _ tbl); [|discriminate].
    apply obind_val in E as ([h1 j] & A & E). injection E as <-. eapply alloc_Rx; eauto.
  - apply obind_val in E as ([h1 bs] & A & E). injection E as <-. eapply materialize_Rx; eauto.
Qed.

Lemma run_beffs_I o l : HT o (Inv o) (run_beffs l) (fun _ => Inv o).
Proof.
  induction l as [|e t IH]; cbn [run_beffs].
  - apply HT_ret; auto.
  - eapply HT_bind; [apply run_beff_I|]. intros ?. exact IH.
Qed.

Lemma cached_constant_I o k bs :
  HT o (Inv o) (mheap (fun h => cached_constant h k (Some bs))) (fun _ => Inv o).
Proof.
  apply mheap_I. intros h p h' i [W H] C.
  destruct (cached_constant_spec _ _ _ _ _ W C) as [[-> _]|(W' & St & _ & _ & Hrc & Hcb & _)].
  - split; [split; auto|apply stable_refl].
  - split; [|exact St]. split; auto. intro j. rewrite Hrc, Hcb, H. lia.
Qed.

Lemma rotate_cnt i : forall m s v, nth_error s m = Some v ->
  cnt i (refs_list (v :: firstn m s ++ skipn (S m) s)) = cnt i (refs_list s).
Proof.
  induction m as [|m IH]; intros [|a t] v E; cbn [nth_error] in E; try discriminate.
  - injection E as ->. reflexivity.
  - specialize (IH t v E). cbn [firstn skipn app] in *.
    rewrite !cnt_refs_list_cons in *. lia.
Qed.

(* `ht` walks down a handler. At a bind it takes the triple of the choke point in front (one of
   the list in ht_choke) and goes on with the continuation; after an `mget` the precondition also
   records `p = p0` and is weakened back to `Inv o` where that is not needed; mret / mfail / mpanic
   end the walk. What it leaves to the caller are the case distinctions of the handler; the names
   they use come from the rules: `p0` is the process read by an mget (HT_mget), `a` the value bound
   last (HT_bind). *)
Ltac ht_weak := let HH := fresh "HH" in intros ? ? HH; first [exact HH | exact (proj1 HH)].
Ltac ht_choke :=
  eapply HT_pre;
  [ first [ apply push_value_I | apply pop_value_I | apply pop_req_I | apply push_local_I
          | apply truncate_locals_I | apply push_locals_I | apply pop_n_I | apply bump_pc_I
          | apply set_top_pc_I | apply top_frame_I | apply run_beffs_I | apply cached_constant_I
          | apply put_frames_I | apply raw_push_norefs_I; reflexivity ]
  | ht_weak ].
Ltac ht_step :=
  cbv beta;
  lazymatch goal with
  | |- HT _ _ (mret _) _ => apply HT_ret; ht_weak
  | |- HT _ _ (mfail _) _ => apply HT_fail; ht_weak
  | |- HT _ _ (mpanic _) _ => apply HT_panic
  | |- HT _ _ (mbind mget _) _ => apply HT_mget; intro
  | |- HT _ _ (mbind _ _) _ => eapply HT_bind; [ht_choke | intro]
  end.
Ltac ht := repeat ht_step.

Section Handlers.
Variable o : list nat.
Notation OK := (fun _ : option action => Inv o).

Lemma handle_constant_ht P k : HT o (Inv o) (handle_constant P k) OK.
Proof.
  unfold handle_constant. destruct (nth_error (hp_consts P) k) as [[z|bs]|]; ht.
Qed.

Lemma handle_pop_ht : HT o (Inv o) handle_pop OK.
Proof. unfold handle_pop. ht. Qed.

Lemma handle_duplicate_ht : HT o (Inv o) handle_duplicate OK.
Proof. unfold handle_duplicate. ht. destruct (p_stack p0); ht. Qed.

Lemma handle_pick_ht n : HT o (Inv o) (handle_pick n) OK.
Proof. unfold handle_pick. ht. destruct (nth_error (p_stack p0) n); ht. Qed.

Lemma handle_rotate_ht n : HT o (Inv o) (handle_rotate n) OK.
Proof.
  unfold handle_rotate. ht. destruct (length (p_stack p0) <? n); ht.
  destruct n as [|m]; ht. destruct (nth_error (p_stack p0) m) as [v|] eqn:E; ht.
  eapply HT_bind; [apply put_stack_I; intro i; apply rotate_cnt; exact E|]. intro. ht.
Qed.

Lemma handle_load_ht idx : HT o (Inv o) (handle_load idx) OK.
Proof.
  unfold handle_load. ht. destruct (nth_error (p_locals p0) (fr_base a + idx)); ht.
Qed.

Lemma handle_store_ht : HT o (Inv o) handle_store OK.
Proof. unfold handle_store. ht. Qed.

Lemma handle_tuple_ht P t : HT o (Inv o) (handle_tuple P t) OK.
Proof. unfold handle_tuple. destruct (nth_error (hp_tuples P) t); ht. Qed.

Lemma handle_get_ht idx : HT o (Inv o) (handle_get idx) OK.
Proof.
  unfold handle_get. ht. destruct a; ht. destruct (nth_error fs idx); ht.
Qed.

Lemma handle_is_type_ht x : HT o (Inv o) (handle_is_type x) OK.
Proof. unfold handle_is_type. ht. Qed.

Lemma handle_jump_ht off : HT o (Inv o) (handle_jump off) OK.
Proof. unfold handle_jump. ht. destruct (p_frames p0); ht. Qed.

Lemma handle_jump_if_ht off : HT o (Inv o) (handle_jump_if off) OK.
Proof.
  unfold handle_jump_if. ht. destruct (is_nil a); ht. apply handle_jump_ht.
Qed.

Lemma handle_function_ht P f : HT o (Inv o) (handle_function P f) OK.
Proof. unfold handle_function. destruct (nth_error (hp_funcs P) f); ht. Qed.

Lemma handle_reset_ht idx : HT o (Inv o) (handle_reset idx) OK.
Proof.
  unfold handle_reset. ht. destruct (length (p_locals p0) <? fr_base a + idx); ht.
Qed.

Lemma handle_builtin_ht P b : HT o (Inv o) (handle_builtin P b) OK.
Proof. unfold handle_builtin. destruct (hp_nb P <=? b); ht. Qed.

Lemma handle_equal_ht n x : HT o (Inv o) (handle_equal n x) OK.
Proof.
  unfold handle_equal. ht. destruct (length (p_stack p0) <? n); ht. destruct a; ht.
Qed.

Lemma handle_not_ht : HT o (Inv o) handle_not OK.
Proof. unfold handle_not. ht. Qed.

Lemma handle_self_ht pid : HT o (Inv o) (handle_self pid) OK.
Proof.
  unfold handle_self. ht. destruct (root_frame (p_frames p0)); ht.
Qed.

Lemma handle_process_ref_ht pid' f : HT o (Inv o) (handle_process_ref pid' f) OK.
Proof.
  unfold handle_process_ref. ht.
Qed.

Lemma handle_call_ht P x : HT o (Inv o) (handle_call P x) OK.
Proof.
  unfold handle_call. ht. destruct (p_stack p0) as [|[z|i|r|t fs|f caps|b|pp ff|rid ty] st]; ht.
  - destruct (nth_error (hp_funcs P) f); ht.
  - destruct (hp_nb P <=? b); ht. destruct (hx_value x); ht.
Qed.

Lemma handle_tail_call_ht P recurse : HT o (Inv o) (handle_tail_call P recurse) OK.
Proof.
  unfold handle_tail_call. destruct recurse; ht.
  destruct a as [z|i|r|t fs|f caps|b|pp ff|rid ty]; ht.
  destruct (nth_error (hp_funcs P) f); ht.
Qed.

End Handlers.

(* handle_spawn pops the function and the argument with raw `stack.pop()` and releases them only
   after BOTH pops succeeded: with a single value on the stack the popped value is dropped
   unreleased (its references stay counted: a leak, see handle_spawn_underflow_leaks below).
   Hence the hypothesis `2 <= length (p_stack p)`. *)
Theorem handle_spawn_good pid o h p :
  2 <= length (p_stack p) -> Inv o h p -> Good o h p (handle_spawn pid h p).
Proof.
  intros HL HI. apply Good_G. pose proof (StX_init _ _ _ HI) as S.
  destruct p as [[|v1 [|v2 st]] lo fr pe mb rs se aw ur]; cbn [p_stack length] in HL; try lia.
  unfold handle_spawn. apply G_mget; cbv beta.
  destruct (is_receiving _); [apply G_end_err; exact S|].
  apply G_raw_pop_req; pcbn. apply G_raw_pop_req; pcbn.
  t_release (refs_of v2). t_release (@nil nat).
  destruct v1; (apply G_end_val || apply G_end_err); assumption.
Qed.

(* handle_send: a target that is not a process reference is popped raw and dropped unreleased
   (FTypeMismatch, or StackUnderflow when it is alone), hence the hypothesis that such a target
   holds no reference *)
Theorem handle_send_good pid o h p :
  match p_stack p with VProc _ _ :: _ => True | v :: _ => refs_of v = [] | [] => True end ->
  Inv o h p -> Good o h p (handle_send pid h p).
Proof.
  intros Htgt HI. apply Good_G. pose proof (StX_init _ _ _ HI) as S.
  destruct p as [st lo fr pe mb rs se aw ur]. cbn [p_stack] in Htgt.
  unfold handle_send. apply G_mget; cbv beta.
  destruct (is_receiving _); [apply G_end_err; exact S|].
  apply G_raw_pop_req; pcbn. destruct st as [|v1 st]; [exact S|].
  assert (E1 : refs_of v1 = []) by (destruct v1; try exact Htgt; reflexivity).
  apply G_raw_pop_req; pcbn. destruct st as [|v2 st].
  - (* the lone target is dropped by the underflow: it held no reference *)
    eapply StX_move; [exact S|reflexivity|]. intro i. cnt_norm. rewrite E1, cnt_nil. lia.
  - t_release (refs_of v1).
    destruct v1; try (apply G_end_err; rewrite E1 in *; assumption).
    apply G_raw_push. apply G_bump_pc. apply G_end_val. t_done.
Qed.

Definition instr_pre (p : proc) (i : instr) : Prop :=
  match i with
  | ISpawn => 2 <= length (p_stack p)
  | ISend => 2 <= length (p_stack p) /\
             match p_stack p with VProc _ _ :: _ => True | v :: _ => refs_of v = [] | [] => True end
  | _ => True
  end.

Theorem exec_instr_good : forall fx P pid i x o h p,
  i <> ISelect -> instr_pre p i -> Inv o h p -> Good o h p (exec_instr fx P pid i x h p).
Proof.
  intros fx P pid i x o h p Hns Hpre HI.
  (* a triple `HT o (Inv o) m (fun _ => Inv o)` applied to h, p and HI is the Good statement *)
  destruct i; cbn [exec_instr instr_pre] in *.
  - exact (handle_constant_ht o P _ h p HI).
  - exact (handle_pop_ht o h p HI).
  - exact (handle_duplicate_ht o h p HI).
  - exact (handle_pick_ht o _ h p HI).
  - exact (handle_rotate_ht o _ h p HI).
  - exact (handle_reset_ht o _ h p HI).
  - exact (handle_load_ht o _ h p HI).
  - exact (handle_store_ht o h p HI).
  - exact (handle_tuple_ht o P _ h p HI).
  - exact (handle_get_ht o _ h p HI).
  - exact (handle_is_type_ht o x h p HI).
  - exact (handle_jump_ht o _ h p HI).
  - exact (handle_jump_if_ht o _ h p HI).
  - exact (handle_call_ht o P x h p HI).
  - exact (handle_tail_call_ht o P _ h p HI).
  - exact (handle_function_ht o P _ h p HI).
  - exact (handle_builtin_ht o P _ h p HI).
  - exact (handle_equal_ht o _ x h p HI).
  - exact (handle_not_ht o h p HI).
  - apply handle_spawn_good; assumption.
  - apply handle_send_good; [apply Hpre|exact HI].
  - exact (handle_self_ht o _ h p HI).
  - congruence.
  - exact (handle_process_ref_ht o _ _ h p HI).
Qed.

Definition exh : heap := mkHeap [Owned [1%Z]] [1] [] [] [false] [].
Definition exP : hprogram := Build_hprogram [] [] [] 0 [] [].
Definition exx : hext := Build_hext None false [] 0%Z.
Definition exproc (st : list value) : proc := mkProc st [] [] false [] None None [] [].

(* a state holding exactly one counted reference to slot 0, somewhere on the stack *)
Lemma exh_Inv st : refs_list st = [0] -> Inv [] exh (exproc st).
Proof.
  intro E. split; [apply WFh_check; reflexivity|]. intro i. unfold proc_refs.
  cbn [exproc p_stack p_locals p_mailbox p_result p_sel p_await]. rewrite E.
  destruct i as [|[|i]]; reflexivity.
Qed.

(* exec_instr_good is not vacuous: a Spawn whose closure captures a binary, from a state that
   meets Inv and instr_pre, returns a value (no panic, no Err) *)
Example exec_instr_good_nonvacuous :
  let p := exproc [VFun 0 [VBin 0]; VInt 5] in
  Inv [] exh p /\ instr_pre p ISpawn /\ ISpawn <> ISelect /\
  exists h' p', exec_instr false exP 7 ISpawn exx exh p = MVal (Some (ASpawn 7 0 [VBin 0] (VInt 5))) h' p'
                /\ rc_at h' 0 = 0 /\ p_stack p' = [].
Proof.
  split; [apply exh_Inv; reflexivity|].
  split; [cbn; lia|]. split; [discriminate|].
  eexists. eexists. split; [vm_compute; reflexivity|]. split; reflexivity.
Qed.

(* Send to a process reference: non-vacuity of the Send arm *)
Example handle_send_good_nonvacuous :
  let p := exproc [VProc 3 0; VBin 0] in
  Inv [] exh p /\ instr_pre p ISend /\
  exists h' p', handle_send 7 exh p = MVal (Some (ADeliver 3 (VBin 0))) h' p' /\ p_stack p' = [VProc 3 0].
Proof.
  split; [apply exh_Inv; reflexivity|].
  split; [cbn; split; [lia|exact I]|].
  eexists. eexists. split; [vm_compute; reflexivity|reflexivity].
Qed.

(* The model as found: Spawn on a stack holding ONLY a closure that captures a binary. The first
   raw pop succeeds, the second fails with StackUnderflow, the closure is dropped without release:
   slot 0 keeps refcount 1 with no root left, so Inv does not hold in the persisting Err state. *)
Example handle_spawn_underflow_leaks :
  let p := exproc [VFun 0 [VBin 0]] in
  Inv [] exh p /\
  exists h' p', handle_spawn 7 exh p = MErr FStackUnderflow h' p' /\
                rc_at h' 0 = 1 /\ proc_refs p' = [] /\ ~ Inv [] h' p'.
Proof.
  split; [apply exh_Inv; reflexivity|].
  eexists. eexists. split; [vm_compute; reflexivity|].
  split; [reflexivity|]. split; [reflexivity|].
  intros [_ H]. specialize (H 0). vm_compute in H. discriminate.
Qed.

(* Likewise Send to a target that is not a process reference and holds a binary: the target is
   popped raw and dropped by the TypeMismatch return. *)
Example handle_send_badtarget_leaks :
  let p := exproc [VBin 0; VInt 1] in
  Inv [] exh p /\ 2 <= length (p_stack p) /\
  exists h' p', handle_send 7 exh p = MErr FTypeMismatch h' p' /\
                rc_at h' 0 = 1 /\ proc_refs p' = [] /\ ~ Inv [] h' p'.
Proof.
  split; [apply exh_Inv; reflexivity|].
  split; [cbn; lia|].
  eexists. eexists. split; [vm_compute; reflexivity|].
  split; [reflexivity|]. split; [reflexivity|].
  intros [_ H]. specialize (H 0). vm_compute in H. discriminate.
Qed.

Print Assumptions exec_instr_good.
Print Assumptions handle_spawn_underflow_leaks.
