(* HeapSelect.v — the select machine (executor.rs:2130-2644, HeapVm.v) and the exact-count
   invariant: in the code as committed (fx = true: the repairs of F9 and F45, see the header of
   HeapVm.v) every select handler re-establishes Inv; in the code before them (fx = false) it does
   not (finding F9: initialize_select / call_receive_function overwrite a counted value without
   releasing it).

   Method: a handler is followed forward from its start state (h0, p0) over the explicit process
   record. `G o h0 p0 (m h p)` says that what m makes of the current (h, p) ends in the invariant
   relative to the start; a rule `G_x` consumes the primitive x in front of a bind. Between a raw
   move and the retain / release that accounts for it the references float in the excess `x` of
   `StX`. Commit ids in comments (09625d4, 8388832) are those of /repo that the header of HeapVm.v
   explains. *)
From Quiver Require Import heap.HeapInv.
Require Import Lia List Arith.
Import ListNotations.
Local Open Scope nat_scope.

(* reached from (h0, p0): invariant with excess x, bytes stable, result untouched *)
Definition StX (o : list nat) (h0 : heap) (p0 : proc) (x : list nat) (h : heap) (p : proc) : Prop :=
  InvX o x h p /\ stable h0 h /\ p_result p = p_result p0.

(* the handler result re-establishes the invariant (no excess) relative to (h0, p0) *)
Definition G {A} (o : list nat) (h0 : heap) (p0 : proc) (r : mres A) : Prop :=
  match r with
  | MVal _ h' p' | MErr _ h' p' => StX o h0 p0 [] h' p'
  | MPanic _ => True
  end.

Lemma Good_G {A} o h p (r : mres A) : Good o h p r <-> G o h p r.
Proof.
  unfold Good, G, StX. destruct r as [a h' p'|e h' p'|n]; try tauto; rewrite InvX_nil; tauto.
Qed.

Lemma StX_Rx o h0 p0 x h p : StX o h0 p0 x h p <-> Rx o h0 x h p /\ p_result p = p_result p0.
Proof. unfold StX, Rx. tauto. Qed.

Lemma StX_init o h p : Inv o h p -> StX o h p [] h p.
Proof. intro HI. split; [apply InvX_nil; exact HI|]. split; [apply stable_refl|reflexivity]. Qed.

Lemma Good_start {A} o h p (r : mres A) : (StX o h p [] h p -> G o h p r) -> Inv o h p -> Good o h p r.
Proof. intros H HI. apply Good_G, H, StX_init, HI. Qed.

Lemma Good_mret {A} (a : A) o h p : Inv o h p -> Good o h p (mret a h p).
Proof. intro HI. split; [exact HI|]. split; [apply stable_refl|reflexivity]. Qed.

Lemma StX_Inv o h0 p0 h p : StX o h0 p0 [] h p -> Inv o h p.
Proof. intros [HI _]. apply InvX_nil. exact HI. Qed.

Lemma StX_step o h0 p0 h p h' p' :
  StX o h0 p0 [] h p -> Inv o h' p' /\ stable h h' /\ p_result p' = p_result p ->
  StX o h0 p0 [] h' p'.
Proof.
  intros (_ & HS & HR) (HI & HS' & HR'). split; [apply InvX_nil; exact HI|].
  split; [eapply stable_trans; eauto|congruence].
Qed.

(* move references between the process and the excess (heap unchanged) *)
Lemma StX_move o h0 p0 y q x p h :
  StX o h0 p0 y h q -> p_result p = p_result q ->
  (forall i, cnt i (proc_refs q) + cnt i y = cnt i (proc_refs p) + cnt i x) ->
  StX o h0 p0 x h p.
Proof.
  intros [[W HI] [HS HR]] ER EC. split; [split; [exact W|]|split; [exact HS|congruence]].
  intro i. specialize (HI i). specialize (EC i). lia.
Qed.

Section Rules.
Context {A B : Type}.
Variables (o : list nat) (h0 : heap) (p0 : proc).

Lemma G_assoc {C} (a : M A) (b : A -> M B) (c : B -> M C) h p :
  G o h0 p0 (mbind a (fun x => mbind (b x) c) h p) -> G o h0 p0 (mbind (mbind a b) c h p).
Proof. unfold mbind. destruct (a h p); auto. Qed.

Lemma G_ret_end (m : M A) h p : G o h0 p0 (mbind m mret h p) -> G o h0 p0 (m h p).
Proof. unfold mbind, mret. destruct (m h p); auto. Qed.

Lemma G_mret (a : A) (k : A -> M B) h p : G o h0 p0 (k a h p) -> G o h0 p0 (mbind (mret a) k h p).
Proof. auto. Qed.

Lemma G_mget (k : proc -> M B) h p : G o h0 p0 (k p h p) -> G o h0 p0 (mbind mget k h p).
Proof. auto. Qed.

Lemma G_mput (k : unit -> M B) q h p : G o h0 p0 (k tt h q) -> G o h0 p0 (mbind (mput q) k h p).
Proof. auto. Qed.

Lemma G_raw_push (k : unit -> M B) v h p :
  G o h0 p0 (k tt h (set_stack p (v :: p_stack p))) -> G o h0 p0 (mbind (raw_push v) k h p).
Proof. auto. Qed.

Lemma G_bump_pc (k : unit -> M B) h p :
  G o h0 p0 (k tt h (set_frames p (match p_frames p with fr :: r => set_pc fr (S (fr_pc fr)) :: r | [] => [] end))) ->
  G o h0 p0 (mbind bump_pc k h p).
Proof. auto. Qed.

Lemma G_raw_pop (k : option value -> M B) h p :
  match p_stack p with
  | v :: st => G o h0 p0 (k (Some v) h (set_stack p st))
  | [] => G o h0 p0 (k None h p)
  end -> G o h0 p0 (mbind raw_pop k h p).
Proof. unfold raw_pop, mbind. destruct (p_stack p); auto. Qed.

Lemma G_raw_pop_req (k : value -> M B) h p :
  match p_stack p with
  | v :: st => G o h0 p0 (k v h (set_stack p st))
  | [] => StX o h0 p0 [] h p
  end -> G o h0 p0 (mbind raw_pop_req k h p).
Proof.
  unfold raw_pop_req, raw_pop, mbind, mret, mfail. destruct (p_stack p); auto.
Qed.

Lemma G_end_val (a : A) h p : StX o h0 p0 [] h p -> G o h0 p0 (mret a h p).
Proof. auto. Qed.

Lemma G_end_err (e : fault) h p : StX o h0 p0 [] h p -> G o h0 p0 (@mfail A e h p).
Proof. auto. Qed.

Lemma G_fail_bind (e : fault) (k : A -> M B) h p :
  StX o h0 p0 [] h p -> G o h0 p0 (mbind (mfail e) k h p).
Proof. auto. Qed.

Lemma G_panic_bind n (k : A -> M B) h p : G o h0 p0 (mbind (mpanic n) k h p).
Proof. exact I. Qed.

(* a sub-handler that is Good from any invariant state; R is a further fact about the value and
   the process it reaches, handed to the continuation *)
Lemma G_call2 (R : A -> proc -> Prop) (m : M A) (k : A -> M B) h p :
  StX o h0 p0 [] h p ->
  (Inv o h p -> Good o h p (m h p)) ->
  match m h p with MVal a _ p' => R a p' | _ => True end ->
  (forall a h' p', StX o h0 p0 [] h' p' -> R a p' -> G o h0 p0 (k a h' p')) ->
  G o h0 p0 (mbind m k h p).
Proof.
  intros S HG HR HK. pose proof (HG (StX_Inv _ _ _ _ _ S)) as Hm. unfold mbind.
  destruct (m h p) as [a h' p'|e h' p'|n]; cbn [Good G] in *; auto.
  - apply HK; [eapply StX_step; eauto|exact HR].
  - eapply StX_step; eauto.
Qed.

Lemma G_call (m : M A) (k : A -> M B) h p :
  StX o h0 p0 [] h p ->
  (Inv o h p -> Good o h p (m h p)) ->
  (forall a h' p', StX o h0 p0 [] h' p' -> G o h0 p0 (k a h' p')) ->
  G o h0 p0 (mbind m k h p).
Proof.
  intros S HG HK. apply (G_call2 (fun _ _ => True) m k h p S HG); [destruct (m h p); exact I|auto].
Qed.
Lemma G_then_ret (m : M A) (f : A -> B) h p :
  StX o h0 p0 [] h p -> (Inv o h p -> Good o h p (m h p)) ->
  G o h0 p0 (mbind m (fun a => mret (f a)) h p).
Proof. intros S HG. eapply G_call; [exact S|exact HG|]. intros a h' p' S'. exact S'. Qed.

Lemma G_tail (m : M A) h p :
  StX o h0 p0 [] h p -> (Inv o h p -> Good o h p (m h p)) -> G o h0 p0 (m h p).
Proof.
  intros S HG. pose proof (HG (StX_Inv _ _ _ _ _ S)) as Hm.
  destruct (m h p); cbn [Good G] in *; auto; eapply StX_step; eauto.
Qed.
End Rules.

Section Prims.
Context {B : Type}.
Variables (o : list nat) (h0 : heap) (p0 : proc).

(* release of the reference list l (m_release v: l = refs_of v; release_vals vs: l = refs_list vs):
   the state is known as (y, q); the current process is p *)
Lemma G_release_l l x y q (k : unit -> M B) h p :
  StX o h0 p0 y h q -> p_result p = p_result q ->
  (forall i, cnt i (proc_refs q) + cnt i y = cnt i (proc_refs p) + cnt i l + cnt i x) ->
  (forall h', StX o h0 p0 x h' p -> G o h0 p0 (k tt h' p)) ->
  G o h0 p0 (mbind (mheap_ (fun h => release_l h l)) k h p).
Proof.
  intros S ER EC HK.
  assert (S1 : StX o h0 p0 (l ++ x) h p).
  { eapply StX_move; eauto. intro i. rewrite cnt_app. specialize (EC i). lia. }
  unfold mbind, mheap_. destruct (release_l h l) as [h'|e|n] eqn:E; cbn [G]; auto.
  - apply HK. apply StX_Rx in S1 as [S1 HR]. apply StX_Rx. split; [eapply release_Rx; eauto|exact HR].
  - exfalso. eapply release_l_no_err; eauto.
Qed.

Lemma G_m_retain v x y q (k : unit -> M B) h p :
  StX o h0 p0 y h q -> p_result p = p_result q ->
  (forall i, cnt i (proc_refs q) + cnt i y + cnt i (refs_of v) = cnt i (proc_refs p) + cnt i x) ->
  (forall h', StX o h0 p0 x h' p -> G o h0 p0 (k tt h' p)) ->
  G o h0 p0 (mbind (m_retain v) k h p).
Proof.
  intros S ER EC HK.
  unfold mbind, m_retain, mheap_. destruct (retain h v) as [h'|e|n] eqn:E; cbn [G]; auto.
  - apply HK. apply StX_Rx in S as [S HR].
    eapply StX_move; [apply StX_Rx; split; [eapply retain_Rx; eauto|exact HR]|exact ER|].
    intro i. rewrite cnt_app. specialize (EC i). lia.
  - exfalso. eapply retain_l_no_err; exact E.
Qed.

(* push_value (400): retain then raw push; the state must be known for the current process *)
Lemma G_push_value v x (k : unit -> M B) h p :
  StX o h0 p0 x h p ->
  (forall h', StX o h0 p0 x h' (set_stack p (v :: p_stack p)) -> G o h0 p0 (k tt h' (set_stack p (v :: p_stack p)))) ->
  G o h0 p0 (mbind (push_value v) k h p).
Proof.
  intros S HK. unfold push_value. apply G_assoc.
  eapply (G_m_retain v (refs_of v ++ x)); [exact S|reflexivity| |].
  - intro i. rewrite cnt_app. lia.
  - intros h' S'. apply G_raw_push. apply HK.
    eapply StX_move; [exact S'|reflexivity|cnts].
Qed.
End Prims.

(* the release / retain in front of a bind: X is the excess afterwards, the state before is the
   StX hypothesis in the context, the counting side condition falls to `cnts` *)
Ltac t_release X :=
  eapply G_release_l with (x := X); [eassumption|reflexivity|cnts|intros ? ?]; cbv beta.
Ltac t_retain X :=
  eapply G_m_retain with (x := X); [eassumption|reflexivity|cnts|intros ? ?]; cbv beta.
Ltac t_done := eapply StX_move; [eassumption|reflexivity|cnts].

Lemma assoc_remove_refs i t : forall (a a' : list (nat * option value)) old,
  assoc_remove t a = (a', old) ->
  cnt i (await_refs a) = cnt i (await_refs a') + cnt i (result_refs old).
Proof.
  induction a as [|[j b] r IH]; intros a' old E; cbn [assoc_remove] in E.
  - inversion E; subst. unfold await_refs. cbn [flat_map snd app result_refs]. rewrite cnt_nil. lia.
  - destruct (t =? j).
    + inversion E; subst. unfold await_refs. cbn [flat_map snd]. rewrite !cnt_app.
      destruct b as [v|]; cbn [app result_refs]; rewrite ?cnt_nil; lia.
    + destruct (assoc_remove t r) as [t' o'] eqn:E'. inversion E; subst.
      specialize (IH _ _ eq_refl). unfold await_refs in *. cbn [flat_map snd].
      rewrite !cnt_app. lia.
Qed.

Lemma await_forget_refs i : forall srcs a acc a' stored,
  await_forget srcs a acc = (a', stored) ->
  cnt i (await_refs a) + cnt i (refs_list acc) = cnt i (await_refs a') + cnt i (refs_list stored).
Proof.
  induction srcs as [|s r IH]; intros a acc a' stored E; cbn [await_forget] in E.
  - inversion E; subst. reflexivity.
  - destruct s; try (apply IH in E; exact E).
    destruct (assoc_remove pid a) as [a1 old] eqn:E1.
    apply IH in E. rewrite cnt_stash in E. pose proof (assoc_remove_refs i _ _ _ _ E1). lia.
Qed.

Lemma G_finish (v : value) o h0 p0 h p :
  StX o h0 p0 [] h p ->
  G o h0 p0 ((m_retain v ;;; raw_push v ;;; bump_pc ;;; mret (@None action)) h p).
Proof.
  intro S. destruct p as [st lo fr pe mb rs se aw ur].
  t_retain (refs_of v). apply G_raw_push. apply G_bump_pc. apply G_end_val. t_done.
Qed.

(* the select state has left the process, its references float; they are released *)
Lemma G_select_done ss (v : value) o h0 p0 h p :
  StX o h0 p0 (sel_refs (Some ss)) h p ->
  G o h0 p0 (((mheap_ (fun h => release_vals h (ss_sources ss)) ;;;
               match ss_recv ss with Some (_, m) => m_release m | None => mret tt end) ;;;
              m_retain v ;;; raw_push v ;;; bump_pc ;;; mret (@None action)) h p).
Proof.
  intro S. destruct p as [st lo fr pe mb rs se aw ur]. destruct ss as [sf si srcs cur start recv].
  cbn [sel_refs ss_sources ss_recv] in S. pcbn. apply G_assoc. destruct recv as [[n m]|].
  - t_release (refs_of m). t_release (@nil nat). apply G_finish. assumption.
  - t_release (@nil nat). apply G_mret. apply G_finish. assumption.
Qed.

Theorem complete_select_good fx result o h p :
  Inv o h p -> Good o h p (complete_select fx result h p).
Proof.
  apply Good_start. intro S. destruct p as [st lo fr pe mb rs se aw ur].
  unfold complete_select. apply G_mget; cbv beta. apply G_mput; cbv beta. pcbn.
  destruct se as [ss|]; [|apply G_mret, G_finish; t_done].
  apply G_assoc. destruct fx.
  - (* 09625d4: the process sources are forgotten, the results stored for them released *)
    destruct (await_forget (ss_sources ss) aw []) as [a' stored] eqn:Ef.
    apply G_assoc, G_mget; cbv beta. apply G_assoc, G_mput; cbv beta. pcbn.
    eapply G_release_l with (x := sel_refs (Some ss));
      [eassumption|reflexivity| |intros ? ?; cbv beta].
    { intro i. pose proof (await_forget_refs i _ _ _ _ _ Ef) as Ha.
      rewrite cnt_refs_list_nil in Ha. cnt_norm. lia. }
    apply G_select_done. assumption.
  - apply G_mret. apply G_select_done. t_done.
Qed.

Theorem select_continuation_good o h p :
  Inv o h p -> Good o h p (select_continuation h p).
Proof.
  apply Good_start. intro S. destruct p as [st lo fr pe mb rs se aw ur].
  unfold select_continuation. apply G_mget; cbv beta. pcbn.
  destruct se as [[sf si srcs cur start recv]|]; pcbn; [|apply G_end_val; exact S].
  destruct (negb _); [apply G_end_err; exact S|].
  destruct recv as [[n m]|]; [|apply G_end_val; exact S].
  apply G_raw_pop_req. pcbn. destruct st as [|v st]; [exact S|].
  t_release (@nil nat). apply G_end_val. assumption.
Qed.

Lemma cnt_remove_nth i : forall (l : list value) idx m, nth_error l idx = Some m ->
  cnt i (refs_list l) = cnt i (refs_of m) + cnt i (refs_list (remove_nth idx l)).
Proof.
  induction l as [|a t IH]; intros idx m E; destruct idx as [|idx]; cbn [nth_error] in E;
    try discriminate.
  - inversion E; subst. cbn [remove_nth]. apply cnt_refs_list_cons.
  - cbn [remove_nth]. rewrite !cnt_refs_list_cons, (IH _ _ E). lia.
Qed.

Theorem take_message_good idx o h p :
  Inv o h p -> Good o h p (take_message idx h p).
Proof.
  apply Good_start. intro S. destruct p as [st lo fr pe mb rs se aw ur].
  unfold take_message. apply G_mget; cbv beta. pcbn.
  destruct (nth_error mb idx) as [m|] eqn:E; [|apply G_end_val; exact S].
  apply G_mput; cbv beta. apply G_ret_end.
  eapply G_release_l with (x := @nil nat); [eassumption|reflexivity| |intros ? ?; cbv beta].
  - intro i. cnt_norm. rewrite (cnt_remove_nth i _ _ _ E). lia.
  - apply G_end_val. assumption.
Qed.

Lemma await_register_refs i : forall targets a acc a' stale,
  await_register targets a acc = (a', stale) ->
  cnt i (await_refs a) + cnt i (refs_list acc) = cnt i (await_refs a') + cnt i (refs_list stale).
Proof.
  induction targets as [|t r IH]; intros a acc a' stale E; cbn [await_register] in E.
  - inversion E; subst. reflexivity.
  - destruct (assoc_set t None a) as [a1 old] eqn:E1.
    apply IH in E. rewrite cnt_stash in E. pose proof (await_set_cnt _ _ _ _ _ i E1) as H1.
    cbn [result_refs] in H1. rewrite cnt_nil in H1. lia.
Qed.

(* the select sources hold exactly the references of the popped value *)
Lemma refs_sources v :
  refs_list (match v with VTuple _ els => els | _ => [v] end) = refs_of v.
Proof. destruct v; unfold refs_list; cbn [flat_map refs_of]; rewrite ?app_nil_r; reflexivity. Qed.

(* NOTE the hypothesis p_sel p = None: initialize_select overwrites select_state, and
   handle_select reaches it only when there is none (see initialize_select_over_refuted). *)
Theorem initialize_select_good pid now o h p :
  p_sel p = None ->
  Inv o h p -> Good o h p (initialize_select true pid now h p).
Proof.
  intros SE. apply Good_start. intro S.
  destruct p as [st lo fr pe mb rs se aw ur]. cbn [p_sel] in SE. subst se.
  unfold initialize_select. apply G_raw_pop_req. pcbn.
  destruct st as [|v st]; [exact S|]. cbv zeta. apply G_mget; cbv beta. pcbn.
  pose proof (refs_sources v) as RS.
  set (srcs := match v with VTuple _ els => els | _ => [v] end) in *.
  destruct (flat_map _ srcs) as [|t ts].
  - apply G_mput; cbv beta. apply G_end_val.
    eapply StX_move; [eassumption|reflexivity|]. intro i. cnt_norm. rewrite RS. lia.
  - destruct (await_register (t :: ts) aw []) as [a' stale] eqn:EA.
    apply G_mput; cbv beta. cbv iota.
    eapply G_release_l with (x := @nil nat); [eassumption|reflexivity| |intros ? ?; cbv beta].
    + intro i. pose proof (await_register_refs i _ _ _ _ _ EA) as HA.
      rewrite cnt_refs_list_nil in HA. cnt_norm. rewrite RS. lia.
    + apply G_end_val. assumption.
Qed.

Definition wit_heap : heap := mkHeap [Owned []] [1] [] [] [false] [].
Definition wit_frame : frame := Build_frame 0 0 0 0.

Lemma wit_Inv p : proc_refs p = [0] -> Inv [] wit_heap p.
Proof.
  intro E. split; [apply WFh_check; reflexivity|]. intro i. rewrite E.
  destruct i as [|[|i]]; reflexivity.
Qed.

Lemma wit_not_Inv p : proc_refs p = [] -> ~ Inv [] wit_heap p.
Proof. intros E [_ H]. specialize (H 0). rewrite E in H. discriminate H. Qed.

(* finding F9, first site: `awaiting.insert(target, None)` drops a counted result *)
Example initialize_select_refuted :
  exists o h p pid now, Inv o h p /\ p_sel p = None /\
    match initialize_select false pid now h p with
    | MVal _ h' p' => ~ Inv o h' p'
    | _ => False
    end.
Proof.
  exists [], wit_heap,
    (mkProc [VProc 7 0] [] [wit_frame] false [] None None [(7, Some (VBin 0))] []), 0, 0%Z.
  split; [apply wit_Inv; reflexivity|]. split; [reflexivity|].
  apply wit_not_Inv. reflexivity.
Qed.

(* the model's initialize_select overwrites an existing select state without releasing it, with
   or without the fix: the hypothesis p_sel p = None of initialize_select_good is needed
   (handle_select guarantees it) *)
Example initialize_select_over_refuted :
  exists o h p pid now, Inv o h p /\
    match initialize_select true pid now h p with
    | MVal _ h' p' => ~ Inv o h' p'
    | _ => False
    end.
Proof.
  exists [], wit_heap,
    (mkProc [VInt 0] [] [wit_frame] false [] None (Some (mkSel 0 0 [VBin 0] [] None None)) [] []),
    0, 0%Z.
  split; [apply wit_Inv; reflexivity|].
  apply wit_not_Inv. reflexivity.
Qed.

(* non-vacuity of initialize_select_good: the same process as in the refutation, fixed code:
   the displaced result is released and the invariant holds afterwards *)
Example initialize_select_fixed_ex :
  match initialize_select true 0 0%Z wit_heap
          (mkProc [VProc 7 0] [] [wit_frame] false [] None None [(7, Some (VBin 0))] []) with
  | MVal (Some (AAwait [7] 0)) h' p' => rc_at h' 0 = 0 /\ p_await p' = [(7, None)]
  | _ => False
  end.
Proof. vm_compute. split; reflexivity. Qed.

Section Sel.
Variable P : hprogram.
(* HeapHandlers.handle_call_ht, in the Good form *)
Hypothesis handle_call_good : forall x o h p, Inv o h p -> Good o h p (handle_call P x h p).

(* NOTE the hypothesis p_sel p <> None: without a select state the model retains msg and stores
   it nowhere (`| None => mret tt`); executor.rs reaches this function only from
   scan_mailbox_for_message, with a select state. *)
Theorem call_receive_function_good ridx midx msg src x o h p :
  p_sel p <> None ->
  Inv o h p -> Good o h p (call_receive_function true P ridx midx msg src x h p).
Proof.
  intros SE. apply Good_start. intro S.
  (* once msg is the held message, the call itself is three accounted steps *)
  assert (Call : forall h' q, StX o h p [] h' q ->
            G o h p ((push_value msg ;;; push_value src ;;; _a <~ handle_call P x ;; mret tt) h' q)).
  { intros h' q S'.
    eapply G_push_value with (x := @nil nat); [exact S'|intros ? S1].
    eapply G_push_value with (x := @nil nat); [exact S1|intros ? S2].
    apply G_then_ret; [exact S2|apply handle_call_good]. }
  destruct p as [st lo fr pe mb rs se aw ur]. cbn [p_sel] in SE.
  destruct se as [[sf si srcs cur start recv]|]; [clear SE|congruence].
  unfold call_receive_function.
  t_retain (refs_of msg). apply G_mget; cbv beta. pcbn.
  destruct (length cur <=? ridx); [apply G_panic_bind|].
  apply G_assoc. apply G_mput; cbv beta.
  destruct recv as [[n old]|].
  - t_release (@nil nat). apply Call. assumption.
  - apply G_mret. apply Call. t_done.
Qed.

(* finding F9, second site: `state.receiving = Some(..)` overwrites a held message *)
Example call_receive_refuted :
  exists o h p ridx midx msg src x, Inv o h p /\ p_sel p <> None /\
    match call_receive_function false P ridx midx msg src x h p with
    | MVal _ h' p' | MErr _ h' p' => ~ Inv o h' p'
    | MPanic _ => False
    end.
Proof.
  exists [], wit_heap,
    (mkProc [] [] [wit_frame] false [] None (Some (mkSel 0 0 [] [0] None (Some (1, VBin 0)))) [] []),
    0, 0, (VInt 5), (VInt 0), (Build_hext None false [] 0%Z).
  split; [apply wit_Inv; reflexivity|]. split; [discriminate|].
  apply wit_not_Inv. reflexivity.
Qed.

(* the select state stays in place along the receive path *)
Lemma take_message_sel idx h p :
  match take_message idx h p with MVal _ _ p' => p_sel p' = p_sel p | _ => True end.
Proof.
  unfold take_message. cbv [mbind mget mret mput m_release mheap_].
  destruct (nth_error (p_mailbox p) idx) as [m|]; [|reflexivity].
  destruct (release h m); try exact I. reflexivity.
Qed.

Lemma receive_result_sel ridx mv rr h p : p_sel p <> None ->
  match receive_result ridx mv rr h p with MVal _ _ p' => p_sel p' <> None | _ => True end.
Proof.
  intro SE. unfold receive_result. destruct rr as [verdict|]; [|exact I].
  destruct (negb (is_nil verdict)).
  - cbv [mbind mget mret]. pose proof (take_message_sel (live_cursor p ridx) h p) as T.
    destruct (take_message (live_cursor p ridx) h p); try exact I. rewrite T. exact SE.
  - destruct p as [st lo fr pe mb rs se aw ur]. cbn [p_sel] in SE.
    destruct se as [[sf si srcs cur start recv]|]; [clear SE|congruence].
    cbv [mbind mget mret mput mpanic m_release mheap_]. pcbn.
    destruct (length cur <=? ridx); [exact I|].
    destruct recv as [[n m]|]; [destruct (release h m); try exact I|]; pcbn; discriminate.
Qed.

Theorem receive_result_good ridx mv rr o h p :
  Inv o h p -> Good o h p (receive_result ridx mv rr h p).
Proof.
  apply Good_start. intro S. unfold receive_result. destruct rr as [verdict|]; [|apply G_end_err; exact S].
  destruct (negb (is_nil verdict)).
  - apply G_mget; cbv beta.
    apply G_then_ret; [exact S|apply take_message_good].
  - apply G_mget; cbv beta. destruct p as [st lo fr pe mb rs se aw ur]. pcbn.
    destruct se as [[sf si srcs cur start recv]|]; pcbn.
    + destruct (length cur <=? ridx); [apply G_panic_bind|].
      apply G_assoc. apply G_mput; cbv beta.
      destruct recv as [[n m]|].
      * t_release (@nil nat). apply G_end_val. assumption.
      * apply G_mret. apply G_end_val. t_done.
    + apply G_mret. apply G_end_val. exact S.
Qed.

Lemma scan_mailbox_sel fx ridx src sc x msgs : forall idx cursor h p, p_sel p <> None ->
  match scan_mailbox fx P ridx src sc x msgs idx cursor h p with
  | MVal SContinue _ p' => p_sel p' <> None
  | _ => True
  end.
Proof.
  induction msgs as [|m rest IH]; intros idx cursor h p SE; cbn [scan_mailbox].
  - destruct p as [st lo fr pe mb rs se aw ur]. cbn [p_sel] in SE.
    destruct se as [[sf si srcs cur start recv]|]; [clear SE|congruence].
    cbv [mbind mget mret mput]. pcbn.
    destruct (sc <? cursor); [destruct (ridx <? length cur)|]; pcbn; discriminate.
  - destruct (msg_compatible P m src); [destruct (is_type_only P src)|apply IH; exact SE].
    + cbv [mbind mret]. destruct (take_message idx h p); exact I.
    + cbv [mbind mret]. destruct (call_receive_function fx P ridx idx m src x h p); exact I.
Qed.

(* the hypothesis p_sel p <> None is inherited from call_receive_function_good *)
Theorem scan_mailbox_good ridx src sc x msgs idx cursor o h p :
  p_sel p <> None ->
  Inv o h p -> Good o h p (scan_mailbox true P ridx src sc x msgs idx cursor h p).
Proof.
  revert idx cursor h p.
  induction msgs as [|m rest IH]; intros idx cursor h p SE; apply Good_start; intro S;
    cbn [scan_mailbox].
  - apply G_mget; cbv beta. destruct p as [st lo fr pe mb rs se aw ur].
    destruct se as [[sf si srcs cur start recv]|]; pcbn;
      [|destruct (sc <? cursor); apply G_mret; apply G_end_val; exact S].
    destruct (sc <? cursor); [|apply G_mret; apply G_end_val; exact S].
    destruct (ridx <? length cur); [|apply G_mret; apply G_end_val; exact S].
    apply G_mput; cbv beta. apply G_end_val. t_done.
  - destruct (msg_compatible P m src); [destruct (is_type_only P src)|].
    + apply G_then_ret; [exact S|apply take_message_good].
    + apply G_then_ret; [exact S|apply call_receive_function_good; exact SE].
    + apply G_tail; [exact S|apply IH; exact SE].
Qed.

Lemma select_receive_sel fx src_idx src snap rr x h p : p_sel p <> None ->
  match select_receive fx P src_idx src snap rr x h p with
  | MVal SContinue _ p' => p_sel p' <> None
  | _ => True
  end.
Proof.
  intro SE. unfold select_receive. cbv zeta.
  set (ridx := count_recv (firstn src_idx (ss_sources snap))).
  set (m1 := match ss_recv snap with
             | Some (idx, msgval) => if idx =? ridx then receive_result ridx msgval rr else mret None
             | None => mret None
             end).
  assert (H1 : match m1 h p with MVal _ _ p' => p_sel p' <> None | _ => True end).
  { subst m1. destruct (ss_recv snap) as [[idx mv]|]; [destruct (idx =? ridx)|];
      [apply receive_result_sel; exact SE|exact SE|exact SE]. }
  cbv [mbind mget mret]. destruct (m1 h p) as [[v|] h1 p1|e h1 p1|n]; try exact I.
  apply scan_mailbox_sel. exact H1.
Qed.

Theorem select_receive_good src_idx src snap rr x o h p :
  p_sel p <> None ->
  Inv o h p -> Good o h p (select_receive true P src_idx src snap rr x h p).
Proof.
  intros SE. apply Good_start. intro S. unfold select_receive. cbv zeta.
  set (ridx := count_recv (firstn src_idx (ss_sources snap))).
  eapply (G_call2 _ _ _ (fun _ p' => p_sel p' <> None)); [exact S| | |].
  - intro HI. destruct (ss_recv snap) as [[idx mv]|]; [destruct (idx =? ridx)|];
      [apply receive_result_good; exact HI|apply Good_mret; exact HI|apply Good_mret; exact HI].
  - destruct (ss_recv snap) as [[idx mv]|]; [destruct (idx =? ridx)|];
      [apply receive_result_sel; exact SE|exact SE|exact SE].
  - intros [v|] h9 p9 S9 SE9; [apply G_end_val; exact S9|].
    apply G_mget; cbv beta. apply G_tail; [exact S9|apply scan_mailbox_good; exact SE9].
Qed.

Theorem select_sources_good snap rr start now x srcs src_idx o h p :
  p_sel p <> None ->
  Inv o h p -> Good o h p (select_sources true P snap rr start now x srcs src_idx h p).
Proof.
  revert src_idx h p.
  induction srcs as [|s rest IH]; intros src_idx h p SE; apply Good_start; intro S0;
    cbn [select_sources]; [exact S0|].
  (* after a source that did not fire, the loop goes on with a select state still in place *)
  assert (Next : forall h9 p9, StX o h p [] h9 p9 -> p_sel p9 <> None ->
            G o h p (select_sources true P snap rr start now x rest (S src_idx) h9 p9)).
  { intros h9 p9 S9 SE9. apply G_tail; [exact S9|apply IH; exact SE9]. }
  assert (Done : forall v h9 p9, StX o h p [] h9 p9 -> G o h p (complete_select true v h9 p9)).
  { intros v h9 p9 S9. apply G_tail; [exact S9|apply complete_select_good]. }
  (* a receiving source (a closure or a builtin) *)
  assert (Recv : forall s', G o h p (mbind (select_receive true P src_idx s' snap rr x)
            (fun r => match r with
                      | SComplete v => complete_select true v
                      | SCalled => mret None
                      | SContinue => select_sources true P snap rr start now x rest (S src_idx)
                      end) h p)).
  { intro s'.
    eapply (G_call2 _ _ _ (fun a p' => match a with SContinue => p_sel p' <> None | _ => True end));
      [exact S0|apply select_receive_good; exact SE|apply select_receive_sel; exact SE|].
    intros [v| |] h9 p9 S9 SE9; auto. }
  (* the sources that are no source fail at once, in the state S0 *)
  destruct s as [timeout|b|r|t fs|f caps|b|t f|rid ty]; try exact S0; try apply Recv.
  - cbv zeta. destruct (Z.max timeout 0 <=? Z.max 0 (now - start))%Z; auto.
  - apply G_mget; cbv beta. destruct (assoc_get t (p_await p)) as [[v|]|]; auto.
Qed.

(* handle_select (2582): the select machine as committed (fx = true) keeps the exact-count invariant *)
Theorem handle_select_good pid x o h p :
  Inv o h p -> Good o h p (handle_select true P pid x h p).
Proof.
  apply Good_start. intro S. unfold handle_select.
  eapply G_call; [exact S|apply select_continuation_good|].
  intros rr h9 p9 S9. apply G_mget; cbv beta.
  destruct p9 as [st lo fr pe mb rs se aw ur]. pcbn.
  destruct se as [[sf si srcs cur start recv]|].
  - destruct ur as [|u ur'].
    + (* whatever the receive function said, the sources are gone through again *)
      destruct rr as [v|]; pcbn; cbv zeta; apply G_mput; cbv beta;
        (apply G_tail; [t_done|apply select_sources_good; pcbn; discriminate]).
    + (* 8388832: with unreported awaits the select only re-parks: no heap reference moves *)
      destruct rr as [v|]; pcbn; apply G_end_val; exact S9.
  - destruct rr as [v|].
    + pcbn. destruct ur as [|u ur']; [apply G_end_err; exact S9|apply G_end_val; exact S9].
    + apply G_tail; [exact S9|apply initialize_select_good; reflexivity].
Qed.
End Sel.

(* non-vacuity: a select state holding slot 0 completes with an integer; the source is released *)
Example complete_select_ex :
  match complete_select true (VInt 1) wit_heap
          (mkProc [] [] [wit_frame] false [] None (Some (mkSel 0 0 [VBin 0] [] None None)) [] []) with
  | MVal None h' p' => rc_at h' 0 = 0 /\ p_sel p' = None /\ p_stack p' = [VInt 1] /\ pending h' = [0]
  | _ => False
  end.
Proof. vm_compute. repeat split; reflexivity. Qed.

(* 09625d4: completing a select on a process forgets it: the entry disappears from `awaiting` and the
   stored result (slot 0) is released; before the repair (false) the entry and its count stay *)
Example complete_select_forgets :
  match complete_select true (VInt 1) wit_heap
          (mkProc [] [] [wit_frame] false [] None (Some (mkSel 0 0 [VProc 7 0] [] None None))
                  [(7, Some (VBin 0))] []) with
  | MVal None h' p' => rc_at h' 0 = 0 /\ p_await p' = [] /\ pending h' = [0]
  | _ => False
  end /\
  match complete_select false (VInt 1) wit_heap
          (mkProc [] [] [wit_frame] false [] None (Some (mkSel 0 0 [VProc 7 0] [] None None))
                  [(7, Some (VBin 0))] []) with
  | MVal None h' p' => rc_at h' 0 = 1 /\ p_await p' = [(7, Some (VBin 0))]
  | _ => False
  end.
Proof. vm_compute. repeat split; reflexivity. Qed.

Print Assumptions complete_select_good.
Print Assumptions select_continuation_good.
Print Assumptions initialize_select_good.
Print Assumptions initialize_select_refuted.
Print Assumptions take_message_good.
Print Assumptions call_receive_function_good.
Print Assumptions call_receive_refuted.
Print Assumptions handle_select_good.
