(* HeapExec.v — the refcount invariant at the level of the whole executor (all processes of one
   worker + the cached constants): every entry point of HeapVm.v that touches a process from the
   outside (notify_*, spawn_process, replace_locals, release_orphan_locals, fail_result,
   resume_process) and Executor::step itself re-establish

       XInv x : WFh (heap) /\ refcounts[i] = number of occurrences of i in ALL roots /\ keys unique.

   The instruction handlers enter through the section hypothesis `exec_instr_good` (proved in
   another file); the defects of the code as found are `*_refuted` examples. Commit ids in comments
   (09625d4, 8388832) are those of /repo that the header of HeapVm.v explains. *)
From Quiver Require Import heap.HeapInv heap.HeapTransfer.
From Quiver Require heap.HeapHandlers.
Require Import Lia List Arith.
Import ListNotations.
Local Open Scope nat_scope.

Definition RC (x : exec) : Prop := forall i, rc_at (x_heap x) i = cnt i (all_refs x).
Definition XInv (x : exec) : Prop := WFh (x_heap x) /\ RC x /\ NoDup (map fst (x_procs x)).
Definition xstable (x x' : exec) : Prop := stable (x_heap x) (x_heap x').

Definition prefs (l : list (nat * proc)) : list nat := flat_map (fun e => proc_refs (snd e)) l.
Definition orefs (pid : nat) (l : list (nat * proc)) : list nat :=
  flat_map (fun e => if fst e =? pid then [] else proc_refs (snd e)) l.
(* the references of every process except pid *)
Definition others (x : exec) (pid : nat) : list nat := orefs pid (x_procs x).

Lemma assoc_get_None {A} k (l : list (nat * A)) : assoc_get k l = None -> ~ In k (map fst l).
Proof.
  induction l as [|[j a] t IH]; intros H; cbn [assoc_get map fst In] in *; [tauto|].
  destruct (k =? j) eqn:E; [discriminate|]. apply Nat.eqb_neq in E.
  intros [Hj|Hin]; [congruence|]. apply IH; assumption.
Qed.

Lemma assoc_get_In {A} k (l : list (nat * A)) a : assoc_get k l = Some a -> In (k, a) l.
Proof.
  induction l as [|[j b] t IH]; intros H; cbn [assoc_get In] in *; [discriminate|].
  destruct (k =? j) eqn:E.
  - apply Nat.eqb_eq in E. inversion H; subst. left; reflexivity.
  - right. apply IH; assumption.
Qed.

Lemma assoc_get_of_In {A} k (l : list (nat * A)) a :
  NoDup (map fst l) -> In (k, a) l -> assoc_get k l = Some a.
Proof.
  induction l as [|[j b] t IH]; intros ND H; cbn [assoc_get In map fst] in *; [contradiction|].
  inversion ND as [|? ? Hnin ND']; subst.
  destruct H as [H|H].
  - inversion H; subst. rewrite Nat.eqb_refl. reflexivity.
  - destruct (k =? j) eqn:E.
    + apply Nat.eqb_eq in E. subst j. exfalso. apply Hnin.
      change k with (fst (k, a)). apply in_map. assumption.
    + apply IH; assumption.
Qed.

Lemma orefs_notin pid l : ~ In pid (map fst l) -> orefs pid l = prefs l.
Proof.
  induction l as [|[j p] t IH]; intros H; [reflexivity|].
  unfold orefs, prefs in *. cbn [flat_map fst snd map In] in *.
  destruct (j =? pid) eqn:E.
  - apply Nat.eqb_eq in E. exfalso. apply H. left; assumption.
  - rewrite IH; [reflexivity|]. intros Hin. apply H. right; assumption.
Qed.

Lemma prefs_split pid l p i :
  NoDup (map fst l) -> assoc_get pid l = Some p ->
  cnt i (prefs l) = cnt i (orefs pid l) + cnt i (proc_refs p).
Proof.
  induction l as [|[j q] t IH]; intros ND H; cbn [assoc_get] in H; [discriminate|].
  cbn [map fst] in ND. inversion ND as [|? ? Hnin ND']; subst.
  unfold orefs, prefs in *. cbn [flat_map fst snd].
  destruct (pid =? j) eqn:E.
  - apply Nat.eqb_eq in E. subst j. inversion H; subst q. rewrite Nat.eqb_refl.
    fold (orefs pid t). fold (prefs t). rewrite (orefs_notin _ _ Hnin).
    rewrite cnt_app. cbn [app]. lia.
  - rewrite Nat.eqb_sym, E. rewrite !cnt_app. rewrite (IH ND' H). lia.
Qed.

Lemma assoc_set_keys {A} k (a : A) l :
  map fst (fst (assoc_set k a l)) =
  if existsb (Nat.eqb k) (map fst l) then map fst l else map fst l ++ [k].
Proof.
  induction l as [|[j b] t IH]; cbn [assoc_set]; [reflexivity|]. cbn [map fst existsb].
  destruct (k =? j) eqn:E; [apply Nat.eqb_eq in E; subst j; reflexivity|].
  destruct (assoc_set k a t) as [t' o]. cbn [fst map orb] in *. rewrite IH.
  destruct (existsb (Nat.eqb k) (map fst t)); reflexivity.
Qed.

Lemma assoc_set_NoDup {A} k (a : A) l :
  NoDup (map fst l) -> NoDup (map fst (fst (assoc_set k a l))).
Proof.
  intros ND. rewrite assoc_set_keys.
  destruct (existsb (Nat.eqb k) (map fst l)) eqn:E; [assumption|].
  apply (NoDup_Add (Add_app k (map fst l) [])). rewrite app_nil_r. split; [exact ND|].
  intro Hin. apply existsb_eqb_In in Hin. congruence.
Qed.

Lemma assoc_get_set {A} k (a : A) l k' :
  assoc_get k' (fst (assoc_set k a l)) = if k' =? k then Some a else assoc_get k' l.
Proof.
  induction l as [|[j b] t IH]; cbn [assoc_set assoc_get fst].
  - destruct (k' =? k); reflexivity.
  - destruct (k =? j) eqn:E.
    + apply Nat.eqb_eq in E. subst j. cbn [fst assoc_get]. destruct (k' =? k); reflexivity.
    + destruct (assoc_set k a t) as [t' o] eqn:Es. cbn [fst assoc_get] in *.
      destruct (k' =? j) eqn:E'.
      * apply Nat.eqb_eq in E'. subst j. rewrite Nat.eqb_sym, E. reflexivity.
      * exact IH.
Qed.

Lemma orefs_set pid p l : orefs pid (fst (assoc_set pid p l)) = orefs pid l.
Proof.
  induction l as [|[j q] t IH]; cbn [assoc_set].
  - unfold orefs. cbn [fst flat_map snd]. rewrite Nat.eqb_refl. reflexivity.
  - destruct (pid =? j) eqn:E.
    + apply Nat.eqb_eq in E. subst j. unfold orefs. cbn [fst flat_map snd].
      rewrite Nat.eqb_refl. reflexivity.
    + destruct (assoc_set pid p t) as [t' o] eqn:Es. cbn [fst] in *.
      unfold orefs in *. cbn [flat_map fst snd]. rewrite IH. reflexivity.
Qed.

Lemma all_refs_split x pid p :
  NoDup (map fst (x_procs x)) -> get_proc x pid = Some p ->
  forall i, cnt i (all_refs x) = cnt i (others x pid) + cnt i (cb_refs (x_heap x)) + cnt i (proc_refs p).
Proof.
  intros ND G i. change (all_refs x) with (prefs (x_procs x) ++ cb_refs (x_heap x)).
  rewrite cnt_app, (prefs_split pid _ p i ND G). unfold others. lia.
Qed.

Lemma all_refs_none x pid :
  get_proc x pid = None ->
  forall i, cnt i (all_refs x) = cnt i (others x pid) + cnt i (cb_refs (x_heap x)).
Proof.
  intros G i. change (all_refs x) with (prefs (x_procs x) ++ cb_refs (x_heap x)).
  unfold others. rewrite cnt_app, (orefs_notin pid _ (assoc_get_None _ _ G)). reflexivity.
Qed.

Lemma get_put_proc x pid p w :
  get_proc (put_proc x pid p) w = if w =? pid then Some p else get_proc x w.
Proof. apply assoc_get_set. Qed.

Lemma XInv_take x pid p : XInv x -> get_proc x pid = Some p -> Inv (others x pid) (x_heap x) p.
Proof.
  intros (W & R & ND) G. split; [exact W|]. intro i. rewrite (R i).
  apply all_refs_split; assumption.
Qed.

Lemma XInv_take_none x pid p :
  XInv x -> get_proc x pid = None -> proc_refs p = [] -> Inv (others x pid) (x_heap x) p.
Proof.
  intros (W & R & ND) G E. split; [exact W|]. intro i. rewrite (R i), E, cnt_nil.
  rewrite (all_refs_none _ _ G). lia.
Qed.

Lemma XInv_put x h' pid p' :
  NoDup (map fst (x_procs x)) -> Inv (others x pid) h' p' -> XInv (put_proc (put_heap x h') pid p').
Proof.
  intros ND [W H].
  assert (ND' : NoDup (map fst (x_procs (put_proc (put_heap x h') pid p'))))
    by (apply assoc_set_NoDup; exact ND).
  split; [exact W|]. split; [|exact ND']. intro i.
  rewrite (all_refs_split _ pid p' ND'), H by (rewrite get_put_proc, Nat.eqb_refl; reflexivity).
  unfold others, put_proc. cbn [x_procs x_heap put_heap]. rewrite orefs_set. reflexivity.
Qed.

Lemma XInv_put_Rx x h' pid p' :
  XInv x -> Rx (others x pid) (x_heap x) [] h' p' ->
  XInv (put_proc (put_heap x h') pid p') /\ xstable x (put_proc (put_heap x h') pid p').
Proof.
  intros (_ & _ & ND) [HI St]. split; [|exact St]. apply XInv_put; [exact ND|]. apply InvX_nil, HI.
Qed.

Lemma XInv_put_heap x h' :
  XInv x -> WFh h' -> (forall i, rc_at h' i = rc_at (x_heap x) i) -> cbins h' = cbins (x_heap x) ->
  XInv (put_heap x h').
Proof.
  intros (W & R & ND) W' Hrc Hcb. split; [exact W'|]. split; [|exact ND].
  intro i. unfold all_refs, put_heap, cb_refs. cbn [x_heap x_procs]. rewrite Hrc, Hcb. apply R.
Qed.

Lemma XInv_put_same x pid p p' :
  XInv x -> get_proc x pid = Some p -> (forall i, cnt i (proc_refs p') = cnt i (proc_refs p)) ->
  XInv (put_proc x pid p').
Proof.
  intros X G E. change (put_proc x pid p') with (put_proc (put_heap x (x_heap x)) pid p').
  apply XInv_put; [apply X|]. eapply Inv_move; [exact E|exact (XInv_take _ _ _ X G)].
Qed.

Lemma XInv_same x : XInv x -> XInv x /\ xstable x x.
Proof. intro X. split; [exact X|apply stable_refl]. Qed.

(* a transferred value arrives for a process that is gone: its copies stay uncounted *)
Lemma inject_XInv x v data h1 v1 :
  XInv x -> inject (x_heap x) v data = Val (h1, v1) -> XInv (put_heap x h1) /\ xstable x (put_heap x h1).
Proof.
  intros X Hi. destruct (inject_WF _ _ _ _ _ (proj1 X) Hi) as (W1 & St1 & Rc1 & _ & Cb1).
  split; [apply XInv_put_heap; assumption|exact St1].
Qed.

Lemma notify_message_XInv x pid v data x' :
  XInv x -> notify_message x pid v data = Val x' -> XInv x' /\ xstable x x'.
Proof.
  intros X H. unfold notify_message in H.
  apply obind_val in H as ([h1 v1] & Hi & H).
  destruct (get_proc x pid) as [p|] eqn:G; [|injection H as <-; eapply inject_XInv; eauto].
  apply obind_val in H as (h2 & Hr & H). injection H as <-.
  pose proof (Rx_init _ _ _ (XInv_take _ _ _ X G)) as S.
  eapply inject_Rx in S; [|exact Hi]. eapply retain_Rx in S; [|exact Hr].
  apply (XInv_put_Rx _ _ _ _ X). revert S. apply Rx_move. cnts.
Qed.

Lemma notify_result_store_XInv x awaiter awaited v data x' :
  XInv x -> notify_result_store true x awaiter awaited v data = Val x' -> XInv x' /\ xstable x x'.
Proof.
  intros X H. unfold notify_result_store in H.
  apply obind_val in H as ([h1 v1] & Hi & H).
  destruct (get_proc x awaiter) as [p|] eqn:G; [|injection H as <-; eapply inject_XInv; eauto].
  apply obind_val in H as (h2 & Hr & H).
  destruct (assoc_set awaited (Some v1) (p_await p)) as [a' old] eqn:Es.
  apply obind_val in H as (h3 & Hrel & H). injection H as <-.
  assert (Hrel' : release_l h2 (result_refs old) = Val h3) by (destruct old as [[o|]|]; exact Hrel).
  pose proof (Rx_init _ _ _ (XInv_take _ _ _ X G)) as S.
  eapply inject_Rx in S; [|exact Hi]. eapply retain_Rx in S; [|exact Hr].
  apply (XInv_put_Rx _ _ _ _ X). eapply release_Rx; [|exact Hrel']. revert S. apply Rx_move.
  intro i. pose proof (await_set_cnt _ _ _ _ _ i Es) as Ha. cbn [result_refs] in Ha. cnt_norm. lia.
Qed.

(* the witness of notify_result_refuted: process 0 holds a result for process 1 in `awaiting` *)
Definition nr_heap : heap := mkHeap [Owned []] [1] [] [] [false] [].
Definition nr_exec : exec :=
  mkExec nr_heap [(0, mkProc [] [] [] false [] None None [(1, Some (VBin 0))] [])].

Lemma nth_nil_nat i : nth i (@nil nat) 0 = 0.
Proof. destruct i; reflexivity. Qed.
Lemma nth_nil_bool i : nth i (@nil bool) false = false.
Proof. destruct i; reflexivity. Qed.

(* XInv of a closed executor is a finite fact as well. Counts are compared on the slots in range;
   that no root refers beyond them (where rc_at reads 0) is the third test. *)
Definition xinvb (x : exec) : bool :=
  wfhb (x_heap x) && nodupb (map fst (x_procs x)) &&
  forallb (fun i => i <? length (rcs (x_heap x))) (all_refs x) &&
  forallb (fun i => rc_at (x_heap x) i =? cnt i (all_refs x)) (seq 0 (length (rcs (x_heap x)))).

Lemma XInv_check x : xinvb x = true -> XInv x.
Proof.
  unfold xinvb. rewrite !andb_true_iff, !forallb_forall. intros (((W & ND) & Hin) & Hrc).
  split; [apply WFh_check; exact W|]. split; [|apply nodupb_NoDup; exact ND].
  intro i. destruct (Nat.lt_ge_cases i (length (rcs (x_heap x)))) as [Hl|Hg].
  - apply Nat.eqb_eq, Hrc, in_seq. lia.
  - unfold rc_at. rewrite nth_overflow by exact Hg. symmetry. apply cnt_zero_notIn.
    intro H. apply Hin, Nat.ltb_lt in H. lia.
Qed.

Example nr_exec_XInv : XInv nr_exec.
Proof. apply XInv_check. reflexivity. Qed.

(* finding F9, third site: without the repair the displaced `awaiting` value is dropped without a
   release *)
Example notify_result_refuted :
  exists x v, XInv x /\ exists x', notify_result false x 0 1 v [] = Val x' /\ ~ RC x'.
Proof.
  exists nr_exec, (VInt 5%Z). split; [exact nr_exec_XInv|].
  eexists. split; [vm_compute; reflexivity|].
  intro R. specialize (R 0). vm_compute in R. discriminate R.
Qed.

Lemma notify_spawn_XInv x pid pv x' :
  refs_of pv = [] -> XInv x -> notify_spawn x pid pv = Val x' -> XInv x' /\ xstable x x'.
Proof.
  intros E X H. unfold notify_spawn in H.
  destruct (get_proc x pid) as [p|] eqn:G; [|injection H as <-; apply XInv_same, X].
  unfold bump_pc in H. injection H as <-. split; [|apply stable_refl].
  apply (XInv_put_same _ _ _ _ X G). intro i. cnt_norm. rewrite E, cnt_nil. lia.
Qed.

Lemma inject_caps_Rx o x h0 p data : forall caps h acc h' locals,
  Rx o h0 (refs_list acc ++ x) h p -> inject_caps h caps data acc = Val (h', locals) ->
  Rx o h0 (refs_list locals ++ x) h' p.
Proof.
  induction caps as [|c r IH]; intros h acc h' locals S H; cbn [inject_caps] in H.
  - injection H as <- <-. exact S.
  - apply obind_val in H as ([h1 c1] & Hi & H). apply obind_val in H as (h2 & Hr & H).
    eapply inject_Rx in S; [|exact Hi]. eapply retain_Rx in S; [|exact Hr].
    eapply IH; [|exact H]. revert S. apply Rx_move. cnts.
Qed.

Lemma spawn_process_XInv x pid fn caps arg data pers x' :
  XInv x -> get_proc x pid = None -> spawn_process x pid fn caps arg data pers = Val x' ->
  XInv x' /\ xstable x x'.
Proof.
  intros X G H. unfold spawn_process in H.
  pose proof (Rx_init _ _ _ (XInv_take_none _ _ (new_proc pers) X G eq_refl)) as S.
  destruct fn as [f|].
  - apply obind_val in H as ([h1 locals] & Hc & H).
    apply obind_val in H as ([h2 a1] & Hi & H).
    apply obind_val in H as (h3 & Hr & H). injection H as <-.
    apply (inject_caps_Rx _ [] _ _ _ _ _ [] _ _ S) in Hc.
    eapply inject_Rx in Hc; [|exact Hi]. eapply retain_Rx in Hc; [|exact Hr].
    apply (XInv_put_Rx _ _ _ _ X). revert Hc. apply Rx_move. cnts.
  - injection H as <-. change (put_proc x pid ?q) with (put_proc (put_heap x (x_heap x)) pid q).
    apply (XInv_put_Rx _ _ _ _ X). revert S. apply Rx_move. cnts.
Qed.

Example empty_exec_XInv : XInv (mkExec empty_heap []).
Proof. apply XInv_check. reflexivity. Qed.

(* finding F46: every capture and the argument are injected with the WHOLE heap_data, so each
   further injection allocates copies nobody references: count 0, not freed, not queued *)
Example spawn_orphans_refuted :
  exists x x', XInv x /\ NoOrphan (x_heap x) /\
    spawn_process x 1 (Some 0) [VBin 0] (VInt 0%Z) [[1%Z]] false = Val x' /\
    ~ NoOrphan (x_heap x').
Proof.
  exists (mkExec empty_heap []). eexists. split; [|split; [|split]].
  - exact empty_exec_XInv.
  - intros i Hi. cbn in Hi. lia.
  - vm_compute. reflexivity.
  - intro NO. destruct (NO 1) as [Hf|Hp].
    + cbn. lia.
    + reflexivity.
    + vm_compute in Hf. discriminate Hf.
    + vm_compute in Hp. exact Hp.
Qed.

Lemma replace_locals_XInv x pid new x' :
  XInv x -> replace_locals x pid new = Val x' -> XInv x' /\ xstable x x'.
Proof.
  intros X H. unfold replace_locals in H.
  destruct (get_proc x pid) as [p|] eqn:G; [|injection H as <-; apply XInv_same, X].
  apply obind_val in H as (h1 & Hr & H). apply obind_val in H as (h2 & Hl & H). injection H as <-.
  pose proof (Rx_init _ _ _ (XInv_take _ _ _ X G)) as S. eapply retain_Rx in S; [|exact Hr].
  apply (XInv_put_Rx _ _ _ _ X). eapply release_Rx; [|exact Hl]. revert S. apply Rx_move. cnts.
Qed.

Lemma compact_locals_XInv x pid keep x' :
  XInv x -> compact_locals x pid keep = Val x' -> XInv x' /\ xstable x x'.
Proof.
  intros X H. unfold compact_locals in H.
  destruct (get_proc x pid) as [p|]; [|injection H as <-; apply XInv_same, X].
  destruct (pick_locals (p_locals p) keep) as [vs|]; [|injection H as <-; apply XInv_same, X].
  eapply replace_locals_XInv; eauto.
Qed.

Lemma orphan_split_cnt keep i : forall l idx l' o,
  orphan_split l idx keep = (l', o) ->
  cnt i (refs_list l) = cnt i (refs_list l') + cnt i (refs_list o).
Proof.
  induction l as [|v t IH]; intros idx l' o H; cbn [orphan_split] in H.
  - inversion H; subst. reflexivity.
  - destruct (orphan_split t (S idx) keep) as [l1 o1] eqn:E. specialize (IH _ _ _ E).
    destruct (existsb (Nat.eqb idx) keep); inversion H; subst;
      rewrite !cnt_refs_list_cons; change (refs_of vnil) with (@nil nat); rewrite ?cnt_nil; lia.
Qed.

Lemma release_orphan_locals_XInv x pid keep x' :
  XInv x -> release_orphan_locals x pid keep = Val x' -> XInv x' /\ xstable x x'.
Proof.
  intros X H. unfold release_orphan_locals in H.
  destruct (get_proc x pid) as [p|] eqn:G; [|injection H as <-; apply XInv_same, X].
  destruct (orphan_split (p_locals p) 0 keep) as [l' orphans] eqn:Eo.
  apply obind_val in H as (h1 & Hl & H). injection H as <-.
  apply (XInv_put_Rx _ _ _ _ X). eapply release_Rx; [|exact Hl].
  generalize (Rx_init _ _ _ (XInv_take _ _ _ X G)). apply Rx_move.
  intro i. cnt_norm. rewrite (orphan_split_cnt _ i _ _ _ _ Eo). lia.
Qed.

(* 8388832: notify_await_report only edits the list of unreported awaits — no root changes *)
Lemma report_await_XInv x awaiter targets :
  XInv x -> XInv (report_await x awaiter targets) /\ xstable x (report_await x awaiter targets).
Proof.
  intros X. unfold report_await.
  destruct (get_proc x awaiter) as [p|] eqn:G; [|apply XInv_same, X].
  split; [|apply stable_refl]. apply (XInv_put_same _ _ _ _ X G). cnts.
Qed.

Lemma notify_result_XInv x awaiter awaited v data x' :
  XInv x -> notify_result true x awaiter awaited v data = Val x' -> XInv x' /\ xstable x x'.
Proof.
  intros X H. unfold notify_result in H.
  destruct (true && negb (still_awaited x awaiter awaited)); [injection H as <-; apply XInv_same, X|].
  destruct (report_await_XInv x awaiter [awaited] X) as [X1 S1].
  destruct (notify_result_store_XInv _ _ _ _ _ _ X1 H) as [X2 S2].
  split; [exact X2|]. unfold xstable in *. eapply stable_trans; eauto.
Qed.

Lemma fail_result_XInv fx x pid awaited :
  XInv x -> (forall p, get_proc x pid = Some p -> result_refs (p_result p) = []) ->
  XInv (fail_result fx x pid awaited).
Proof.
  intros X Hr. unfold fail_result.
  destruct (get_proc x pid) as [p|] eqn:G; [|exact X].
  destruct (fx && negb (has_key awaited (p_await p))); [exact X|].
  apply (XInv_put_same _ _ _ _ X G). intro i. cnt_norm. rewrite (Hr p eq_refl), cnt_nil. lia.
Qed.

(* finding F45h: worker.rs notify_result(Err) overwrites an Ok result without releasing it *)
Definition fr_exec : exec :=
  mkExec nr_heap [(0, mkProc [] [] [] false [] (Some (Some (VBin 0))) None [] [])].

Example fr_exec_XInv : XInv fr_exec.
Proof. apply XInv_check. reflexivity. Qed.

Example fail_result_refuted : exists x, XInv x /\ ~ RC (fail_result false x 0 1).
Proof.
  exists fr_exec. split; [exact fr_exec_XInv|].
  intro R. specialize (R 0). vm_compute in R. discriminate R.
Qed.

(* 09625d4: a stale failure (the awaiter no longer awaits the failed process) changes nothing; on
   the F45h witness the code as committed (fx = true) keeps the Ok result and the exact count *)
Lemma fail_result_stale x pid awaited p :
  get_proc x pid = Some p -> has_key awaited (p_await p) = false -> fail_result true x pid awaited = x.
Proof. intros G K. unfold fail_result. rewrite G, K. reflexivity. Qed.

Example fail_result_repaired : fail_result true fr_exec 0 1 = fr_exec /\ XInv (fail_result true fr_exec 0 1).
Proof. split; [reflexivity|exact fr_exec_XInv]. Qed.

Lemma resume_process_XInv x pid fn : XInv x -> XInv (resume_process x pid fn).
Proof.
  intros X. unfold resume_process.
  destruct (get_proc x pid) as [p|] eqn:G; [|exact X].
  destruct (p_result p) as [[v|]|] eqn:Er; try exact X.
  apply (XInv_put_same _ _ _ _ X G). intro i. cnt_norm. rewrite Er. cbn [result_refs]. lia.
Qed.

Theorem no_use_after_free_x x :
  XInv x -> forall i, freed_at (x_heap x) i = true -> cnt i (all_refs x) = 0.
Proof.
  intros (W & R & _) i Hf. rewrite <- (R i).
  destruct W as (_ & _ & _ & _ & W5 & _). apply W5. exact Hf.
Qed.

Definition sh_heap : heap :=
  mkHeap [Owned [1%Z; 2%Z; 3%Z]; Slice (Owned [1%Z; 2%Z; 3%Z]) 1%Z 2%Z] [3; 1] [] []
         [false; false] [].
Definition sh_exec : exec :=
  mkExec sh_heap
    [(1, mkProc [VBin 0] [VTuple 0 [VInt 7%Z; VBin 0]] [] false [] None None [] []);
     (2, mkProc [] [] [] false [VBin 0] (Some (Some (VBin 1))) None [] [])].

Example shared_sliced_RC : XInv sh_exec.
Proof. apply XInv_check. reflexivity. Qed.

Example shared_sliced_bytes :
  bytes_at (x_heap sh_exec) 1 = [2%Z; 3%Z] /\ cnt 0 (all_refs sh_exec) = 3 /\ cnt 1 (all_refs sh_exec) = 1.
Proof. split; [reflexivity|split; reflexivity]. Qed.

(* non-vacuity of the entry-point theorems: a message carrying a fresh binary is delivered to
   process 2 of the shared executor (slot 2 is allocated and counted once) *)
Example notify_message_live :
  exists x', notify_message sh_exec 2 (VBin 0) [[9%Z]] = Val x' /\ XInv x' /\
             rc_at (x_heap x') 2 = 1 /\ rc_at (x_heap x') 0 = 3.
Proof.
  destruct (notify_message sh_exec 2 (VBin 0) [[9%Z]]) as [x'|e|n] eqn:E;
    [|vm_compute in E; discriminate E|vm_compute in E; discriminate E].
  exists x'. split; [reflexivity|].
  split; [exact (proj1 (notify_message_XInv _ _ _ _ _ shared_sliced_RC E))|].
  vm_compute in E. inversion E; subst x'. split; reflexivity.
Qed.

(* completion: notify every awaiter (fx = true). A failure overwrites the awaiter's
   result, which therefore must hold no reference. *)
Lemma notify_awaiters_XInv pid res : forall ws x x',
  XInv x ->
  (res = None -> forall w p, In w ws -> get_proc x w = Some p -> result_refs (p_result p) = []) ->
  notify_awaiters true x pid res ws = Val x' -> XInv x' /\ xstable x x'.
Proof.
  induction ws as [|w rest IH]; intros x x' X Hf H; cbn [notify_awaiters] in H.
  - injection H as <-. apply XInv_same, X.
  - apply obind_val in H as (x1 & H1 & H).
    enough (S1 : (XInv x1 /\ xstable x x1) /\
                 (res = None -> forall w' p, In w' rest -> get_proc x1 w' = Some p ->
                                             result_refs (p_result p) = [])).
    { destruct S1 as [[X1 St1] Hf1]. destruct (IH _ _ X1 Hf1 H) as [X' St'].
      split; [exact X'|]. unfold xstable in *. eapply stable_trans; eauto. }
    destruct res as [v|].
    + split; [|discriminate].
      destruct (notify_result true x w pid v []) as [xa|e|n] eqn:En; inversion H1; subst x1.
      * eapply notify_result_XInv; eauto.
      * apply report_await_XInv, X.
    + destruct (get_proc x w) as [p|] eqn:G; injection H1 as <-.
      * split; [split; [|apply stable_refl]|].
        { apply (XInv_put_same _ _ _ _ X G). intro i. cnt_norm.
          rewrite (Hf eq_refl w p (or_introl eq_refl) G), cnt_nil. lia. }
        intros _ w' p' Hin G'. rewrite get_put_proc in G'. destruct (w' =? w).
        { injection G' as <-. reflexivity. }
        { exact (Hf eq_refl w' p' (or_intror Hin) G'). }
      * split; [apply XInv_same, X|]. intros _ w' p' Hin. apply (Hf eq_refl). right. exact Hin.
Qed.

Lemma ppf_XInv x h0 : XInv x -> ppf (x_heap x) = Val h0 -> XInv (put_heap x h0).
Proof.
  intros X Hp. destruct (ppf_spec _ _ (proj1 X) Hp) as (W0 & Ercs & _ & Ecb & _).
  apply XInv_put_heap; [exact X|exact W0| |exact Ecb].
  intro i. unfold rc_at. rewrite Ercs. reflexivity.
Qed.

(* process_pending_free only reclaims slots nobody holds *)
Lemma ppf_live x h0 : XInv x -> ppf (x_heap x) = Val h0 ->
  forall i, cnt i (all_refs x) > 0 ->
    i < length (cells h0) /\ freed_at h0 i = false /\ bytes_at h0 i = bytes_at (x_heap x) i.
Proof.
  intros X Hp i Hc. pose proof X as (W & R & ND).
  destruct (ppf_spec _ _ W Hp) as (W0 & Ercs & _ & Ecb & Elen & Hiff & _).
  rewrite <- (R i) in Hc.
  pose proof W as (L1 & _ & _ & _ & W5 & _).
  assert (Hf0 : freed_at h0 i = false).
  { destruct (freed_at h0 i) eqn:E; [|reflexivity].
    apply Hiff in E as [E|[_ E]]; [apply W5 in E|]; lia. }
  split; [|split; [exact Hf0|]].
  - rewrite Elen, <- L1. apply rc_at_lt. exact Hc.
  - apply (ppf_preserves_live _ _ W Hp i Hf0).
Qed.

(* the end of Executor::step, as exec_step has it after the auto-pop: a process whose frames are
   exhausted completes with the top of its stack, or has failed; its awaiters are notified *)
Definition complete (fx : bool) (x : exec) (h2 : heap) (pid : nat) (p2 : proc) : outcome exec :=
  match p_frames p2 with
  | _ :: _ => Val (put_proc (put_heap x h2) pid p2)
  | [] =>
      match p_result p2 with
      | Some None =>
          let x1 := put_proc (put_heap x h2) pid p2 in
          notify_awaiters fx x1 pid None
            (map fst (filter (fun e => has_key pid (p_await (snd e))) (x_procs x1)))
      | _ =>
          match p_stack p2 with
          | [] => Val (put_proc (put_heap x h2) pid (set_result p2 (Some None)))
          | v :: st =>
              let p3 := set_result (set_stack p2 st) (Some (Some v)) in
              let x1 := put_proc (put_heap x h2) pid p3 in
              notify_awaiters fx x1 pid (Some v)
                (map fst (filter (fun e => has_key pid (p_await (snd e))) (x_procs x1)))
          end
      end
  end.

Lemma complete_XInv x h2 pid p2 x' :
  XInv x -> Inv (others x pid) h2 p2 -> result_refs (p_result p2) = [] ->
  (forall w pw, w <> pid -> get_proc x w = Some pw ->
     has_key pid (p_await pw) = true -> result_refs (p_result pw) = []) ->
  complete true x h2 pid p2 = Val x' -> XInv x' /\ stable h2 (x_heap x').
Proof.
  intros X I2 Hres Haw H. pose proof X as (_ & _ & ND). unfold complete in H.
  destruct (p_frames p2);
    [|injection H as <-; split; [apply XInv_put; assumption|apply stable_refl]].
  (* the two arms that are not a failure *)
  assert (HB : forall x'',
    match p_stack p2 with
    | [] => Val (put_proc (put_heap x h2) pid (set_result p2 (Some None)))
    | v :: st =>
        notify_awaiters true
          (put_proc (put_heap x h2) pid (set_result (set_stack p2 st) (Some (Some v)))) pid (Some v)
          (map fst (filter (fun e => has_key pid (p_await (snd e)))
             (x_procs (put_proc (put_heap x h2) pid (set_result (set_stack p2 st) (Some (Some v)))))))
    end = Val x'' -> XInv x'' /\ stable h2 (x_heap x'')).
  { intros x'' HH. destruct (p_stack p2) as [|v st] eqn:Es.
    - injection HH as <-. split; [|apply stable_refl]. apply XInv_put; [exact ND|].
      revert I2. apply Inv_move. intro i. cnt_norm. rewrite Hres, cnt_nil. lia.
    - eapply notify_awaiters_XInv in HH; [exact HH| |discriminate]. apply XInv_put; [exact ND|].
      revert I2. apply Inv_move. intro i. cnt_norm. rewrite Es, Hres, cnt_refs_list_cons, cnt_nil. lia. }
  destruct (p_result p2) as [[rv|]|] eqn:Er; [exact (HB _ H)| |exact (HB _ H)].
  assert (X1 : XInv (put_proc (put_heap x h2) pid p2)) by (apply XInv_put; assumption).
  eapply notify_awaiters_XInv in H; [exact H|exact X1|].
  intros _ w pw Hin Gw.
  apply in_map_iff in Hin as ([w0 pw0] & Ew & Hin). cbn [fst] in Ew; subst w0.
  apply filter_In in Hin as [Hin Hk]. cbn [snd] in Hk.
  apply (assoc_get_of_In _ _ _ (proj2 (proj2 X1))) in Hin.
  fold (get_proc (put_proc (put_heap x h2) pid p2) w) in Hin.
  rewrite Gw in Hin. injection Hin as <-. rewrite get_put_proc in Gw.
  destruct (w =? pid) eqn:Ew.
  - injection Gw as <-. rewrite Er. reflexivity.
  - apply Nat.eqb_neq in Ew. exact (Haw w pw Ew Gw Hk).
Qed.

Lemma fail_proc_Inv o h p : result_refs (p_result p) = [] -> Inv o h p -> Inv o h (fail_proc p).
Proof. intros E. apply Inv_move. intro i. cnt_norm. rewrite E, cnt_nil. lia. Qed.

Section Step.
Variable fx : bool.
Variable P : hprogram.
Variable instr_pre : proc -> instr -> Prop.
Hypothesis exec_instr_good : forall pid i x o h p,
  instr_pre p i -> Inv o h p -> Good o h p (exec_instr fx P pid i x h p).

(* the precondition of every instruction the slice executes, along the recursion of run_slice *)
Fixpoint SlicePre (pid fuel : nat) (xs : list hext) (dflt : hext) (h : heap) (p : proc) : Prop :=
  match fuel with
  | O => True
  | S fuel' =>
      match current_instr P p with
      | Val (Some i) =>
          instr_pre p i /\
          match exec_instr fx P pid i (match xs with e :: _ => e | [] => dflt end) h p with
          | MPanic _ => True
          | MErr _ h' p' => SlicePre pid fuel' (tl xs) dflt h' (fail_proc p')
          | MVal (Some _) _ _ => True
          | MVal None h' p' => SlicePre pid fuel' (tl xs) dflt h' p'
          end
      | _ => True
      end
  end.

Lemma run_slice_good pid o : forall fuel xs dflt h p h' p',
  SlicePre pid fuel xs dflt h p -> Inv o h p -> result_refs (p_result p) = [] ->
  run_slice fx P pid fuel xs dflt h p = Val (h', p') ->
  Inv o h' p' /\ stable h h' /\ result_refs (p_result p') = [].
Proof.
  induction fuel as [|fuel IH]; intros xs dflt h p h' p' Pre Iv Hres H; cbn [run_slice] in H.
  - injection H as <- <-. auto using stable_refl.
  - cbn [SlicePre] in Pre. cbv zeta in H.
    destruct (current_instr P p) as [[i|]|e|n] eqn:Ci; cbn [obind] in H; try discriminate H;
      [|injection H as <- <-; auto using stable_refl].
    destruct Pre as [Hpre Pre].
    pose proof (exec_instr_good pid i (match xs with e :: _ => e | [] => dflt end) o h p Hpre Iv) as G.
    destruct (exec_instr fx P pid i (match xs with e :: _ => e | [] => dflt end) h p)
      as [a h1 p1|e h1 p1|n]; cbn [Good] in G; [| |discriminate H];
      destruct G as (I1 & St1 & Er); rewrite <- Er in Hres.
    + destruct a; [injection H as <- <-; auto|].
      destruct (IH _ _ _ _ _ _ Pre I1 Hres H) as (I2 & St2 & R2). eauto using stable_trans.
    + destruct (IH _ _ _ _ _ _ Pre (fail_proc_Inv _ _ _ Hres I1) eq_refl H) as (I2 & St2 & R2).
      eauto using stable_trans.
Qed.

Lemma auto_pop_good o : forall fuel h p h' p',
  Inv o h p -> auto_pop P fuel h p = Val (h', p') ->
  Inv o h' p' /\ stable h h' /\ p_result p' = p_result p.
Proof.
  induction fuel as [|fuel IH]; intros h p h' p' Iv H; cbn [auto_pop] in H.
  - injection H as <- <-. auto using stable_refl.
  - destruct (current_instr P p) as [[i|]|e|n]; cbn [obind] in H; try discriminate H;
      [injection H as <- <-; auto using stable_refl|].
    destruct (p_frames p) as [|fr rest] eqn:Ef; [injection H as <- <-; auto using stable_refl|].
    cbv zeta in H.
    (* popping the frame and bumping the caller's counter moves no reference *)
    match type of H with context [auto_pop P fuel h ?q] => set (p2 := q) in H end.
    assert (E2 : proc_refs p2 = proc_refs p /\ p_result p2 = p_result p).
    { subst p2. match goal with |- context [if ?b then _ else _] => destruct b end; auto. }
    destruct E2 as [E2 R2].
    assert (Iv2 : Inv o h p2) by (revert Iv; apply Inv_move; intro; rewrite E2; reflexivity).
    clearbody p2. rewrite <- R2.
    match type of H with (if ?c then _ else _) = _ => destruct c end; [|eauto].
    pose proof (HeapHandlers.truncate_locals_I o (fr_base fr) h p2 Iv2 : Good o h p2 (truncate_locals _ h p2)) as G.
    destruct (truncate_locals (fr_base fr) h p2) as [u h1 q1|e h1 q1|n]; cbn [Good] in G;
      [| |discriminate H];
      destruct G as (I1 & St1 & <-); destruct (IH _ _ _ _ I1 H) as (I3 & St3 & R3);
      eauto using stable_trans.
Qed.

Theorem exec_step_XInv x pid q xs dflt x' :
  fx = true -> XInv x ->
  (forall pid0 p0 h0, pid = Some pid0 -> get_proc x pid0 = Some p0 -> ppf (x_heap x) = Val h0 ->
     result_refs (p_result p0) = [] /\ SlicePre pid0 q xs dflt h0 p0) ->
  (forall pid0 w pw, pid = Some pid0 -> w <> pid0 -> get_proc x w = Some pw ->
     has_key pid0 (p_await pw) = true -> result_refs (p_result pw) = []) ->
  exec_step fx P x pid q xs dflt = Val x' ->
  XInv x' /\
  (forall i, cnt i (all_refs x) > 0 -> cnt i (all_refs x') > 0 ->
     bytes_at (x_heap x') i = bytes_at (x_heap x) i /\ freed_at (x_heap x') i = false).
Proof.
  intros Efx X Hside Haw H. unfold exec_step in H.
  apply obind_val in H as (h0 & Hp & H).
  pose proof (ppf_XInv _ _ X Hp) as X0. pose proof (ppf_live _ _ X Hp) as Hlive.
  assert (Main : XInv x' /\ stable h0 (x_heap x')).
  { destruct pid as [pid0|]; [|injection H as <-; split; [exact X0|apply stable_refl]].
    destruct (get_proc x pid0) as [p0|] eqn:G;
      [|injection H as <-; split; [exact X0|apply stable_refl]].
    destruct (Hside pid0 p0 h0 eq_refl G Hp) as [Hres Pre].
    apply obind_val in H as ([h1 p1] & Hrun & H).
    apply obind_val in H as ([h2 p2] & Hpop & H).
    change (complete fx x h2 pid0 p2 = Val x') in H. rewrite Efx in H.
    destruct (run_slice_good _ _ _ _ _ _ _ _ _ Pre (XInv_take (put_heap x h0) pid0 p0 X0 G) Hres Hrun)
      as (I1 & St1 & Hres1).
    destruct (auto_pop_good _ _ _ _ _ _ I1 Hpop) as (I2 & St2 & Er2). rewrite <- Er2 in Hres1.
    destruct (complete_XInv _ _ _ _ _ X I2 Hres1 (fun w pw => Haw pid0 w pw eq_refl) H) as [X' St'].
    split; [exact X'|]. eauto using stable_trans. }
  destruct Main as [X' St']. split; [exact X'|]. intros i Hc _.
  destruct (Hlive i Hc) as (Hlt & Hf0 & Hb0). destruct St' as [_ Sb].
  destruct (Sb i Hlt Hf0) as [Hf' Hb']. split; [congruence|exact Hf'].
Qed.

End Step.

Print Assumptions exec_step_XInv.
Print Assumptions spawn_process_XInv.
Print Assumptions notify_result_XInv.
Print Assumptions notify_result_refuted.
Print Assumptions spawn_orphans_refuted.
Print Assumptions fail_result_refuted.
Print Assumptions shared_sliced_RC.
