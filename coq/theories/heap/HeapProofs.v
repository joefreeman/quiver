(* HeapProofs.v — invariants and per-primitive specifications of the heap model (Heap.v). *)
From Quiver Require Import heap.Heap.
Require Import Lia List Arith.
Import ListNotations.
Local Open Scope nat_scope.

Lemma upd_length {A} (l : list A) i x : length (upd l i x) = length l.
Proof.
  revert i; induction l as [|a t IH]; intros [|j]; simpl; auto.
Qed.

Lemma nth_upd_eq {A} (l : list A) i x d : i < length l -> nth i (upd l i x) d = x.
Proof.
  revert i; induction l as [|a t IH]; intros [|j] H; simpl in *; try lia; auto.
  apply IH; lia.
Qed.

Lemma nth_upd_neq {A} (l : list A) i j x d : i <> j -> nth j (upd l i x) d = nth j l d.
Proof.
  revert i j; induction l as [|a t IH]; intros [|i] [|j] H; simpl; auto; try congruence;
    try (apply IH; congruence).
Qed.

Lemma nth_error_upd_eq {A} (l : list A) i x :
  i < length l -> nth_error (upd l i x) i = Some x.
Proof.
  revert i; induction l as [|a t IH]; intros [|j] H; simpl in *; try lia; auto.
  apply IH; lia.
Qed.

Lemma nth_error_upd_neq {A} (l : list A) i j x :
  i <> j -> nth_error (upd l i x) j = nth_error l j.
Proof.
  revert i j; induction l as [|a t IH]; intros [|i] [|j] H; simpl; auto; try congruence;
    try (apply IH; congruence).
Qed.

Lemma upd_oob {A} (l : list A) i x : length l <= i -> upd l i x = l.
Proof.
  revert i; induction l as [|a t IH]; intros [|j] H; simpl in *; try lia; auto.
  f_equal; apply IH; lia.
Qed.

Lemma upd_nth_id {A} (l : list A) i d : upd l i (nth i l d) = l.
Proof.
  revert i; induction l as [|a t IH]; intros [|j]; simpl; auto.
  f_equal; apply IH.
Qed.

Lemma nth_error_Some_lt {A} (l : list A) i x : nth_error l i = Some x -> i < length l.
Proof. intros H; apply nth_error_Some; congruence. Qed.

Lemma nth_app_neq {A} (l : list A) x d j : j <> length l -> nth j (l ++ [x]) d = nth j l d.
Proof.
  intros Hne.
  destruct (Nat.lt_ge_cases j (length l)) as [Hlt|Hge].
  - apply app_nth1; assumption.
  - rewrite (nth_overflow l d Hge).
    apply nth_overflow. rewrite app_length; simpl; lia.
Qed.

Lemma cnt_cons i a t : cnt i (a :: t) = (if Nat.eq_dec a i then 1 else 0) + cnt i t.
Proof. unfold cnt; simpl. destruct (Nat.eq_dec a i); reflexivity. Qed.

Lemma cnt_nil i : cnt i [] = 0.
Proof. reflexivity. Qed.

Lemma cnt_app i l1 l2 : cnt i (l1 ++ l2) = cnt i l1 + cnt i l2.
Proof. unfold cnt. apply count_occ_app. Qed.

Lemma cnt_pos_In i l : cnt i l > 0 <-> In i l.
Proof. unfold cnt. symmetry. apply count_occ_In. Qed.

Lemma cnt_zero_notIn i l : cnt i l = 0 <-> ~ In i l.
Proof. unfold cnt. symmetry. apply count_occ_not_In. Qed.

Lemma obind_val {A B} (o : outcome A) (k : A -> outcome B) b :
  obind o k = Val b -> exists a, o = Val a /\ k a = Val b.
Proof.
  destruct o as [a|e|s]; simpl; intros H; try discriminate. eauto.
Qed.

Ltac split6 := split; [|split; [|split; [|split; [|split]]]].

(* refcounts and freed run parallel to the cells; `free` lists exactly the freed slots, each once;
   a freed slot has count 0; pending_free holds indices in range *)
Definition WFh (h : heap) : Prop :=
  length (rcs h) = length (cells h) /\ length (freed h) = length (cells h) /\
  NoDup (free h) /\
  (forall i, In i (free h) <-> (i < length (cells h) /\ freed_at h i = true)) /\
  (forall i, freed_at h i = true -> rc_at h i = 0) /\
  (forall i, In i (pending h) -> i < length (cells h)).

(* a slot with count 0 is freed or queued for process_pending_free: nothing is stranded *)
Definition NoOrphan (h : heap) : Prop :=
  forall i, i < length (cells h) -> rc_at h i = 0 -> freed_at h i = true \/ In i (pending h).

(* handler-level stability of bytes: slots that are not free keep their bytes and stay not free *)
Definition stable (h h' : heap) : Prop :=
  length (cells h) <= length (cells h') /\
  forall i, i < length (cells h) -> freed_at h i = false ->
            freed_at h' i = false /\ bytes_at h' i = bytes_at h i.

(* the spec-level reads default to "not freed" and "count 0" beyond the Vecs *)
Lemma freed_at_lt h i : freed_at h i = true -> i < length (freed h).
Proof.
  intro Hf. destruct (Nat.lt_ge_cases i (length (freed h))) as [Hl|Hg]; [exact Hl|].
  unfold freed_at in Hf. rewrite nth_overflow in Hf by exact Hg. discriminate.
Qed.

Lemma rc_at_lt h i : rc_at h i > 0 -> i < length (rcs h).
Proof.
  intro Hc. destruct (Nat.lt_ge_cases i (length (rcs h))) as [Hl|Hg]; [exact Hl|].
  unfold rc_at in Hc. rewrite nth_overflow in Hc by exact Hg. lia.
Qed.

(* WFh of a closed heap is a finite fact: a boolean check decides it by evaluation *)
Fixpoint nodupb (l : list nat) : bool :=
  match l with [] => true | a :: t => negb (existsb (Nat.eqb a) t) && nodupb t end.

Lemma existsb_eqb_In a l : existsb (Nat.eqb a) l = true <-> In a l.
Proof.
  rewrite existsb_exists. split; [intros (b & Hb & E); apply Nat.eqb_eq in E; subst; exact Hb|].
  intro H. exists a. split; [exact H|apply Nat.eqb_refl].
Qed.

Lemma nodupb_NoDup l : nodupb l = true -> NoDup l.
Proof.
  induction l as [|a t IH]; cbn [nodupb]; intro H; constructor;
    apply andb_prop in H as [H1 H2]; [|auto].
  intro Hin. apply existsb_eqb_In in Hin. rewrite Hin in H1. discriminate.
Qed.

Definition wfhb (h : heap) : bool :=
  (length (rcs h) =? length (cells h)) && (length (freed h) =? length (cells h)) &&
  nodupb (free h) &&
  forallb (fun i => (i <? length (cells h)) && freed_at h i) (free h) &&
  forallb (fun i => negb (freed_at h i) || (rc_at h i =? 0) && existsb (Nat.eqb i) (free h))
          (seq 0 (length (cells h))) &&
  forallb (fun i => i <? length (cells h)) (pending h).

Lemma WFh_check h : wfhb h = true -> WFh h.
Proof.
  unfold wfhb. rewrite !andb_true_iff, !forallb_forall, !Nat.eqb_eq.
  intros (((((L1 & L2) & ND) & Hfree) & Hall) & Hpend).
  assert (Hfr : forall i, freed_at h i = true ->
                  i < length (cells h) /\ rc_at h i = 0 /\ In i (free h)).
  { intros i Hf. assert (Hi : i < length (cells h)) by (rewrite <- L2; apply freed_at_lt, Hf).
    specialize (Hall i). rewrite in_seq, Hf in Hall. cbn [negb orb] in Hall.
    specialize (Hall ltac:(lia)). apply andb_prop in Hall as [Hz Hin].
    apply Nat.eqb_eq in Hz. apply existsb_eqb_In in Hin. auto. }
  split; [exact L1|]. split; [exact L2|]. split; [apply nodupb_NoDup; exact ND|]. split; [|split].
  - intro i. split; [|intros [_ Hf]; apply Hfr; exact Hf].
    intro Hin. apply Hfree, andb_prop in Hin as [Hi Hf]. apply Nat.ltb_lt in Hi. auto.
  - intros i Hf. apply Hfr; exact Hf.
  - intros i Hin. apply Nat.ltb_lt, Hpend, Hin.
Qed.

Lemma stable_refl h : stable h h.
Proof. split; [lia|]. intros i Hi Hf; auto. Qed.

Lemma stable_trans h1 h2 h3 : stable h1 h2 -> stable h2 h3 -> stable h1 h3.
Proof.
  intros [L12 S12] [L23 S23]. split; [lia|].
  intros i Hi Hf. destruct (S12 i Hi Hf) as [Hf2 Hb2].
  destruct (S23 i ltac:(lia) Hf2) as [Hf3 Hb3]. split; congruence.
Qed.

Lemma retain1_inv h i h' :
  retain1 h i = Val h' ->
  nth_error (freed h) i = Some false /\
  exists c, nth_error (rcs h) i = Some c /\ h' = set_rcs h (upd (rcs h) i (S c)).
Proof.
  unfold retain1.
  destruct (nth_error (freed h) i) as [[|]|] eqn:Ef;
    destruct (nth_error (rcs h) i) as [c|] eqn:Er; intros H; try discriminate.
  inversion H; subst. eauto.
Qed.

Lemma release1_inv h i h' :
  release1 h i = Val h' ->
  nth_error (freed h) i = Some false /\
  exists c, nth_error (rcs h) i = Some (S c) /\
    h' = (if c =? 0 then set_pending (set_rcs h (upd (rcs h) i c)) (i :: pending h)
          else set_rcs h (upd (rcs h) i c)).
Proof.
  unfold release1.
  destruct (nth_error (freed h) i) as [[|]|] eqn:Ef;
    destruct (nth_error (rcs h) i) as [[|c]|] eqn:Er; intros H; try discriminate.
  inversion H; subst. split; [reflexivity|]. exists c. split; [reflexivity|].
  destruct (c =? 0); reflexivity.
Qed.

Lemma retain_l_spec : forall l h h', retain_l h l = Val h' ->
  cells h' = cells h /\ free h' = free h /\ pending h' = pending h /\ freed h' = freed h /\
  cbins h' = cbins h /\ length (rcs h') = length (rcs h) /\
  forall i, rc_at h' i = rc_at h i + cnt i l.
Proof.
  induction l as [|a t IH]; intros h h' H; simpl in H.
  - inversion H; subst. repeat split; auto; intros i; rewrite cnt_nil; lia.
  - apply obind_val in H as (h1 & H1 & H2).
    apply retain1_inv in H1 as (Hf & c & Hc & ->).
    apply IH in H2 as (Hce & Hfr & Hp & Hfd & Hcb & Hlen & Hrc).
    simpl in Hce, Hfr, Hp, Hfd, Hcb, Hlen.
    repeat split; try assumption.
    + rewrite Hlen, upd_length. reflexivity.
    + intros i. rewrite Hrc, cnt_cons. unfold rc_at; cbn [rcs set_rcs].
      destruct (Nat.eq_dec a i) as [->|Hne].
      * rewrite nth_upd_eq by (eapply nth_error_Some_lt; eauto).
        rewrite (nth_error_nth _ _ 0 Hc). lia.
      * rewrite nth_upd_neq by assumption. lia.
Qed.

(* every retained index is a live (not freed, in range) slot *)
Lemma retain_l_live : forall l h h', retain_l h l = Val h' ->
  forall i, In i l -> nth_error (freed h) i = Some false.
Proof.
  induction l as [|a t IH]; intros h h' H i Hi; simpl in *; [contradiction|].
  apply obind_val in H as (h1 & H1 & H2).
  apply retain1_inv in H1 as (Hf & c & Hc & ->).
  destruct Hi as [->|Hi]; [assumption|].
  apply (IH _ _ H2 i Hi).
Qed.

Lemma release_l_live : forall l h h', release_l h l = Val h' ->
  forall i, In i l -> nth_error (freed h) i = Some false.
Proof.
  induction l as [|a t IH]; intros h h' H i Hi; simpl in *; [contradiction|].
  apply obind_val in H as (h1 & H1 & H2).
  apply release1_inv in H1 as (Hf & c & Hc & ->).
  destruct Hi as [->|Hi]; [assumption|].
  specialize (IH _ _ H2 i Hi). destruct (c =? 0); simpl in IH; assumption.
Qed.

(* `new` = the released indices whose count ends at 0, latest first. Counts only fall, so the head
   a either reaches 0 now and joins `new`, or can end at 0 only by occurring again in the tail. *)
Lemma release_l_spec : forall l h h', release_l h l = Val h' ->
  cells h' = cells h /\ free h' = free h /\ freed h' = freed h /\ cbins h' = cbins h /\
  length (rcs h') = length (rcs h) /\
  (forall i, rc_at h' i + cnt i l = rc_at h i) /\
  (exists new, pending h' = new ++ pending h /\
               forall i, In i new <-> (In i l /\ rc_at h' i = 0)).
Proof.
  induction l as [|a t IH]; intros h h' H; simpl in H.
  - inversion H; subst. repeat split; auto; try (intros i; rewrite cnt_nil; lia).
    exists []. split; [reflexivity|]. intros i; simpl; tauto.
  - apply obind_val in H as (h1 & H1 & H2).
    apply release1_inv in H1 as (Hf & c & Hc & Hh1).
    apply IH in H2 as (Hce & Hfr & Hfd & Hcb & Hlen & Hrc & new & Hnew & Hin).
    assert (Hbase : cells h1 = cells h /\ free h1 = free h /\ freed h1 = freed h /\
                    cbins h1 = cbins h /\ rcs h1 = upd (rcs h) a c).
    { subst h1. destruct (c =? 0); simpl; repeat split; reflexivity. }
    destruct Hbase as (B1 & B2 & B3 & B4 & B5).
    assert (Ha : a < length (rcs h)) by (eapply nth_error_Some_lt; eauto).
    assert (Hrc1 : forall i, rc_at h1 i + (if Nat.eq_dec a i then 1 else 0) = rc_at h i).
    { intros i. unfold rc_at. rewrite B5.
      destruct (Nat.eq_dec a i) as [->|Hne].
      - rewrite nth_upd_eq by assumption. rewrite (nth_error_nth _ _ 0 Hc). lia.
      - rewrite nth_upd_neq by assumption. lia. }
    repeat split; try congruence.
    + rewrite Hlen, B5, upd_length. reflexivity.
    + intros i. rewrite cnt_cons. specialize (Hrc i). specialize (Hrc1 i). lia.
    + destruct (c =? 0) eqn:Ec.
      * apply Nat.eqb_eq in Ec. subst c.
        assert (Hp1 : pending h1 = a :: pending h) by (subst h1; reflexivity).
        exists (new ++ [a]). split.
        { rewrite Hnew, Hp1, <- app_assoc. reflexivity. }
        intros i. rewrite in_app_iff, Hin. simpl.
        assert (Ha0 : rc_at h' a = 0).
        { specialize (Hrc a). specialize (Hrc1 a).
          destruct (Nat.eq_dec a a) as [_|N]; [|congruence].
          unfold rc_at in Hrc1 at 2. rewrite (nth_error_nth _ _ 0 Hc) in Hrc1. lia. }
        split.
        { intros [[Hit Hz]|[Hai|[]]]; [tauto|]. subst i. split; [left; reflexivity|assumption]. }
        { intros [[Hai|Hit] Hz]; [right; left; assumption | left; split; assumption]. }
      * apply Nat.eqb_neq in Ec.
        assert (Hp1 : pending h1 = pending h) by (subst h1; reflexivity).
        exists new. split; [congruence|].
        intros i. rewrite Hin. simpl. split; [tauto|].
        intros [[Hai|Hit] Hz]; [|tauto]. subst i. split; [|assumption].
        apply cnt_pos_In.
        specialize (Hrc a). specialize (Hrc1 a).
        destruct (Nat.eq_dec a a) as [_|N]; [|congruence].
        unfold rc_at in Hrc1 at 2. rewrite (nth_error_nth _ _ 0 Hc) in Hrc1. lia.
Qed.

(* retain / release panic or succeed, they never return Err *)
Lemma retain_l_no_err : forall l h e, retain_l h l <> Err e.
Proof.
  induction l as [|i t IH]; intros h e; cbn [retain_l]; [discriminate|].
  unfold retain1. destruct (nth_error (freed h) i) as [[|]|]; cbn [obind]; try discriminate;
    destruct (nth_error (rcs h) i); cbn [obind]; try discriminate; apply IH.
Qed.

Lemma release_l_no_err : forall l h e, release_l h l <> Err e.
Proof.
  induction l as [|i t IH]; intros h e; cbn [release_l]; [discriminate|].
  unfold release1. destruct (nth_error (freed h) i) as [[|]|]; cbn [obind]; try discriminate;
    destruct (nth_error (rcs h) i) as [[|c]|]; cbn [obind]; try discriminate; apply IH.
Qed.

Lemma freed_at_of_nth_error h i b : nth_error (freed h) i = Some b -> freed_at h i = b.
Proof. intros H. unfold freed_at. apply nth_error_nth; assumption. Qed.

Lemma retain_l_WF h l h' : WFh h -> retain_l h l = Val h' -> WFh h'.
Proof.
  intros (W1 & W2 & W3 & W4 & W5 & W6) H.
  destruct (retain_l_spec _ _ _ H) as (Hce & Hfr & Hp & Hfd & Hcb & Hlen & Hrc).
  assert (Hfa : forall i, freed_at h' i = freed_at h i).
  { intros i; unfold freed_at; rewrite Hfd; reflexivity. }
  unfold WFh. rewrite Hce, Hfr, Hp, Hfd, Hlen. split6; try assumption.
  - intros i. rewrite Hfa. apply W4.
  - intros i Hf. rewrite Hfa in Hf. rewrite Hrc, (W5 i Hf).
    destruct (in_dec Nat.eq_dec i l) as [Hin|Hnin].
    + apply (retain_l_live _ _ _ H) in Hin. apply freed_at_of_nth_error in Hin. congruence.
    + apply cnt_zero_notIn in Hnin. lia.
Qed.

Lemma release_l_WF h l h' : WFh h -> release_l h l = Val h' -> WFh h'.
Proof.
  intros (W1 & W2 & W3 & W4 & W5 & W6) H.
  destruct (release_l_spec _ _ _ H) as (Hce & Hfr & Hfd & Hcb & Hlen & Hrc & new & Hnew & Hin).
  assert (Hfa : forall i, freed_at h' i = freed_at h i).
  { intros i; unfold freed_at; rewrite Hfd; reflexivity. }
  unfold WFh. rewrite Hce, Hfr, Hfd, Hlen. split6; try assumption.
  - intros i. rewrite Hfa. apply W4.
  - intros i Hf. rewrite Hfa in Hf. specialize (Hrc i). rewrite (W5 i Hf) in Hrc. lia.
  - intros i Hi. rewrite Hnew in Hi. apply in_app_or in Hi as [Hi|Hi]; [|auto].
    apply Hin in Hi as [Hil _]. apply (release_l_live _ _ _ H) in Hil.
    apply nth_error_Some_lt in Hil. lia.
Qed.

Lemma retain_l_NoOrphan h l h' : WFh h -> NoOrphan h -> retain_l h l = Val h' -> NoOrphan h'.
Proof.
  intros _ NO H.
  destruct (retain_l_spec _ _ _ H) as (Hce & Hfr & Hp & Hfd & Hcb & Hlen & Hrc).
  intros i Hi Hz. unfold freed_at. rewrite Hfd, Hp. rewrite Hce in Hi. rewrite Hrc in Hz.
  apply NO; [assumption|lia].
Qed.

Lemma release_l_NoOrphan h l h' : WFh h -> NoOrphan h -> release_l h l = Val h' -> NoOrphan h'.
Proof.
  intros _ NO H.
  destruct (release_l_spec _ _ _ H) as (Hce & Hfr & Hfd & Hcb & Hlen & Hrc & new & Hnew & Hin).
  intros i Hi Hz. unfold freed_at. rewrite Hfd, Hnew. rewrite Hce in Hi.
  destruct (in_dec Nat.eq_dec i l) as [Hil|Hnil].
  - right. apply in_or_app. left. apply Hin. split; assumption.
  - apply cnt_zero_notIn in Hnil. specialize (Hrc i).
    destruct (NO i Hi ltac:(lia)) as [Hf|Hp]; [left; exact Hf|right; apply in_or_app; right; exact Hp].
Qed.

Lemma retain_l_stable h l h' : retain_l h l = Val h' -> stable h h'.
Proof.
  intros H. destruct (retain_l_spec _ _ _ H) as (Hce & Hfr & Hp & Hfd & Hcb & Hlen & Hrc).
  unfold stable, freed_at, bytes_at. rewrite Hce, Hfd. split; [lia|]. intros i Hi Hf; auto.
Qed.

Lemma release_l_stable h l h' : release_l h l = Val h' -> stable h h'.
Proof.
  intros H.
  destruct (release_l_spec _ _ _ H) as (Hce & Hfr & Hfd & Hcb & Hlen & Hrc & _).
  unfold stable, freed_at, bytes_at. rewrite Hce, Hfd. split; [lia|]. intros i Hi Hf; auto.
Qed.

(* `v[i] = x` for i in range, `v.push(x)` for i the length: what alloc does to each Vec at the
   slot it hands out *)
Definition put {A} (l : list A) (i : nat) (x : A) : list A :=
  if i <? length l then upd l i x else l ++ [x].

Lemma put_length {A} (l : list A) i x :
  i <= length l -> length (put l i x) = Nat.max (length l) (S i).
Proof.
  unfold put. intro H. destruct (i <? length l) eqn:E.
  - apply Nat.ltb_lt in E. rewrite upd_length. lia.
  - apply Nat.ltb_ge in E. rewrite app_length. simpl. lia.
Qed.

Lemma nth_put {A} (l : list A) i x d j :
  i <= length l -> nth j (put l i x) d = if Nat.eq_dec j i then x else nth j l d.
Proof.
  unfold put. intro H. destruct (i <? length l) eqn:E; destruct (Nat.eq_dec j i) as [->|Hne].
  - apply nth_upd_eq, Nat.ltb_lt, E.
  - apply nth_upd_neq. congruence.
  - apply Nat.ltb_ge in E. rewrite app_nth2, (Nat.le_antisymm _ _ H E), Nat.sub_diag by lia.
    reflexivity.
  - apply Nat.ltb_ge in E. apply nth_app_neq. lia.
Qed.

Lemma alloc_inv h r h' i :
  length (rcs h) = length (cells h) -> length (freed h) = length (cells h) ->
  alloc h r = Val (h', i) ->
  (free h = [] /\ i = length (cells h) \/ i < length (cells h) /\ exists fr, free h = i :: fr) /\
  h' = mkHeap (put (cells h) i r) (put (rcs h) i 0) (tl (free h)) (pending h)
              (put (freed h) i false) (cbins h).
Proof.
  intros L1 L2 H. unfold alloc in H. destruct (MAX_BINARY_SIZE <? rlen r)%Z; [discriminate|].
  unfold put. rewrite L1, L2. destruct (free h) as [|i0 fr].
  - injection H as <- <-. rewrite Nat.ltb_irrefl. auto.
  - destruct (i0 <? length (cells h)) eqn:E; [|discriminate]. injection H as <- <-.
    rewrite E. apply Nat.ltb_lt in E. eauto.
Qed.

Lemma alloc_spec h r h' i : WFh h -> alloc h r = Val (h', i) ->
  WFh h' /\ (freed_at h i = true \/ i = length (cells h)) /\ freed_at h' i = false /\
  nth_error (cells h') i = Some r /\ (forall j, rc_at h' j = rc_at h j) /\ rc_at h' i = 0 /\
  pending h' = pending h /\ cbins h' = cbins h /\
  (forall j, j <> i -> freed_at h' j = freed_at h j /\
                       nth j (cells h') (Owned []) = nth j (cells h) (Owned [])) /\
  stable h h'.
Proof.
  intros (W1 & W2 & W3 & W4 & W5 & W6) H.
  destruct (alloc_inv _ _ _ _ W1 W2 H) as (Hfree & ->). clear H.
  set (h' := mkHeap _ _ _ _ _ _).
  assert (Hi : i <= length (cells h)) by (destruct Hfree as [[_ ->]|[Hlt _]]; lia).
  (* the slot handed out was free (or is new), so its count is 0 and nothing else changes *)
  assert (Hin : forall j, freed_at h j = true <-> In j (free h)).
  { intro j. rewrite W4. split; [|tauto]. intro Hf. split; [|exact Hf]. rewrite <- W2.
    apply freed_at_lt, Hf. }
  assert (Hwas : freed_at h i = true \/ i = length (cells h)).
  { destruct Hfree as [[_ ->]|[_ [fr Hf]]]; [auto|]. left. apply Hin. rewrite Hf. left; reflexivity. }
  assert (Hiz : rc_at h i = 0).
  { destruct Hwas as [Hf| ->]; [apply W5, Hf|]. apply nth_overflow. lia. }
  assert (Hrc : forall j, rc_at h' j = rc_at h j).
  { intro j. unfold rc_at, h'; cbn [rcs]. rewrite nth_put by lia.
    destruct (Nat.eq_dec j i) as [->|]; auto. }
  assert (Hfa : forall j, freed_at h' j = if Nat.eq_dec j i then false else freed_at h j).
  { intro j. unfold freed_at, h'; cbn [freed]. apply nth_put. lia. }
  assert (Hce : forall j, nth j (cells h') (Owned []) =
                          if Nat.eq_dec j i then r else nth j (cells h) (Owned [])).
  { intro j. unfold h'; cbn [cells]. apply nth_put. lia. }
  assert (Hlen : length (cells h') = Nat.max (length (cells h)) (S i)) by (apply put_length, Hi).
  assert (Hfr : forall j, In j (free h') <-> j <> i /\ In j (free h)).
  { intro j. unfold h'; cbn [free]. destruct Hfree as [[-> _]|[_ [fr Hf]]]; [simpl; tauto|].
    rewrite Hf in *. inversion W3; subst. simpl. intuition congruence. }
  assert (Hne : forall j, j < length (cells h) -> freed_at h j = false -> j <> i).
  { intros j Hj Hf ->. destruct Hwas; [congruence|lia]. }
  split; [|split; [exact Hwas|]]; [|split; [|split; [|split; [exact Hrc|]]]].
  - unfold WFh. rewrite Hlen. split6.
    + unfold h'; cbn [rcs]. rewrite put_length; lia.
    + unfold h'; cbn [freed]. rewrite put_length; lia.
    + unfold h'; cbn [free]. destruct (free h); [constructor|]. inversion W3; assumption.
    + intro j. rewrite Hfr, Hfa, <- Hin. destruct (Nat.eq_dec j i); [intuition congruence|].
      rewrite Hin, W4. intuition lia.
    + intros j Hf. rewrite Hfa in Hf. rewrite Hrc. destruct (Nat.eq_dec j i); [discriminate|auto].
    + intros j Hj. apply W6 in Hj. lia.
  - rewrite Hfa. destruct (Nat.eq_dec i i); congruence.
  - rewrite (nth_error_nth' _ (Owned [])), Hce by lia. destruct (Nat.eq_dec i i); congruence.
  - split; [rewrite Hrc; exact Hiz|]. split; [reflexivity|]. split; [reflexivity|]. split.
    + intros j Hj. rewrite Hfa, Hce. destruct (Nat.eq_dec j i); [contradiction|auto].
    + split; [lia|]. intros j Hj Hf. specialize (Hne j Hj Hf). unfold bytes_at.
      rewrite Hfa, Hce. destruct (Nat.eq_dec j i); [contradiction|auto].
Qed.

(* the heap that ppf_l builds inline when it frees slot i *)
Definition ppf_step (h : heap) (i : nat) : heap :=
  mkHeap (upd (cells h) i (Owned [])) (rcs h) (i :: free h) (pending h)
         (upd (freed h) i true) (cbins h).

Lemma ppf_step_facts h i :
  WFh h -> i < length (cells h) -> rc_at h i = 0 -> freed_at h i = false ->
  WFh (ppf_step h i) /\
  (forall j, freed_at (ppf_step h i) j = true <-> (freed_at h j = true \/ j = i)) /\
  (forall j, j <> i -> nth j (cells (ppf_step h i)) (Owned []) = nth j (cells h) (Owned [])).
Proof.
  intros (W1 & W2 & W3 & W4 & W5 & W6) Hi Hc Hf.
  assert (Hiff : forall j, freed_at (ppf_step h i) j = true <-> (freed_at h j = true \/ j = i)).
  { intros j. unfold freed_at, ppf_step; cbn [freed]. destruct (Nat.eq_dec j i) as [->|Hne].
    - rewrite nth_upd_eq by lia. tauto.
    - rewrite nth_upd_neq by congruence. intuition congruence. }
  split; [|split; [exact Hiff|]].
  - unfold WFh.
    change (free (ppf_step h i)) with (i :: free h).
    change (pending (ppf_step h i)) with (pending h).
    change (rcs (ppf_step h i)) with (rcs h).
    replace (length (cells (ppf_step h i))) with (length (cells h))
      by (unfold ppf_step; cbn [cells]; rewrite upd_length; reflexivity).
    replace (length (freed (ppf_step h i))) with (length (freed h))
      by (unfold ppf_step; cbn [freed]; rewrite upd_length; reflexivity).
    split6; try assumption.
    + constructor; [|assumption]. intros Hin. apply W4 in Hin as [_ Hin]. congruence.
    + intros j. rewrite Hiff. simpl. rewrite W4. intuition (subst; auto).
    + intros j Hfj. change (rc_at (ppf_step h i) j) with (rc_at h j).
      apply Hiff in Hfj as [Hfj| ->]; [apply W5; assumption|assumption].
  - intros j Hne. unfold ppf_step; cbn [cells]. apply nth_upd_neq; congruence.
Qed.

Lemma ppf_l_spec : forall l h,
  WFh h -> (forall i, In i l -> i < length (cells h)) ->
  exists h', ppf_l h l = Val h' /\
  WFh h' /\ rcs h' = rcs h /\ pending h' = pending h /\ cbins h' = cbins h /\
  length (cells h') = length (cells h) /\
  (forall i, freed_at h' i = true <-> (freed_at h i = true \/ (In i l /\ rc_at h i = 0))) /\
  (forall i, freed_at h' i = false ->
             nth i (cells h') (Owned []) = nth i (cells h) (Owned [])).
Proof.
  induction l as [|a t IH]; intros h W Hr; cbn [ppf_l].
  - exists h. split6; auto. split; [|split; [|auto]]; [reflexivity|]. intros i. simpl. tauto.
  - pose proof W as (W1 & W2 & _).
    assert (Ha : a < length (cells h)) by (apply Hr; left; reflexivity).
    rewrite (nth_error_nth' (rcs h) 0), (nth_error_nth' (freed h) false) by lia.
    fold (rc_at h a) (freed_at h a).
    destruct ((rc_at h a =? 0) && negb (freed_at h a)) eqn:Econd.
    + apply andb_prop in Econd as [Ec Ef]. apply Nat.eqb_eq in Ec. apply negb_true_iff in Ef.
      fold (ppf_step h a).
      destruct (ppf_step_facts h a W Ha Ec Ef) as (W' & Hiff & Hcells).
      assert (Hlen1 : length (cells (ppf_step h a)) = length (cells h))
        by (unfold ppf_step; cbn [cells]; apply upd_length).
      destruct (IH _ W') as (h' & E & Wh' & Hrcs & Hpe & Hcb & Hlen & Hfr & Hce).
      { intros i Hi. rewrite Hlen1. apply Hr. right; assumption. }
      exists h'. split; [exact E|]. split6; try assumption; try congruence. split.
      * intros i. rewrite Hfr, Hiff. change (rc_at (ppf_step h a) i) with (rc_at h i). simpl.
        intuition (subst; auto).
      * intros i Hfi. rewrite (Hce i Hfi). apply Hcells.
        intros ->. assert (Ht : freed_at h' a = true) by (apply Hfr, or_introl, Hiff; auto).
        congruence.
    + destruct (IH _ W) as (h' & E & Wh' & Hrcs & Hpe & Hcb & Hlen & Hfr & Hce).
      { intros i Hi. apply Hr. right; assumption. }
      exists h'. split; [exact E|]. split6; try assumption. split; [|assumption].
      intros i. rewrite Hfr. simpl. split; [tauto|].
      intros [Hfi|[[->|Hi] Hz]]; [tauto| |tauto].
      left. rewrite Hz in Econd. destruct (freed_at h i); [reflexivity|discriminate].
Qed.

Lemma WFh_set_pending_nil h : WFh h -> WFh (set_pending h []).
Proof.
  intros (W1 & W2 & W3 & W4 & W5 & W6). unfold WFh. split6; try assumption.
  intros i [].
Qed.

Lemma ppf_total h : WFh h -> exists h', ppf h = Val h'.
Proof.
  intros W. destruct (ppf_l_spec (pending h) (set_pending h []))
    as (h' & E & _); [apply WFh_set_pending_nil; assumption|apply W|eauto].
Qed.

Lemma ppf_spec h h' : WFh h -> ppf h = Val h' ->
  WFh h' /\ rcs h' = rcs h /\ pending h' = [] /\ cbins h' = cbins h /\
  length (cells h') = length (cells h) /\
  (forall i, freed_at h' i = true <-> (freed_at h i = true \/ (In i (pending h) /\ rc_at h i = 0))) /\
  (forall i, freed_at h' i = false -> nth i (cells h') (Owned []) = nth i (cells h) (Owned [])).
Proof.
  intros W H. destruct (ppf_l_spec (pending h) (set_pending h []))
    as (h'' & E & Hspec); [apply WFh_set_pending_nil; assumption|apply W|].
  unfold ppf in H. rewrite E in H. injection H as <-. exact Hspec.
Qed.

Lemma reclaim_sound h h' : WFh h -> ppf h = Val h' ->
  forall i, freed_at h' i = true -> freed_at h i = false -> rc_at h i = 0 /\ In i (pending h).
Proof.
  intros W H i Hf' Hf.
  destruct (ppf_spec _ _ W H) as (_ & _ & _ & _ & _ & Hiff & _).
  apply Hiff in Hf' as [Hf'|[Hin Hz]]; [congruence|split; assumption].
Qed.

Lemma reclaim_complete h h' : WFh h -> NoOrphan h -> ppf h = Val h' ->
  forall i, i < length (cells h') -> rc_at h' i = 0 -> freed_at h' i = true.
Proof.
  intros W NO H i Hi Hz.
  destruct (ppf_spec _ _ W H) as (_ & Hrcs & _ & _ & Hlen & Hiff & _).
  assert (Hz0 : rc_at h i = 0) by (unfold rc_at in *; rewrite <- Hrcs; assumption).
  apply Hiff. rewrite Hlen in Hi.
  destruct (NO i Hi Hz0) as [Hf|Hp]; [left; assumption|right; split; assumption].
Qed.

Lemma ppf_NoOrphan h h' : WFh h -> NoOrphan h -> ppf h = Val h' -> NoOrphan h'.
Proof.
  intros W NO H i Hi Hz. left. eapply reclaim_complete; eauto.
Qed.

(* ppf is NOT `stable` (it frees slots); what survives keeps its bytes *)
Lemma ppf_preserves_live h h' : WFh h -> ppf h = Val h' ->
  forall i, freed_at h' i = false -> freed_at h i = false /\ bytes_at h' i = bytes_at h i.
Proof.
  intros W H.
  destruct (ppf_spec _ _ W H) as (_ & _ & _ & _ & _ & Hiff & Hce).
  intros i Hf. split.
  - destruct (freed_at h i) eqn:E; [|reflexivity].
    assert (Ht : freed_at h' i = true) by (apply Hiff; left; exact E). congruence.
  - unfold bytes_at. rewrite (Hce i Hf). reflexivity.
Qed.

Lemma WFh_ext h h' :
  length (cells h') = length (cells h) -> rcs h' = rcs h -> free h' = free h ->
  pending h' = pending h -> freed h' = freed h -> WFh h -> WFh h'.
Proof.
  intros Hl Hr Hf Hp Hd. unfold WFh, freed_at, rc_at. rewrite Hl, Hr, Hf, Hp, Hd. tauto.
Qed.

Lemma stable_ext h h1 h2 :
  cells h2 = cells h1 -> freed h2 = freed h1 -> stable h h1 -> stable h h2.
Proof.
  intros Hc Hf. unfold stable, freed_at, bytes_at. rewrite Hc, Hf. tauto.
Qed.

Lemma materialize_inv h i h' bs : materialize h i = Val (h', bs) ->
  exists r, nth_error (cells h) i = Some r /\ bs = bytes_of r /\
            (h' = h \/ h' = set_cells h (upd (cells h) i (Owned (bytes_of r)))).
Proof.
  unfold materialize. intros H.
  (* past the freed test (`Some false` and out of range read the cell alike) *)
  destruct (nth_error (freed h) i) as [[|]|]; [discriminate| |];
    (destruct (nth_error (cells h) i) as [r|]; [|discriminate]; exists r; split; [reflexivity|];
     destruct r; cbv zeta in H; inversion H; subst; auto).
Qed.

Lemma bytes_at_set_cells_owned h i r j :
  nth_error (cells h) i = Some r ->
  bytes_at (set_cells h (upd (cells h) i (Owned (bytes_of r)))) j = bytes_at h j.
Proof.
  intros Hr. unfold bytes_at; cbn [cells set_cells].
  destruct (Nat.eq_dec i j) as [<-|Hne].
  - rewrite nth_upd_eq by (eapply nth_error_Some_lt; eauto).
    rewrite (nth_error_nth _ _ (Owned []) Hr). reflexivity.
  - rewrite nth_upd_neq by assumption. reflexivity.
Qed.

Lemma materialize_spec h i h' bs : materialize h i = Val (h', bs) ->
  rcs h' = rcs h /\ free h' = free h /\ pending h' = pending h /\ freed h' = freed h /\
  cbins h' = cbins h /\ length (cells h') = length (cells h) /\
  (forall j, bytes_at h' j = bytes_at h j) /\ bs = bytes_at h i.
Proof.
  intros H. apply materialize_inv in H as (r & Hr & -> & Hh).
  assert (Hb : bytes_of r = bytes_at h i).
  { unfold bytes_at. rewrite (nth_error_nth _ _ (Owned []) Hr). reflexivity. }
  destruct Hh as [->| ->].
  - repeat split; auto.
  - cbn [rcs free pending freed cbins cells set_cells]. rewrite upd_length.
    repeat split; auto. intros j. apply bytes_at_set_cells_owned; assumption.
Qed.

Lemma materialize_WF h i h' bs : WFh h -> materialize h i = Val (h', bs) -> WFh h'.
Proof.
  intros W H. apply materialize_spec in H as (H1 & H2 & H3 & H4 & H5 & H6 & _).
  eapply WFh_ext; eauto.
Qed.

Lemma materialize_stable h i h' bs : materialize h i = Val (h', bs) -> stable h h'.
Proof.
  intros H. apply materialize_spec in H as (H1 & H2 & H3 & H4 & H5 & H6 & H7 & _).
  split; [lia|]. intros j Hj Hf. unfold freed_at. rewrite H4. split; [exact Hf|apply H7].
Qed.

(* cb_refs on the bare Vec *)
Definition refs_o (l : list (option nat)) : list nat :=
  flat_map (fun o => match o with Some i => [i] | None => [] end) l.

Lemma refs_o_app l1 l2 : refs_o (l1 ++ l2) = refs_o l1 ++ refs_o l2.
Proof. unfold refs_o. apply flat_map_app. Qed.

Lemma refs_o_repeat_None n : refs_o (repeat None n) = [].
Proof. induction n as [|n IH]; simpl; auto. Qed.

Lemma cnt_refs_o_upd : forall l k i j, nth_error l k = Some None ->
  cnt j (refs_o (upd l k (Some i))) = cnt j (refs_o l) + (if Nat.eq_dec j i then 1 else 0).
Proof.
  induction l as [|a t IH]; intros [|k] i j H; simpl in H; try discriminate.
  - inversion H; subst a. cbn [upd]. unfold refs_o; cbn [flat_map]. fold (refs_o t).
    cbn [app]. rewrite cnt_cons.
    destruct (Nat.eq_dec i j) as [E1|E1]; destruct (Nat.eq_dec j i) as [E2|E2];
      try congruence; lia.
  - cbn [upd]. unfold refs_o; cbn [flat_map]. fold (refs_o t). fold (refs_o (upd t k (Some i))).
    rewrite !cnt_app. rewrite (IH k i j H). lia.
Qed.

Lemma cached_constant_spec h k bs h' i :
  WFh h -> cached_constant h k (Some bs) = Val (h', i) ->
  (h' = h /\ nth_error (cbins h) k = Some (Some i)) \/
  (WFh h' /\ stable h h' /\ bytes_at h' i = bs /\ freed_at h' i = false /\
   (forall j, rc_at h' j = rc_at h j + (if Nat.eq_dec j i then 1 else 0)) /\
   (forall j, cnt j (cb_refs h') = cnt j (cb_refs h) + (if Nat.eq_dec j i then 1 else 0)) /\
   pending h' = pending h).
Proof.
  intros W H. unfold cached_constant in H.
  assert (Hk : (exists i0, nth_error (cbins h) k = Some (Some i0)) \/
               ((nth_error (cbins h) k = Some None \/ nth_error (cbins h) k = None) /\
                (pr1 <- alloc h (Owned bs) ;;
                 let '(h1, i) := pr1 in
                 let cb := if length (cbins h1) <=? k
                           then resize_opt (cbins h1) (S k) else cbins h1 in
                 h2 <- retain1 (set_cbins h1 (upd cb k (Some i))) i ;;
                 Val (h2, i)) = Val (h', i))).
  { destruct (nth_error (cbins h) k) as [[i0|]|] eqn:Ek; [left; eauto| |]; right; auto. }
  destruct Hk as [[i0 Ek]|[Ek H']].
  { rewrite Ek in H. inversion H; subst. left; auto. }
  clear H. right.
  apply obind_val in H' as ([h1 i1] & Ha & H).
  apply obind_val in H as (h2 & Hr & H).
  inversion H; subst h2 i1; clear H.
  destruct (alloc_spec _ _ _ _ W Ha) as
        (W1 & _ & Hfi & Hci & Hrc1 & Hz1 & Hp1 & Hcb1 & _ & St1).
  set (cb := if length (cbins h1) <=? k then resize_opt (cbins h1) (S k) else cbins h1) in Hr.
  assert (Hcbk : nth_error cb k = Some None /\
                 forall j, cnt j (refs_o cb) = cnt j (refs_o (cbins h))).
  { unfold cb. rewrite Hcb1. destruct Ek as [Ek|Ek].
    - assert (Hlt : k < length (cbins h)) by (eapply nth_error_Some_lt; eauto).
      destruct (length (cbins h) <=? k) eqn:El; [apply Nat.leb_le in El; lia|].
      split; [assumption|reflexivity].
    - apply nth_error_None in Ek.
      destruct (length (cbins h) <=? k) eqn:El; [|apply Nat.leb_gt in El; lia].
      unfold resize_opt. split.
      + rewrite nth_error_app2 by assumption. apply nth_error_repeat. lia.
      + intros j. rewrite refs_o_app, refs_o_repeat_None, app_nil_r. reflexivity. }
  destruct Hcbk as [Hcbk Hcnt].
  set (h1' := set_cbins h1 (upd cb k (Some i))) in Hr.
  assert (W1' : WFh h1') by (eapply WFh_ext; [| | | | |exact W1]; reflexivity).
  assert (Hrl : retain_l h1' [i] = Val h') by (simpl; rewrite Hr; reflexivity).
  destruct (retain_l_spec _ _ _ Hrl) as (Hce & Hfr & Hp & Hfd & Hcb & Hlen & Hrc).
  split; [|split; [|split; [|split; [|split; [|split]]]]].
  - eapply retain_l_WF; eauto.
  - eapply stable_ext; [exact Hce|exact Hfd|].
    eapply stable_ext; [| |exact St1]; reflexivity.
  - unfold bytes_at. rewrite Hce. cbn [h1' cells set_cbins].
    rewrite (nth_error_nth _ _ (Owned []) Hci). reflexivity.
  - unfold freed_at. rewrite Hfd. exact Hfi.
  - intros j. rewrite Hrc. unfold rc_at at 1. cbn [h1' rcs set_cbins].
    fold (rc_at h1 j). rewrite Hrc1, cnt_cons, cnt_nil.
    destruct (Nat.eq_dec i j) as [E1|E1]; destruct (Nat.eq_dec j i) as [E2|E2];
      try congruence; lia.
  - intros j. change (cb_refs h') with (refs_o (cbins h')). change (cb_refs h) with (refs_o (cbins h)).
    rewrite Hcb. cbn [h1' cbins set_cbins].
    rewrite (cnt_refs_o_upd _ _ _ _ Hcbk), Hcnt. reflexivity.
  - rewrite Hp. exact Hp1.
Qed.

(* slot 0: freed; slot 1: pending with count 0; slot 2: live with count 2 *)
Definition ex_heap : heap :=
  mkHeap [Owned []; Owned [1%Z; 2%Z]; Owned [3%Z]] [0; 0; 2] [0] [1]
         [true; false; false] [].

Example ex_heap_WF : WFh ex_heap.
Proof. apply WFh_check. reflexivity. Qed.

Example ex_heap_NoOrphan : NoOrphan ex_heap.
Proof.
  intros i Hi Hz. destruct i as [|[|[|i]]];
    [left; reflexivity|right; left; reflexivity|discriminate Hz|cbn in Hi; lia].
Qed.

Example ex_heap_ppf :
  exists h', ppf ex_heap = Val h' /\
    freed h' = [true; true; false] /\ free h' = [1; 0] /\ pending h' = [] /\
    cells h' = [Owned []; Owned []; Owned [3%Z]] /\ rcs h' = [0; 0; 2] /\
    WFh h' /\ NoOrphan h'.
Proof.
  destruct (ppf_total _ ex_heap_WF) as [h' H]. exists h'. split; [exact H|].
  pose proof (ppf_spec _ _ ex_heap_WF H) as (W' & _).
  pose proof (ppf_NoOrphan _ _ ex_heap_WF ex_heap_NoOrphan H) as NO'.
  vm_compute in H. inversion H; subst h'; clear H.
  do 5 (split; [reflexivity|]). split; assumption.
Qed.

Print Assumptions release_l_spec.
Print Assumptions alloc_spec.
Print Assumptions ppf_spec.
Print Assumptions cached_constant_spec.
