(* RemapWf.v — the bytecode verifier's verdict (C07, vm/Wf.v) is stable under an accepted renaming:
   every function the renaming maps is accepted in the target program with the SAME annotation. *)
From Quiver Require Import vm.Wf vm.WfProofs vm.Remap vm.RemapProofs.

Lemma nth_ltb {A} (l : list A) n x : nth_error l n = Some x -> (n <? length l) = true.
Proof. intros E. apply Nat.ltb_lt, nth_error_Some. congruence. Qed.

Section WFREN.
Variable rho : renaming.
Variable X X' : xprogram.
Hypothesis HR : struct_ok rho X X' = true.
Let FX := the_facts rho X X' HR.

Lemma type_range y y' : app (r_y rho) y = Some y' ->
  (y <? p_ntypes (project X)) = true /\ (y' <? p_ntypes (project X')) = true.
Proof.
  intros E. apply (F_type _ _ _ FX), chk_both in E as (a & a' & A & B & _).
  split; eapply nth_ltb; eassumption.
Qed.

Lemma transfer_ren k len pc i i' a : instr_img rho i i' = true ->
  transfer (project X) k len pc i a = transfer (project X') k len pc i' a.
Proof.
  intros H. apply (instr_img_inv rho) in H. destruct i; cbv beta iota in H; try (subst i'; reflexivity);
    destruct H as (j & Hj & ->); cbn [transfer].
  - destruct (const_facts rho X X' HR _ _ Hj) as (c & A & B). rewrite (nth_ltb _ _ _ A), (nth_ltb _ _ _ B). reflexivity.
  - destruct (tuple_arity rho X X' HR _ _ Hj) as (n & A & B). rewrite A, B. reflexivity.
  - destruct (type_range _ _ Hj) as [A B]. rewrite A, B. reflexivity.
  - destruct (fun_defined rho X X' HR _ _ Hj) as (fd & fd' & A & B & C). rewrite A, B, C. reflexivity.
  - destruct (builtin_range rho X X' HR _ _ Hj) as [A B]. apply Nat.ltb_lt in A, B. rewrite A, B. reflexivity.
  - destruct (fun_defined rho X X' HR _ _ Hj) as (fd & fd' & A & B & _). rewrite (nth_ltb _ _ _ A), (nth_ltb _ _ _ B). reflexivity.
Qed.

Lemma check_pc_ren k code code' A pc :
  Forall2 (fun i j => instr_img rho i j = true) code code' ->
  check_pc (project X) k code A pc = check_pc (project X') k code' A pc.
Proof.
  intros Hc. unfold check_pc. destruct (nth_error A pc) as [[a|]|]; try reflexivity.
  rewrite <- (Forall2_len _ _ _ Hc).
  destruct (Forall2_nth _ _ _ Hc pc) as [i i' G|]; [|reflexivity].
  rewrite (transfer_ren k (length code) pc i i' a G). reflexivity.
Qed.

(* wf_stable_under_renaming, per function: same certificate *)
Theorem check_function_ren f f' fd fd' A :
  app (r_f rho) f = Some f' ->
  nth_error (p_funcs (project X)) f = Some fd -> nth_error (p_funcs (project X')) f' = Some fd' ->
  check_function (project X) fd A = true -> check_function (project X') fd' A = true.
Proof.
  intros Hf Hfd Hfd' Hc. destruct (fun_facts rho X X' HR _ _ Hf) as (xd & xd' & A1 & B1 & C1 & Hcode).
  unfold project in Hfd; cbn [p_funcs] in Hfd. rewrite (map_nth_error erase_func _ _ A1) in Hfd. inv Hfd.
  unfold project in Hfd'; cbn [p_funcs] in Hfd'. rewrite (map_nth_error erase_func _ _ B1) in Hfd'. inv Hfd'.
  unfold check_function, check_function_at in *. cbn [erase_func f_code f_caps] in *.
  rewrite <- C1, <- (Forall2_len _ _ _ Hcode).
  apply andb_true_iff in Hc as [Hc H3]. rewrite Hc. cbn [andb].
  rewrite forallb_forall in *. intros pc Hpc. rewrite <- (check_pc_ren _ _ _ _ _ Hcode). apply H3. exact Hpc.
Qed.

End WFREN.

(* wf_stable_under_renaming: a verified program stays verified, certificate for certificate, on
   everything the renaming maps (which includes everything reachable from the entry). The target may hold
   other programs' functions (merge): nothing is claimed about those. *)
Theorem wf_stable_under_struct rho X X' As : struct_ok rho X X' = true ->
  check_program (project X) As = true ->
  forall f f', app (r_f rho) f = Some f' ->
  exists A fd', nth_error As f = Some A /\ nth_error (p_funcs (project X')) f' = Some fd' /\
                check_function (project X') fd' A = true.
Proof.
  intros HR HC f f' Hf. destruct (fun_defined rho X X' HR _ _ Hf) as (fd & fd' & A1 & B1 & _).
  destruct (check_all_nth _ _ _ HC _ _ A1) as (A & HA & Hchk).
  exists A, fd'. repeat split; auto. eapply check_function_ren; eauto.
Qed.

Theorem wf_stable_under_renaming rho X X' As : is_renaming rho X X' = true ->
  check_program (project X) As = true ->
  forall f f', app (r_f rho) f = Some f' ->
  exists A fd', nth_error As f = Some A /\ nth_error (p_funcs (project X')) f' = Some fd' /\
                check_function (project X') fd' A = true.
Proof. intros HR. apply is_renaming_split in HR. apply wf_stable_under_struct. apply HR. Qed.
