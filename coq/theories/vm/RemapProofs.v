(* RemapProofs.v — what the renaming validator guarantees (C10).

   `is_renaming rho X X' = true`  implies a LOCK-STEP simulation between the machine of vm/Vm.v
   running `project X` and the one running `project X'`: related states (values, frames mapped
   through rho) step to related states, with the same fault if any — including the verdicts of
   IsType and Equal when they are computed from each program's own run-time tables. *)
From Quiver Require Import vm.Remap.
Require Quiver.EqualProofs.

Ltac inv H := inversion H; subst; clear H.

Lemma list_eqb_eq {A} (eqb : A -> A -> bool) :
  (forall a b, eqb a b = true -> a = b) -> forall x y, list_eqb eqb x y = true -> x = y.
Proof.
  intros E x. induction x as [|a x IH]; intros [|b y] H; cbn [list_eqb] in H; try discriminate; [reflexivity|].
  apply andb_true_iff in H as [H1 H2]. f_equal; [apply E, H1 | apply IH, H2].
Qed.

Lemma list_eqb_refl {A} (eqb : A -> A -> bool) : (forall a, eqb a a = true) -> forall l, list_eqb eqb l l = true.
Proof. intros H l. induction l as [|a l IH]; cbn; [reflexivity|]. rewrite H. exact IH. Qed.

Lemma str_eqb_eq x y : str_eqb x y = true -> x = y.
Proof. apply list_eqb_eq. intros a b. apply Z.eqb_eq. Qed.
Lemma str_eqb_refl s : str_eqb s s = true.
Proof. apply list_eqb_refl, Z.eqb_refl. Qed.

Lemma ostr_eqb_eq x y : ostr_eqb x y = true -> x = y.
Proof. destruct x, y; cbn; intros H; try discriminate; [f_equal; apply str_eqb_eq, H | reflexivity]. Qed.
Lemma ostr_eqb_refl s : ostr_eqb s s = true.
Proof. destruct s; [apply str_eqb_refl | reflexivity]. Qed.

Lemma onat_eqb_eq a b : onat_eqb a b = true -> a = b.
Proof. destruct a, b; cbn; intros H; try discriminate; [f_equal; apply Nat.eqb_eq, H | reflexivity]. Qed.
Lemma onat_eqb_refl o : onat_eqb o o = true.
Proof. destruct o; [apply Nat.eqb_refl | reflexivity]. Qed.

Lemma maps_to_spec m i j : maps_to m i j = true <-> app m i = Some j.
Proof.
  unfold maps_to. split; [apply onat_eqb_eq | intros ->; apply onat_eqb_refl].
Qed.

Lemma forall_from_spec m chk : forall i0, forall_from i0 m chk = true <->
  forall i j, nth_error m i = Some (Some j) -> chk (i0 + i) j = true.
Proof.
  induction m as [|o m IH]; intros i0; cbn [forall_from].
  - split; [intros _ [|i] j E; discriminate | reflexivity].
  - rewrite andb_true_iff, IH. split.
    + intros [H1 H2] [|i] j E; cbn [nth_error] in E.
      * inv E. rewrite Nat.add_0_r. exact H1.
      * rewrite Nat.add_succ_r. exact (H2 i j E).
    + intros H. split.
      * destruct o as [j|]; [|reflexivity]. rewrite <- (Nat.add_0_r i0). exact (H 0 j eq_refl).
      * intros i j E. specialize (H (S i) j E). rewrite Nat.add_succ_r in H. exact H.
Qed.

Lemma forall_map_spec m chk : forall_map m chk = true <-> forall i j, app m i = Some j -> chk i j = true.
Proof.
  unfold forall_map, app. rewrite forall_from_spec. split; intros H i j E.
  - destruct (nth_error m i) as [o|] eqn:En; [|discriminate]. subst o. exact (H i j En).
  - apply (H i j). rewrite E. reflexivity.
Qed.

Lemma forall2b_spec {A B} (p : A -> B -> bool) x y :
  forall2b p x y = true <-> Forall2 (fun a b => p a b = true) x y.
Proof.
  split.
  - revert y. induction x as [|a x IH]; intros [|b y] H; cbn [forall2b] in H; try discriminate; constructor;
      apply andb_true_iff in H; [apply H | apply IH, H].
  - induction 1 as [|a b x y H _ IH]; cbn [forall2b]; [reflexivity | rewrite H; exact IH].
Qed.

Lemma instr_eqb_eq i j : instr_eqb i j = true -> i = j.
Proof.
  destruct i, j; cbn [instr_eqb]; intros H; try discriminate; try reflexivity;
    try (apply Nat.eqb_eq in H; congruence); try (apply Z.eqb_eq in H; congruence).
  - apply Bool.eqb_prop in H. congruence.
  - apply andb_true_iff in H as [H1 H2]. apply Nat.eqb_eq in H1, H2. congruence.
Qed.
Lemma instr_eqb_refl i : instr_eqb i i = true.
Proof. destruct i; cbn; rewrite ?Nat.eqb_refl, ?Z.eqb_refl; try reflexivity. apply Bool.eqb_reflx. Qed.

Lemma xconst_eqb_eq a b : xconst_eqb a b = true -> a = b.
Proof.
  destruct a, b; cbn; intros H; try discriminate; f_equal; [apply Z.eqb_eq, H | apply str_eqb_eq, H].
Qed.
Lemma xconst_eqb_refl c : xconst_eqb c c = true.
Proof. destruct c; [apply Z.eqb_refl | apply str_eqb_refl]. Qed.

Lemma xfunc_eqb_eq a b : xfunc_eqb a b = true -> a = b.
Proof.
  unfold xfunc_eqb. intros H. apply andb_true_iff in H as [H H3]. apply andb_true_iff in H as [H1 H2].
  apply (list_eqb_eq _ instr_eqb_eq) in H1. apply Nat.eqb_eq in H2, H3. destruct a, b; cbn in *; congruence.
Qed.

Lemma xtype_eqb_eq a b : xtype_eqb a b = true -> a = b.
Proof.
  destruct a, b; cbn [xtype_eqb]; intros H; try discriminate; try reflexivity.
  - apply Nat.eqb_eq in H. congruence.
  - apply andb_true_iff in H as [H1 H2]. apply ostr_eqb_eq in H1. subst. f_equal.
    revert H2. apply list_eqb_eq. intros [a1 a2] [b1 b2] E. apply andb_true_iff in E as [E1 E2].
    apply str_eqb_eq in E1. apply Nat.eqb_eq in E2. cbn in *. congruence.
  - apply andb_true_iff in H as [H H3]. apply andb_true_iff in H as [H1 H2]. apply Nat.eqb_eq in H1, H2, H3. congruence.
  - apply Nat.eqb_eq in H. congruence.
  - f_equal. revert H. apply list_eqb_eq. intros x y. apply Nat.eqb_eq.
  - apply andb_true_iff in H as [H1 H2]. apply onat_eqb_eq in H1, H2. congruence.
  - apply str_eqb_eq in H. congruence.
  - apply str_eqb_eq in H. congruence.
Qed.
Lemma xtype_eqb_refl t : xtype_eqb t t = true.
Proof.
  destruct t; cbn; rewrite ?Nat.eqb_refl, ?ostr_eqb_refl, ?onat_eqb_refl, ?str_eqb_refl; try reflexivity;
    apply list_eqb_refl; [intros [a b]; cbn; rewrite str_eqb_refl | ]; apply Nat.eqb_refl.
Qed.

Inductive optrel {A B} (R : A -> B -> Prop) : option A -> option B -> Prop :=
| OR_some a b : R a b -> optrel R (Some a) (Some b)
| OR_none : optrel R None None.

Lemma Forall2_nth {A B} (R : A -> B -> Prop) l l' : Forall2 R l l' ->
  forall n, optrel R (nth_error l n) (nth_error l' n).
Proof.
  induction 1 as [|a b l l' Hab Hl IH]; intros [|n]; cbn [nth_error]; try constructor; [exact Hab | apply IH].
Qed.

Lemma Forall2_nth_some {A B} (R : A -> B -> Prop) l l' n a : Forall2 R l l' ->
  nth_error l n = Some a -> exists b, nth_error l' n = Some b /\ R a b.
Proof. intros H E. destruct (Forall2_nth R l l' H n) as [a0 b Hab|]; inv E. eauto. Qed.

Lemma Forall2_nth_none {A B} (R : A -> B -> Prop) l l' n : Forall2 R l l' ->
  nth_error l n = None -> nth_error l' n = None.
Proof. intros H E. destruct (Forall2_nth R l l' H n); [discriminate | reflexivity]. Qed.

Lemma Forall2_len {A B} (R : A -> B -> Prop) l l' : Forall2 R l l' -> length l = length l'.
Proof. induction 1; cbn; congruence. Qed.

Lemma Forall2_firstn {A B} (R : A -> B -> Prop) n : forall l l', Forall2 R l l' -> Forall2 R (firstn n l) (firstn n l').
Proof. induction n as [|n IH]; intros l l' H; cbn; [constructor|]. inv H; constructor; auto. Qed.

Lemma Forall2_skipn {A B} (R : A -> B -> Prop) n : forall l l', Forall2 R l l' -> Forall2 R (skipn n l) (skipn n l').
Proof. induction n as [|n IH]; intros l l' H; cbn; [exact H|]. inv H; [constructor | auto]. Qed.

Lemma popn_rel {R : value -> value -> Prop} n : forall st st' acc acc',
  Forall2 R st st' -> Forall2 R acc acc' ->
  optrel (fun a b => Forall2 R (fst a) (fst b) /\ Forall2 R (snd a) (snd b)) (popn n st acc) (popn n st' acc').
Proof.
  induction n as [|n IH]; intros st st' acc acc' Hs Ha; cbn [popn]; [constructor; auto|].
  destruct Hs; [constructor | apply IH; [assumption | constructor; assumption]].
Qed.

Lemma value_ind' (Q : value -> Prop) :
  (forall z, Q (VInt z)) -> (forall h, Q (VBin h)) -> (forall r, Q (VRef r)) ->
  (forall t fs, Forall Q fs -> Q (VTuple t fs)) -> (forall f cs, Forall Q cs -> Q (VFun f cs)) ->
  (forall b, Q (VBuiltin b)) -> (forall p f, Q (VProc p f)) -> (forall r ty, Q (VRes r ty)) ->
  forall v, Q v.
Proof.
  intros Hi Hb Hr Ht Hf Hbi Hp Hre. fix IH 1. intros v. destruct v.
  - apply Hi. - apply Hb. - apply Hr.
  - apply Ht. induction fs as [|x t0 IHl]; constructor; [apply IH | exact IHl].
  - apply Hf. induction caps as [|x t0 IHl]; constructor; [apply IH | exact IHl].
  - apply Hbi. - apply Hp. - apply Hre.
Qed.

Lemma map_opt_Forall2 {A B} (g : A -> option B) l : forall r, map_opt g l = Some r ->
  Forall2 (fun x y => g x = Some y) l r.
Proof.
  induction l as [|a l IH]; intros r H; cbn [map_opt] in H; [inv H; constructor|].
  destruct (g a) as [y|] eqn:Ga; [|discriminate].
  destruct (map_opt g l) as [r'|]; [|discriminate]. inv H. constructor; auto.
Qed.

Lemma map_opt_all {A B} (g : A -> option B) (h : A -> B) l :
  (forall a, In a l -> g a = Some (h a)) -> map_opt g l = Some (map h l).
Proof.
  induction l as [|a l IH]; intros H; cbn [map_opt map]; [reflexivity|].
  rewrite (H a (or_introl eq_refl)), IH; [reflexivity|]. intros b Hb. apply H. right. exact Hb.
Qed.

Lemma find_index_spec {A} (p : A -> bool) l : forall i0 i, find_index p l i0 = Some i ->
  exists x, nth_error l (i - i0) = Some x /\ p x = true /\ i0 <= i.
Proof.
  induction l as [|x l IH]; intros i0 i H; cbn [find_index] in H; [discriminate|].
  destruct (p x) eqn:E.
  - inv H. rewrite Nat.sub_diag. exists x. auto.
  - apply IH in H. destruct H as (y & Hy & Hp & Hle). exists y.
    replace (i - i0) with (S (i - S i0)) by lia. repeat split; auto. lia.
Qed.

Lemma find_index_hit {A} (p : A -> bool) l i : find_index p l 0 = Some i ->
  exists x, nth_error l i = Some x /\ p x = true.
Proof. intros H. apply find_index_spec in H as (x & Hx & Hp & _). rewrite Nat.sub_0_r in Hx. eauto. Qed.

Lemma commute_spec m l l' i j : commute m l l' = true -> app m i = Some j -> nthb l i = nthb l' j.
Proof. unfold commute. rewrite forall_map_spec. intros H E. apply Bool.eqb_prop, H, E. Qed.

Lemma commute_on_spec mask m l l' i j : commute_on mask m l l' = true -> app m i = Some j ->
  nthb mask i = true -> nthb l i = nthb l' j.
Proof.
  unfold commute_on. rewrite forall_map_spec. intros H E M. specialize (H _ _ E). rewrite M in H.
  apply Bool.eqb_prop, H.
Qed.

(* canonical ids: equal exactly when name and labels are (C13), and those are preserved *)
Lemma canon_shape Y : canon_ok Y = true -> forall t1 t2 a1 a2,
  nth_error (x_tuples Y) t1 = Some a1 -> nth_error (x_tuples Y) t2 = Some a2 ->
  (canon_of Y t1 = canon_of Y t2 <->
   (xt_name a1, map fst (xt_fields a1)) = (xt_name a2, map fst (xt_fields a2))).
Proof.
  intros H t1 t2 a1 a2 E1 E2. unfold canon_ok in H.
  apply (list_eqb_eq Nat.eqb (fun a b => proj1 (Nat.eqb_eq a b))) in H.
  apply (map_nth_error shape_info) in E1, E2.
  rewrite <- (EqualProofs.canonical_iff_same_shape _ t1 t2 _ _ E1 E2 : _ <-> (xt_name a1, _) = (xt_name a2, _)).
  unfold canon_of. rewrite H.
  destruct (EqualProofs.canonical_is_lowest _ _ _ E1) as (c1 & -> & _).
  destruct (EqualProofs.canonical_is_lowest _ _ _ E2) as (c2 & -> & _). split; congruence.
Qed.

Lemma eqb_iff a b c d : (a = b <-> c = d) -> Nat.eqb a b = Nat.eqb c d.
Proof.
  intros H. destruct (Nat.eqb_spec a b) as [E|E], (Nat.eqb_spec c d) as [E'|E']; tauto.
Qed.

(* `zipb (veq c beq)` is, literally, the inner loop of `veq c beq` on tuples and closures *)
Definition zipb (f : value -> value -> bool) : list value -> list value -> bool :=
  fix zip l l' := match l, l' with x :: t, y :: t' => f x y && zip t t' | _, _ => true end.

Lemma veq_tuple c beq t1 f1 t2 f2 :
  veq c beq (VTuple t1 f1) (VTuple t2 f2) =
  Nat.eqb (c t1) (c t2) && Nat.eqb (length f1) (length f2) && zipb (veq c beq) f1 f2.
Proof. reflexivity. Qed.

Lemma veq_fun c beq g1 c1 g2 c2 :
  veq c beq (VFun g1 c1) (VFun g2 c2) =
  Nat.eqb g1 g2 && Nat.eqb (length c1) (length c2) && zipb (veq c beq) c1 c2.
Proof. reflexivity. Qed.

(* every check of the validator looks up both tables first *)
Lemma chk_both {A} (l l' : list A) i j (body : A -> A -> bool) :
  match nth_error l i, nth_error l' j with Some a, Some a' => body a a' | _, _ => false end = true ->
  exists a a', nth_error l i = Some a /\ nth_error l' j = Some a' /\ body a a' = true.
Proof. destruct (nth_error l i) as [a|], (nth_error l' j) as [a'|]; try discriminate. eauto. Qed.

Section SIM.
Variable rho : renaming.
Variable X X' : xprogram.
Hypothesis HR : struct_ok rho X X' = true.

Let P := project X.
Let P' := project X'.

(* struct_ok, conjunct by conjunct, as propositions *)
Record facts : Prop := {
  F_entry : app (r_f rho) (x_entry X) = Some (x_entry X');
  F_nil : app (r_t rho) NIL = Some NIL;
  F_ok : app (r_t rho) OK = Some OK;
  F_nil_only : forall t, app (r_t rho) t = Some NIL -> t = NIL;
  F_fun : forall f f', app (r_f rho) f = Some f' -> chk_fun rho X X' f f' = true;
  F_const : forall k k', app (r_c rho) k = Some k' -> chk_const X X' k k' = true;
  F_tuple : forall t t', app (r_t rho) t = Some t' -> chk_tuple rho X X' t t' = true;
  F_type : forall y y', app (r_y rho) y = Some y' -> chk_type rho X X' y y' = true;
  F_builtin : forall b b', app (r_b rho) b = Some b' -> chk_builtin rho X X' b b' = true;
  F_res : forall r r', app (r_r rho) r = Some r' -> chk_res X X' r r' = true;
  F_inj_f : forall f f', app (r_f rho) f = Some f' -> app (i_f rho) f' = Some f;
  F_inj_b : forall b b', app (r_b rho) b = Some b' -> app (i_b rho) b' = Some b
}.

Lemma the_facts : facts.
Proof.
  pose proof HR as H. unfold struct_ok in H.
  apply andb_prop in H as [H Hib]. apply andb_prop in H as [H Hif]. apply andb_prop in H as [H Hr].
  apply andb_prop in H as [H Hb]. apply andb_prop in H as [H Hy]. apply andb_prop in H as [H Ht].
  apply andb_prop in H as [H Hc]. apply andb_prop in H as [H Hf]. apply andb_prop in H as [H Hno].
  apply andb_prop in H as [H Hok]. apply andb_prop in H as [He Hnil].
  constructor.
  - apply maps_to_spec, He.
  - apply maps_to_spec, Hnil.
  - apply maps_to_spec, Hok.
  - intros t E. apply Nat.eqb_eq. exact (proj1 (forall_map_spec _ _) Hno t NIL E).
  - apply forall_map_spec, Hf.
  - apply forall_map_spec, Hc.
  - apply forall_map_spec, Ht.
  - apply forall_map_spec, Hy.
  - apply forall_map_spec, Hb.
  - apply forall_map_spec, Hr.
  - intros f f' E. apply maps_to_spec. exact (proj1 (forall_map_spec _ _) Hif f f' E).
  - intros b b' E. apply maps_to_spec. exact (proj1 (forall_map_spec _ _) Hib b b' E).
Qed.

Let FX := the_facts.

Lemma inj_f f g f' : app (r_f rho) f = Some f' -> app (r_f rho) g = Some f' -> f = g.
Proof. intros A B. apply (F_inj_f FX) in A, B. congruence. Qed.
Lemma inj_b f g f' : app (r_b rho) f = Some f' -> app (r_b rho) g = Some f' -> f = g.
Proof. intros A B. apply (F_inj_b FX) in A, B. congruence. Qed.

Lemma instr_img_inv i i' : instr_img rho i i' = true ->
  match i with
  | IConstant k => exists k', app (r_c rho) k = Some k' /\ i' = IConstant k'
  | ITuple t => exists t', app (r_t rho) t = Some t' /\ i' = ITuple t'
  | IIsType y => exists y', app (r_y rho) y = Some y' /\ i' = IIsType y'
  | IFunction f => exists f', app (r_f rho) f = Some f' /\ i' = IFunction f'
  | IBuiltin b => exists b', app (r_b rho) b = Some b' /\ i' = IBuiltin b'
  | IProcess pid f => exists f', app (r_f rho) f = Some f' /\ i' = IProcess pid f'
  | other => i' = other
  end.
Proof.
  unfold instr_img. destruct (ren_instr rho i) as [j|] eqn:E; [|discriminate]. intros H. apply instr_eqb_eq in H. subst j.
  destruct i; cbn [ren_instr] in E; try (inv E; reflexivity);
    match type of E with option_map _ ?a = _ => destruct a as [k'|]; inv E; eauto end.
Qed.

Lemma fun_facts f f' : app (r_f rho) f = Some f' ->
  exists fd fd', nth_error (x_funcs X) f = Some fd /\ nth_error (x_funcs X') f' = Some fd' /\
                 xf_caps fd = xf_caps fd' /\
                 Forall2 (fun i j => instr_img rho i j = true) (xf_code fd) (xf_code fd').
Proof.
  intros E. apply (F_fun FX), chk_both in E as (fd & fd' & A & B & H).
  apply andb_true_iff in H as [H _]. apply andb_true_iff in H as [H1 H2].
  apply Nat.eqb_eq in H1. apply forall2b_spec in H2. exists fd, fd'. repeat split; assumption.
Qed.

Lemma fun_defined f f' : app (r_f rho) f = Some f' ->
  exists fd fd', nth_error (p_funcs P) f = Some fd /\ nth_error (p_funcs P') f' = Some fd' /\ f_caps fd = f_caps fd'.
Proof.
  intros E. destruct (fun_facts _ _ E) as (fd & fd' & A & B & C & _).
  exists (erase_func fd), (erase_func fd'). repeat split; [apply map_nth_error, A | apply map_nth_error, B | exact C].
Qed.

Lemma code_rel f f' : app (r_f rho) f = Some f' ->
  exists code code', code_of P f = Some code /\ code_of P' f' = Some code' /\
                     Forall2 (fun i j => instr_img rho i j = true) code code'.
Proof.
  intros E. destruct (fun_facts _ _ E) as (fd & fd' & A & B & _ & D).
  exists (xf_code fd), (xf_code fd'). unfold code_of, P, P', project; cbn [p_funcs].
  rewrite (map_nth_error erase_func _ _ A), (map_nth_error erase_func _ _ B). auto.
Qed.

Lemma tuple_facts t t' : app (r_t rho) t = Some t' ->
  exists a a', nth_error (x_tuples X) t = Some a /\ nth_error (x_tuples X') t' = Some a' /\
               xt_name a = xt_name a' /\ map fst (xt_fields a) = map fst (xt_fields a') /\ arity a = arity a'.
Proof.
  intros E. apply (F_tuple FX), chk_both in E as (a & a' & A & B & H).
  apply andb_true_iff in H as [H1 H2]. apply ostr_eqb_eq in H1. apply forall2b_spec in H2.
  exists a, a'. repeat split; auto; [|exact (Forall2_len _ _ _ H2)].
  induction H2 as [|p q l l' Hpq _ IH]; [reflexivity|]. cbn [map]. f_equal; [|exact IH].
  apply andb_true_iff in Hpq as [Hl _]. apply ostr_eqb_eq, Hl.
Qed.

Lemma tuple_arity t t' : app (r_t rho) t = Some t' ->
  exists n, nth_error (p_tuples P) t = Some n /\ nth_error (p_tuples P') t' = Some n.
Proof.
  intros E. destruct (tuple_facts _ _ E) as (a & a' & A & B & _ & _ & C).
  exists (arity a). split; [apply map_nth_error, A | rewrite C; apply map_nth_error, B].
Qed.

Lemma const_facts k k' : app (r_c rho) k = Some k' ->
  exists c, nth_error (p_consts P) k = Some c /\ nth_error (p_consts P') k' = Some c.
Proof.
  intros E. apply (F_const FX), chk_both in E as (c & c' & A & B & H).
  apply xconst_eqb_eq in H. subst c'. exists (erase_const c). split; apply map_nth_error; assumption.
Qed.

Lemma builtin_range b b' : app (r_b rho) b = Some b' -> b < p_nbuiltins P /\ b' < p_nbuiltins P'.
Proof.
  intros E. apply (F_builtin FX), chk_both in E as (a & a' & A & B & _).
  split; apply nth_error_Some; [rewrite A | rewrite B]; discriminate.
Qed.

Inductive vrel : value -> value -> Prop :=
| VR_int z : vrel (VInt z) (VInt z)
| VR_bin h : vrel (VBin h) (VBin h)
| VR_ref r : vrel (VRef r) (VRef r)
| VR_tuple t t' fs fs' : app (r_t rho) t = Some t' -> Forall2 vrel fs fs' -> vrel (VTuple t fs) (VTuple t' fs')
| VR_fun f f' cs cs' : app (r_f rho) f = Some f' -> Forall2 vrel cs cs' -> vrel (VFun f cs) (VFun f' cs')
| VR_builtin b b' : app (r_b rho) b = Some b' -> vrel (VBuiltin b) (VBuiltin b')
| VR_proc p f f' : app (r_f rho) f = Some f' -> vrel (VProc p f) (VProc p f')
| VR_res r ty ty' : app (r_r rho) ty = Some ty' -> vrel (VRes r ty) (VRes r ty').

Definition frel (a b : frame) : Prop :=
  app (r_f rho) (fr_fn a) = Some (fr_fn b) /\ fr_base a = fr_base b /\ fr_caps a = fr_caps b /\ fr_pc a = fr_pc b.

Record srel (s s' : state) : Prop := {
  sr_stack : Forall2 vrel (stack s) (stack s');
  sr_locals : Forall2 vrel (locals s) (locals s');
  sr_frames : Forall2 frel (frames s) (frames s');
  sr_pers : persistent s = persistent s'
}.

Definition orel (o o' : option value) : Prop :=
  match o, o' with Some v, Some v' => vrel v v' | None, None => True | _, _ => False end.

(* outside inputs: the same, up to the renaming of the ids their values carry *)
Definition xrel (x x' : ext) : Prop := orel (x_value x) (x_value x') /\ x_bool x = x_bool x'.

Definition rrel (r r' : sres) : Prop :=
  match r, r' with
  | Next s, Next s' => srel s s'
  | Finished v s, Finished v' s' => vrel v v' /\ srel s s'
  | Fault f, Fault f' => f = f'
  | _, _ => False
  end.

Lemma vrel_bool (b : bool) : vrel (if b then vok else vnil) (if b then vok else vnil).
Proof. destruct b; constructor; [exact (F_ok FX) | | exact (F_nil FX) |]; constructor. Qed.

Lemma is_nil_rel v v' : vrel v v' -> is_nil v = is_nil v'.
Proof.
  intros [ | | |t t' fs fs' Ht [|]| | | | ]; cbn [is_nil]; try reflexivity.
  destruct (Nat.eqb_spec t NIL) as [->|N].
  - rewrite (F_nil FX) in Ht. inv Ht. reflexivity.
  - symmetry. apply Nat.eqb_neq. intros ->. apply N, (F_nil_only FX), Ht.
Qed.

Lemma frel_mk f f' base caps pc : app (r_f rho) f = Some f' ->
  frel {| fr_fn := f; fr_base := base; fr_caps := caps; fr_pc := pc |}
       {| fr_fn := f'; fr_base := base; fr_caps := caps; fr_pc := pc |}.
Proof. intros H. repeat split. exact H. Qed.

Lemma frel_set_pc a b n : frel a b -> frel (set_pc a n) (set_pc b n).
Proof. intros (A & B & C & _). repeat split; assumption. Qed.

Lemma last_rel l l' d d' : Forall2 frel l l' -> frel d d' -> frel (last l d) (last l' d').
Proof.
  induction 1 as [|a b l l' Hab Hl IH]; intros Hd; [exact Hd|].
  cbn [last]. destruct Hl; [exact Hab | apply IH, Hd].
Qed.

Local Hint Constructors vrel Forall2 : rel.
Local Hint Resolve Forall2_app Forall2_firstn Forall2_skipn vrel_bool frel_mk frel_set_pc : rel.

Lemma srel_mk st st' lo lo' frs frs' p :
  Forall2 vrel st st' -> Forall2 vrel lo lo' -> Forall2 frel frs frs' ->
  srel {| stack := st; locals := lo; frames := frs; persistent := p |}
       {| stack := st'; locals := lo'; frames := frs'; persistent := p |}.
Proof. intros. constructor; [assumption .. | reflexivity]. Qed.

Lemma next_rel st st' lo lo' frs frs' p :
  Forall2 vrel st st' -> Forall2 vrel lo lo' -> Forall2 frel frs frs' ->
  rrel (Next (bump {| stack := st; locals := lo; frames := frs; persistent := p |}))
       (Next (bump {| stack := st'; locals := lo'; frames := frs'; persistent := p |})).
Proof.
  intros Hs Hl [|fr fr' rest rest' Hf Hr]; unfold bump; cbn [frames]; apply srel_mk; auto with rel.
  pose proof Hf as (_ & _ & _ & <-). auto with rel.
Qed.

Lemma ext_rel o o' st st' lo lo' frs frs' p f :
  orel o o' -> Forall2 vrel st st' -> Forall2 vrel lo lo' -> Forall2 frel frs frs' ->
  rrel (match o with
        | Some v => Next (bump {| stack := v :: st; locals := lo; frames := frs; persistent := p |})
        | None => Fault f
        end)
       (match o' with
        | Some v => Next (bump {| stack := v :: st'; locals := lo'; frames := frs'; persistent := p |})
        | None => Fault f
        end).
Proof. destruct o, o'; try contradiction; [intros; apply next_rel; auto with rel | reflexivity]. Qed.

Lemma step_sim s s' x x' : srel s s' -> xrel x x' -> rrel (step P s x) (step P' s' x').
Proof.
  intros HS [Hxv Hxb].
  destruct s as [st lo fs p], s' as [st' lo' fs' p'].
  destruct HS as [Hst Hlo Hfr Hp]; cbn [stack locals frames persistent] in *. subst p'.
  unfold step; cbn [with_stack with_locals with_frames frames stack locals persistent].
  pose proof Hfr as Hfrs. destruct Hfr as [|fr fr' rest rest' Hfrel Hrest].
  { (* no frame left: the result *)
    destruct Hst as [|v v' sp sq Hv Hsp]; [reflexivity|]. split; [exact Hv | apply srel_mk; assumption]. }
  pose proof Hfrel as (Hfn & Hbase & Hcaps & Hpc).
  destruct (code_rel _ _ Hfn) as (code & code' & -> & -> & Hcode). rewrite <- Hpc.
  pose proof (Forall2_len _ _ _ Hcode) as Hlen.
  destruct (Forall2_nth _ _ _ Hcode (fr_pc fr)) as [i i' Hi|].
  2: { (* frame exhausted *)
    rewrite <- Hbase. destruct Hrest; apply next_rel; auto with rel; destruct (p && _); auto with rel. }
  apply instr_img_inv in Hi.
  destruct i; cbv beta iota in Hi; try subst i'.
  - (* Constant *)
    destruct Hi as (k' & Hk & ->). destruct (const_facts _ _ Hk) as (c & -> & ->).
    destruct c; [apply next_rel | apply ext_rel]; auto with rel.
  - (* Pop *) destruct Hst; [reflexivity | apply next_rel; auto with rel].
  - (* Duplicate *) destruct Hst; [reflexivity | apply next_rel; auto with rel].
  - (* Pick *)
    destruct (Forall2_nth _ _ _ Hst n) as [v v' Hv|]; [apply next_rel; auto with rel | reflexivity].
  - (* Rotate *)
    rewrite <- (Forall2_len _ _ _ Hst). destruct (length st <? n); [reflexivity|].
    destruct n as [|m]; [reflexivity|].
    destruct (Forall2_nth _ _ _ Hst m) as [v v' Hv|]; [apply next_rel; auto 6 with rel | reflexivity].
  - (* Reset *)
    rewrite <- Hbase, <- (Forall2_len _ _ _ Hlo).
    destruct (length lo <? fr_base fr + i); [reflexivity | apply next_rel; auto with rel].
  - (* Load *)
    rewrite <- Hbase.
    destruct (Forall2_nth _ _ _ Hlo (fr_base fr + i)) as [v v' Hv|]; [apply next_rel; auto with rel | reflexivity].
  - (* Store *) destruct Hst; [reflexivity | apply next_rel; auto with rel].
  - (* Tuple *)
    destruct Hi as (t' & Ht & ->). destruct (tuple_arity _ _ Ht) as (n & -> & ->).
    destruct (popn_rel n _ _ [] [] Hst (Forall2_nil _)) as [[vs r] [vs' r'] [G1 G2]|]; [|reflexivity].
    apply next_rel; auto with rel.
  - (* Get *)
    destruct Hst as [|v v' sp sq Hv Hsp]; [reflexivity|].
    destruct Hv as [ | | |? ? fs fs' ? Hfs| | | | ]; try reflexivity.
    destruct (Forall2_nth _ _ _ Hfs i) as [w w' Hw|]; [apply next_rel; auto with rel | reflexivity].
  - (* IsType *)
    destruct Hi as (y' & _ & ->). rewrite <- Hxb. destruct Hst; [reflexivity | apply next_rel; auto with rel].
  - (* Jump *)
    rewrite <- Hlen. destruct (_ || _); [reflexivity | apply srel_mk; auto with rel].
  - (* JumpIf *)
    destruct Hst as [|v v' sp sq Hv Hsp]; [reflexivity|]. rewrite <- (is_nil_rel _ _ Hv), <- Hlen.
    destruct (is_nil v); [apply next_rel; auto with rel|].
    destruct (_ || _); [reflexivity | apply srel_mk; auto with rel].
  - (* Call *)
    destruct Hst as [|v v' sp sq Hv Hsp]; [reflexivity|].
    destruct Hv as [ | | | |g g' cs cs' Hg Hcs| | | ]; try reflexivity.
    + (* a closure: its captures become the new frame's locals *)
      destruct (fun_defined _ _ Hg) as (fd & fd' & -> & -> & _). destruct Hsp; [reflexivity|].
      rewrite (Forall2_len _ _ _ Hlo), (Forall2_len _ _ _ Hcs). apply srel_mk; auto with rel.
    + (* a builtin: its result comes from outside *)
      destruct Hsp; [reflexivity | apply ext_rel; auto with rel].
  - (* TailCall *)
    destruct recurse.
    + destruct Hst; [reflexivity|]. rewrite <- Hbase, <- Hcaps. apply srel_mk; auto with rel.
    + destruct Hst as [|v v' sp sq Hv Hsp]; [reflexivity|]. destruct Hsp; [reflexivity|].
      destruct Hv as [ | | | |g g' cs cs' Hg Hcs| | | ]; try reflexivity.
      destruct (fun_defined _ _ Hg) as (fd & fd' & -> & -> & _).
      rewrite <- Hbase, (Forall2_len _ _ _ Hcs). apply srel_mk; auto with rel.
  - (* Function *)
    destruct Hi as (f' & Hf & ->). destruct (fun_defined _ _ Hf) as (fd & fd' & -> & -> & <-).
    destruct (popn_rel (f_caps fd) _ _ [] [] Hst (Forall2_nil _)) as [[vs r] [vs' r'] [G1 G2]|]; [|reflexivity].
    apply next_rel; auto with rel.
  - (* Builtin *)
    destruct Hi as (b' & Hb & ->). destruct (builtin_range _ _ Hb) as [R1 R2].
    apply Nat.leb_gt in R1, R2. rewrite R1, R2. apply next_rel; auto with rel.
  - (* Equal *)
    rewrite <- (Forall2_len _ _ _ Hst), <- Hxb. destruct (length st <? n); [reflexivity|].
    destruct (popn_rel n _ _ [] [] Hst (Forall2_nil _)) as [[vs r] [vs' r'] [G1 G2]|]; [|reflexivity].
    cbn [fst] in G1. destruct G1; [reflexivity | apply next_rel; auto with rel].
  - (* Not *)
    destruct Hst as [|v v' sp sq Hv Hsp]; [reflexivity|]. rewrite <- (is_nil_rel _ _ Hv). apply next_rel; auto with rel.
  - (* Spawn *)
    destruct Hst as [|v v' sp sq Hv Hsp]; [reflexivity|]. destruct Hsp; [reflexivity|].
    destruct Hv; try reflexivity. apply ext_rel; auto with rel.
  - (* Send *)
    destruct Hst as [|v v' sp sq Hv Hsp]; [reflexivity|]. destruct Hsp; [reflexivity|].
    destruct Hv; try reflexivity. apply next_rel; auto with rel.
  - (* Self: the root function is that of the outermost frame *)
    apply next_rel; auto with rel. constructor; [|exact Hst].
    unfold orel in Hxv. destruct (x_value x), (x_value x'); try contradiction; [exact Hxv|].
    constructor. exact (proj1 (last_rel _ _ _ _ Hfrs Hfrel)).
  - (* Select *) destruct Hst; [reflexivity | apply ext_rel; auto with rel].
  - (* Process *) destruct Hi as (f' & Hf & ->). apply next_rel; auto with rel.
Qed.

(* from here on: the run-time tables of both programs (what each loader computes) *)
Hypothesis HRows : rows_ok rho X X' = true.
Hypothesis HCX : canon_ok X = true.
Hypothesis HCX' : canon_ok X' = true.

Lemma row_fact y y' : app (r_y rho) y = Some y' -> chk_row rho X X' y y' = true.
Proof. unfold rows_ok in HRows. apply andb_true_iff in HRows as [_ H]. apply forall_map_spec, H. Qed.

Lemma tested_row f f' fd y : app (r_f rho) f = Some f' -> nth_error (x_funcs X) f = Some fd ->
  In (IIsType y) (xf_code fd) -> exists w, row_of X y = Some w.
Proof.
  intros Hf Hfd Hin. unfold rows_ok in HRows. apply andb_true_iff in HRows as [H _].
  rewrite forall_map_spec in H. specialize (H _ _ Hf). unfold rows_dumped in H. rewrite Hfd in H.
  rewrite forallb_forall in H. specialize (H _ Hin). cbn [row_dumped] in H.
  destruct (row_of X y) as [w|]; [eauto | discriminate].
Qed.

(* IsType: the row of the tested type, read at the value's tag, says the same on both sides *)
Lemma istype_agree v v' y y' w : vrel v v' -> app (r_y rho) y = Some y' -> row_of X y = Some w ->
  tag_typed X v ->
  istype_verdict X v y = istype_verdict X' v' y'.
Proof.
  intros Hv Hy Hw HT. pose proof (row_fact _ _ Hy) as H. unfold chk_row in H. rewrite Hw in H.
  unfold istype_verdict. rewrite Hw. destruct (row_of X' y') as [w'|]; [|discriminate].
  unfold rows_commute in H.
  apply andb_prop in H as [H Hres]. apply andb_prop in H as [H Hprocs]. apply andb_prop in H as [H Hbuiltins].
  apply andb_prop in H as [H Hfuns]. apply andb_prop in H as [H Htuples]. apply andb_prop in H as [H Href].
  apply andb_prop in H as [Hint Hbin].
  destruct Hv as [ | | |t t' fs fs' Et _|f f' cs cs' Ef _|b b' Eb|p f f' Ef|r ty ty' Er]; cbn [tag_in].
  - apply Bool.eqb_prop, Hint.
  - apply Bool.eqb_prop, Hbin.
  - apply Bool.eqb_prop, Href.
  - exact (commute_on_spec _ _ _ _ _ _ Htuples Et HT).
  - exact (commute_spec _ _ _ _ _ Hfuns Ef).
  - exact (commute_spec _ _ _ _ _ Hbuiltins Eb).
  - exact (commute_spec _ _ _ _ _ Hprocs Ef).
  - exact (commute_spec _ _ _ _ _ Hres Er).
Qed.

Lemma canon_agree t1 t1' t2 t2' : app (r_t rho) t1 = Some t1' -> app (r_t rho) t2 = Some t2' ->
  Nat.eqb (canon_of X t1) (canon_of X t2) = Nat.eqb (canon_of X' t1') (canon_of X' t2').
Proof.
  intros E1 E2.
  destruct (tuple_facts _ _ E1) as (a1 & a1' & A1 & B1 & N1 & L1 & _).
  destruct (tuple_facts _ _ E2) as (a2 & a2' & A2 & B2 & N2 & L2 & _).
  apply eqb_iff.
  rewrite (canon_shape X HCX _ _ _ _ A1 A2), (canon_shape X' HCX' _ _ _ _ B1 B2).
  rewrite N1, N2, L1, L2. reflexivity.
Qed.

Lemma zipb_agree (f f' : value -> value -> bool) l : forall l' m m',
  Forall (fun a => forall a' b b', vrel a a' -> vrel b b' -> f a b = f' a' b') l ->
  Forall2 vrel l l' -> Forall2 vrel m m' -> zipb f l m = zipb f' l' m'.
Proof.
  induction l as [|a l IH]; intros l' m m' HF H1 H2; inv H1; [reflexivity|].
  inv H2; [reflexivity|]. inv HF. cbn [zipb]. f_equal; auto.
Qed.

Lemma veq_agree beq a : forall a' b b', vrel a a' -> vrel b b' ->
  veq (canon_of X) beq a b = veq (canon_of X') beq a' b'.
Proof.
  induction a as [z|h|r|t fs IH|f cs IH|bi|pp f|r ty] using value_ind'; intros a' b b' Ha Hb;
    inversion Ha as [ | | |? t' ? fs' Ht Hfs|? f' ? cs' Hf Hcs|? bi' Hbi| | ]; subst;
    inversion Hb as [ | | |u u' gs gs' Hu Hgs|g g' ds ds' Hg Hds|bj bj' Hbj| | ]; subst; try reflexivity.
  - (* tuples: canonical ids, arity, fields *)
    rewrite !veq_tuple, (canon_agree _ _ _ _ Ht Hu), (Forall2_len _ _ _ Hfs), (Forall2_len _ _ _ Hgs),
      (zipb_agree _ _ _ _ _ _ IH Hfs Hgs). reflexivity.
  - (* closures: the function ids are compared, and rho is injective on them *)
    rewrite !veq_fun, (Forall2_len _ _ _ Hcs), (Forall2_len _ _ _ Hds), (zipb_agree _ _ _ _ _ _ IH Hcs Hds).
    do 2 f_equal. apply eqb_iff. split; intros ->; [congruence | exact (inj_f _ _ _ Hf Hg)].
  - (* builtins: likewise *)
    cbn [veq]. apply eqb_iff. split; intros ->; [congruence | exact (inj_b _ _ _ Hbi Hbj)].
Qed.

Lemma equal_agree beq vs vs' : Forall2 vrel vs vs' -> equal_verdict X beq vs = equal_verdict X' beq vs'.
Proof.
  intros [|a a' l l' Ha Hl]; [reflexivity|]. unfold equal_verdict, all_equal.
  assert (G : Forall2 vrel (a :: l) (a' :: l')) by auto with rel.
  revert G. generalize (a :: l) (a' :: l'). induction 1 as [|b b' m m' Hb _ IHm]; [reflexivity|].
  cbn [forallb]. f_equal; [apply veq_agree; assumption | exact IHm].
Qed.

Definition xvrel (x x' : ext) : Prop := orel (x_value x) (x_value x').

Lemma top_instr_rel s s' : srel s s' ->
  optrel (fun i i' => instr_img rho i i' = true) (top_instr (project X) s) (top_instr (project X') s').
Proof.
  intros [_ _ Hfr _]. unfold top_instr. destruct Hfr as [|fr fr' rest rest' (Hfn & _ & _ & <-) _]; [constructor|].
  destruct (code_rel _ _ Hfn) as (code & code' & Hc & Hc' & Hcode).
  fold P P'. rewrite Hc, Hc'. apply Forall2_nth, Hcode.
Qed.

Lemma top_row s s' y : srel s s' -> top_instr (project X) s = Some (IIsType y) -> exists w, row_of X y = Some w.
Proof.
  intros [_ _ Hfr _]. unfold top_instr. destruct Hfr as [|fr fr' rest rest' (Hfn & _) _]; [discriminate|].
  destruct (fun_facts _ _ Hfn) as (fd & fd' & A & _).
  unfold code_of, project; cbn [p_funcs]. rewrite (map_nth_error erase_func _ _ A). cbn [option_map erase_func f_code].
  intros E. eapply tested_row; eauto using nth_error_In.
Qed.

Lemma decide_rel beq s s' x x' : srel s s' -> xvrel x x' -> tested_typed X s ->
  xrel (decide X beq s x) (decide X' beq s' x').
Proof.
  intros HS Hxv HT. pose proof (top_row s s') as Hrow. unfold decide. unfold tested_typed in HT.
  destruct (top_instr_rel _ _ HS) as [i i' Hi|]; [|split; [exact Hxv | reflexivity]].
  apply instr_img_inv in Hi. pose proof HS as [Hst _ _ _].
  destruct i; cbv beta iota in Hi;
    try solve [subst i'; split; [exact Hxv | reflexivity]];
    try solve [destruct Hi as (? & ? & ->); split; [exact Hxv | reflexivity]].
  - (* IsType *)
    destruct Hi as (y' & Hy & ->). destruct (Hrow _ HS eq_refl) as [w Hw].
    destruct Hst as [|v v' sp sq Hv Hsp]; (split; [exact Hxv|]); [reflexivity|].
    cbn [x_bool]. eapply istype_agree; eauto.
  - (* Equal *)
    subst i'. destruct (popn_rel n _ _ [] [] Hst (Forall2_nil _)) as [[vs r] [vs' r'] [G _]|];
      (split; [exact Hxv|]); [apply equal_agree, G | reflexivity].
Qed.

Lemma xstep_sim beq s s' x x' : srel s s' -> xvrel x x' -> tested_typed X s ->
  rrel (xstep X beq s x) (xstep X' beq s' x').
Proof. intros HS Hx HT. unfold xstep. apply step_sim; [exact HS | apply decide_rel; assumption]. Qed.

Lemma rrel_next r r' (k k' : state -> sres) : rrel r r' ->
  (forall s s', r = Next s -> srel s s' -> rrel (k s) (k' s')) ->
  rrel (match r with Next s => k s | Finished v s => Finished v s | Fault f => Fault f end)
       (match r' with Next s => k' s | Finished v s => Finished v s | Fault f => Fault f end).
Proof. destruct r, r'; try contradiction; auto. Qed.

Lemma xrun_sim beq xs xs' : Forall2 xvrel xs xs' -> forall s s', srel s s' -> typed_run X beq s xs ->
  rrel (xrun X beq s xs) (xrun X' beq s' xs').
Proof.
  induction 1 as [|x x' xs xs' Hx Hxs IH]; intros s s' HS HT; cbn [xrun]; [exact HS|]. destruct HT as [HT1 HT2].
  apply rrel_next; [apply xstep_sim; assumption|]. intros s1 s1' E HS1. rewrite E in HT2. apply IH; assumption.
Qed.

Lemma run_sim xs xs' : Forall2 xrel xs xs' -> forall s s', srel s s' ->
  rrel (run P s xs) (run P' s' xs').
Proof.
  induction 1 as [|x x' xs xs' Hx Hxs IH]; intros s s' HS; cbn [run]; [exact HS|].
  apply rrel_next; [apply step_sim; assumption | intros s1 s1' _; apply IH].
Qed.

Lemma init_rel f f' caps caps' arg arg' pers :
  app (r_f rho) f = Some f' -> Forall2 vrel caps caps' -> vrel arg arg' ->
  srel (init_state f caps arg pers) (init_state f' caps' arg' pers).
Proof.
  intros Hf Hc Ha. unfold init_state. rewrite (Forall2_len _ _ _ Hc). apply srel_mk; auto with rel.
Qed.

(* f names g in a Function / Process operand; everything reachable that way from a mapped function is
   mapped (reachable_mapped) *)
Definition refers (f g : nat) : Prop :=
  exists fd, nth_error (x_funcs X) f = Some fd /\
             (In (IFunction g) (xf_code fd) \/ exists pid, In (IProcess pid g) (xf_code fd)).

Inductive reachable : nat -> nat -> Prop :=
| reach_refl f : reachable f f
| reach_step f g h : reachable f g -> refers g h -> reachable f h.

Lemma refers_mapped f g : (exists f', app (r_f rho) f = Some f') -> refers f g -> exists g', app (r_f rho) g = Some g'.
Proof.
  intros [f' Hf] (fd & Hfd & Hin). destruct (fun_facts _ _ Hf) as (fd0 & fd' & A & _ & _ & Hcode).
  rewrite Hfd in A. inv A.
  assert (G : forall i, In i (xf_code fd0) -> exists j, instr_img rho i j = true).
  { clear -Hcode. induction Hcode as [|a b l l' Hab _ IH]; intros i Hi; [destruct Hi | destruct Hi as [->|Hi]; eauto]. }
  destruct Hin as [Hin|[pid Hin]]; destruct (G _ Hin) as [j Hj]; apply instr_img_inv in Hj;
    destruct Hj as (g' & Hg & _); eauto.
Qed.

Lemma reachable_mapped f g : reachable f g -> (exists f', app (r_f rho) f = Some f') -> exists g', app (r_f rho) g = Some g'.
Proof. induction 1 as [f|f g h Hfg IH Hgh]; intros Hm; [exact Hm | apply (refers_mapped g h (IH Hm) Hgh)]. Qed.

End SIM.

(* the precondition under which `ren_instr` is total *)
Definition operands_mapped (rho : renaming) (i : instr) : Prop :=
  match i with
  | IConstant k => exists j, app (r_c rho) k = Some j
  | ITuple t => exists j, app (r_t rho) t = Some j
  | IIsType y => exists j, app (r_y rho) y = Some j
  | IFunction f | IProcess _ f => exists j, app (r_f rho) f = Some j
  | IBuiltin b => exists j, app (r_b rho) b = Some j
  | _ => True
  end.

Lemma ren_instr_total rho i : operands_mapped rho i -> exists j, ren_instr rho i = Some j.
Proof.
  destruct i; cbn [operands_mapped ren_instr]; intros H; try (eexists; reflexivity);
    destruct H as [j ->]; eexists; reflexivity.
Qed.

(* For the proofs that a packaging step yields a renaming (RemapShakeProofs, RemapMergeProofs):
   a target entry that is the image of the source entry passes the validator's check. *)
Section INTRO.
Variable rho : renaming.
Variable X X' : xprogram.

Lemma chk_fun_intro f f' fd fd' : nth_error (x_funcs X) f = Some fd -> nth_error (x_funcs X') f' = Some fd' ->
  xf_caps fd = xf_caps fd' -> map_opt (ren_instr rho) (xf_code fd) = Some (xf_code fd') ->
  app (r_y rho) (xf_type fd) = Some (xf_type fd') -> chk_fun rho X X' f f' = true.
Proof.
  intros A B C D E. unfold chk_fun. rewrite A, B, C, Nat.eqb_refl. apply maps_to_spec in E. rewrite E, andb_true_r.
  apply forall2b_spec. apply map_opt_Forall2 in D. induction D as [|i j l r Hij _ IH]; constructor; [|exact IH].
  unfold instr_img. rewrite Hij. apply instr_eqb_refl.
Qed.

Lemma chk_tuple_intro t t' a a' : nth_error (x_tuples X) t = Some a -> nth_error (x_tuples X') t' = Some a' ->
  xt_name a = xt_name a' ->
  Forall2 (fun p q => fst p = fst q /\ app (r_y rho) (snd p) = Some (snd q)) (xt_fields a) (xt_fields a') ->
  chk_tuple rho X X' t t' = true.
Proof.
  intros A B C D. unfold chk_tuple. rewrite A, B, C, ostr_eqb_refl. apply forall2b_spec.
  induction D as [|p q l r [Hl Hy] _ IH]; constructor; [|exact IH].
  apply maps_to_spec in Hy. rewrite Hl, Hy, andb_true_r. apply ostr_eqb_refl.
Qed.

(* shake_rho and merge build r_r alike: the position of each source name among the target's names *)
Lemma chk_res_names r r' :
  app (map (fun n => find_index (str_eqb n) (x_resources X') 0) (x_resources X)) r = Some r' -> chk_res X X' r r' = true.
Proof.
  unfold app, chk_res. rewrite nth_error_map. destruct (nth_error (x_resources X) r) as [n|]; [|discriminate].
  intros H. apply find_index_hit in H as (x & -> & Hp). exact Hp.
Qed.

End INTRO.

Lemma is_renaming_split rho X X' : is_renaming rho X X' = true <->
  struct_ok rho X X' = true /\ rows_ok rho X X' = true /\ canon_ok X = true /\ canon_ok X' = true.
Proof.
  unfold is_renaming. rewrite !andb_true_iff. tauto.
Qed.

(* Running any mapped function (in particular every function reachable from the entry, see
   `renaming_covers_reachable`) on related arguments, with related outside inputs, gives related
   results step for step: the same fault, or related next states / final values — with the IsType
   and Equal verdicts computed from each program's own type_compatibility / canonical_tuples. *)
Theorem renaming_simulation rho X X' : is_renaming rho X X' = true ->
  forall bin_eq f f' caps caps' arg arg' pers xs xs',
  app (r_f rho) f = Some f' -> Forall2 (vrel rho) caps caps' -> vrel rho arg arg' ->
  Forall2 (xvrel rho) xs xs' ->
  typed_run X bin_eq (init_state f caps arg pers) xs ->
  rrel rho (xrun X bin_eq (init_state f caps arg pers) xs)
           (xrun X' bin_eq (init_state f' caps' arg' pers) xs').
Proof.
  intros HR beq f f' caps caps' arg arg' pers xs xs' Hf Hc Ha Hx HT.
  apply is_renaming_split in HR. destruct HR as (HS & HRo & HC & HC').
  apply (xrun_sim rho X X' HS HRo HC HC' beq xs xs' Hx); [apply init_rel; assumption | exact HT].
Qed.

(* the same with every verdict an outside input (vm/Vm.v as it stands, vm/WfRun.v's `run`): the
   STRUCTURAL part of the validator suffices *)
Theorem struct_simulation_ext rho X X' : struct_ok rho X X' = true ->
  forall s s' xs xs', srel rho s s' -> Forall2 (xrel rho) xs xs' ->
  rrel rho (run (project X) s xs) (run (project X') s' xs').
Proof. intros HS s s' xs xs' Hs Hx. apply (run_sim rho X X' HS xs xs' Hx). exact Hs. Qed.

Theorem renaming_simulation_ext rho X X' : is_renaming rho X X' = true ->
  forall s s' xs xs', srel rho s s' -> Forall2 (xrel rho) xs xs' ->
  rrel rho (run (project X) s xs) (run (project X') s' xs').
Proof. intros HR. apply is_renaming_split in HR. apply struct_simulation_ext. apply HR. Qed.

Theorem struct_covers_reachable rho X X' : struct_ok rho X X' = true ->
  app (r_f rho) (x_entry X) = Some (x_entry X') /\
  forall f, reachable X (x_entry X) f -> exists f', app (r_f rho) f = Some f'.
Proof.
  intros HR. pose proof (the_facts rho X X' HR) as FX. split; [exact (F_entry _ _ _ FX)|].
  intros f Hf. eapply (reachable_mapped rho X X' HR); eauto. exists (x_entry X'). exact (F_entry _ _ _ FX).
Qed.

Theorem renaming_covers_reachable rho X X' : is_renaming rho X X' = true ->
  app (r_f rho) (x_entry X) = Some (x_entry X') /\
  forall f, reachable X (x_entry X) f -> exists f', app (r_f rho) f = Some f'.
Proof. intros HR. apply is_renaming_split in HR. apply struct_covers_reachable. apply HR. Qed.

(* the side condition, stated on its own: on related values the real tables give the same verdicts *)
Theorem verdicts_commute rho X X' : is_renaming rho X X' = true ->
  (forall v v' y y' w, vrel rho v v' -> app (r_y rho) y = Some y' -> row_of X y = Some w -> tag_typed X v ->
     istype_verdict X v y = istype_verdict X' v' y') /\
  (forall bin_eq vs vs', Forall2 (vrel rho) vs vs' -> equal_verdict X bin_eq vs = equal_verdict X' bin_eq vs').
Proof.
  intros HR. apply is_renaming_split in HR. destruct HR as (HS & HRo & HC & HC'). split.
  - intros. eapply (istype_agree rho X X' HRo); eauto.
  - intros. apply (equal_agree rho X X' HS HC HC'). assumption.
Qed.

(* the four tables that emitted code reads only grow; types, resources, entry and the run-time tables
   are not constrained *)
Definition prefix {A} (l m : list A) : Prop := exists r, m = l ++ r.
Definition extends (X Y : xprogram) : Prop :=
  prefix (x_consts X) (x_consts Y) /\ prefix (x_funcs X) (x_funcs Y) /\ prefix (x_tuples X) (x_tuples Y) /\
  prefix (x_builtins X) (x_builtins Y).

Lemma prefix_refl {A} (l : list A) : prefix l l.
Proof. exists []. symmetry. apply app_nil_r. Qed.
Lemma prefix_snoc {A} (l : list A) x : prefix l (l ++ [x]).
Proof. exists [x]. reflexivity. Qed.
Lemma prefix_trans {A} (l m n : list A) : prefix l m -> prefix m n -> prefix l n.
Proof. intros [r1 ->] [r2 ->]. exists (r1 ++ r2). symmetry. apply app_assoc. Qed.
Lemma prefix_nth {A} (l m : list A) k x : prefix l m -> nth_error l k = Some x -> nth_error m k = Some x.
Proof. intros [r ->] E. rewrite nth_error_app1; [exact E|]. apply nth_error_Some. congruence. Qed.
Lemma prefix_len {A} (l m : list A) : prefix l m -> length l <= length m.
Proof. intros [r ->]. rewrite app_length. lia. Qed.

Lemma nth_snoc {A} (l : list A) x : nth_error (l ++ [x]) (length l) = Some x.
Proof. rewrite nth_error_app2, Nat.sub_diag by lia. reflexivity. Qed.

Lemma extends_refl X : extends X X.
Proof. repeat split; apply prefix_refl. Qed.

Lemma extends_trans X Y Z : extends X Y -> extends Y Z -> extends X Z.
Proof. intros (A1 & B1 & C1 & D1) (A2 & B2 & C2 & D2). repeat split; eapply prefix_trans; eauto. Qed.

(* values the emitted code can rebuild: tuples of their arity, closures of their capture count *)
Inductive wfx (X : xprogram) : value -> Prop :=
| W_int z : wfx X (VInt z)
| W_bin h : wfx X (VBin h)
| W_tuple t fs a : nth_error (x_tuples X) t = Some a -> arity a = length fs -> Forall (wfx X) fs -> wfx X (VTuple t fs)
| W_fun f cs fd : nth_error (x_funcs X) f = Some fd -> xf_caps fd = length cs -> Forall (wfx X) cs -> wfx X (VFun f cs)
| W_builtin b : b < length (x_builtins X) -> wfx X (VBuiltin b).

Lemma wfx_ext X Y v : extends X Y -> wfx X v -> wfx Y v.
Proof.
  intros (_ & F & T & B). induction v as [z|h|r|t fs IH|f cs IH|b|pp f|r ty] using value_ind'; intros Hw; inv Hw.
  - constructor.
  - constructor.
  - econstructor; [eapply prefix_nth; eassumption | assumption |].
    rewrite Forall_forall in *. auto.
  - econstructor; [eapply prefix_nth; eassumption | assumption |].
    rewrite Forall_forall in *. auto.
  - constructor. apply prefix_len in B. lia.
Qed.

Lemma wfx_ext_all X Y l : extends X Y -> Forall (wfx X) l -> Forall (wfx Y) l.
Proof. intros E. apply Forall_impl. intros v. apply wfx_ext, E. Qed.

(* program.rs:60-172, the register_* functions: the position of the first equal entry, else push.
   `R` is the sense in which the program only grows, `tbl` / `upd` read and replace the table *)
Lemma register_spec {A} (R : xprogram -> xprogram -> Prop) (eqb : A -> A -> bool)
    (tbl : xprogram -> list A) (upd : xprogram -> list A -> xprogram) :
  (forall X, R X X) -> (forall a b, eqb a b = true -> a = b) ->
  (forall X x, R X (upd X (tbl X ++ [x])) /\ nth_error (tbl (upd X (tbl X ++ [x]))) (length (tbl X)) = Some x) ->
  forall X x X1 k,
  match find_index (eqb x) (tbl X) 0 with Some i => (X, i) | None => (upd X (tbl X ++ [x]), length (tbl X)) end = (X1, k) ->
  R X X1 /\ nth_error (tbl X1) k = Some x.
Proof.
  intros Hrefl Heq Hupd X x X1 k. destruct (find_index _ _ 0) as [i|] eqn:E; intros H; inv H; [|apply Hupd].
  split; [apply Hrefl|]. apply find_index_hit in E as (y & Hy & Hp). apply Heq in Hp. congruence.
Qed.

(* all five tables only grow; `extends` keeps the four that emitted code reads, and `grows` of
   RemapMergeProofs is this conjunction *)
Definition tables_grow (X Y : xprogram) : Prop :=
  prefix (x_consts X) (x_consts Y) /\ prefix (x_funcs X) (x_funcs Y) /\ prefix (x_tuples X) (x_tuples Y) /\
  prefix (x_types X) (x_types Y) /\ prefix (x_builtins X) (x_builtins Y).

Lemma tables_grow_refl X : tables_grow X X.
Proof. repeat split; apply prefix_refl. Qed.

Lemma tables_grow_extends X Y : tables_grow X Y -> extends X Y.
Proof. intros (A & B & C & _ & D). repeat split; assumption. Qed.

Lemma register_constant_tables X c X1 k : register_constant X c = (X1, k) ->
  tables_grow X X1 /\ nth_error (x_consts X1) k = Some c.
Proof.
  apply (register_spec tables_grow xconst_eqb x_consts with_consts tables_grow_refl xconst_eqb_eq).
  intros Y x. split; [repeat split; try apply prefix_refl; apply prefix_snoc | apply nth_snoc].
Qed.

Lemma register_function_tables X fd X1 k : register_function X fd = (X1, k) ->
  tables_grow X X1 /\ nth_error (x_funcs X1) k = Some fd.
Proof.
  apply (register_spec tables_grow xfunc_eqb x_funcs with_funcs tables_grow_refl xfunc_eqb_eq).
  intros Y x. split; [repeat split; try apply prefix_refl; apply prefix_snoc | apply nth_snoc].
Qed.

Lemma register_constant_spec X c X1 k : register_constant X c = (X1, k) ->
  extends X X1 /\ nth_error (x_consts X1) k = Some c.
Proof. intros H. apply register_constant_tables in H as [G N]. split; [apply tables_grow_extends, G | exact N]. Qed.

Lemma run_app P xs1 : forall s xs2,
  run P s (xs1 ++ xs2) = match run P s xs1 with Next s' => run P s' xs2 | r => r end.
Proof.
  induction xs1 as [|x t IH]; intros s xs2; cbn [run Datatypes.app]; [reflexivity|].
  destruct (step P s x); [apply IH | reflexivity | reflexivity].
Qed.

Lemma popn_rev l : forall st acc, popn (length l) (rev l ++ st) acc = Some (l ++ acc, st).
Proof.
  induction l as [|x l IH] using rev_ind; intros st acc; [reflexivity|].
  rewrite rev_app_distr, app_length. cbn [rev Datatypes.app length]. rewrite Nat.add_1_r. cbn [popn].
  rewrite IH, <- app_assoc. reflexivity.
Qed.

(* the machine state while straight-line code of frame (fn, base, caps) runs *)
Definition at_pc (st lo : list value) (fn base caps pc : nat) (rest : list frame) (pers : bool) : state :=
  {| stack := st; locals := lo;
     frames := {| fr_fn := fn; fr_base := base; fr_caps := caps; fr_pc := pc |} :: rest; persistent := pers |}.

Definition quiet : ext := {| x_value := None; x_bool := false |}.

(* "running `code`, found at offset |pre| of function fn, with inputs xs, pushes vs (last on top)" *)
Definition pushes (Y : xprogram) (code : list instr) (xs : list ext) (vs : list value) : Prop :=
  forall fn fd pre post st lo base caps rest pers,
    nth_error (x_funcs Y) fn = Some fd -> xf_code fd = pre ++ code ++ post ->
    run (project Y) (at_pc st lo fn base caps (length pre) rest pers) xs =
    Next (at_pc (rev vs ++ st) lo fn base caps (length pre + length code) rest pers).

(* "instruction i, wherever it stands, fed x, replaces its operands vs (last on top) by v" *)
Definition does (Y : xprogram) (i : instr) (x : ext) (vs : list value) (v : value) : Prop :=
  forall fn fd pre post st lo base caps rest pers,
    nth_error (x_funcs Y) fn = Some fd -> xf_code fd = pre ++ [i] ++ post ->
    step (project Y) (at_pc (rev vs ++ st) lo fn base caps (length pre) rest pers) x =
    Next (at_pc (v :: st) lo fn base caps (S (length pre)) rest pers).

Lemma pushes_nil Y : pushes Y [] [] [].
Proof. intros fn fd pre post st lo base caps rest pers _ _. cbn. rewrite Nat.add_0_r. reflexivity. Qed.

Lemma pushes_app Y c1 c2 x1 x2 v1 v2 : pushes Y c1 x1 v1 -> pushes Y c2 x2 v2 ->
  pushes Y (c1 ++ c2) (x1 ++ x2) (v1 ++ v2).
Proof.
  intros H1 H2 fn fd pre post st lo base caps rest pers Hfd Hc.
  rewrite run_app, (H1 fn fd pre (c2 ++ post) st lo base caps rest pers Hfd) by (rewrite Hc, <- app_assoc; reflexivity).
  assert (Hc2 : xf_code fd = (pre ++ c1) ++ c2 ++ post) by (rewrite Hc, <- !app_assoc; reflexivity).
  rewrite app_length, Nat.add_assoc, <- (app_length pre c1), rev_app_distr, <- app_assoc. exact (H2 _ _ _ _ _ _ _ _ _ _ Hfd Hc2).
Qed.

Lemma pushes_then Y code xs vs i x v : pushes Y code xs vs -> does Y i x vs v ->
  pushes Y (code ++ [i]) (xs ++ [x]) [v].
Proof.
  intros H1 H2 fn fd pre post st lo base caps rest pers Hfd Hc.
  rewrite run_app, (H1 fn fd pre ([i] ++ post) st lo base caps rest pers Hfd) by (rewrite Hc, <- app_assoc; reflexivity).
  assert (Hc2 : xf_code fd = (pre ++ code) ++ [i] ++ post) by (rewrite Hc, <- !app_assoc; reflexivity).
  rewrite app_length, Nat.add_assoc, <- (app_length pre code), Nat.add_1_r. cbn [run].
  rewrite (H2 _ _ _ _ _ _ _ _ _ _ Hfd Hc2). reflexivity.
Qed.

Lemma step_at Y fn fd pre i post :
  nth_error (x_funcs Y) fn = Some fd -> xf_code fd = pre ++ i :: post ->
  code_of (project Y) fn = Some (pre ++ i :: post) /\ nth_error (pre ++ i :: post) (length pre) = Some i.
Proof.
  intros Hfd Hc. split.
  - unfold code_of, project; cbn [p_funcs]. rewrite (map_nth_error erase_func _ _ Hfd). cbn. congruence.
  - rewrite nth_error_app2, Nat.sub_diag by lia. reflexivity.
Qed.

(* a binary constant's handle is what allocation hands back *)
Lemma does_const Y k c x v : nth_error (x_consts Y) k = Some c ->
  match c with XInt z => v = VInt z | XBin _ => x_value x = Some v end -> does Y (IConstant k) x [] v.
Proof.
  intros Hk Hv fn fd pre post st lo base caps rest pers Hfd Hc.
  destruct (step_at Y fn fd pre _ post Hfd Hc) as [C N].
  unfold step, at_pc; cbn [frames fr_fn fr_pc]. rewrite C, N.
  unfold project at 1; cbn [p_consts]. rewrite (map_nth_error erase_const _ _ Hk).
  destruct c; cbn [erase_const]; [subst v | rewrite Hv]; reflexivity.
Qed.

Lemma does_tuple Y t a fs : nth_error (x_tuples Y) t = Some a -> arity a = length fs ->
  does Y (ITuple t) quiet fs (VTuple t fs).
Proof.
  intros Ht Ha fn fd pre post st lo base caps rest pers Hfd Hc.
  destruct (step_at Y fn fd pre _ post Hfd Hc) as [C N].
  unfold step, at_pc; cbn [frames fr_fn fr_pc stack]. rewrite C, N.
  unfold project at 1; cbn [p_tuples]. rewrite (map_nth_error arity _ _ Ht), Ha, popn_rev, app_nil_r. reflexivity.
Qed.

Lemma does_function Y f fd0 cs : nth_error (x_funcs Y) f = Some fd0 -> xf_caps fd0 = length cs ->
  does Y (IFunction f) quiet cs (VFun f cs).
Proof.
  intros Hf Ha fn fd pre post st lo base caps rest pers Hfd Hc.
  destruct (step_at Y fn fd pre _ post Hfd Hc) as [C N].
  unfold step, at_pc; cbn [frames fr_fn fr_pc stack]. rewrite C, N.
  unfold project at 1; cbn [p_funcs]. rewrite (map_nth_error erase_func _ _ Hf). cbn [erase_func f_caps].
  rewrite Ha, popn_rev, app_nil_r. reflexivity.
Qed.

Lemma does_builtin Y b : b < length (x_builtins Y) -> does Y (IBuiltin b) quiet [] (VBuiltin b).
Proof.
  intros Hb fn fd pre post st lo base caps rest pers Hfd Hc.
  destruct (step_at Y fn fd pre _ post Hfd Hc) as [C N].
  unfold step, at_pc; cbn [frames fr_fn fr_pc stack]. rewrite C, N.
  unfold project at 1; cbn [p_nbuiltins]. apply Nat.leb_gt in Hb. rewrite Hb. reflexivity.
Qed.

Lemma const_pushes X c X1 k x v : register_constant X c = (X1, k) ->
  match c with XInt z => v = VInt z | XBin _ => x_value x = Some v end ->
  extends X X1 /\ forall Y, extends X1 Y -> pushes Y [IConstant k] [x] [v].
Proof.
  intros R Hv. apply register_constant_spec in R as [Hx Hk]. split; [exact Hx|].
  intros Y (HY & _). apply (pushes_then Y [] [] [] _ _ _ (pushes_nil Y)).
  exact (does_const Y k c x v (prefix_nth _ _ _ _ HY Hk) Hv).
Qed.

Section REEMIT_PROOFS.
Variable bytes_of : nat -> list Z.

(* the inner loop of emit_cached and emit_injected, over either emitter *)
Definition emit_seq (emit : value -> xprogram -> option (xprogram * list instr)) :
    list value -> xprogram -> option (xprogram * list instr) :=
  fix go l X :=
    match l with
    | [] => Some (X, [])
    | e :: l' => match emit e X with
                 | Some (X1, i1) => match go l' X1 with
                                    | Some (X2, i2) => Some (X2, i1 ++ i2)
                                    | None => None
                                    end
                 | None => None
                 end
    end.

Lemma emit_cached_tuple t fs X :
  emit_cached bytes_of (VTuple t fs) X =
  match emit_seq (emit_cached bytes_of) fs X with Some (X1, is) => Some (X1, is ++ [ITuple t]) | None => None end.
Proof. reflexivity. Qed.

Lemma emit_cached_fun f cs X :
  emit_cached bytes_of (VFun f cs) X =
  match nth_error (x_funcs X) f with
  | None => None
  | Some _ => match emit_seq (emit_cached bytes_of) cs X with Some (X1, is) => Some (X1, is ++ [IFunction f]) | None => None end
  end.
Proof. reflexivity. Qed.

Lemma emit_seq_pushes l :
  Forall (fun v => forall X X1 code, emit_cached bytes_of v X = Some (X1, code) -> wfx X v ->
            extends X X1 /\ forall Y, extends X1 Y -> pushes Y code (emit_inputs v) [v]) l ->
  forall X X1 code, emit_seq (emit_cached bytes_of) l X = Some (X1, code) -> Forall (wfx X) l ->
  extends X X1 /\ forall Y, extends X1 Y -> pushes Y code (flat_map emit_inputs l) l.
Proof.
  induction 1 as [|e l IHe _ IHl]; intros X X1 code EL Hw; cbn [emit_seq] in EL.
  - inv EL. split; [apply extends_refl | intros; apply pushes_nil].
  - destruct (emit_cached bytes_of e X) as [[Xa ia]|] eqn:Ea; [|discriminate].
    destruct (emit_seq (emit_cached bytes_of) l Xa) as [[Xb ib]|] eqn:Eb; [|discriminate]. inv EL. inv Hw.
    destruct (IHe _ _ _ Ea) as [Ext1 P1]; [assumption|].
    destruct (IHl _ _ _ Eb) as [Ext2 P2]; [eapply wfx_ext_all; eassumption|].
    split; [eapply extends_trans; eauto|].
    intros Y HY. apply (pushes_app Y ia ib _ _ [e] l); [apply P1; eapply extends_trans; eauto | apply P2, HY].
Qed.

(* value_reemit with `pushes` folded: the program only grows, and in ANY later extension of it the emitted
   code, wherever it sits in a function, pushes exactly v *)
Lemma emit_cached_pushes v : forall X X1 code, emit_cached bytes_of v X = Some (X1, code) -> wfx X v ->
  extends X X1 /\ forall Y, extends X1 Y -> pushes Y code (emit_inputs v) [v].
Proof.
  induction v as [z|h|r|t fs IH|f cs IH|b|pp f|r ty] using value_ind'; intros X X1 code He Hw; try discriminate.
  - (* integer constant *)
    cbn [emit_cached] in He. destruct (register_constant X (XInt z)) as [X0 k] eqn:R. inv He.
    exact (const_pushes _ _ _ _ quiet _ R eq_refl).
  - (* binary constant *)
    cbn [emit_cached] in He. destruct (register_constant X (XBin (bytes_of h))) as [X0 k] eqn:R. inv He.
    exact (const_pushes _ _ _ _ {| x_value := Some (VBin h); x_bool := false |} _ R eq_refl).
  - (* tuple: the fields are pushed, then Tuple(t) pops them *)
    rewrite emit_cached_tuple in He. destruct (emit_seq (emit_cached bytes_of) fs X) as [[X0 is]|] eqn:EL; [|discriminate]. inv He.
    inversion Hw as [| |? ? a Ha Har Hfs| |]; subst.
    destruct (emit_seq_pushes fs IH _ _ _ EL Hfs) as [Ext PL]. split; [exact Ext|].
    intros Y HY. eapply pushes_then; [apply PL, HY|].
    destruct (extends_trans _ _ _ Ext HY) as (_ & _ & T & _). exact (does_tuple Y t a fs (prefix_nth _ _ _ _ T Ha) Har).
  - (* closure: the captures are pushed, then Function(f) pops them *)
    rewrite emit_cached_fun in He. inversion Hw as [| | |? ? fd0 Hf Hcaps Hcs|]; subst. rewrite Hf in He.
    destruct (emit_seq (emit_cached bytes_of) cs X) as [[X0 is]|] eqn:EL; [|discriminate]. inv He.
    destruct (emit_seq_pushes cs IH _ _ _ EL Hcs) as [Ext PL]. split; [exact Ext|].
    intros Y HY. eapply pushes_then; [apply PL, HY|].
    destruct (extends_trans _ _ _ Ext HY) as (_ & F & _). exact (does_function Y f fd0 cs (prefix_nth _ _ _ _ F Hf) Hcaps).
  - (* builtin *)
    cbn [emit_cached] in He. destruct (b <? length (x_builtins X)) eqn:Eb; [|discriminate]. inv He.
    split; [apply extends_refl|]. intros Y (_ & _ & _ & BY). apply (pushes_then Y [] [] [] _ _ _ (pushes_nil Y)).
    apply does_builtin. apply Nat.ltb_lt in Eb. apply prefix_len in BY. lia.
Qed.

End REEMIT_PROOFS.

(* value_reemit: for every value without process / resource / ref that value_to_instructions_from_cache
   accepts, the emitted code — placed anywhere in a function of the (grown) program, started on any
   stack — pushes exactly that value and leaves everything else alone. *)
Theorem value_reemit bytes_of v X X1 code :
  emit_cached bytes_of v X = Some (X1, code) -> wfx X v ->
  extends X X1 /\
  forall Y, extends X1 Y ->
  forall fn fd pre post st lo base caps rest pers,
    nth_error (x_funcs Y) fn = Some fd -> xf_code fd = pre ++ code ++ post ->
    run (project Y) (at_pc st lo fn base caps (length pre) rest pers) (emit_inputs v) =
    Next (at_pc (v :: st) lo fn base caps (length pre + length code) rest pers).
Proof. exact (emit_cached_pushes bytes_of v X X1 code). Qed.

(* the values that hold no process, resource or ref: the ones emit_cached does not refuse outright *)
Fixpoint plain (v : value) : Prop :=
  match v with
  | VProc _ _ | VRes _ _ | VRef _ => False
  | VTuple _ fs => (fix all (l : list value) : Prop := match l with [] => True | x :: t => plain x /\ all t end) fs
  | VFun _ cs => (fix all (l : list value) : Prop := match l with [] => True | x :: t => plain x /\ all t end) cs
  | _ => True
  end.

Module Examples.
Definition s_ok : str := [79; 107]%Z.
Definition s_p : str := [80]%Z.
Definition s_q : str := [81]%Z.
Definition s_x : str := [120]%Z.

(* source: a dead function 0, a helper 1, the entry 2; tuple P[x: int]; `IsType` against P *)
Definition exX : xprogram := {|
  x_consts := [XInt 7; XInt 5];
  x_funcs := [ {| xf_code := [IConstant 0]; xf_caps := 0; xf_type := 2 |};
               {| xf_code := [IPop; ILoad 0]; xf_caps := 1; xf_type := 2 |};
               {| xf_code := [IPop; IConstant 1; IFunction 1; IStore; IConstant 1; ILoad 0; ICall; ITuple 2; IDuplicate; IIsType 1; IPop]; xf_caps := 0; xf_type := 2 |} ];
  x_tuples := [ {| xt_name := None; xt_fields := [] |}; {| xt_name := Some s_ok; xt_fields := [] |};
                {| xt_name := Some s_p; xt_fields := [(Some s_x, 0)] |} ];
  x_types := [TInt; TTuple 2; TCallable 0 0 3; TUnion []];
  x_builtins := [];
  x_resources := [];
  x_entry := 2;
  x_rows := [None; Some {| w_int := false; w_bin := false; w_ref := false; w_tuples := [false; false; true];
                           w_funs := []; w_builtins := []; w_procs := []; w_res := [] |}; None; None];
  x_canon := [0; 1; 2]
|}.

(* target: the dead function and its constant are gone, everything else has moved (as after a
   tree-shake followed by a merge behind a program that owns tuple Q and the type `never`) *)
Definition exX' : xprogram := {|
  x_consts := [XInt 5];
  x_funcs := [ {| xf_code := [IPop; ILoad 0]; xf_caps := 1; xf_type := 3 |};
               {| xf_code := [IPop; IConstant 0; IFunction 0; IStore; IConstant 0; ILoad 0; ICall; ITuple 3; IDuplicate; IIsType 2; IPop]; xf_caps := 0; xf_type := 3 |} ];
  x_tuples := [ {| xt_name := None; xt_fields := [] |}; {| xt_name := Some s_ok; xt_fields := [] |};
                {| xt_name := Some s_q; xt_fields := [] |}; {| xt_name := Some s_p; xt_fields := [(Some s_x, 1)] |} ];
  x_types := [TUnion []; TInt; TTuple 3; TCallable 1 1 0];
  x_builtins := [];
  x_resources := [];
  x_entry := 1;
  x_rows := [None; None; Some {| w_int := false; w_bin := false; w_ref := false; w_tuples := [false; false; false; true];
                                 w_funs := []; w_builtins := []; w_procs := []; w_res := [] |}; None];
  x_canon := [0; 1; 2; 3]
|}.

Definition ex_rho : renaming := {|
  r_c := [None; Some 0]; r_f := [None; Some 0; Some 1]; r_t := [Some 0; Some 1; Some 3];
  r_y := [Some 1; Some 2; Some 3; Some 0]; r_b := []; r_r := [];
  i_f := [Some 1; Some 2]; i_b := []
|}.

Example ex_accepts : is_renaming ex_rho exX exX' = true.
Proof. vm_compute. reflexivity. Qed.

(* the validator is not trivially true: a target whose constant differs is rejected, and so is one whose
   type_compatibility row differs *)
Example ex_rejects_constant :
  is_renaming ex_rho exX (with_consts exX' [XInt 6]) = false.
Proof. vm_compute. reflexivity. Qed.

Example ex_rejects_row :
  is_renaming ex_rho exX
    {| x_consts := x_consts exX'; x_funcs := x_funcs exX'; x_tuples := x_tuples exX'; x_types := x_types exX';
       x_builtins := []; x_resources := []; x_entry := 1;
       x_rows := [None; None; Some {| w_int := false; w_bin := false; w_ref := false; w_tuples := [false; false; true; false];
                                      w_funs := []; w_builtins := []; w_procs := []; w_res := [] |}; None];
       x_canon := x_canon exX' |} = false.
Proof. vm_compute. reflexivity. Qed.

Definition quiet : ext := {| x_value := None; x_bool := false |}.

(* both programs run to completion from their entries; the results are related (P[5] under ids 2 / 3) *)
Example ex_runs :
  xrun exX (fun _ _ => false) (init_state 2 [] vnil false) (repeat quiet 16) =
    Finished (VTuple 2 [VInt 5]) {| stack := []; locals := []; frames := []; persistent := false |} /\
  xrun exX' (fun _ _ => false) (init_state 1 [] vnil false) (repeat quiet 16) =
    Finished (VTuple 3 [VInt 5]) {| stack := []; locals := []; frames := []; persistent := false |}.
Proof. split; vm_compute; reflexivity. Qed.

(* the hypotheses of renaming_simulation are met by this instance *)
Example ex_simulation_applies :
  rrel ex_rho (xrun exX (fun _ _ => false) (init_state 2 [] vnil false) (repeat quiet 16))
              (xrun exX' (fun _ _ => false) (init_state 1 [] vnil false) (repeat quiet 16)).
Proof.
  apply (renaming_simulation ex_rho exX exX' ex_accepts).
  - reflexivity.
  - constructor.
  - constructor; [reflexivity | constructor].
  - repeat constructor.
  - vm_compute. repeat split.
Qed.

(* the relaxation is exercised: OK has no Type::Tuple entry in exX, so its tag is not compared *)
Example ex_ok_untyped : has_tuple_entry exX OK = false /\ has_tuple_entry exX 2 = true.
Proof. split; reflexivity. Qed.

(* --- value_reemit is not vacuous: a module value with a closure over an integer and a binary,
   inside a named tuple; emitted into a program that already holds one of the constants *)
Definition exM : xprogram := {|
  x_consts := [XInt 5];
  x_funcs := [ {| xf_code := [IPop; ILoad 0]; xf_caps := 2; xf_type := 0 |};
               {| xf_code := [IPop]; xf_caps := 0; xf_type := 0 |} ];
  x_tuples := [ {| xt_name := None; xt_fields := [] |}; {| xt_name := Some s_ok; xt_fields := [] |};
                {| xt_name := Some s_p; xt_fields := [(Some s_x, 0); (None, 0)] |} ];
  x_types := [TInt]; x_builtins := [ {| xb_name := s_q; xb_param := 0; xb_result := 0 |} ];
  x_resources := []; x_entry := 1; x_rows := []; x_canon := [0; 1; 2]
|}.
Definition ex_bytes (h : nat) : list Z := [104; 105]%Z.
Definition ex_value : value := VTuple 2 [VFun 0 [VInt 5; VBin 9]; VTuple 2 [VInt 7; VBuiltin 0]].

Example ex_emit :
  option_map snd (emit_cached ex_bytes ex_value exM) =
  Some [IConstant 0; IConstant 1; IFunction 0; IConstant 2; IBuiltin 0; ITuple 2; ITuple 2].
Proof. vm_compute. reflexivity. Qed.

Example ex_emit_wf : wfx exM ex_value.
Proof.
  unfold ex_value. econstructor; [reflexivity | reflexivity |].
  repeat constructor.
  - econstructor; [reflexivity | reflexivity | repeat constructor].
  - econstructor; [reflexivity | reflexivity | repeat constructor].
Qed.

(* the imported function is spliced into a new top-level function (index 2) and run there *)
Example ex_emit_runs :
  match emit_cached ex_bytes ex_value exM with
  | Some (X1, code) =>
      let Y := with_funcs X1 (x_funcs X1 ++ [ {| xf_code := [IPop] ++ code ++ [IStore]; xf_caps := 0; xf_type := 0 |} ]) in
      run (project Y) (at_pc [] [] 2 0 0 1 [] false) (emit_inputs ex_value) =
      Next (at_pc [ex_value] [] 2 0 0 8 [] false)
  | None => False
  end.
Proof. vm_compute. reflexivity. Qed.
End Examples.
