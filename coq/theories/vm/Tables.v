(* Tables.v — well-formedness of a program's tables (the "every constant/tuple/type/function/
   builtin index is in range" clause of C07 for indices that occur INSIDE tables rather than in
   instructions): every type id mentioned by a type, a tuple field, a builtin signature or a
   function's type, and every tuple id mentioned by a type, exists. *)
From Quiver Require Export vm.Bytecode.

Record tables := {
  tb_types : list (list nat * list nat);   (* per type: type ids, tuple ids it mentions *)
  tb_tuples : list (list nat);             (* per tuple: field type ids *)
  tb_builtins : list (nat * nat);          (* per builtin: param, result type id *)
  tb_fn_types : list nat;                  (* per function: its callable type id *)
}.

Definition all_lt (n : nat) (l : list nat) : bool := forallb (fun x => x <? n) l.

Definition tables_ok (t : tables) : bool :=
  let nty := length (tb_types t) in
  let ntu := length (tb_tuples t) in
  forallb (fun e => all_lt nty (fst e) && all_lt ntu (snd e)) (tb_types t) &&
  forallb (all_lt nty) (tb_tuples t) &&
  forallb (fun b => (fst b <? nty) && (snd b <? nty)) (tb_builtins t) &&
  all_lt nty (tb_fn_types t).

Lemma all_lt_spec n l : all_lt n l = true <-> forall x, In x l -> x < n.
Proof. unfold all_lt. rewrite forallb_forall. setoid_rewrite Nat.ltb_lt. reflexivity. Qed.

(* what acceptance means, spelled out *)
Theorem tables_ok_spec t : tables_ok t = true ->
  (forall tys tups, In (tys, tups) (tb_types t) ->
     (forall x, In x tys -> x < length (tb_types t)) /\ (forall x, In x tups -> x < length (tb_tuples t))) /\
  (forall fs, In fs (tb_tuples t) -> forall x, In x fs -> x < length (tb_types t)) /\
  (forall p r, In (p, r) (tb_builtins t) -> p < length (tb_types t) /\ r < length (tb_types t)) /\
  (forall x, In x (tb_fn_types t) -> x < length (tb_types t)).
Proof.
  unfold tables_ok. rewrite !andb_true_iff, !forallb_forall, all_lt_spec. intros [[[H1 H2] H3] H4].
  split; [|split; [|split]]; try assumption.
  - intros tys tups Hin. apply H1, andb_true_iff in Hin. rewrite !all_lt_spec in Hin. exact Hin.
  - intros fs Hin. apply all_lt_spec, H2, Hin.
  - intros p r Hin. apply H3, andb_true_iff in Hin. rewrite !Nat.ltb_lt in Hin. exact Hin.
Qed.
