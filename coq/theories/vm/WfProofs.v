(* WfProofs.v — soundness of the bytecode verifier (C07): a program accepted by
   `check_program` never reaches a structural fault, on any execution, with any inputs from
   outside the process; every frame leaves exactly one value. *)
From Quiver Require Import vm.Wf.

#[export] Hint Rewrite andb_true_iff orb_true_iff Nat.leb_le Nat.ltb_lt Nat.eqb_eq Z.leb_le Z.ltb_lt : b2p.

Lemma if_some {X} (c : bool) (y z : X) : (if c then Some y else None) = Some z -> c = true /\ y = z.
Proof. destruct c; [intros [= <-]; auto | discriminate]. Qed.

Lemma popn_firstn n : forall st acc, n <= length st ->
  popn n st acc = Some (rev (firstn n st) ++ acc, skipn n st).
Proof.
  induction n as [|n IH]; intros [|v st] acc H; cbn in H |- *; try reflexivity; try lia.
  rewrite IH, <- app_assoc by lia. reflexivity.
Qed.

Lemma Forall_firstn {X} (Q : X -> Prop) n l : Forall Q l -> Forall Q (firstn n l).
Proof. rewrite <- (firstn_skipn n l) at 1. rewrite Forall_app. tauto. Qed.
Lemma Forall_nth_error {X} (Q : X -> Prop) l n x : Forall Q l -> nth_error l n = Some x -> Q x.
Proof. rewrite Forall_forall. eauto using nth_error_In. Qed.

Section SOUND.
Variable P : program.
Variable As : list annot.
Hypothesis HC : check_program P As = true.

(* hereditarily, a closure names an existing function and carries exactly its number of captures *)
Fixpoint wfv (v : value) : Prop :=
  match v with
  | VTuple _ fs => (fix all (l : list value) : Prop := match l with [] => True | x :: t => wfv x /\ all t end) fs
  | VFun f caps =>
      (exists fd, nth_error (p_funcs P) f = Some fd /\ length caps = f_caps fd) /\
      (fix all (l : list value) : Prop := match l with [] => True | x :: t => wfv x /\ all t end) caps
  | _ => True
  end.

Lemma all_Forall (l : list value) :
  (fix all (l : list value) : Prop := match l with [] => True | x :: t => wfv x /\ all t end) l <-> Forall wfv l.
Proof. induction l as [|x t IH]; [|rewrite Forall_cons_iff, IH]; intuition. Qed.

Lemma wfv_tuple t fs : wfv (VTuple t fs) <-> Forall wfv fs.
Proof. apply all_Forall. Qed.

Lemma wfv_fun f caps :
  wfv (VFun f caps) <->
  (exists fd, nth_error (p_funcs P) f = Some fd /\ length caps = f_caps fd) /\ Forall wfv caps.
Proof. cbn [wfv]. rewrite all_Forall. reflexivity. Qed.

Lemma wfv_bool (b : bool) : wfv (if b then vok else vnil).
Proof. destruct b; exact I. Qed.

Definition ann (f pc : nat) : option astate :=
  match nth_error As f with
  | Some A => match nth_error A pc with Some o => o | None => None end
  | None => None
  end.

Lemma ann_some f pc a :
  ann f pc = Some a <-> exists A, nth_error As f = Some A /\ nth_error A pc = Some (Some a).
Proof.
  unfold ann. split.
  - destruct (nth_error As f) as [A|]; [|discriminate].
    destruct (nth_error A pc) as [o|] eqn:E; [|discriminate]. intros ->. eauto.
  - intros (A & -> & ->). reflexivity.
Qed.

Lemma ann_nth f A pc a : nth_error As f = Some A -> ann f pc = Some a -> nth_error A pc = Some (Some a).
Proof. intros HA H. apply ann_some in H as (A' & HA' & H). congruence. Qed.

Definition covered (f : nat) (sc : nat * astate) : Prop :=
  exists b, ann f (fst sc) = Some b /\
            a_h b = a_h (snd sc) /\ a_lo b <= a_lo (snd sc) /\ a_hi (snd sc) <= a_hi b.

Lemma succ_ok_covered f A sc : nth_error As f = Some A -> succ_ok A sc = true -> covered f sc.
Proof.
  intros HA H. unfold succ_ok in H. destruct (nth_error A (fst sc)) as [[b|]|] eqn:Eb; try discriminate.
  exists b. split; [apply ann_some; eauto|]. unfold fits in H. autorewrite with b2p in H. lia.
Qed.

Lemma check_all_nth fs Bs : check_all P fs Bs = true ->
  forall f fd, nth_error fs f = Some fd -> exists A, nth_error Bs f = Some A /\ check_function P fd A = true.
Proof.
  revert Bs; induction fs as [|fd0 fs IH]; intros [|A0 Bs] H [|f] fd E; try discriminate;
    apply andb_true_iff in H as [H0 H1]; cbn [nth_error] in *.
  - injection E as <-. eauto.
  - eauto.
Qed.

Lemma func_checked f fd : nth_error (p_funcs P) f = Some fd ->
  exists A, nth_error As f = Some A /\ length A = S (length (f_code fd)) /\
            covered f (0, mk 1 (f_caps fd) (f_caps fd)) /\
            forall pc, pc <= length (f_code fd) -> check_pc P (f_caps fd) (f_code fd) A pc = true.
Proof.
  intros Hfd. destruct (check_all_nth _ _ HC _ _ Hfd) as (A & HA & H). exists A.
  unfold check_function, check_function_at in H. autorewrite with b2p in H. destruct H as [[H1 H2] H3].
  split; [exact HA|]. split; [exact H1|]. split; [exact (succ_ok_covered _ _ _ HA H2)|].
  intros pc Hpc. rewrite forallb_forall in H3. apply H3, in_seq. lia.
Qed.

Lemma checked_entry f fd : nth_error (p_funcs P) f = Some fd -> covered f (0, mk 1 (f_caps fd) (f_caps fd)).
Proof. intros Hfd. destruct (func_checked _ _ Hfd) as (A & _ & _ & H & _). exact H. Qed.

Lemma checked_at f fd pc a : nth_error (p_funcs P) f = Some fd -> ann f pc = Some a ->
  match nth_error (f_code fd) pc with
  | Some i => exists scs, transfer P (f_caps fd) (length (f_code fd)) pc i a = Some scs /\
                          Forall (covered f) scs
  | None => a_h a = 1
  end.
Proof.
  intros Hfd Ha. destruct (func_checked _ _ Hfd) as (A & HA & Hlen & _ & Hpc).
  apply (ann_nth _ _ _ _ HA) in Ha. assert (pc < length A) by (apply nth_error_Some; congruence).
  specialize (Hpc pc ltac:(lia)). unfold check_pc in Hpc. rewrite Ha in Hpc.
  destruct (nth_error (f_code fd) pc); [|apply Nat.eqb_eq, Hpc].
  destruct (transfer P _ _ pc _ a) as [scs|]; [|discriminate]. exists scs. split; [reflexivity|].
  rewrite forallb_forall in Hpc. apply Forall_forall. eauto using succ_ok_covered.
Qed.

(* `transfer` only asks a jump target to be non-negative; it is inside the function because the
   annotation has S (length code) entries *)
Lemma jump_in f fd (t : Z) a : nth_error (p_funcs P) f = Some fd -> (0 <= t)%Z ->
  covered f (Z.to_nat t, a) -> ((t <? 0) || (Z.of_nat (length (f_code fd)) <? t))%Z = false.
Proof.
  intros Hfd H0 (b & Hb & _). cbn [fst] in Hb. destruct (func_checked _ _ Hfd) as (A & HA & Hlen & _).
  apply (ann_nth _ _ _ _ HA) in Hb. assert (Z.to_nat t < length A) by (apply nth_error_Some; congruence).
  apply not_true_is_false. autorewrite with b2p. lia.
Qed.

Definition frame_ok (fr : frame) : Prop :=
  exists fd, nth_error (p_funcs P) (fr_fn fr) = Some fd /\ fr_caps fr = f_caps fd.

Definition code (f : nat) : list instr :=
  match nth_error (p_funcs P) f with Some fd => f_code fd | None => [] end.

(* frames suspended at a Call: `sb` = operand-stack height below the callee's parameter slot,
   `lb` = number of locals when the call was made (= the callee's locals_base). The a_h a - 2 values
   under the function and its argument are the caller's segment of sb; the rest belongs further out. *)
Fixpoint susp (frs : list frame) (sb lb : nat) : Prop :=
  match frs with
  | [] => sb = 0
  | c :: rest =>
      frame_ok c /\
      exists a, ann (fr_fn c) (fr_pc c) = Some a /\
                nth_error (code (fr_fn c)) (fr_pc c) = Some ICall /\
                2 <= a_h a /\ a_h a - 2 <= sb /\
                fr_base c + a_lo a <= lb /\ lb <= fr_base c + a_hi a /\
                susp rest (sb - (a_h a - 2)) (fr_base c)
  end.

(* The operand stack is cut into one segment per frame: a_h a values for the top frame, the rest
   shared out by `susp`, down to sb = 0 at the outermost frame. No frame left: the state between the
   last auto-pop and `Finished`. *)
Definition Inv (s : state) : Prop :=
  Forall wfv (stack s) /\ Forall wfv (locals s) /\
  match frames s with
  | [] => length (stack s) = 1
  | fr :: rest =>
      frame_ok fr /\
      exists a, ann (fr_fn fr) (fr_pc fr) = Some a /\
                a_h a <= length (stack s) /\
                fr_base fr + a_lo a <= length (locals s) /\ length (locals s) <= fr_base fr + a_hi a /\
                susp rest (length (stack s) - a_h a) (fr_base fr)
  end.

Definition ext_ok (x : ext) : Prop := match x_value x with Some v => wfv v | None => True end.

Definition good (r : sres) : Prop :=
  match r with
  | Next s' => Inv s'
  | Finished v s' => wfv v /\ stack s' = []
  | Fault f => structural f = false
  end.

Lemma inv_intro st ls fr rest pers a sb :
  Forall wfv st -> Forall wfv ls -> frame_ok fr -> covered (fr_fn fr) (fr_pc fr, a) ->
  sb + a_h a = length st -> fr_base fr + a_lo a <= length ls -> length ls <= fr_base fr + a_hi a ->
  susp rest sb (fr_base fr) ->
  Inv {| stack := st; locals := ls; frames := fr :: rest; persistent := pers |}.
Proof.
  intros Hst Hls Hfr (b & Hb & Hbh & Hblo & Hbhi) Hh Hl1 Hl2 Hsusp. cbn [fst snd] in *.
  split; [|split; [|split]]; try assumption. exists b. cbn [stack locals].
  replace (length st - a_h b) with sb by lia. intuition lia.
Qed.

Lemma inv_enter fr fd v st ls rest pers :
  nth_error (p_funcs P) (fr_fn fr) = Some fd -> fr_caps fr = f_caps fd -> fr_pc fr = 0 ->
  Forall wfv (v :: st) -> Forall wfv ls -> length ls = fr_base fr + f_caps fd ->
  susp rest (length st) (fr_base fr) ->
  Inv {| stack := v :: st; locals := ls; frames := fr :: rest; persistent := pers |}.
Proof.
  intros Hfd Hcaps Hpc Hst Hls Hlen Hsusp.
  apply inv_intro with (a := mk 1 (f_caps fd) (f_caps fd)) (sb := length st);
    cbn [a_h a_lo a_hi mk length]; try lia; try assumption.
  - exists fd. auto.
  - rewrite Hpc. eapply checked_entry, Hfd.
Qed.

(* the initial state of spawn_process satisfies the invariant *)
Lemma init_inv fn fd caps arg pers :
  nth_error (p_funcs P) fn = Some fd -> length caps = f_caps fd -> Forall wfv caps -> wfv arg ->
  Inv (init_state fn caps arg pers).
Proof.
  intros Hfd Hc Hcaps Harg. eapply inv_enter; try eassumption; try reflexivity.
  constructor; [exact Harg | constructor].
Qed.

Section STEP.
Variables (st ls : list value) (fr : frame) (rest : list frame) (pers : bool) (x : ext).
Variables (fd : func) (h l1 l2 : nat).
Hypothesis Hst : Forall wfv st.
Hypothesis Hls : Forall wfv ls.
Hypothesis Hx : ext_ok x.
Hypothesis Hfd : nth_error (p_funcs P) (fr_fn fr) = Some fd.
Hypothesis Hcaps : fr_caps fr = f_caps fd.
Hypothesis Ha : ann (fr_fn fr) (fr_pc fr) = Some (mk h l1 l2).
Hypothesis Hh : h <= length st.
Hypothesis Hl1 : fr_base fr + l1 <= length ls.
Hypothesis Hl2 : length ls <= fr_base fr + l2.
Hypothesis Hsusp : susp rest (length st - h) (fr_base fr).

Lemma stack1 : 1 <= h -> exists v st', st = v :: st' /\ wfv v.
Proof.
  generalize Hst Hh. destruct st as [|v st']; cbn [length]; intros H ? ?; [lia|].
  apply Forall_inv in H. eauto.
Qed.

Lemma stack2 : 2 <= h -> exists v w st', st = v :: w :: st' /\ wfv v /\ Forall wfv (w :: st').
Proof.
  generalize Hst Hh. destruct st as [|v [|w st']]; cbn [length]; intros H ? ?; try lia.
  apply Forall_cons_iff in H as [? ?]. eauto 6.
Qed.

Lemma goto pc' top st0 new ls' a' :
  st = top ++ st0 -> covered (fr_fn fr) (pc', a') -> a_h a' + length top = h + length new ->
  fr_base fr + a_lo a' <= length ls' -> length ls' <= fr_base fr + a_hi a' ->
  Forall wfv new -> Forall wfv ls' ->
  Inv {| stack := new ++ st0; locals := ls'; frames := set_pc fr pc' :: rest; persistent := pers |}.
Proof.
  intros Es Hc Hlen Hb1 Hb2 Hnew Hls'. pose proof Hst as H. rewrite Es in H. apply Forall_app in H as [_ H].
  assert (El : length st = length top + length st0) by (rewrite Es; apply app_length).
  apply inv_intro with (a := a') (sb := length st - h); try assumption.
  - apply Forall_app. auto.
  - exists fd. auto.
  - rewrite app_length. lia.
Qed.

Lemma fallthrough top st0 new ls' a' :
  st = top ++ st0 -> covered (fr_fn fr) (S (fr_pc fr), a') -> a_h a' + length top = h + length new ->
  fr_base fr + a_lo a' <= length ls' -> length ls' <= fr_base fr + a_hi a' ->
  Forall wfv new -> Forall wfv ls' ->
  good (Next (bump {| stack := new ++ st0; locals := ls'; frames := fr :: rest; persistent := pers |})).
Proof. apply goto. Qed.   (* pc' := S (fr_pc fr): `bump` and `good` compute *)

Lemma replace_top top st0 new h' :
  st = top ++ st0 -> covered (fr_fn fr) (S (fr_pc fr), mk h' l1 l2) -> h' + length top = h + length new ->
  Forall wfv new ->
  good (Next (bump {| stack := new ++ st0; locals := ls; frames := fr :: rest; persistent := pers |})).
Proof. intros. apply fallthrough with (top := top) (a' := mk h' l1 l2); assumption. Qed.

Lemma push v : covered (fr_fn fr) (S (fr_pc fr), mk (S h) l1 l2) -> wfv v ->
  good (Next (bump {| stack := v :: st; locals := ls; frames := fr :: rest; persistent := pers |})).
Proof. intros. apply (replace_top [] st [v] (S h)); auto. cbn. lia. Qed.

Lemma replace_top_ext top st0 h' :
  st = top ++ st0 -> covered (fr_fn fr) (S (fr_pc fr), mk h' l1 l2) -> h' + length top = S h ->
  good (match x_value x with
        | Some v => Next (bump {| stack := v :: st0; locals := ls; frames := fr :: rest; persistent := pers |})
        | None => Fault FBuiltinError
        end).
Proof.
  intros. pose proof Hx as H2. unfold ext_ok in H2. destruct (x_value x) as [v|]; [|reflexivity].
  apply (replace_top top st0 [v] h'); auto. cbn. lia.
Qed.

Lemma popn_push n v : n <= h -> covered (fr_fn fr) (S (fr_pc fr), mk (S (h - n)) l1 l2) ->
  (Forall wfv (rev (firstn n st)) -> wfv v) ->
  good (Next (bump {| stack := v :: skipn n st; locals := ls; frames := fr :: rest; persistent := pers |})).
Proof.
  intros Hn Hc Hv. apply (replace_top (firstn n st) (skipn n st) [v] (S (h - n))); auto using firstn_skipn.
  - cbn [length]. rewrite firstn_length. lia.
  - constructor; [apply Hv, Forall_rev, Forall_firstn, Hst | constructor].
Qed.

Lemma next_covered (c : bool) a' scs :
  (if c then Some [(S (fr_pc fr), a')] else None) = Some scs -> Forall (covered (fr_fn fr)) scs ->
  c = true /\ covered (fr_fn fr) (S (fr_pc fr), a').
Proof. intros [-> <-]%if_some H. split; [reflexivity | exact (Forall_inv H)]. Qed.

(* when the only successor is the next instruction: C, the test `transfer` made, as a proposition;
   Hs, the state it computed is covered *)
Ltac decode Et Hck C Hs :=
  unfold transfer in Et; cbn [a_h a_lo a_hi mk] in Et; destruct (next_covered _ _ _ Et Hck) as [C Hs];
  autorewrite with b2p in C.

Lemma step_instr i scs :
  nth_error (f_code fd) (fr_pc fr) = Some i ->
  transfer P (f_caps fd) (length (f_code fd)) (fr_pc fr) i (mk h l1 l2) = Some scs ->
  Forall (covered (fr_fn fr)) scs ->
  good (step P {| stack := st; locals := ls; frames := fr :: rest; persistent := pers |} x).
Proof.
  intros Hi Et Hck. unfold step, code_of. cbn [frames]. rewrite Hfd. cbn [option_map]. rewrite Hi.
  cbv zeta. cbn [stack locals frames persistent with_stack with_locals with_frames].
  destruct i as [k| | |n|n|idx|idx| |t|idx|t|off|off| |recurse|f|b|n| | | | | |pid f].
  - (* IConstant *) decode Et Hck C Hs.
    destruct (nth_error (p_consts P) k) as [[z|]|] eqn:Ek.
    + apply push; [assumption | exact I].
    + apply (replace_top_ext [] st (S h)); auto.
    + apply nth_error_None in Ek. lia.
  - (* IPop *) decode Et Hck C Hs.
    destruct (stack1 C) as (v & st' & Es & Hv). rewrite Es.
    apply (replace_top [v] st' [] (h - 1)); auto. cbn. lia.
  - (* IDuplicate *) decode Et Hck C Hs.
    destruct (stack1 C) as (v & st' & Es & Hv). rewrite Es.
    apply (replace_top [v] st' [v; v] (S h)); auto. cbn. lia.
  - (* IPick *) decode Et Hck C Hs.
    destruct (nth_error st n) as [v|] eqn:En; [|apply nth_error_None in En; lia].
    apply push; [assumption | exact (Forall_nth_error _ _ _ _ Hst En)].
  - (* IRotate *) decode Et Hck C Hs.
    destruct (Nat.ltb_spec (length st) n); [lia|]. destruct n as [|m]; [lia|].
    destruct (nth_error st m) as [v|] eqn:En; [|apply nth_error_None in En; lia].
    apply (replace_top (firstn (S m) st) (skipn (S m) st) (v :: firstn m st) h); auto using firstn_skipn.
    + cbn [length]. rewrite !firstn_length. lia.
    + constructor; [exact (Forall_nth_error _ _ _ _ Hst En) | apply Forall_firstn, Hst].
  - (* IReset *) decode Et Hck C Hs.
    destruct (Nat.ltb_spec (length ls) (fr_base fr + idx)); [lia|].
    apply (fallthrough [] st [] _ _ eq_refl Hs); cbn [a_h a_lo a_hi mk length]; rewrite ?firstn_length;
      auto using Forall_firstn; lia.
  - (* ILoad *) decode Et Hck C Hs.
    destruct (nth_error ls (fr_base fr + idx)) as [v|] eqn:En; [|apply nth_error_None in En; lia].
    apply push; [assumption | exact (Forall_nth_error _ _ _ _ Hls En)].
  - (* IStore *) decode Et Hck C Hs.
    destruct (stack1 C) as (v & st' & Es & Hv). rewrite Es.
    apply (fallthrough [v] st' [] _ _ Es Hs); rewrite ?app_length; cbn [a_h a_lo a_hi mk length]; try lia;
      [constructor | apply Forall_app; auto].
  - (* ITuple *) unfold transfer in Et. destruct (nth_error (p_tuples P) t) as [ar|]; [|discriminate].
    decode Et Hck C Hs. rewrite popn_firstn, app_nil_r by lia.
    apply popn_push; auto. apply wfv_tuple.
  - (* IGet *) decode Et Hck C Hs.
    destruct (stack1 C) as (v & st' & Es & Hv). rewrite Es. destruct v as [| | |t fs| | | |]; try reflexivity.
    destruct (nth_error fs idx) as [v|] eqn:En; [|reflexivity]. apply wfv_tuple in Hv.
    apply (replace_top [VTuple t fs] st' [v] h); auto.
    constructor; [exact (Forall_nth_error _ _ _ _ Hv En) | constructor].
  - (* IIsType *) decode Et Hck C Hs.
    destruct (stack1 (proj1 C)) as (v & st' & Es & Hv). rewrite Es.
    apply (replace_top [v] st' [if x_bool x then vok else vnil] h); auto using wfv_bool.
  - (* IJump *) unfold transfer in Et. apply if_some in Et as [C <-]. apply Z.leb_le in C. apply Forall_inv in Hck.
    rewrite (jump_in _ _ _ _ Hfd C Hck). apply (goto _ [] st [] ls _ eq_refl Hck); auto.
  - (* IJumpIf *) unfold transfer in Et. apply if_some in Et as [C <-]. autorewrite with b2p in C.
    cbn [a_h a_lo a_hi mk] in *. apply Forall_cons_iff in Hck as [Hc1 Hc2]. apply Forall_inv in Hc2.
    destruct (stack1 (proj1 C)) as (v & st' & Es & Hv). rewrite Es. destruct (is_nil v).
    + apply (replace_top [v] st' [] (h - 1)); auto. cbn. lia.
    + rewrite (jump_in _ _ _ _ Hfd (proj2 C) Hc2). apply (goto _ [v] st' [] ls _ Es Hc2); auto. cbn. lia.
  - (* ICall *) decode Et Hck C Hs.
    destruct (stack2 C) as (v & w & st' & Es & Hv & Hst'). rewrite Es. destruct v as [| | | |f caps|b| |]; try reflexivity.
    + apply wfv_fun in Hv as [(fd' & Hfd' & Hcl) Hcaps']. rewrite Hfd'.
      apply inv_enter with (fd := fd'); auto; [apply Forall_app; auto | rewrite app_length; cbn; lia |].
      (* the current frame becomes the innermost suspended one *)
      apply (f_equal (@length _)) in Es. cbn [susp length] in *. split; [exists fd; auto|].
      exists (mk h l1 l2). unfold code. rewrite Hfd. cbn [a_h a_lo a_hi mk fr_base].
      replace (length st' - (h - 2)) with (length st - h) by lia. intuition lia.
    + apply (replace_top_ext [VBuiltin b; w] st' (h - 1)); auto. cbn. lia.
  - (* ITailCall *) unfold transfer in Et. cbn [a_h a_lo a_hi mk] in Et.
    destruct recurse; apply if_some in Et as [C _]; autorewrite with b2p in C.
    + (* a jump to pc 0 with the locals cut back to the captures *)
      destruct (stack1 (Nat.eq_le_incl _ _ (eq_sym (proj1 C)))) as (v & st' & Es & _). rewrite Es.
      apply (goto 0 [] (v :: st') [] _ _ Es (checked_entry _ _ Hfd)); cbn [a_h a_lo a_hi mk length];
        rewrite ?firstn_length; auto using Forall_firstn; lia.
    + destruct (stack2 (Nat.eq_le_incl _ _ (eq_sym C))) as (v & w & st' & Es & Hv & Hst'). rewrite Es.
      destruct v as [| | | |f caps| | |]; try reflexivity. apply wfv_fun in Hv as [(fd' & Hfd' & Hcl) Hcaps']. rewrite Hfd'.
      apply (f_equal (@length _)) in Es. cbn [length] in Es.
      apply inv_enter with (fd := fd'); auto; [apply Forall_app; auto using Forall_firstn | |].
      * rewrite app_length, firstn_length. cbn [fr_base]. lia.
      * replace (length st') with (length st - h) by lia. exact Hsusp.
  - (* IFunction *) unfold transfer in Et. destruct (nth_error (p_funcs P) f) as [fd'|] eqn:Ef; [|discriminate].
    decode Et Hck C Hs. rewrite popn_firstn, app_nil_r by lia.
    apply popn_push; auto. intros Hvs. apply wfv_fun. split; [|exact Hvs].
    exists fd'. rewrite rev_length, firstn_length. split; [exact Ef | lia].
  - (* IBuiltin *) decode Et Hck C Hs.
    destruct (Nat.leb_spec (p_nbuiltins P) b); [lia|]. apply push; [assumption | exact I].
  - (* IEqual *) decode Et Hck C Hs.
    destruct (Nat.ltb_spec (length st) n); [lia|]. rewrite popn_firstn, app_nil_r by lia.
    destruct (rev (firstn n st)) eqn:Er.
    + apply (f_equal (@length _)) in Er. rewrite rev_length, firstn_length in Er. cbn in Er. lia.
    + apply popn_push; auto using wfv_bool; lia.
  - (* INot *) decode Et Hck C Hs.
    destruct (stack1 C) as (v & st' & Es & Hv). rewrite Es.
    apply (replace_top [v] st' [if is_nil v then vok else vnil] h); auto using wfv_bool.
  - (* ISpawn *) decode Et Hck C Hs.
    destruct (stack2 C) as (v & w & st' & Es & Hv & Hst'). rewrite Es. destruct v as [| | | |f caps| | |]; try reflexivity.
    apply (replace_top_ext [VFun f caps; w] st' (h - 1)); auto. cbn. lia.
  - (* ISend *) decode Et Hck C Hs.
    destruct (stack2 C) as (v & w & st' & Es & Hv & Hst'). rewrite Es. destruct v as [| | | | | |p g|]; try reflexivity.
    apply (replace_top [VProc p g; w] st' [VProc p g] (h - 1)); auto. cbn. lia.
  - (* ISelf *) injection Et as <-. apply Forall_inv in Hck. apply push; [assumption|].
    pose proof Hx as H. unfold ext_ok in H. destruct (x_value x); [exact H | exact I].
  - (* ISelect *) decode Et Hck C Hs.
    destruct (stack1 C) as (v & st' & Es & Hv). rewrite Es. apply (replace_top_ext [v] st' h); auto. cbn. lia.
  - (* IProcess *) decode Et Hck C Hs. apply push; [assumption | exact I].
Qed.

(* the frame's code is exhausted: pop it *)
Lemma step_return : nth_error (f_code fd) (fr_pc fr) = None -> h = 1 ->
  good (step P {| stack := st; locals := ls; frames := fr :: rest; persistent := pers |} x).
Proof.
  intros Hi H1. unfold step, code_of. cbn [frames]. rewrite Hfd. cbn [option_map]. rewrite Hi.
  cbv zeta. cbn [stack locals frames persistent good].
  destruct rest as [|c rest']; cbn [bump frames stack locals persistent].
  - (* outermost frame: the process is about to finish with exactly one value *)
    cbn [susp] in Hsusp. unfold Inv. cbn [stack locals frames].
    repeat split; [assumption | destruct (pers && true); auto using Forall_firstn | lia].
  - rewrite andb_false_r.
    destruct Hsusp as [(fdc & Hfdc & Hcc) ([hc lc1 lc2] & Hac & Hic & H2 & Hsb & Hlb1 & Hlb2 & Hs')].
    cbn [a_h a_lo a_hi] in *. unfold code in Hic. rewrite Hfdc in Hic.
    (* the checker's verdict at the caller's Call site covers the state after the return *)
    pose proof (checked_at _ _ _ _ Hfdc Hac) as Hck. rewrite Hic in Hck. destruct Hck as (scs & Et & Hck).
    unfold transfer in Et. apply if_some in Et as [_ <-]. apply Forall_inv in Hck.
    apply inv_intro with (a := mk (hc - 1) lc1 lc2) (sb := length st - h - (hc - 2));
      auto using Forall_firstn; cbn [a_h a_lo a_hi mk set_pc fr_base]; rewrite ?firstn_length; try lia.
    exists fdc. auto.
Qed.

End STEP.

Theorem step_sound s x : Inv s -> ext_ok x -> good (step P s x).
Proof.
  destruct s as [st ls [|fr rest] pers]; intros (Hst & Hls & Hfr) Hx; cbn [stack locals frames] in *.
  - destruct st as [|v [|]]; try discriminate. split; [exact (Forall_inv Hst) | reflexivity].
  - destruct Hfr as ((fd & Hfd & Hcaps) & [h l1 l2] & Ha & Hh & Hl1 & Hl2 & Hsusp).
    pose proof (checked_at _ _ _ _ Hfd Ha) as Hck.
    destruct (nth_error (f_code fd) (fr_pc fr)) as [i|] eqn:Ei.
    + destruct Hck as (scs & Et & Hck). eapply step_instr; eauto.
    + eapply step_return; eauto.
Qed.

End SOUND.
