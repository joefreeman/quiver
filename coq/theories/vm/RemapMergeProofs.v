(* RemapMergeProofs.v — the model of merge_bytecode (vm/RemapMerge.v) yields a structural renaming:
   whenever it returns (no panic, no id cycle), for a well-formed B and under the decidable premises
   `merge_premises`, `struct_ok rho B E'` holds — so the lock-step simulation applies to every such
   merge behind ANY accumulated program E.
   Of the twelve conjuncts of `struct_ok`, six are PROVED here (entry, functions, constants, tuples,
   types, resources); the other six (NIL and OK keep their ids, nothing else lands on NIL, the
   builtin check, the two inverse-map certificates) are conjuncts of `merge_premises` word for word,
   evaluated on every real merge, together with `backward_refs` and `no_process`. *)
From Quiver Require Import vm.Remap vm.RemapProofs vm.RemapInject vm.RemapShake vm.RemapShakeProofs vm.RemapMerge.

Lemma xtuple_eqb_eq a b : xtuple_eqb a b = true -> a = b.
Proof.
  unfold xtuple_eqb. intros H. apply andb_true_iff in H as [H1 H2]. apply ostr_eqb_eq in H1.
  destruct a as [na fa], b as [nb fb]; cbn in *. subst. f_equal.
  revert H2. apply list_eqb_eq. intros [a1 a2] [b1 b2] E. unfold field_eqb in E. cbn in E.
  apply andb_true_iff in E as [E1 E2]. apply ostr_eqb_eq in E1. apply Nat.eqb_eq in E2. congruence.
Qed.

Definition grows (E E' : xprogram) : Prop :=
  prefix (x_consts E) (x_consts E') /\ prefix (x_funcs E) (x_funcs E') /\ prefix (x_tuples E) (x_tuples E') /\
  prefix (x_types E) (x_types E') /\ prefix (x_builtins E) (x_builtins E').

Lemma grows_refl E : grows E E.
Proof. repeat split; apply prefix_refl. Qed.
Lemma grows_trans A B C : grows A B -> grows B C -> grows A C.
Proof. intros (a1 & a2 & a3 & a4 & a5) (b1 & b2 & b3 & b4 & b5). repeat split; eapply prefix_trans; eauto. Qed.

Lemma register_type_spec X ty X1 y : register_type X ty = (X1, y) ->
  grows X X1 /\ nth_error (x_types X1) y = Some ty.
Proof.
  apply (register_spec grows xtype_eqb x_types with_types grows_refl xtype_eqb_eq). intros Y x.
  split; [repeat split; try apply prefix_refl; apply prefix_snoc | apply nth_snoc].
Qed.

Lemma register_tuple_spec X a X1 t : register_tuple X a = (X1, t) ->
  grows X X1 /\ nth_error (x_tuples X1) t = Some a.
Proof.
  apply (register_spec grows xtuple_eqb x_tuples with_tuples grows_refl xtuple_eqb_eq). intros Y x.
  split; [repeat split; try apply prefix_refl; apply prefix_snoc | apply nth_snoc].
Qed.

Lemma register_constant_grows X c X1 k : register_constant X c = (X1, k) ->
  grows X X1 /\ nth_error (x_consts X1) k = Some c.
Proof. exact (register_constant_tables X c X1 k). Qed.

Lemma register_function_grows X fd X1 k : register_function X fd = (X1, k) ->
  grows X X1 /\ nth_error (x_funcs X1) k = Some fd.
Proof. exact (register_function_tables X fd X1 k). Qed.

Lemma register_builtin_grows X a X1 b : register_builtin_info X a = (X1, b) -> grows X X1.
Proof.
  unfold register_builtin_info. destruct (find_index _ (x_builtins X) 0) as [i|]; intros H; inv H.
  - apply grows_refl.
  - repeat split; try apply prefix_refl; apply prefix_snoc.
Qed.

(* set_map / app: the same facts as for set_true / nthb in RemapShakeProofs *)
Lemma length_set_map m : forall i v, length (set_map m i v) = length m.
Proof. induction m as [|o t IH]; intros [|i] v; cbn; auto. Qed.

Lemma app_set_same m : forall i v, i < length m -> app (set_map m i v) i = Some v.
Proof.
  induction m as [|o t IH]; intros [|i] v H; cbn in H; try lia; [reflexivity|]. apply (IH i). lia.
Qed.

Lemma app_set_other m : forall i j v, i <> j -> app (set_map m i v) j = app m j.
Proof.
  induction m as [|o t IH]; intros [|i] [|j] v H; try reflexivity; try congruence. apply (IH i j). congruence.
Qed.

Lemma app_lt m i j : app m i = Some j -> i < length m.
Proof.
  unfold app. destruct (nth_error m i) eqn:E; [|discriminate]. intros _. apply nth_error_Some. congruence.
Qed.

Lemma app_repeat_none n i : app (repeat None n) i = None.
Proof.
  unfold app. destruct (nth_error (repeat None n) i) as [o|] eqn:E; [|reflexivity].
  apply nth_error_In, repeat_spec in E. subst. reflexivity.
Qed.

Definition mono (m m' : fmap) : Prop := forall i j, app m i = Some j -> app m' i = Some j.

Lemma mono_refl m : mono m m.
Proof. intros i j H. exact H. Qed.

Lemma set_map_mono m i v : app m i = None -> mono m (set_map m i v).
Proof.
  intros Hn j w H. destruct (Nat.eq_dec i j) as [->|N]; [congruence|]. rewrite app_set_other; assumption.
Qed.

Lemma map_opt_mono {A B} (g g' : A -> option B) l : (forall x y, g x = Some y -> g' x = Some y) ->
  forall r, map_opt g l = Some r -> map_opt g' l = Some r.
Proof.
  intros H. induction l as [|a l IH]; intros r E; cbn [map_opt] in *; [exact E|].
  destruct (g a) as [y|] eqn:Ga; [|discriminate]. destruct (map_opt g l) as [r'|]; [|discriminate].
  rewrite (H _ _ Ga), (IH _ eq_refl). exact E.
Qed.

Lemma ren_oid_mono r1 r2 o o' : mono (r_y r1) (r_y r2) -> ren_oid r1 o = Some o' -> ren_oid r2 o = Some o'.
Proof.
  intros Hy. destruct o as [y|]; cbn [ren_oid]; [|auto].
  destruct (app (r_y r1) y) as [j|] eqn:Ej; [|discriminate]. rewrite (Hy _ _ Ej). auto.
Qed.

Lemma ren_type_mono r1 r2 ty ty' : mono (r_t r1) (r_t r2) -> mono (r_y r1) (r_y r2) ->
  ren_type r1 ty = Some ty' -> ren_type r2 ty = Some ty'.
Proof.
  intros Ht Hy. destruct ty; cbn [ren_type]; intros H; try exact H.
  - destruct (app (r_t r1) t) as [j|] eqn:E; [|discriminate]. rewrite (Ht _ _ E). exact H.
  - destruct (map_opt _ fields) as [r|] eqn:E; [|discriminate].
    erewrite map_opt_mono; [exact H| |exact E]. intros x y. cbn beta.
    destruct (app (r_y r1) (snd x)) as [j|] eqn:Ej; [|discriminate]. rewrite (Hy _ _ Ej). auto.
  - destruct (app (r_y r1) parameter) as [p|] eqn:E1; [|discriminate].
    destruct (app (r_y r1) result) as [r|] eqn:E2; [|discriminate].
    destruct (app (r_y r1) receive) as [c|] eqn:E3; [|discriminate].
    rewrite (Hy _ _ E1), (Hy _ _ E2), (Hy _ _ E3). exact H.
  - destruct (map_opt _ ys) as [r|] eqn:E; [|discriminate]. rewrite (map_opt_mono _ _ _ Hy _ E). exact H.
  - destruct (ren_oid r1 send) as [s|] eqn:E1; [|discriminate].
    destruct (ren_oid r1 receive) as [r|] eqn:E2; [|discriminate].
    rewrite (ren_oid_mono _ _ _ _ Hy E1), (ren_oid_mono _ _ _ _ Hy E2). exact H.
Qed.

Lemma combine_img {L} (ry : fmap) (fs : list (L * nat)) : forall ys,
  map_opt (app ry) (map snd fs) = Some ys ->
  Forall2 (fun p q => fst p = fst q /\ app ry (snd p) = Some (snd q)) fs (combine (map fst fs) ys).
Proof.
  induction fs as [|[l y] fs IH]; intros ys H; cbn [map map_opt fst snd] in *; [inv H; constructor|].
  destruct (app ry y) as [j|] eqn:Ej; [|discriminate]. destruct (map_opt (app ry) (map snd fs)) as [r|]; [|discriminate].
  inv H. constructor; [split; [reflexivity | exact Ej] | apply IH; reflexivity].
Qed.

Lemma partial_img (ry : fmap) (fs : list (str * nat)) ys : map_opt (app ry) (map snd fs) = Some ys ->
  map_opt (fun p => option_map (pair (fst p)) (app ry (snd p))) fs = Some (combine (map fst fs) ys).
Proof.
  intros H. apply combine_img in H. induction H as [|[l y] [l' y'] fs r [Hl Hy] _ IH]; [reflexivity|].
  cbn [map_opt fst snd] in *. rewrite Hy, IH, Hl. reflexivity.
Qed.

(* the renaming known so far during the import: only the tuple and type maps matter to ren_type *)
Definition rho_of (st : mstate) : renaming :=
  {| r_c := []; r_f := []; r_t := ms_tu st; r_y := ms_ty st; r_b := []; r_r := []; i_f := []; i_b := [] |}.

Section IMPORTP.
Variable B : xprogram.

(* a memo entry points at the image of its source entry *)
Definition ty_ok (st : mstate) (y y' : nat) : Prop :=
  exists ty ty', nth_error (x_types B) y = Some ty /\ nth_error (x_types (ms_prog st)) y' = Some ty' /\
                 ren_type (rho_of st) ty = Some ty'.
Definition tu_ok (st : mstate) (t t' : nat) : Prop :=
  exists a a', nth_error (x_tuples B) t = Some a /\ nth_error (x_tuples (ms_prog st)) t' = Some a' /\
               xt_name a = xt_name a' /\
               Forall2 (fun p q => fst p = fst q /\ app (ms_ty st) (snd p) = Some (snd q)) (xt_fields a) (xt_fields a').

Record minv (st : mstate) : Prop := {
  mi_len_ty : length (ms_ty st) = length (x_types B);
  mi_len_tu : length (ms_tu st) = length (x_tuples B);
  mi_ty : forall y y', app (ms_ty st) y = Some y' -> ty_ok st y y';
  mi_tu : forall t t', app (ms_tu st) t = Some t' -> tu_ok st t t'
}.

Record mle (st st' : mstate) : Prop := {
  ml_prog : grows (ms_prog st) (ms_prog st');
  ml_ty : mono (ms_ty st) (ms_ty st');
  ml_tu : mono (ms_tu st) (ms_tu st')
}.

Lemma mle_refl st : mle st st.
Proof. constructor; [apply grows_refl | apply mono_refl | apply mono_refl]. Qed.

Lemma mle_trans a b c : mle a b -> mle b c -> mle a c.
Proof.
  intros [p1 t1 u1] [p2 t2 u2]. constructor; [eapply grows_trans; eauto | |];
    intros i j H; [apply t2, t1, H | apply u2, u1, H].
Qed.

Lemma ren_type_mle st st' ty ty' : mle st st' -> ren_type (rho_of st) ty = Some ty' -> ren_type (rho_of st') ty = Some ty'.
Proof. intros [_ My Mt]. apply ren_type_mono; assumption. Qed.

Lemma ty_ok_mle st st' y y' : mle st st' -> ty_ok st y y' -> ty_ok st' y y'.
Proof.
  intros Hle (ty & ty' & A & B0 & C). pose proof Hle as [(_ & _ & _ & Gy & _) _ _]. exists ty, ty'.
  repeat split; [exact A | eapply prefix_nth; eauto | exact (ren_type_mle st st' _ _ Hle C)].
Qed.

Lemma tu_ok_mle st st' t t' : mle st st' -> tu_ok st t t' -> tu_ok st' t t'.
Proof.
  intros [(_ & _ & Gt & _) My _] (a & a' & A & B0 & C & D). exists a, a'.
  repeat split; [exact A | eapply prefix_nth; eauto | exact C|].
  induction D as [|p q l r [Hl Hy] _ IH]; constructor; auto.
Qed.

(* the invariant survives a growing step whose new memo entries satisfy it *)
Lemma minv_step st st' : minv st -> mle st st' ->
  length (ms_ty st') = length (ms_ty st) -> length (ms_tu st') = length (ms_tu st) ->
  (forall y y', app (ms_ty st') y = Some y' -> app (ms_ty st) y = None -> ty_ok st' y y') ->
  (forall t t', app (ms_tu st') t = Some t' -> app (ms_tu st) t = None -> tu_ok st' t t') ->
  minv st'.
Proof.
  intros [l1 l2 ity itu] Hle L1 L2 Ny Nt. constructor; try congruence.
  - intros y y' H. destruct (app (ms_ty st) y) as [y0|] eqn:E; [|apply Ny; assumption].
    rewrite (ml_ty _ _ Hle _ _ E) in H. inv H. exact (ty_ok_mle _ _ _ _ Hle (ity _ _ E)).
  - intros t t' H. destruct (app (ms_tu st) t) as [t0|] eqn:E; [|apply Nt; assumption].
    rewrite (ml_tu _ _ Hle _ _ E) in H. inv H. exact (tu_ok_mle _ _ _ _ Hle (itu _ _ E)).
Qed.

(* the contract of one import entry point (import_type k or import_tuple k) *)
Definition rec_ok (rec : mstate -> nat -> option (mstate * nat)) (get : mstate -> fmap) : Prop :=
  forall st y st' y', rec st y = Some (st', y') -> minv st -> minv st' /\ mle st st' /\ app (get st') y = Some y'.

Section VALUEP.
Variable rec_ty rec_tu : mstate -> nat -> option (mstate * nat).
Hypothesis Hty : rec_ok rec_ty ms_ty.
Hypothesis Htu : rec_ok rec_tu ms_tu.

Lemma import_ids_spec ys : forall st st' r, import_ids rec_ty st ys = Some (st', r) -> minv st ->
  minv st' /\ mle st st' /\ map_opt (app (ms_ty st')) ys = Some r.
Proof.
  induction ys as [|y t IH]; intros st st' r H Hi; cbn [import_ids] in H.
  - inv H. split; [exact Hi|]. split; [apply mle_refl | reflexivity].
  - destruct (rec_ty st y) as [[st1 y']|] eqn:E1; [|discriminate].
    destruct (import_ids rec_ty st1 t) as [[st2 r']|] eqn:E2; [|discriminate]. inv H.
    destruct (Hty _ _ _ _ E1 Hi) as (I1 & L1 & A1).
    destruct (IH _ _ _ E2 I1) as (I2 & L2 & A2).
    split; [exact I2|]. split; [eapply mle_trans; eauto|].
    cbn [map_opt]. rewrite (ml_ty _ _ L2 _ _ A1), A2. reflexivity.
Qed.

Lemma import_oid_spec st o st' o' : import_oid rec_ty st o = Some (st', o') -> minv st ->
  minv st' /\ mle st st' /\ ren_oid (rho_of st') o = Some o'.
Proof.
  destruct o as [y|]; cbn [import_oid]; intros H Hi.
  - destruct (rec_ty st y) as [[st1 y']|] eqn:E1; [|discriminate]. inv H.
    destruct (Hty _ _ _ _ E1 Hi) as (I1 & L1 & A1). split; [exact I1|]. split; [exact L1|].
    cbn [ren_oid rho_of r_y]. rewrite A1. reflexivity.
  - inv H. split; [exact Hi|]. split; [apply mle_refl | reflexivity].
Qed.

Lemma import_value_spec st ty st' ty' : import_value rec_ty rec_tu st ty = Some (st', ty') -> minv st ->
  minv st' /\ mle st st' /\ ren_type (rho_of st') ty = Some ty'.
Proof.
  intros H Hi. destruct ty; cbn [import_value] in H;
    try (inv H; split; [exact Hi|]; split; [apply mle_refl | reflexivity]).
  - (* Tuple *)
    destruct (rec_tu st t) as [[st1 t']|] eqn:E1; [|discriminate]. inv H.
    destruct (Htu _ _ _ _ E1 Hi) as (I1 & L1 & A1). split; [exact I1|]. split; [exact L1|].
    cbn [ren_type rho_of r_t]. rewrite A1. reflexivity.
  - (* Partial *)
    destruct (import_ids rec_ty st (map snd fields)) as [[st1 ys]|] eqn:E1; [|discriminate]. inv H.
    destruct (import_ids_spec _ _ _ _ E1 Hi) as (I1 & L1 & A1). split; [exact I1|]. split; [exact L1|].
    cbn [ren_type rho_of r_y]. rewrite (partial_img _ _ _ A1). reflexivity.
  - (* Callable *)
    destruct (rec_ty st parameter) as [[st1 p']|] eqn:E1; [|discriminate].
    destruct (rec_ty st1 result) as [[st2 r']|] eqn:E2; [|discriminate].
    destruct (rec_ty st2 receive) as [[st3 c']|] eqn:E3; [|discriminate]. inv H.
    destruct (Hty _ _ _ _ E1 Hi) as (I1 & L1 & A1).
    destruct (Hty _ _ _ _ E2 I1) as (I2 & L2 & A2).
    destruct (Hty _ _ _ _ E3 I2) as (I3 & L3 & A3).
    split; [exact I3|]. split; [eapply mle_trans; [exact L1|]; eapply mle_trans; eauto|].
    cbn [ren_type rho_of r_y].
    rewrite (ml_ty _ _ L3 _ _ (ml_ty _ _ L2 _ _ A1)), (ml_ty _ _ L3 _ _ A2), A3. reflexivity.
  - (* Union *)
    destruct (import_ids rec_ty st ys) as [[st1 r]|] eqn:E1; [|discriminate]. inv H.
    destruct (import_ids_spec _ _ _ _ E1 Hi) as (I1 & L1 & A1). split; [exact I1|]. split; [exact L1|].
    cbn [ren_type rho_of r_y]. rewrite A1. reflexivity.
  - (* Process *)
    destruct (import_oid rec_ty st send) as [[st1 s']|] eqn:E1; [|discriminate].
    destruct (import_oid rec_ty st1 receive) as [[st2 r']|] eqn:E2; [|discriminate]. inv H.
    destruct (import_oid_spec _ _ _ _ E1 Hi) as (I1 & L1 & A1).
    destruct (import_oid_spec _ _ _ _ E2 I1) as (I2 & L2 & A2).
    split; [exact I2|]. split; [eapply mle_trans; eauto|].
    cbn [ren_type]. rewrite (ren_oid_mono (rho_of st1) (rho_of st') _ _ (ml_ty _ _ L2) A1), A2. reflexivity.
Qed.
End VALUEP.

(* one level of the mutual fixpoint, by conversion: cbn would leave the sibling as a raw `fix` *)
Lemma import_type_S k st y : import_type B (S k) st y =
  match app (ms_ty st) y with
  | Some y' => Some (st, y')
  | None =>
      match nth_error (x_types B) y with
      | None => None
      | Some ty =>
          match import_value (import_type B k) (import_tuple B k) st ty with
          | None => None
          | Some (st1, ty') =>
              match app (ms_ty st1) y with
              | Some _ => None
              | None =>
                  let (E2, y') := register_type (ms_prog st1) ty' in
                  Some ({| ms_prog := E2; ms_ty := set_map (ms_ty st1) y y'; ms_tu := ms_tu st1 |}, y')
              end
          end
      end
  end.
Proof. reflexivity. Qed.

Lemma import_tuple_S k st t : import_tuple B (S k) st t =
  match app (ms_tu st) t with
  | Some t' => Some (st, t')
  | None =>
      match nth_error (x_tuples B) t with
      | None => None
      | Some a =>
          match import_ids (import_type B k) st (map snd (xt_fields a)) with
          | None => None
          | Some (st1, ys) =>
              match app (ms_tu st1) t with
              | Some _ => None
              | None =>
                  let (E2, t') := register_tuple (ms_prog st1)
                                    {| xt_name := xt_name a; xt_fields := combine (map fst (xt_fields a)) ys |} in
                  Some ({| ms_prog := E2; ms_ty := ms_ty st1; ms_tu := set_map (ms_tu st1) t t' |}, t')
              end
          end
      end
  end.
Proof. reflexivity. Qed.

Lemma import_spec k :
  rec_ok (import_type B k) ms_ty /\ rec_ok (import_tuple B k) ms_tu.
Proof.
  induction k as [|k [IHty IHtu]]; [split; intros st y st' y' H; discriminate|].
  split.
  - (* import_type: the children, then the node itself under a fresh memo entry *)
    intros st y st' y' H Hi. rewrite import_type_S in H.
    destruct (app (ms_ty st) y) as [y0|] eqn:Em.
    { inv H. split; [exact Hi|]. split; [apply mle_refl | exact Em]. }
    destruct (nth_error (x_types B) y) as [ty|] eqn:Ety; [|discriminate].
    destruct (import_value (import_type B k) (import_tuple B k) st ty) as [[st1 ty']|] eqn:Ev; [|discriminate].
    destruct (import_value_spec _ _ IHty IHtu _ _ _ _ Ev Hi) as (I1 & L1 & A1).
    destruct (app (ms_ty st1) y) as [?|] eqn:Em1; [discriminate|].
    destruct (register_type (ms_prog st1) ty') as [E2 y2] eqn:Er. inv H.
    destruct (register_type_spec _ _ _ _ Er) as [G2 N2].
    assert (Hy : app (set_map (ms_ty st1) y y') y = Some y').
    { apply app_set_same. rewrite (mi_len_ty _ I1). apply nth_error_Some. congruence. }
    assert (L2 : mle st1 {| ms_prog := E2; ms_ty := set_map (ms_ty st1) y y'; ms_tu := ms_tu st1 |}).
    { constructor; [exact G2 | apply set_map_mono, Em1 | apply mono_refl]. }
    split; [|split; [eapply mle_trans; eassumption | exact Hy]].
    apply (minv_step _ _ I1 L2); cbn [ms_prog ms_ty ms_tu]; [apply length_set_map | reflexivity | | congruence].
    intros z z' Hz Nz. destruct (Nat.eq_dec y z) as [<-|N]; [|rewrite app_set_other in Hz by exact N; congruence].
    rewrite Hy in Hz. inv Hz. exists ty, ty'. repeat split; auto.
    exact (ren_type_mle _ _ _ _ L2 A1).
  - (* import_tuple: likewise, the field types first *)
    intros st t st' t' H Hi. rewrite import_tuple_S in H.
    destruct (app (ms_tu st) t) as [t0|] eqn:Em.
    { inv H. split; [exact Hi|]. split; [apply mle_refl | exact Em]. }
    destruct (nth_error (x_tuples B) t) as [a|] eqn:Ea; [|discriminate].
    destruct (import_ids (import_type B k) st (map snd (xt_fields a))) as [[st1 ys]|] eqn:Ev; [|discriminate].
    destruct (import_ids_spec _ IHty _ _ _ _ Ev Hi) as (I1 & L1 & A1).
    destruct (app (ms_tu st1) t) as [?|] eqn:Em1; [discriminate|].
    destruct (register_tuple (ms_prog st1) _) as [E2 t2] eqn:Er. inv H.
    destruct (register_tuple_spec _ _ _ _ Er) as [G2 N2].
    assert (Ht : app (set_map (ms_tu st1) t t') t = Some t').
    { apply app_set_same. rewrite (mi_len_tu _ I1). apply nth_error_Some. congruence. }
    assert (L2 : mle st1 {| ms_prog := E2; ms_ty := ms_ty st1; ms_tu := set_map (ms_tu st1) t t' |}).
    { constructor; [exact G2 | apply mono_refl | apply set_map_mono, Em1]. }
    split; [|split; [eapply mle_trans; eassumption | exact Ht]].
    apply (minv_step _ _ I1 L2); cbn [ms_prog ms_ty ms_tu]; [reflexivity | apply length_set_map | congruence |].
    intros z z' Hz Nz. destruct (Nat.eq_dec t z) as [<-|N]; [|rewrite app_set_other in Hz by exact N; congruence].
    rewrite Ht in Hz. inv Hz. eexists a, _. split; [exact Ea|]. split; [exact N2|]. split; [reflexivity|].
    apply combine_img, A1.
Qed.

End IMPORTP.

(* merge imports every type index, then every tuple index: import_all_types / import_all_tuples
   are this loop, by conversion, over either entry point *)
Definition import_all (rec : mstate -> nat -> option (mstate * nat)) : mstate -> list nat -> option mstate :=
  fix go st ys :=
    match ys with [] => Some st | y :: t => match rec st y with Some (st1, _) => go st1 t | None => None end end.

Lemma import_all_spec B rec get : rec_ok B rec get -> (forall st st', mle st st' -> mono (get st) (get st')) ->
  forall ys st st', import_all rec st ys = Some st' -> minv B st ->
  minv B st' /\ mle st st' /\ forall y, In y ys -> exists y', app (get st') y = Some y'.
Proof.
  intros Hrec Hget. induction ys as [|y t IH]; intros st st' H Hi; cbn [import_all] in H.
  - inv H. split; [exact Hi|]. split; [apply mle_refl|]. intros y [].
  - destruct (rec st y) as [[st1 y']|] eqn:E; [|discriminate].
    destruct (Hrec _ _ _ _ E Hi) as (I1 & L1 & A1). destruct (IH _ _ H I1) as (I2 & L2 & A2).
    split; [exact I2|]. split; [eapply mle_trans; eauto|].
    intros z [<-|Hz]; [exists y'; apply (Hget _ _ L2), A1 | apply A2, Hz].
Qed.

Lemma merge_consts_spec cs : forall E E1 rc, merge_consts E cs = (E1, rc) ->
  grows E E1 /\ Forall2 (fun c k => forall E2, grows E1 E2 -> nth_error (x_consts E2) k = Some c) cs rc.
Proof.
  induction cs as [|c t IH]; intros E E1 rc H; cbn [merge_consts] in H.
  - inv H. split; [apply grows_refl | constructor].
  - destruct (register_constant E c) as [Ea k] eqn:Er. destruct (merge_consts Ea t) as [Eb r] eqn:Em. inv H.
    destruct (register_constant_grows _ _ _ _ Er) as [G1 N1]. destruct (IH _ _ _ Em) as [G2 F2].
    split; [eapply grows_trans; eauto|]. constructor; [|exact F2].
    intros E2 G3. destruct (grows_trans _ _ _ G2 G3) as (Pc & _). eapply prefix_nth; eauto.
Qed.

Lemma merge_builtins_spec ry bs : forall E E1 rb, merge_builtins ry E bs = (E1, rb) ->
  grows E E1 /\ length rb = length bs.
Proof.
  induction bs as [|a t IH]; intros E E1 rb H; cbn [merge_builtins] in H.
  - inv H. split; [apply grows_refl | reflexivity].
  - destruct (register_builtin_info E _) as [Ea b] eqn:Er. destruct (merge_builtins ry Ea t) as [Eb r] eqn:Em. inv H.
    destruct (IH _ _ _ Em) as [G2 L2]. split; [eapply grows_trans; [eapply register_builtin_grows; eauto | exact G2]|].
    cbn. f_equal. exact L2.
Qed.

(* the function emitted for B's j-th function, given the function map built so far *)
Definition merged_fun (rc rt ry rb : fmap) (rf : list nat) (fd : xfunc) : xfunc :=
  {| xf_code := map (merge_instr rc (map Some rf) rt ry rb) (xf_code fd); xf_caps := xf_caps fd;
     xf_type := get_or ry (xf_type fd) |}.

Lemma merge_funcs_spec rc rt ry rb fs : forall E rf E' rf', merge_funcs rc rt ry rb E rf fs = (E', rf') ->
  grows E E' /\ exists new, rf' = rf ++ new /\ length new = length fs /\
  forall j fd, nth_error fs j = Some fd ->
    exists f', nth_error rf' (length rf + j) = Some f' /\
               nth_error (x_funcs E') f' = Some (merged_fun rc rt ry rb (firstn (length rf + j) rf') fd).
Proof.
  induction fs as [|fd t IH]; intros E rf E' rf' H; cbn [merge_funcs] in H.
  - inv H. split; [apply grows_refl|]. exists []. rewrite app_nil_r. repeat split; auto. intros [|j] ? Hj; discriminate.
  - destruct (register_function E _) as [E1 f1] eqn:Er.
    destruct (register_function_grows _ _ _ _ Er) as [G1 N1].
    destruct (IH _ _ _ _ H) as (G2 & new & -> & Ln & Hn).
    split; [eapply grows_trans; eauto|]. exists (f1 :: new). rewrite <- app_assoc. cbn [Datatypes.app].
    split; [reflexivity|]. split; [cbn; lia|].
    intros [|j] fd0 Hj; cbn [nth_error] in Hj.
    + inv Hj. exists f1. rewrite Nat.add_0_r. split; [rewrite nth_error_app2, Nat.sub_diag by lia; reflexivity|].
      destruct G2 as (_ & Pf & _). eapply prefix_nth; [exact Pf|].
      unfold merged_fun. rewrite firstn_app, Nat.sub_diag, firstn_all. cbn [firstn]. rewrite app_nil_r. exact N1.
    + destruct (Hn _ _ Hj) as (f' & A & B0). rewrite app_length in A, B0. cbn [length] in A, B0.
      exists f'. replace (length rf + S j) with (length rf + 1 + j) by lia.
      rewrite <- app_assoc in A, B0. split; [exact A | exact B0].
Qed.

Lemma minv_start B E1 :
  minv B {| ms_prog := E1; ms_ty := repeat None (length (x_types B)); ms_tu := repeat None (length (x_tuples B)) |}.
Proof.
  constructor; cbn [ms_prog ms_ty ms_tu]; try apply repeat_length; intros ? ? H; rewrite app_repeat_none in H; discriminate.
Qed.

Lemma nth_firstn {A} (l : list A) n i : i < n -> nth_error (firstn n l) i = nth_error l i.
Proof.
  revert l i. induction n as [|n IH]; intros l i H; [lia|].
  destruct l as [|x l]; [destruct i; reflexivity|]. destruct i as [|i]; [reflexivity|]. cbn. apply IH. lia.
Qed.

Lemma back_from_spec fs : forall f0 j fd i, back_from f0 fs = true -> nth_error fs j = Some fd -> In i (xf_code fd) ->
  match i with IFunction g => g < f0 + j | _ => True end.
Proof.
  induction fs as [|fd0 t IH]; intros f0 j fd i H E Hi; [destruct j; discriminate|].
  cbn [back_from] in H. apply andb_true_iff in H as [H1 H2]. destruct j as [|j]; cbn [nth_error] in E.
  - inv E. rewrite forallb_forall in H1. specialize (H1 i Hi). destruct i; try exact I.
    apply Nat.ltb_lt in H1. lia.
  - pose proof (IH (S f0) j fd i H2 E Hi) as G. destruct i; try exact I. lia.
Qed.

(* environment.rs:196 remap_function leaves Process alone and looks Function up in the map built so
   far: hence the two exclusions *)
Lemma merge_instr_img rho i : operands_mapped rho i ->
  match i with IFunction _ | IProcess _ _ => False | _ => True end ->
  forall rf, ren_instr rho i = Some (merge_instr (r_c rho) rf (r_t rho) (r_y rho) (r_b rho) i).
Proof.
  destruct i; cbn [operands_mapped ren_instr merge_instr]; intros H N rf; try reflexivity; try contradiction;
    rewrite (get_or_app _ _ H); reflexivity.
Qed.

(* proved: entry, functions, constants, tuples, types, resources; taken from merge_premises as they
   stand: NIL, OK, nil-only, builtins, both inverse maps *)
Theorem merge_struct E B E' rho : merge E B = Some (E', rho) -> wf_program B = true ->
  merge_premises rho B E' = true -> struct_ok rho B E' = true.
Proof.
  intros H HW HP. unfold merge in H.
  destruct (merge_consts E (x_consts B)) as [E1 rc] eqn:Ec.
  destruct (import_all_types B _ (seq 0 (length (x_types B)))) as [st1|] eqn:Ey; [|discriminate].
  destruct (import_all_tuples B st1 (seq 0 (length (x_tuples B)))) as [st2|] eqn:Et; [|discriminate].
  destruct (merge_builtins (ms_ty st2) (ms_prog st2) (x_builtins B)) as [E3 rb] eqn:Eb.
  destruct (merge_funcs (map Some rc) (ms_tu st2) (ms_ty st2) (map Some rb) E3 [] (x_funcs B)) as [E4 rf] eqn:Ef.
  destruct (nth_error rf (x_entry B)) as [e|] eqn:Ee; [|discriminate].
  inv H.
  (* what each stage established *)
  destruct (merge_consts_spec _ _ _ _ Ec) as [Gc Fc].
  destruct (import_all_spec B _ ms_ty (proj1 (import_spec B _)) (ml_ty) _ _ _ Ey (minv_start B E1)) as (I1 & L1 & A1).
  destruct (import_all_spec B _ ms_tu (proj2 (import_spec B _)) (ml_tu) _ _ _ Et I1) as (I2 & L2 & A2).
  destruct (merge_builtins_spec _ _ _ _ _ Eb) as [Gb Lb].
  destruct (merge_funcs_spec _ _ _ _ _ _ _ _ _ Ef) as (Gf & new & Hrf & Lnew & Hnew).
  cbn [Datatypes.app length] in Hrf, Hnew. subst new.
  assert (Gtail : grows (ms_prog st2) E4) by (eapply grows_trans; eauto).
  assert (Gc4 : grows E1 E4).
  { eapply grows_trans; [|exact Gtail]. eapply grows_trans; [exact (ml_prog _ _ L1) | exact (ml_prog _ _ L2)]. }
  assert (Ty : forall y, y < length (x_types B) -> exists y', app (ms_ty st2) y = Some y').
  { intros y Hy. destruct (A1 y) as [y' Hy']; [apply in_seq; lia|]. exists y'. apply (ml_ty _ _ L2), Hy'. }
  assert (Tt : forall t, t < length (x_tuples B) -> exists t', app (ms_tu st2) t = Some t').
  { intros t Ht. apply A2. apply in_seq. lia. }
  destruct (wf_parts B HW) as (W2 & We & Wf & Wt & Wy & Wb).
  (* the premises *)
  unfold merge_premises in HP. cbn [r_c r_f r_t r_y r_b r_r i_f i_b] in HP. rewrite !andb_true_iff in HP.
  destruct HP as [[[[[[[Pback Pnoproc] Pnil] Pok] Pnilonly] Pbuiltin] Pinjf] Pinjb].
  unfold struct_ok. cbn [r_c r_f r_t r_y r_b r_r i_f i_b x_entry].
  (* the twelve conjuncts of struct_ok in order; six are premises as they stand *)
  repeat (apply andb_true_iff; split).
  - (* entry *) apply maps_to_spec. rewrite app_map_some. exact Ee.
  - exact Pnil.
  - exact Pok.
  - exact Pnilonly.
  - (* functions *)
    apply forall_map_spec. intros f f' Hf. rewrite app_map_some in Hf.
    assert (Hlt : f < length (x_funcs B)) by (rewrite <- Lnew; apply nth_error_Some; congruence).
    destruct (nth_error (x_funcs B) f) as [fd|] eqn:Efd; [|apply nth_error_None in Efd; lia].
    destruct (Hnew _ _ Efd) as (f'' & Af & Bf). cbn [Nat.add] in Af, Bf. rewrite Hf in Af. inv Af.
    destruct (Wf _ _ Efd) as [Wty Wcode].
    eapply chk_fun_intro; [exact Efd | exact Bf | reflexivity | | apply get_or_app, Ty, Wty].
    apply map_opt_all. intros i Hi. specialize (Wcode i Hi).
    pose proof (back_from_spec _ 0 f fd i Pback Efd Hi) as Bk. cbn [Nat.add] in Bk.
    unfold no_process in Pnoproc. rewrite forallb_forall in Pnoproc.
    pose proof (Pnoproc fd (nth_error_In _ _ Efd)) as Np. rewrite forallb_forall in Np. specialize (Np i Hi).
    destruct i; try discriminate; try (apply merge_instr_img; exact I); cbn [instr_ids_ok] in Wcode.
    + (* Constant *)
      apply merge_instr_img; [|exact I]. cbn [operands_mapped r_c]. rewrite app_map_some.
      apply Nat.ltb_lt in Wcode. rewrite (Forall2_len _ _ _ Fc) in Wcode.
      destruct (nth_error rc k) eqn:Ek; [eauto | apply nth_error_None in Ek; lia].
    + (* Tuple *) apply merge_instr_img; [apply Tt, Nat.ltb_lt, Wcode | exact I].
    + (* IsType *) apply merge_instr_img; [apply Ty, Nat.ltb_lt, Wcode | exact I].
    + (* Function: a backward reference, already in the map when f was merged *)
      cbn [ren_instr merge_instr r_f]. rewrite app_map_some. unfold get_or. rewrite app_map_some, nth_firstn by exact Bk.
      destruct (nth_error rf f0) eqn:Eg; [reflexivity | apply nth_error_None in Eg; lia].
    + (* Builtin *)
      apply merge_instr_img; [|exact I]. cbn [operands_mapped r_b]. rewrite app_map_some.
      apply Nat.ltb_lt in Wcode. rewrite <- Lb in Wcode.
      destruct (nth_error rb b) eqn:Eb'; [eauto | apply nth_error_None in Eb'; lia].
  - (* constants *)
    apply forall_map_spec. intros k k' Hk. rewrite app_map_some in Hk. unfold chk_const. cbn [x_consts].
    destruct (Forall2_nth _ _ _ Fc k) as [c k0 G|]; inv Hk. rewrite (G E4 Gc4). apply xconst_eqb_refl.
  - (* tuples *)
    apply forall_map_spec. intros t t' Ht. destruct (mi_tu _ _ I2 _ _ Ht) as (a & a' & Aa & Ba & Na & Fa).
    destruct Gtail as (_ & _ & Pt & _). eapply chk_tuple_intro; [exact Aa | exact (prefix_nth _ _ _ _ Pt Ba) | exact Na | exact Fa].
  - (* types: ren_type reads only r_t and r_y, which rho_of st2 and the final renaming share *)
    apply forall_map_spec. intros y y' Hy. destruct (mi_ty _ _ I2 _ _ Hy) as (ty & ty' & Aa & Ba & Ca).
    destruct Gtail as (_ & _ & _ & Py & _).
    unfold chk_type. cbn [x_types]. rewrite Aa, (prefix_nth _ _ _ _ Py Ba).
    erewrite (ren_type_mono (rho_of st2)); [apply xtype_eqb_refl | apply mono_refl | apply mono_refl | exact Ca].
  - exact Pbuiltin.
  - (* resources *) apply forall_map_spec. intros r r' Hr. eapply chk_res_names. exact Hr.
  - exact Pinjf.
  - exact Pinjb.
Qed.

(* a full renaming as soon as the loader's type_compatibility rows commute *)
Theorem merge_is_renaming E B E' rho : merge E B = Some (E', rho) -> wf_program B = true ->
  merge_premises rho B E' = true -> canon_ok B = true ->
  forall R, rows_ok rho B (loaded E' R) = true -> is_renaming rho B (loaded E' R) = true.
Proof. intros H HW HP HC R. apply loaded_is_renaming; [eapply merge_struct; eauto | exact HC]. Qed.

(* every such merge, behind ANY accumulated program E, preserves behaviour step for step (verdicts
   as outside inputs) *)
Theorem merge_simulation E B E' rho : merge E B = Some (E', rho) -> wf_program B = true ->
  merge_premises rho B E' = true ->
  app (r_f rho) (x_entry B) = Some (x_entry E') /\
  (forall f, reachable B (x_entry B) f -> exists f', app (r_f rho) f = Some f') /\
  forall s s' xs xs', srel rho s s' -> Forall2 (xrel rho) xs xs' ->
    rrel rho (run (project B) s xs) (run (project E') s' xs').
Proof.
  intros H HW HP. pose proof (merge_struct _ _ _ _ H HW HP) as S.
  destruct (struct_covers_reachable _ _ _ S) as [A0 B0]. split; [exact A0|]. split; [exact B0|].
  apply struct_simulation_ext. exact S.
Qed.

Module MergeExamples.
Import Examples.

(* exX' merged behind exM: constant 5, NIL, OK and the type int are shared with the environment; the
   tuples Q, P[x] and three types are appended, the two functions land behind the environment's two *)
Example ex_merge :
  match merge exM exX' with
  | Some (E', rho) =>
      wf_program exX' = true /\ merge_premises rho exX' E' = true /\ struct_ok rho exX' E' = true /\
      (r_c rho, r_f rho, r_t rho, r_y rho) =
        ([Some 0], [Some 2; Some 3], [Some 0; Some 1; Some 4; Some 3], [Some 1; Some 0; Some 2; Some 3]) /\
      (length (x_funcs E'), length (x_consts E'), length (x_tuples E'), length (x_types E'), x_entry E') = (4, 1, 5, 4, 3)
  | None => False
  end.
Proof. vm_compute. repeat split. Qed.

(* merged behind (a renaming of) itself everything deduplicates: nothing is appended *)
Example ex_merge_dedup :
  match merge exX exX' with
  | Some (E', rho) =>
      merge_premises rho exX' E' = true /\ r_f rho = [Some 1; Some 2] /\
      (length (x_funcs E'), length (x_consts E'), length (x_tuples E'), length (x_types E')) = (3, 2, 4, 4)
  | None => False
  end.
Proof. vm_compute. repeat split. Qed.

(* premise `backward_refs` is needed: a function that refers to a LATER function keeps the raw index
   (remap_function: `function_remap.get(&idx).unwrap_or(&idx)`, the later function is not merged yet),
   which then names an unrelated function of the environment *)
Definition fwdB : xprogram := with_funcs exX'
  [ {| xf_code := [IPop; IFunction 1]; xf_caps := 0; xf_type := 3 |};
    {| xf_code := [IPop; IConstant 0]; xf_caps := 0; xf_type := 3 |} ].
Example ex_merge_forward_refuted :
  match merge exM fwdB with
  | Some (E', rho) =>
      wf_program fwdB = true /\ backward_refs fwdB = false /\ struct_ok rho fwdB E' = false /\
      (* B's function 0 (-> 2) now pushes function 1 of the ENVIRONMENT; its own function 1 went to 3 *)
      option_map xf_code (nth_error (x_funcs E') 2) = Some [IPop; IFunction 1] /\ app (r_f rho) 1 = Some 3
  | None => False
  end.
Proof. vm_compute. repeat split. Qed.

(* premise on builtins is needed: dedup is by NAME only (register_builtin_info) *)
Definition bE : xprogram := with_builtins exX [ {| xb_name := s_q; xb_param := 0; xb_result := 0 |} ].
Definition bB : xprogram := with_builtins exX' [ {| xb_name := s_q; xb_param := 2; xb_result := 2 |} ].
Example ex_merge_builtin_refuted :
  match merge bE bB with
  | Some (E', rho) => wf_program bB = true /\ merge_premises rho bB E' = false /\ struct_ok rho bB E' = false
  | None => False
  end.
Proof. vm_compute. repeat split. Qed.

(* premise `no_process`: remap_function leaves Process(pid, f) alone *)
Definition pB : xprogram := with_funcs exX'
  [ {| xf_code := [IPop; ILoad 0]; xf_caps := 1; xf_type := 3 |};
    {| xf_code := [IPop; IProcess 7 0]; xf_caps := 0; xf_type := 3 |} ].
Example ex_merge_process_refuted :
  match merge exM pB with
  | Some (E', rho) => wf_program pB = true /\ no_process pB = false /\ struct_ok rho pB E' = false
  | None => False
  end.
Proof. vm_compute. repeat split. Qed.

End MergeExamples.
