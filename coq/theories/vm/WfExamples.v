(* Non-vacuity: the verifier accepts a concrete program shaped like compiler output (store/load,
   a branch with a join, a call, a closure, a tail call) and rejects hand-broken variants. *)
From Quiver Require Import vm.Wf vm.WfProofs vm.WfRun.

(* a branch with a join *)
Definition f0 : func := {| f_caps := 0; f_code :=
  [IStore; ILoad 0; IDuplicate; INot; IJumpIf 2; IPop; ILoad 0; IReset 0] |}.
(* one capture, which it calls *)
Definition f1 : func := {| f_caps := 1; f_code :=
  [IStore; ILoad 1; ILoad 0; ICall; IConstant 0; ITuple 2; IReset 1] |}.
(* a loop through `^` *)
Definition f2 : func := {| f_caps := 0; f_code := [IStore; ILoad 0; ITailCall true] |}.
(* builds a closure of f1 over its argument and tail-calls it (`^f`) *)
Definition f3 : func := {| f_caps := 0; f_code :=
  [IStore; ILoad 0; IFunction 1; ILoad 0; IRotate 2; ITailCall false] |}.

Definition prog (fs : list func) : program :=
  {| p_consts := [CInt 7%Z]; p_funcs := fs; p_tuples := [0; 0; 2]; p_nbuiltins := 1; p_ntypes := 3 |}.

Definition good_prog := prog [f0; f1; f2; f3].

Example verifier_accepts : exists As, verify_program good_prog = Some As.
Proof. vm_compute. eexists. reflexivity. Qed.

(* the accepted program satisfies the hypotheses of wf_sound *)
Example wf_sound_applies : exists As, check_program good_prog As = true /\
  Inv good_prog As (init_state 1 [VFun 0 []] (VInt 5%Z) false).
Proof.
  destruct verifier_accepts as [As H]. exists As.
  pose proof (verify_program_checked _ _ H) as HC. split; [exact HC|].
  eapply init_inv with (fd := f1); [exact HC | reflexivity | reflexivity | | exact I].
  constructor; [|constructor]. apply wfv_fun. split; [exists f0; split; reflexivity | constructor].
Qed.

(* broken variants *)
Definition rejects (fs : list func) : Prop := verify_program (prog fs) = None.

Example reject_underflow : rejects [{| f_caps := 0; f_code := [IStore; IPop] |}].
Proof. reflexivity. Qed.
Example reject_two_results : rejects [{| f_caps := 0; f_code := [IDuplicate] |}].
Proof. reflexivity. Qed.
Example reject_join_heights : rejects [{| f_caps := 0; f_code := [IDuplicate; IJumpIf 1; IDuplicate; INot] |}].
Proof. reflexivity. Qed.
Example reject_undefined_local : rejects [{| f_caps := 0; f_code := [IDuplicate; IJumpIf 1; IStore; ILoad 0; INot] |}].
Proof. reflexivity. Qed.
Example reject_jump_out : rejects [{| f_caps := 0; f_code := [IJump 5] |}].
Proof. reflexivity. Qed.
Example reject_bad_index : rejects [{| f_caps := 0; f_code := [IPop; IConstant 9] |}].
Proof. reflexivity. Qed.
Example reject_tailcall_not_in_tail_position : rejects [{| f_caps := 0; f_code := [IDuplicate; ITailCall true] |}].
Proof. reflexivity. Qed.
Example reject_rotate_zero : rejects [{| f_caps := 0; f_code := [IRotate 0] |}].
Proof. reflexivity. Qed.
