(* WfRun.v — lifting the one-step soundness of the verifier to every execution (C07), and the
   space theorems read off the same invariant (C16). *)
From Quiver Require Import vm.Wf vm.WfProofs.

Section RUN.
Variable P : program.

(* an execution: any sequence of outside inputs *)
Fixpoint run (s : state) (xs : list ext) : sres :=
  match xs with
  | [] => Next s
  | x :: t => match step P s x with Next s' => run s' t | r => r end
  end.

Lemma verify_all_check fs As : verify_all P fs = Some As -> check_all P fs As = true.
Proof.
  revert As; induction fs as [|fd fs IH]; intros As H; cbn [verify_all] in H.
  - injection H as <-. reflexivity.
  - unfold verify_function in H. destruct (infer_function P fd) as [A|]; [|discriminate].
    destruct (check_function P fd A) eqn:Ec; [|discriminate].
    destruct (verify_all P fs) as [As'|]; [|discriminate]. injection H as <-.
    cbn [check_all]. rewrite Ec. exact (IH _ eq_refl).
Qed.

(* what the extracted verifier returns is a certificate the proved checker accepts *)
Theorem verify_program_checked As : verify_program P = Some As -> check_program P As = true.
Proof. apply verify_all_check. Qed.

Variable As : list annot.
Hypothesis HC : check_program P As = true.

Theorem run_sound s xs : Inv P As s -> Forall (ext_ok P) xs -> good P As (run s xs).
Proof.
  revert s; induction xs as [|x t IH]; intros s Hs Hxs; cbn [run]; [exact Hs|].
  apply Forall_cons_iff in Hxs as [Hx Ht]. pose proof (step_sound P As HC s x Hs Hx) as G.
  destruct (step P s x); auto.
Qed.

(* C07, for every function of the program, every argument, every execution *)
Theorem wf_sound fn fd caps arg pers xs :
  nth_error (p_funcs P) fn = Some fd -> length caps = f_caps fd ->
  Forall (wfv P) caps -> wfv P arg -> Forall (ext_ok P) xs ->
  match run (init_state fn caps arg pers) xs with
  | Fault f => structural f = false      (* never a stack/frame/index/jump fault *)
  | Finished v s' => stack s' = []        (* exactly one result, nothing left behind *)
  | Next _ => True
  end.
Proof.
  intros Hfd Hc Hcaps Harg Hxs.
  pose proof (run_sound _ xs (init_inv P As HC fn fd caps arg pers Hfd Hc Hcaps Harg) Hxs) as G.
  destruct (run _ xs); cbn [good] in G; [exact I | apply G | exact G].
Qed.

Definition top_instr (s : state) : option instr :=
  match frames s with
  | fr :: _ => match nth_error (p_funcs P) (fr_fn fr) with
               | Some fd => nth_error (f_code fd) (fr_pc fr)
               | None => None
               end
  | [] => None
  end.

(* a tail call never grows the frame stack, re-enters at pc 0 on the same locals base, leaves
   exactly the argument above the frame's stack base, and only the new captures as locals *)
Theorem tailcall_constant_space s x r s' fr rest :
  Inv P As s -> frames s = fr :: rest -> top_instr s = Some (ITailCall r) ->
  step P s x = Next s' ->
  exists fr' a,
    frames s' = fr' :: rest /\
    ann As (fr_fn fr) (fr_pc fr) = Some a /\
    length (frames s') = length (frames s) /\
    fr_pc fr' = 0 /\ fr_base fr' = fr_base fr /\
    length (stack s') = (length (stack s) - a_h a) + 1 /\
    length (locals s') = fr_base fr + fr_caps fr'.
Proof.
  intros (_ & _ & Hfr) Efr Hi Hstep. rewrite Efr in Hfr.
  destruct Hfr as ((fd & Hfd & Hcaps) & a & Ha & Hh & Hl1 & _).
  unfold top_instr in Hi. rewrite Efr, Hfd in Hi.
  pose proof (checked_at P As HC _ _ _ _ Hfd Ha) as Hck. rewrite Hi in Hck. destruct Hck as (scs & Et & _).
  unfold step, code_of in Hstep. rewrite Efr, Hfd in Hstep. cbn [option_map] in Hstep. rewrite Hi in Hstep.
  destruct r; unfold transfer in Et; apply if_some in Et as [C _]; autorewrite with b2p in C.
  - (* ^ *)
    destruct (stack s) as [|arg st]; [discriminate|]. injection Hstep as <-.
    exists (set_pc fr 0), a. cbn [frames stack locals set_pc fr_pc fr_base fr_caps length] in *.
    rewrite Efr, firstn_length. repeat split; try assumption; lia.
  - (* ^f *)
    destruct (stack s) as [|[] [|arg st]]; try discriminate.
    destruct (nth_error (p_funcs P) f); [|discriminate]. injection Hstep as <-.
    eexists _, a. cbn [frames stack locals fr_pc fr_base fr_caps length] in *.
    rewrite Efr, app_length, firstn_length. repeat split; try assumption; cbn [fr_caps]; lia.
Qed.

Lemma in_annot_bounds (A : annot) a : In (Some a) A -> a_h a <= max_height A /\ a_hi a <= max_locals A.
Proof.
  induction A as [|o t IH]; [intros []|]. cbn [max_height max_locals fold_right]. intros [->|Hb]; [lia|].
  apply IH in Hb. fold (max_height t) (max_locals t). destruct o; lia.
Qed.

(* an activation never has more locals than the verifier's bound for the function; its height in
   the annotation is below the function's maximum (the operand stack itself is bounded globally,
   WfSpace.space_bound) *)
Theorem per_function_bounds s fr rest A :
  Inv P As s -> frames s = fr :: rest -> nth_error As (fr_fn fr) = Some A ->
  exists a, ann As (fr_fn fr) (fr_pc fr) = Some a /\
            a_h a <= max_height A /\
            length (locals s) <= fr_base fr + max_locals A.
Proof.
  intros (_ & _ & Hfr) Efr HA. rewrite Efr in Hfr.
  destruct Hfr as (_ & a & Ha & _ & _ & Hl2 & _). exists a. split; [exact Ha|].
  destruct (in_annot_bounds _ _ (nth_error_In _ _ (ann_nth _ _ _ _ _ HA Ha))). lia.
Qed.

End RUN.
