(* RemapShakeProofs.v — the model of tree_shake (vm/RemapShake.v) always produces a renaming:
   for every well-formed program X, `tree_shake X` does not panic and `struct_ok (shake_rho X) X
   (tree_shake X)` holds, so the lock-step simulation of RemapProofs.v applies to EVERY tree-shake,
   not only to the outputs validated at run time. *)
From Quiver Require Import vm.Remap vm.RemapProofs vm.RemapShake.

Lemma nthb_lt l i : nthb l i = true -> i < length l.
Proof.
  unfold nthb. destruct (nth_error l i) eqn:E; [|discriminate]. intros _. apply nth_error_Some. congruence.
Qed.

Lemma length_set_true l : forall i, length (set_true l i) = length l.
Proof. induction l as [|b t IH]; intros [|i]; cbn; auto. Qed.

Lemma nthb_set_same l : forall i, i < length l -> nthb (set_true l i) i = true.
Proof.
  induction l as [|b t IH]; intros [|i] H; cbn in H; try lia; [reflexivity|]. apply (IH i). lia.
Qed.

Lemma nthb_set_other l : forall i j, i <> j -> nthb (set_true l i) j = nthb l j.
Proof.
  induction l as [|b t IH]; intros [|i] [|j] H; try reflexivity; try congruence. apply (IH i j). congruence.
Qed.

Lemma nthb_set_mono l i j : nthb l j = true -> nthb (set_true l i) j = true.
Proof.
  intros H. destruct (Nat.eq_dec i j) as [->|N]; [apply nthb_set_same, nthb_lt, H | rewrite nthb_set_other; assumption].
Qed.

Lemma nthb_repeat_false n i : nthb (repeat false n) i = false.
Proof.
  unfold nthb. destruct (nth_error (repeat false n) i) as [b|] eqn:E; [|reflexivity].
  apply nth_error_In, repeat_spec in E. exact E.
Qed.

(* how many ids are still unmarked: what the guarded walk consumes *)
Definition cfalse (l : list bool) : nat := length (filter negb l).

Lemma cfalse_set l : forall i, i < length l -> nthb l i = false -> S (cfalse (set_true l i)) = cfalse l.
Proof.
  unfold cfalse. induction l as [|b t IH]; intros [|i] H E; cbn in H; try lia.
  - cbv in E. subst b. reflexivity.
  - cbn [set_true filter]. specialize (IH i ltac:(lia) E). destruct b; cbn [negb length]; congruence.
Qed.

Lemma cfalse_repeat n : cfalse (repeat false n) = n.
Proof. unfold cfalse. induction n; cbn; auto. Qed.

Lemma node_eq_dec (a b : node) : {a = b} + {a <> b}.
Proof. decide equality; apply Nat.eq_dec. Qed.

Section MARKS.
Variable X : xprogram.

Definition valid (n : node) : Prop :=
  match n with
  | NC k => k < length (x_consts X) | NF f => f < length (x_funcs X) | NT t => t < length (x_tuples X)
  | NY y => y < length (x_types X) | NB b => b < length (x_builtins X)
  end.

Definition shaped (m : marks) : Prop :=
  length (m_c m) = length (x_consts X) /\ length (m_f m) = length (x_funcs X) /\
  length (m_t m) = length (x_tuples X) /\ length (m_y m) = length (x_types X) /\
  length (m_b m) = length (x_builtins X).

Definition unmarked (m : marks) : nat :=
  cfalse (m_c m) + cfalse (m_f m) + cfalse (m_t m) + cfalse (m_y m) + cfalse (m_b m).

Lemma shaped_ins n m : shaped m -> shaped (ins n m).
Proof. intros (A & B & C & D & E). destruct n; unfold shaped; cbn; rewrite ?length_set_true; auto. Qed.

Lemma mem_ins_same n m : shaped m -> valid n -> mem n (ins n m) = true.
Proof. intros (A & B & C & D & E) V. destruct n; cbn [mem ins valid m_c m_f m_t m_y m_b] in *; apply nthb_set_same; lia. Qed.

Lemma mem_ins_mono n k m : mem k m = true -> mem k (ins n m) = true.
Proof. destruct n, k; cbn; intros H; try exact H; apply nthb_set_mono, H. Qed.

Lemma mem_ins_inv n k m : mem k (ins n m) = true -> mem k m = true \/ k = n.
Proof.
  intros H. destruct (node_eq_dec k n) as [->|N]; [auto|]. left.
  destruct n, k; cbn in *; try assumption; rewrite nthb_set_other in H; try assumption; congruence.
Qed.

Lemma unmarked_ins n m : shaped m -> valid n -> mem n m = false -> S (unmarked (ins n m)) = unmarked m.
Proof.
  intros (A & B & C & D & E) V H. unfold unmarked.
  destruct n; cbn [mem ins valid m_c m_f m_t m_y m_b] in *;
    [pose proof (cfalse_set (m_c m) k) as G | pose proof (cfalse_set (m_f m) f) as G | pose proof (cfalse_set (m_t m) t) as G
    | pose proof (cfalse_set (m_y m) y) as G | pose proof (cfalse_set (m_b m) b) as G];
    specialize (G ltac:(lia) H); lia.
Qed.

Hypothesis Hch : forall n, valid n -> Forall valid (children X n).

Definition marks_le (m r : marks) : Prop := forall k, mem k m = true -> mem k r = true.
(* everything marked since m has all it mentions marked *)
Definition closed_since (m r : marks) : Prop :=
  forall k, mem k r = true -> mem k m = false -> Forall (fun c => mem c r = true) (children X k).

Lemma closed_since_trans a b c : marks_le b c -> closed_since a b -> closed_since b c -> closed_since a c.
Proof.
  intros G H1 H2 x Hc Ha. destruct (mem x b) eqn:E; [|apply H2; assumption].
  eapply Forall_impl; [|apply (H1 x E Ha)]. exact G.
Qed.

(* what visiting the nodes ns from marks m yields: r has marked them, only added marks, closed every
   newly marked node under "mentions", and did not increase the fuel measure `unmarked` *)
Definition walk_post (ns : list node) (m r : marks) : Prop :=
  shaped r /\ unmarked r <= unmarked m /\ marks_le m r /\ Forall (fun n => mem n r = true) ns /\ closed_since m r.

Lemma walk_post_nil m : shaped m -> walk_post [] m m.
Proof.
  intros Hs. split; [exact Hs|]. split; [lia|]. split; [intros x Hx; exact Hx|]. split; [constructor|].
  intros k A B. congruence.
Qed.

Lemma walk_post_cons n ns m1 m2 r : walk_post [n] m1 m2 -> walk_post ns m2 r -> walk_post (n :: ns) m1 r.
Proof.
  intros (S2 & U2 & G2 & M2 & C2) (S3 & U3 & G3 & M3 & C3). inversion M2 as [|? ? Hn _]; subst.
  split; [exact S3|]. split; [lia|]. split; [intros x Hx; apply G3, G2, Hx|].
  split; [constructor; auto | eapply closed_since_trans; eauto].
Qed.

Lemma fold_walk k :
  (forall n m, shaped m -> valid n -> unmarked m < k -> walk_post [n] m (walk X k n m)) ->
  forall cs m1, Forall valid cs -> shaped m1 -> unmarked m1 < k ->
  walk_post cs m1 (fold_left (fun m c => walk X k c m) cs m1).
Proof.
  intros IH cs. induction cs as [|c cs IHcs]; intros m1 Hv Hs Hu; cbn [fold_left]; [apply walk_post_nil, Hs|].
  inversion Hv as [|? ? Vc Vcs]; subst. pose proof (IH c m1 Hs Vc Hu) as W. apply (walk_post_cons _ _ _ _ _ W).
  destruct W as (S2 & U2 & _). apply IHcs; [exact Vcs | exact S2 | lia].
Qed.

Lemma walk_spec fuel : forall n m, shaped m -> valid n -> unmarked m < fuel -> walk_post [n] m (walk X fuel n m).
Proof.
  induction fuel as [|k IH]; intros n m Hs Hv Hu; [lia|].
  cbn [walk]. destruct (mem n m) eqn:E.
  - destruct (walk_post_nil m Hs) as (S1 & U1 & G1 & _ & C1). split; [exact S1|]. split; [exact U1|]. split; [exact G1|].
    split; [constructor; [exact E | constructor] | exact C1].
  - pose proof (unmarked_ins n m Hs Hv E) as Hdec.
    destruct (fold_walk k IH (children X n) (ins n m) (Hch n Hv) (shaped_ins n m Hs) ltac:(lia))
      as (S3 & U3 & G3 & M3 & C3).
    split; [exact S3|]. split; [lia|]. split; [intros x Hx; apply G3, mem_ins_mono, Hx|]. split.
    + constructor; [apply G3, mem_ins_same; assumption | constructor].
    + intros x Hr Hm. destruct (mem x (ins n m)) eqn:E1; [|apply C3; assumption].
      destruct (mem_ins_inv _ _ _ E1) as [A| ->]; [congruence | exact M3].
Qed.

End MARKS.

Section WFFACTS.
Variable X : xprogram.
Hypothesis HW : wf_program X = true.

Lemma wf_parts :
  2 <= length (x_tuples X) /\ x_entry X < length (x_funcs X) /\
  (forall f fd, nth_error (x_funcs X) f = Some fd ->
     xf_type fd < length (x_types X) /\ forall i, In i (xf_code fd) -> instr_ids_ok X i = true) /\
  (forall t a, nth_error (x_tuples X) t = Some a -> forall p, In p (xt_fields a) -> snd p < length (x_types X)) /\
  (forall y ty, nth_error (x_types X) y = Some ty -> type_ids_ok X ty = true) /\
  (forall b a, nth_error (x_builtins X) b = Some a ->
     xb_param a < length (x_types X) /\ xb_result a < length (x_types X)).
Proof.
  unfold wf_program in HW. rewrite !andb_true_iff, !forallb_forall in HW.
  destruct HW as [[[[[H2 He] Hf] Ht] Hy] Hb]. apply Nat.leb_le in H2. apply Nat.ltb_lt in He.
  split; [exact H2|]. split; [exact He|]. split; [|split; [|split; [exact (fun y ty H => Hy ty (nth_error_In _ _ H))|]]].
  - intros f fd H. apply nth_error_In, Hf, andb_true_iff in H as [Hc Hty]. rewrite forallb_forall in Hc.
    split; [apply Nat.ltb_lt, Hty | exact Hc].
  - intros t a H p Hp. apply nth_error_In, Ht in H. rewrite forallb_forall in H. apply Nat.ltb_lt, H, Hp.
  - intros b a H. apply nth_error_In, Hb, andb_true_iff in H as [Hp Hr]. split; apply Nat.ltb_lt; assumption.
Qed.

Lemma valid_NY y : (y <? length (x_types X)) = true -> valid X (NY y).
Proof. apply Nat.ltb_lt. Qed.

Lemma valid_oid o : oid_ok X o = true -> Forall (valid X) (oid_nodes o).
Proof. intros H. destruct o; constructor; [apply valid_NY, H | constructor]. Qed.

Lemma instr_children_valid i : instr_ids_ok X i = true -> Forall (valid X) (instr_children X i).
Proof.
  intros H. destruct i; cbn [instr_children instr_ids_ok] in *; repeat constructor; try (apply Nat.ltb_lt, H).
  destruct (first_tuple_type X t) as [p|] eqn:Ep; repeat constructor.
  apply find_index_hit in Ep as (x & Hx & _). apply nth_error_Some. rewrite Hx. discriminate.
Qed.

Lemma wf_children n : valid X n -> Forall (valid X) (children X n).
Proof.
  destruct wf_parts as (_ & _ & Wf & Wt & Wy & Wb). intros V.
  destruct n; cbn [children].
  - constructor.
  - destruct (nth_error (x_funcs X) f) as [fd|] eqn:E; [|constructor].
    destruct (Wf _ _ E) as [Hty Hc]. constructor; [exact Hty|].
    apply Forall_forall. intros c Hc0. apply in_flat_map in Hc0 as (i & Hi & Hci).
    pose proof (instr_children_valid i (Hc i Hi)) as G. rewrite Forall_forall in G. apply G, Hci.
  - destruct (nth_error (x_tuples X) t) as [a|] eqn:E; [|constructor].
    apply Forall_map, Forall_forall. exact (Wt _ _ E).
  - destruct (nth_error (x_types X) y) as [ty|] eqn:E; [|constructor].
    specialize (Wy _ _ E).
    destruct ty as [| | |t|nm fs|p r c|d|ys|sd rc|nm|nm]; cbn [type_ids_ok] in Wy; try solve [constructor].
    + repeat constructor. apply Nat.ltb_lt, Wy.
    + rewrite forallb_forall in Wy. apply Forall_map, Forall_forall. intros q Hq. apply valid_NY, Wy, Hq.
    + rewrite !andb_true_iff in Wy. destruct Wy as [[W1 W2] W3]. repeat constructor; apply valid_NY; assumption.
    + rewrite forallb_forall in Wy. apply Forall_map, Forall_forall. intros q Hq. apply valid_NY, Wy, Hq.
    + apply andb_true_iff in Wy as [W1 W2]. apply Forall_app. split; apply valid_oid; assumption.
  - destruct (nth_error (x_builtins X) b) as [a|] eqn:E; [|constructor].
    destruct (Wb _ _ E). repeat constructor; assumption.
Qed.

Lemma no_marks_shaped : shaped X (no_marks X).
Proof. unfold shaped, no_marks; cbn. rewrite !repeat_length. auto. Qed.

Lemma no_marks_none k : mem k (no_marks X) = false.
Proof. destruct k; apply nthb_repeat_false. Qed.

Lemma no_marks_unmarked : unmarked (no_marks X) = table_size X.
Proof. unfold unmarked, no_marks, table_size; cbn [m_c m_f m_t m_y m_b]. rewrite !cfalse_repeat. reflexivity. Qed.

(* the marks of tree_shake: roots marked, closed under "mentions" *)
Lemma marks_facts :
  shaped X (shake_marks X) /\ mem (NT NIL) (shake_marks X) = true /\ mem (NT OK) (shake_marks X) = true /\
  mem (NF (x_entry X)) (shake_marks X) = true /\
  forall k, mem k (shake_marks X) = true -> Forall (fun c => mem c (shake_marks X) = true) (children X k).
Proof.
  destruct wf_parts as (W2 & We & _).
  (* shake_marks is the walk folded over the three roots; the fuel outlasts it since no walk unmarks *)
  destruct (fold_walk X (S (table_size X)) (walk_spec X wf_children _)
              [NT NIL; NT OK; NF (x_entry X)] (no_marks X)) as (S3 & _ & _ & M3 & C3).
  - repeat constructor; [unfold NIL | unfold OK | exact We]; cbn; lia.
  - exact no_marks_shaped.
  - rewrite no_marks_unmarked. lia.
  - rewrite !Forall_cons_iff in M3. destruct M3 as (N1 & N2 & N3 & _).
    split; [exact S3|]. split; [exact N1|]. split; [exact N2|]. split; [exact N3|].
    intros k Hk. exact (C3 k Hk (no_marks_none k)).
Qed.

End WFFACTS.

Lemma app_cons o (m : fmap) i : app (o :: m) (S i) = app m i.
Proof. reflexivity. Qed.

Lemma app_map_some (l : list nat) j : app (map Some l) j = nth_error l j.
Proof. unfold app. rewrite nth_error_map. destruct (nth_error l j); reflexivity. Qed.

(* `unwrap_or` at a mapped id *)
Lemma get_or_app m i : (exists j, app m i = Some j) -> app m i = Some (get_or m i).
Proof. intros [j E]. unfold get_or. rewrite E. reflexivity. Qed.

(* old id i -> new id j: j counts the kept ids below i; the j-th kept entry is entry i; the j-th
   kept old id is i *)
Lemma dense_spec {A} mask : forall (l : list A) k b i j, length mask = length l ->
  app (dense mask k) i = Some j ->
  exists j0, j = k + j0 /\ nth_error (select mask l) j0 = nth_error l i /\
             nth_error (pos_from b mask) j0 = Some (b + i) /\ nthb mask i = true.
Proof.
  induction mask as [|b0 mask IH]; intros l k b i j Hl H; [destruct i; discriminate|].
  destruct l as [|x l]; [discriminate|]. cbn [length] in Hl.
  destruct i as [|i].
  - destruct b0; cbn in H; [|discriminate]. inv H. exists 0. rewrite !Nat.add_0_r. repeat split; reflexivity.
  - destruct b0; cbn [dense] in H; rewrite app_cons in H.
    + destruct (IH l (S k) (S b) i j ltac:(lia) H) as (j0 & -> & A1 & B1 & C1).
      exists (S j0). split; [lia|]. cbn [select pos_from nth_error]. rewrite B1, Nat.add_succ_r. auto.
    + destruct (IH l k (S b) i j ltac:(lia) H) as (j0 & -> & A1 & B1 & C1).
      exists j0. split; [reflexivity|]. cbn [select pos_from nth_error]. rewrite B1, Nat.add_succ_r. auto.
Qed.

Lemma dense_some mask : forall k i, nthb mask i = true -> exists j, app (dense mask k) i = Some j.
Proof.
  induction mask as [|b0 mask IH]; intros k [|i] H; try discriminate.
  - cbv in H. subst b0. eexists. reflexivity.
  - destruct b0; cbn [dense]; rewrite app_cons; apply IH, H.
Qed.

Lemma dense_lookup {A} mask (l : list A) i j : length mask = length l -> app (dense mask 0) i = Some j ->
  nthb mask i = true /\ exists x, nth_error l i = Some x /\ nth_error (select mask l) j = Some x.
Proof.
  intros Hl H. destruct (dense_spec mask l 0 0 i j Hl H) as (j0 & -> & A0 & _ & M). split; [exact M|].
  apply nthb_lt in M. destruct (nth_error l i) as [x|] eqn:E; [eauto|]. apply nth_error_None in E. lia.
Qed.

(* the kept-ids vector inverts the remap table *)
Lemma dense_inverse mask i j : app (dense mask 0) i = Some j -> app (map Some (pos_from 0 mask)) j = Some i.
Proof.
  intros H. destruct (dense_spec mask (repeat tt (length mask)) 0 0 i j (eq_sym (repeat_length _ _)) H)
    as (j0 & -> & _ & B & _). rewrite app_map_some. exact B.
Qed.

Lemma In_select {A} mask : forall (l : list A) x, In x (select mask l) ->
  exists i, nthb mask i = true /\ nth_error l i = Some x.
Proof.
  induction mask as [|b mask IH]; intros [|y l] x H; try destruct H.
  cbn [select] in H. destruct b; [destruct H as [->|H]; [exists 0; split; reflexivity|]|];
    destruct (IH _ _ H) as (i & Hi1 & Hi2); exists (S i); split; assumption.
Qed.

Lemma map_opt_total {A B} (g : A -> option B) l : (forall x, In x l -> exists y, g x = Some y) ->
  exists r, map_opt g l = Some r.
Proof.
  induction l as [|a l IH]; intros H; [eexists; reflexivity|].
  cbn [map_opt]. destruct (H a (or_introl eq_refl)) as [y ->].
  destruct IH as [r ->]; [intros x Hx; apply H; right; exact Hx|]. eexists. reflexivity.
Qed.

Section SHAKE.
Variable X : xprogram.
Hypothesis HW : wf_program X = true.

Let Mk := shake_marks X.
Let rho := shake_rho X.

Let MF := marks_facts X HW.

Lemma Mclosed k : mem k Mk = true -> Forall (fun c => mem c Mk = true) (children X k).
Proof. apply MF. Qed.

(* a marked id is mapped *)
Lemma mapped (n : node) : mem n Mk = true ->
  match n with
  | NC k => exists j, app (r_c rho) k = Some j | NF f => exists j, app (r_f rho) f = Some j
  | NT t => exists j, app (r_t rho) t = Some j | NY y => exists j, app (r_y rho) y = Some j
  | NB b => exists j, app (r_b rho) b = Some j
  end.
Proof. destruct n; intros H; exact (dense_some _ 0 _ H). Qed.

Lemma y_get y : mem (NY y) Mk = true -> app (r_y rho) y = Some (get_or (r_y rho) y).
Proof. intros H. apply get_or_app, (mapped (NY y) H). Qed.

Lemma fun_marked f fd : mem (NF f) Mk = true -> nth_error (x_funcs X) f = Some fd ->
  mem (NY (xf_type fd)) Mk = true /\
  forall i c, In i (xf_code fd) -> In c (instr_children X i) -> mem c Mk = true.
Proof.
  intros Hf Hfd. pose proof (Mclosed _ Hf) as C. cbn [children] in C. rewrite Hfd in C.
  apply Forall_cons_iff in C as [Cty Cc]. split; [exact Cty|].
  intros i c Hi Hc. rewrite Forall_forall in Cc. apply Cc, in_flat_map. eauto.
Qed.

Lemma instr_image f fd i : mem (NF f) Mk = true -> nth_error (x_funcs X) f = Some fd -> In i (xf_code fd) ->
  exists j, ren_instr rho i = Some j.
Proof.
  intros Hf Hfd Hi. destruct (fun_marked f fd Hf Hfd) as [_ G]. specialize (G i).
  apply ren_instr_total. destruct i; cbn [operands_mapped instr_children] in *; try exact I;
    refine (mapped _ (G _ Hi (or_introl eq_refl))).   (* the operand is the first child in instr_children *)
Qed.

(* the type images computed with `unwrap_or` are the images under rho *)
Lemma type_image y ty : mem (NY y) Mk = true -> nth_error (x_types X) y = Some ty ->
  ren_type rho ty = Some (ren_type_or rho ty).
Proof.
  intros Hy Hty. pose proof (Mclosed _ Hy) as C. cbn [children] in C. rewrite Hty in C.
  assert (Oid : forall o, Forall (fun c => mem c Mk = true) (oid_nodes o) ->
                ren_oid rho o = Some (option_map (get_or (r_y rho)) o)).
  { intros [s|] Cs; [|reflexivity]. apply Forall_cons_iff in Cs as [Cs _]. cbn [ren_oid option_map]. rewrite (y_get s Cs). reflexivity. }
  destruct ty as [| | |t|nm fs|p r c|d|ys|sd rc|nm|nm]; cbn [ren_type ren_type_or]; try reflexivity.
  - apply Forall_cons_iff in C as [Ct _]. rewrite (get_or_app _ t (mapped (NT t) Ct)). reflexivity.
  - rewrite Forall_map, Forall_forall in C.
    rewrite (map_opt_all _ (fun p => (fst p, get_or (r_y rho) (snd p)))); [reflexivity|].
    intros q Hq. rewrite (y_get (snd q)) by (apply C, Hq). reflexivity.
  - rewrite !Forall_cons_iff in C. destruct C as (C1 & C2 & C3 & _). rewrite (y_get p C1), (y_get r C2), (y_get c C3). reflexivity.
  - rewrite Forall_map, Forall_forall in C.
    rewrite (map_opt_all _ (get_or (r_y rho))); [reflexivity|]. intros q Hq. apply y_get, C, Hq.
  - apply Forall_app in C as [Cs Cr]. rewrite (Oid sd Cs), (Oid rc Cr). reflexivity.
Qed.

(* tree_shake does not panic *)
Lemma shake_funs_total : exists fs, map_opt (shake_fun rho) (select (m_f Mk) (x_funcs X)) = Some fs.
Proof.
  apply map_opt_total. intros fd Hin. apply In_select in Hin as (f & Hm & Hfd).
  unfold shake_fun.
  destruct (map_opt_total (ren_instr rho) (xf_code fd)) as [code ->]; [|eexists; reflexivity].
  intros i Hi. eapply (instr_image f fd i); eauto.
Qed.

Theorem tree_shake_struct_ok : exists X', tree_shake X = Some X' /\ struct_ok (shake_rho X) X X' = true.
Proof.
  destruct shake_funs_total as [fs Hfs].
  destruct MF as ((Lc & Lf & Lt & Ly & Lb) & Hnil & Hok & Hentry & _).
  destruct (mapped _ Hentry) as [e He].
  unfold tree_shake. fold Mk rho. rewrite Hfs, He.
  eexists. split; [reflexivity|].
  (* NIL and OK are the ids 0 and 1 and both are marked, so `dense` leaves them in place *)
  assert (T0 : app (r_t rho) NIL = Some NIL /\ app (r_t rho) OK = Some OK).
  { fold Mk in Hnil, Hok. cbn [mem] in Hnil, Hok. cbn [rho shake_rho r_t]. fold Mk.
    destruct (m_t Mk) as [|[|] [|[|] r]]; try discriminate. split; reflexivity. }
  destruct T0 as [T0 T1].
  unfold struct_ok. cbn [x_entry].
  repeat (apply andb_true_iff; split); try apply forall_map_spec; try (apply maps_to_spec; assumption).
  - intros t t' E. destruct (Nat.eqb_spec t' NIL) as [->|]; [|reflexivity].
    apply dense_inverse in E, T0. apply Nat.eqb_eq. congruence.
  - (* functions *)
    intros f f' E. destruct (dense_lookup (m_f Mk) (x_funcs X) _ _ Lf E) as (Hm & fd & Hfd & Hsel).
    apply map_opt_Forall2 in Hfs. destruct (Forall2_nth_some _ _ _ _ _ Hfs Hsel) as (fd' & Hfd' & Hsf).
    unfold shake_fun in Hsf. destruct (map_opt (ren_instr rho) (xf_code fd)) as [code|] eqn:Ec; inv Hsf.
    eapply chk_fun_intro; [exact Hfd | exact Hfd' | reflexivity | exact Ec | apply y_get, (fun_marked f fd Hm Hfd)].
  - (* constants *)
    intros k k' E. destruct (dense_lookup (m_c Mk) (x_consts X) _ _ Lc E) as (_ & c & Hc & Hsel).
    unfold chk_const. cbn [x_consts]. rewrite Hc, Hsel. apply xconst_eqb_refl.
  - (* tuples *)
    intros t t' E. destruct (dense_lookup (m_t Mk) (x_tuples X) _ _ Lt E) as (Hm & a & Ha & Hsel).
    eapply chk_tuple_intro; [exact Ha | apply (map_nth_error (shake_tuple rho)), Hsel | reflexivity|].
    pose proof (Mclosed (NT t) Hm) as C. cbn [children] in C. rewrite Ha, Forall_map in C.
    cbn [shake_tuple xt_fields]. induction C as [|p l Hp _ IH]; constructor; [|exact IH].
    split; [reflexivity | apply y_get, Hp].
  - (* types *)
    intros y y' E. destruct (dense_lookup (m_y Mk) (x_types X) _ _ Ly E) as (Hm & ty & Hty & Hsel).
    unfold chk_type. cbn [x_types]. rewrite Hty, (map_nth_error (ren_type_or rho) _ _ Hsel), (type_image y ty Hm Hty).
    apply xtype_eqb_refl.
  - (* builtins *)
    intros b b' E. destruct (dense_lookup (m_b Mk) (x_builtins X) _ _ Lb E) as (Hm & a & Ha & Hsel).
    unfold chk_builtin. cbn [x_builtins]. rewrite Ha, (map_nth_error (shake_builtin rho) _ _ Hsel).
    pose proof (Mclosed (NB b) Hm) as C. cbn [children] in C. rewrite Ha, !Forall_cons_iff in C. destruct C as (C1 & C2 & _).
    cbn [shake_builtin xb_name xb_param xb_result]. rewrite str_eqb_refl.
    apply andb_true_iff. split; apply maps_to_spec, y_get; assumption.
  - (* resources *) intros r r' E. eapply chk_res_names. exact E.
  - (* the kept-function vector inverts the function map *)
    intros f f' E. apply maps_to_spec, dense_inverse, E.
  - intros b b' E. apply maps_to_spec, dense_inverse, E.
Qed.

End SHAKE.

Theorem tree_shake_struct X : wf_program X = true ->
  exists X', tree_shake X = Some X' /\ struct_ok (shake_rho X) X X' = true.
Proof. apply tree_shake_struct_ok. Qed.

Lemma loaded_is_renaming rho X X' R : struct_ok rho X X' = true -> canon_ok X = true ->
  rows_ok rho X (loaded X' R) = true -> is_renaming rho X (loaded X' R) = true.
Proof.
  intros S HC HR. apply is_renaming_split. repeat split; auto.
  unfold canon_ok, loaded; cbn [x_canon x_tuples]. apply list_eqb_refl, Nat.eqb_refl.
Qed.

(* ... hence a full renaming as soon as the loader's type_compatibility rows commute (the one part
   that is recomputed by every loader through is_compatible, C08/C09 territory; validated on the
   real tables each run) *)
Theorem tree_shake_is_renaming X : wf_program X = true -> canon_ok X = true ->
  exists X', tree_shake X = Some X' /\
  forall R, rows_ok (shake_rho X) X (loaded X' R) = true ->
            is_renaming (shake_rho X) X (loaded X' R) = true.
Proof.
  intros HW HC. destruct (tree_shake_struct X HW) as (X' & E & S). exists X'. split; [exact E|].
  intros R. apply loaded_is_renaming; assumption.
Qed.

(* every tree-shake preserves behaviour, step for step, with the IsType / Equal verdicts as outside
   inputs: no validation involved *)
Theorem tree_shake_simulation X : wf_program X = true ->
  exists X', tree_shake X = Some X' /\
  app (r_f (shake_rho X)) (x_entry X) = Some (x_entry X') /\
  (forall f, reachable X (x_entry X) f -> exists f', app (r_f (shake_rho X)) f = Some f') /\
  forall s s' xs xs', srel (shake_rho X) s s' -> Forall2 (xrel (shake_rho X)) xs xs' ->
    rrel (shake_rho X) (run (project X) s xs) (run (project X') s' xs').
Proof.
  intros HW. destruct (tree_shake_struct X HW) as (X' & E & S). exists X'. split; [exact E|].
  destruct (struct_covers_reachable _ _ _ S) as [A B]. split; [exact A|]. split; [exact B|].
  apply struct_simulation_ext. exact S.
Qed.

(* non-vacuity: the example program of RemapProofs (dead function 0, dead constant 0) *)
Example ex_shake_wf : wf_program Examples.exX = true.
Proof. vm_compute. reflexivity. Qed.

Example ex_shake_runs :
  option_map (fun Y => (length (x_funcs Y), length (x_consts Y), x_entry Y, map xf_code (x_funcs Y)))
             (tree_shake Examples.exX) =
  Some (2, 1, 1, [[IPop; ILoad 0];
                  [IPop; IConstant 0; IFunction 0; IStore; IConstant 0; ILoad 0; ICall; ITuple 2; IDuplicate; IIsType 1; IPop]]).
Proof. vm_compute. reflexivity. Qed.

(* ill-formed input: an instruction naming a function that does not exist makes the real code panic
   (`bytecode.functions[old_id]`); the theorem's premise excludes it *)
Example ex_shake_illformed :
  wf_program (with_funcs Examples.exX [ {| xf_code := [IFunction 7]; xf_caps := 0; xf_type := 2 |} ]) = false.
Proof. vm_compute. reflexivity. Qed.
