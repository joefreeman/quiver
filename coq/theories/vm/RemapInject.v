(* RemapInject.v — program.rs:228 inject_function_captures (through program.rs:271
   value_to_instructions; model: vm/Remap.v `emit_injected`): what `quiv compile` does to an entry
   function that captured values. The closure `VFun f caps` becomes the capture-free function
   f' whose body is  [code rebuilding capture 1; Store; ...; code rebuilding capture n; Store] ++ body of f.
   Proved here: entering f' and running that prefix leaves exactly `caps` as the frame's locals and
   the argument untouched — the state a call of the original closure starts its body in (up to the
   function index, the capture count recorded in the frame, and the pc offset |prefix|; jumps are
   relative, so the body runs unchanged). Captures that are themselves closures WITH captures are
   injected recursively by the code; the theorem covers captures without such nested closures. *)
From Quiver Require Import vm.Remap vm.RemapProofs.

Lemma register_function_spec X fd X1 k : register_function X fd = (X1, k) ->
  extends X X1 /\ nth_error (x_funcs X1) k = Some fd.
Proof. intros H. apply register_function_tables in H as [G N]. split; [apply tables_grow_extends, G | exact N]. Qed.

Section INJECT.
Variable bytes_of : nat -> list Z.

(* no closure with captures inside *)
Inductive flat : value -> Prop :=
| FL_int z : flat (VInt z)
| FL_bin h : flat (VBin h)
| FL_tuple t fs : Forall flat fs -> flat (VTuple t fs)
| FL_fun f : flat (VFun f [])
| FL_builtin b : flat (VBuiltin b).

Fixpoint inj_caps (l : list value) (X : xprogram) : option (xprogram * list instr) :=
  match l with
  | [] => Some (X, [])
  | e :: l' => match emit_injected bytes_of e X with
               | Some (X1, i1) => match inj_caps l' X1 with
                                  | Some (X2, i2) => Some (X2, i1 ++ IStore :: i2)
                                  | None => None
                                  end
               | None => None
               end
  end.

Lemma emit_injected_tuple t fs X :
  emit_injected bytes_of (VTuple t fs) X =
  match emit_seq (emit_injected bytes_of) fs X with Some (X1, is) => Some (X1, is ++ [ITuple t]) | None => None end.
Proof. reflexivity. Qed.

Lemma emit_injected_closure f c cs X :
  emit_injected bytes_of (VFun f (c :: cs)) X =
  match inj_caps (c :: cs) X with
  | Some (X1, pre) =>
      match nth_error (x_funcs X1) f with
      | Some fd =>
          let (X2, f') := register_function X1 {| xf_code := pre ++ xf_code fd; xf_caps := 0; xf_type := xf_type fd |} in
          Some (X2, [IFunction f'])
      | None => None
      end
  | None => None
  end.
Proof. reflexivity. Qed.

Lemma flat_same v : flat v -> forall X, wfx X v -> emit_injected bytes_of v X = emit_cached bytes_of v X.
Proof.
  induction v as [z|h|r|t fs IH|f cs IH|b|pp f|r ty] using value_ind'; intros Hf X Hw;
    inversion Hf as [ | |? ? Ffs| | ]; subst; try reflexivity.
  - rewrite emit_injected_tuple, (emit_cached_tuple bytes_of).
    inversion Hw as [| |? ? a _ _ Hfs| |]; subst. clear Hw Hf.
    replace (emit_seq (emit_injected bytes_of) fs X) with (emit_seq (emit_cached bytes_of) fs X); [reflexivity|].
    revert X Hfs Ffs. induction IH as [|e l IHe _ IHl]; intros X Hfs Ffs; [reflexivity|].
    inversion Ffs as [|? ? Fe Fl]; subst. inversion Hfs as [|? ? We Wl]; subst.
    cbn [emit_seq]. rewrite (IHe Fe X We).
    destruct (emit_cached bytes_of e X) as [[X1 i1]|] eqn:Ee; [|reflexivity].
    destruct (emit_cached_pushes bytes_of e X X1 i1 Ee We) as [Ext _].
    rewrite (IHl X1 (wfx_ext_all _ _ _ Ext Wl) Fl). reflexivity.
  - inversion Hw as [| | |? ? fd0 Hfd _ _|]; subst. cbn [emit_injected emit_cached]. rewrite Hfd. reflexivity.
  - inversion Hw as [| | | |? Hb]; subst. cbn [emit_injected emit_cached]. apply Nat.ltb_lt in Hb. rewrite Hb. reflexivity.
Qed.

Definition caps_inputs (l : list value) : list ext := flat_map (fun c => emit_inputs c ++ [quiet]) l.

Lemma store_step Y fn fd pre post v st lo base caps rest pers :
  nth_error (x_funcs Y) fn = Some fd -> xf_code fd = pre ++ IStore :: post ->
  step (project Y) (at_pc (v :: st) lo fn base caps (length pre) rest pers) quiet =
  Next (at_pc st (lo ++ [v]) fn base caps (S (length pre)) rest pers).
Proof.
  intros Hfd Hc. destruct (step_at Y fn fd pre IStore post Hfd Hc) as [C N].
  unfold step, at_pc; cbn [frames fr_fn fr_pc stack]. rewrite C, N. reflexivity.
Qed.

(* the prefix: each capture is rebuilt and stored *)
Lemma inj_caps_runs l : forall X X1 pre, inj_caps l X = Some (X1, pre) -> Forall flat l -> Forall (wfx X) l ->
  extends X X1 /\
  forall Y, extends X1 Y ->
  forall fn fd pre0 post st lo base caps rest pers,
    nth_error (x_funcs Y) fn = Some fd -> xf_code fd = pre0 ++ pre ++ post ->
    run (project Y) (at_pc st lo fn base caps (length pre0) rest pers) (caps_inputs l) =
    Next (at_pc st (lo ++ l) fn base caps (length pre0 + length pre) rest pers).
Proof.
  induction l as [|e l IH]; intros X X1 pre He Hf Hw; cbn [inj_caps] in He.
  - inv He. split; [apply extends_refl|]. intros. cbn. rewrite Nat.add_0_r, app_nil_r. reflexivity.
  - inversion Hf as [|? ? Fe Fl]; subst. inversion Hw as [|? ? We Wl]; subst.
    rewrite (flat_same e Fe X We) in He.
    destruct (emit_cached bytes_of e X) as [[Xa ia]|] eqn:Ea; [|discriminate].
    destruct (inj_caps l Xa) as [[Xb ib]|] eqn:Eb; [|discriminate]. inv He.
    destruct (emit_cached_pushes bytes_of e X Xa ia Ea We) as [Ext1 P1].
    destruct (IH _ _ _ Eb Fl (wfx_ext_all _ _ _ Ext1 Wl)) as [Ext2 P2].
    split; [eapply extends_trans; eauto|].
    intros Y HY fn fd pre0 post st lo base caps rest pers Hfd Hc.
    (* e's code, the Store, the rest of the prefix: the same function body cut at three places *)
    assert (C1 : xf_code fd = pre0 ++ ia ++ IStore :: ib ++ post) by (rewrite Hc, <- app_assoc; reflexivity).
    assert (C2 : xf_code fd = (pre0 ++ ia) ++ IStore :: ib ++ post) by (rewrite C1, <- !app_assoc; reflexivity).
    assert (C3 : xf_code fd = ((pre0 ++ ia) ++ [IStore]) ++ ib ++ post) by (rewrite C2, <- !app_assoc; reflexivity).
    unfold caps_inputs. cbn [flat_map]. fold (caps_inputs l). rewrite <- app_assoc, run_app.
    rewrite (P1 Y (extends_trans _ _ _ Ext2 HY) fn fd pre0 _ st lo base caps rest pers Hfd C1).
    cbn [rev Datatypes.app run]. rewrite <- app_length, (store_step Y fn fd _ _ e st lo base caps rest pers Hfd C2).
    replace (S (length (pre0 ++ ia))) with (length ((pre0 ++ ia) ++ [IStore])) by (rewrite (app_length _ [IStore]); apply Nat.add_1_r).
    rewrite (P2 Y HY fn fd _ post st (lo ++ [e]) base caps rest pers Hfd C3), <- app_assoc.
    do 2 f_equal. rewrite !app_length. cbn [length]. lia.
Qed.

End INJECT.

Theorem inject_rebuilds_captures bytes_of f c cs X X2 code :
  Forall flat (c :: cs) -> Forall (wfx X) (c :: cs) ->
  emit_injected bytes_of (VFun f (c :: cs)) X = Some (X2, code) ->
  exists f' fd fd' pre,
    code = [IFunction f'] /\ nth_error (x_funcs X2) f' = Some fd' /\ nth_error (x_funcs X2) f = Some fd /\
    xf_code fd' = pre ++ xf_code fd /\ xf_caps fd' = 0 /\ xf_type fd' = xf_type fd /\
    forall Y, extends X2 Y -> forall arg st lo base rest pers,
      run (project Y) (at_pc (arg :: st) lo f' base 0 0 rest pers) (caps_inputs (c :: cs)) =
      Next (at_pc (arg :: st) (lo ++ c :: cs) f' base 0 (length pre) rest pers).
Proof.
  intros Hf Hw He. rewrite emit_injected_closure in He.
  destruct (inj_caps bytes_of (c :: cs) X) as [[X1 pre]|] eqn:Ec; [|discriminate].
  destruct (nth_error (x_funcs X1) f) as [fd|] eqn:Efd; [|discriminate].
  destruct (register_function X1 _) as [X2' f'] eqn:Er. inv He.
  destruct (register_function_spec _ _ _ _ Er) as [Ext2 Hf'].
  destruct (inj_caps_runs bytes_of _ _ _ _ Ec Hf Hw) as [Ext1 Run].
  exists f', fd, {| xf_code := pre ++ xf_code fd; xf_caps := 0; xf_type := xf_type fd |}, pre.
  repeat split; auto.
  - destruct Ext2 as (_ & F & _). eapply prefix_nth; eauto.
  - intros Y HY arg st lo base rest pers.
    assert (HY1 : extends X1 Y) by (eapply extends_trans; eauto).
    assert (Hfy : nth_error (x_funcs Y) f' = Some {| xf_code := pre ++ xf_code fd; xf_caps := 0; xf_type := xf_type fd |}).
    { destruct HY as (_ & F & _). eapply prefix_nth; eauto. }
    exact (Run Y HY1 f' _ [] (xf_code fd) (arg :: st) lo base 0 rest pers Hfy eq_refl).
Qed.

(* non-vacuity: the closure of RemapProofs.Examples (captures 5 and a binary) is injected as the
   capture-free function 2 whose body stores both captures before the original body *)
Example ex_inject :
  match emit_injected Examples.ex_bytes (VFun 0 [VInt 5; VBin 9]) Examples.exM with
  | Some (X2, code) =>
      code = [IFunction 2] /\
      option_map xf_code (nth_error (x_funcs X2) 2) = Some [IConstant 0; IStore; IConstant 1; IStore; IPop; ILoad 0] /\
      run (project X2) (at_pc [VInt 1] [] 2 0 0 0 [] false) (caps_inputs [VInt 5; VBin 9]) =
      Next (at_pc [VInt 1] [VInt 5; VBin 9] 2 0 0 4 [] false)
  | None => False
  end.
Proof. vm_compute. repeat split. Qed.
