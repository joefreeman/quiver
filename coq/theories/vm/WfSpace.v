(* WfSpace.v — global space bounds read off the verifier's invariant (C16).
   For a verified program, in EVERY reachable state the operand stack holds at most
   (#frames) * Hmax values and the locals at most (#frames) * Lmax values above the bottom
   frame's base, where Hmax / Lmax are the largest stack height / locals count the verifier
   computed for any program point. Together with tailcall_constant_space (a tail call never adds
   a frame) this is the global form of "tail calls run in constant space": space is bounded by
   the depth of NON-tail calls only, whatever the number of tail-call iterations. *)
From Quiver Require Import vm.Wf vm.WfProofs vm.WfRun vm.WfExamples.

Section SPACE.
Variable P : program.
Variable As : list annot.

Definition Hmax : nat := fold_right (fun A m => Nat.max (max_height A) m) 0 As.
Definition Lmax : nat := fold_right (fun A m => Nat.max (max_locals A) m) 0 As.

Lemma in_As_bounds A : In A As -> max_height A <= Hmax /\ max_locals A <= Lmax.
Proof.
  unfold Hmax, Lmax. induction As as [|B t IH]; [intros []|]. cbn [fold_right]. intros [->|Hin]; [lia|].
  apply IH in Hin. lia.
Qed.

Lemma ann_bounds f pc a : ann As f pc = Some a -> a_h a <= Hmax /\ a_hi a <= Lmax.
Proof.
  intros H. apply ann_some in H as (A & HA & Ha). apply nth_error_In in HA, Ha.
  destruct (in_annot_bounds A a Ha), (in_As_bounds A HA). lia.
Qed.

(* base of the bottom (outermost) frame; d when there is none *)
Fixpoint bottom_base (frs : list frame) (d : nat) : nat :=
  match frs with [] => d | fr :: rest => bottom_base rest (fr_base fr) end.

Lemma susp_bounds frs : forall sb lb, susp P As frs sb lb ->
  sb <= length frs * Hmax /\ lb <= bottom_base frs lb + length frs * Lmax.
Proof.
  induction frs as [|c rest IH]; intros sb lb H; cbn [susp length bottom_base] in *; [lia|].
  destruct H as (_ & a & Ha & _ & _ & Hsb & _ & Hlb & Hs).
  apply ann_bounds in Ha. apply IH in Hs. lia.
Qed.

Theorem space_bound s fr rest : Inv P As s -> frames s = fr :: rest ->
  length (stack s) <= length (frames s) * Hmax /\
  length (locals s) <= bottom_base (frames s) 0 + length (frames s) * Lmax.
Proof.
  intros (_ & _ & Hfr) Efr. rewrite Efr in Hfr |- *.
  destruct Hfr as (_ & a & Ha & Hh & _ & Hl2 & Hs).
  apply ann_bounds in Ha. apply susp_bounds in Hs. cbn [length bottom_base]. lia.
Qed.

End SPACE.

Section FRAMES.
Variable P : program.

(* What one step does to the frame list fr :: rest. Every instruction but Call leaves a frame with
   the base of fr on rest (same frame at another pc, or the tail-called one); Call on a function
   pushes a frame on fr :: rest; an exhausted frame is popped and the caller bumped. *)
Definition frames_next (fr : frame) (rest : list frame) (r : sres) : Prop :=
  match r with
  | Next s' =>
      (exists fr', frames s' = fr' :: rest /\ fr_base fr' = fr_base fr) \/
      (exists f, frames s' = f :: fr :: rest) \/
      frames s' = match rest with [] => [] | c :: rest' => set_pc c (S (fr_pc c)) :: rest' end
  | _ => True
  end.

Lemma step_frames st ls fr rest pers x :
  frames_next fr rest (step P {| stack := st; locals := ls; frames := fr :: rest; persistent := pers |} x).
Proof.
  unfold step. cbn [frames]. cbv zeta.
  destruct (code_of P (fr_fn fr)) as [code|]; [|exact I].
  destruct (nth_error code (fr_pc fr)) as [i|]; [|right; right; destruct rest; reflexivity].
  (* frames_next holds of a case analysis if it holds of every branch: go down to the leaves *)
  destruct i;
    repeat match goal with |- frames_next _ _ (match ?e with _ => _ end) => destruct e end.
  all: try exact I.                                  (* Fault *)
  all: try (left; eexists; split; reflexivity).      (* bump, jump, tail call *)
  right; left; eexists; reflexivity.                 (* the one leaf left: Call on a function *)
Qed.

Theorem step_bottom_base s x s' d :
  step P s x = Next s' -> frames s' <> [] -> bottom_base (frames s') d = bottom_base (frames s) d.
Proof.
  destruct s as [st ls [|fr rest] pers]; intros H Hne.
  - unfold step in H. cbn [frames stack] in H. destruct st; discriminate.
  - pose proof (step_frames st ls fr rest pers x) as F. rewrite H in F.
    destruct F as [(fr' & -> & E) | [(f & ->) | E]]; cbn [bottom_base frames].
    + rewrite E. reflexivity.
    + reflexivity.
    + rewrite E in *. destruct rest; [contradiction | reflexivity].
Qed.

Lemma run_bottom_base xs : forall s0 s d,
  run P s0 xs = Next s -> frames s <> [] -> bottom_base (frames s) d = bottom_base (frames s0) d.
Proof.
  induction xs as [|x t IH]; intros s0 s d H Hne; cbn [run] in H.
  - injection H as <-. reflexivity.
  - destruct (step P s0 x) as [s1| |] eqn:E; try discriminate.
    rewrite (IH _ _ d H Hne). apply (step_bottom_base _ _ _ _ E).
    (* with no frame left the next step finishes or faults, so t would be empty and s1 = s *)
    intros E1. destruct t as [|y t']; cbn [run] in H; [congruence|].
    unfold step in H. rewrite E1 in H. destruct (stack s1); discriminate.
Qed.

End FRAMES.

Section GLOBAL.
Variable P : program.
Variable As : list annot.
Hypothesis HC : check_program P As = true.

(* C16, global form *)
Theorem run_space_bound fn fd caps arg pers xs s :
  nth_error (p_funcs P) fn = Some fd -> length caps = f_caps fd ->
  Forall (wfv P) caps -> wfv P arg -> Forall (ext_ok P) xs ->
  run P (init_state fn caps arg pers) xs = Next s -> frames s <> [] ->
  length (stack s) <= length (frames s) * Hmax As /\
  length (locals s) <= length (frames s) * Lmax As.
Proof.
  intros Hfd Hc Hcaps Harg Hxs Hrun Hne.
  pose proof (run_sound P As HC _ xs (init_inv P As HC fn fd caps arg pers Hfd Hc Hcaps Harg) Hxs) as G.
  rewrite Hrun in G.
  (* the spawn frame has base 0 and the bottom base never changes, so that summand of space_bound is 0 *)
  pose proof (run_bottom_base P xs _ _ 0 Hrun Hne) as Hb.
  destruct (frames s) as [|fr rest] eqn:Efr; [congruence|].
  pose proof (space_bound P As s fr rest G Efr) as B. rewrite Efr, Hb in B. exact B.
Qed.

(* the number of frames, the only factor of run_space_bound that can grow, counts pending NON-tail calls only *)
Theorem tailcall_keeps_frame_count s x r s' :
  Inv P As s -> top_instr P s = Some (ITailCall r) -> step P s x = Next s' ->
  length (frames s') = length (frames s).
Proof.
  intros Hi Ht Hs. destruct (frames s) as [|fr rest] eqn:Efr.
  - unfold top_instr in Ht. rewrite Efr in Ht. discriminate.
  - destruct (tailcall_constant_space P As HC s x r s' fr rest Hi Efr Ht Hs) as (fr' & a & _ & _ & H & _).
    rewrite H, Efr. reflexivity.
Qed.

End GLOBAL.

(* non-vacuity: the tail-call loop f2 of WfExamples is verified, and
   after 20 iterations (60 instructions) it is where it started: one frame, one operand, and the
   bounds of run_space_bound are the small constants the verifier computed *)
Example loop_space_nonvacuous :
  exists As, verify_program good_prog = Some As /\ Hmax As = 2 /\ Lmax As = 2 /\
  exists s, run good_prog (init_state 2 [] (VInt 5%Z) false)
                (repeat {| x_value := None; x_bool := false |} 60) = Next s /\
            length (frames s) = 1 /\ length (stack s) = 1 /\ length (locals s) = 0.
Proof. vm_compute. eexists. split; [reflexivity|]. split; [reflexivity|]. split; [reflexivity|].
       eexists. split; [reflexivity|]. split; [reflexivity|]. split; reflexivity. Qed.
